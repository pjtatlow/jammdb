(* First layer of facts about the write-path model [Engine]: its binary search is [Cursor.bsearch];
   [leaf_insert] / [leaf_delete] are [Spec.ainsert] / [Spec.aremove] on key-sorted association lists;
   [merge_data] of two ordered nodes; what [split] keeps (order, kind, count, piece sizes). *)
From Coq Require Import List NArith Bool Arith Lia ZifyN ZifyNat ZifyBool Permutation.
From Coq.Strings Require Import Byte.
From Jamm Require Import Bytes Tree Spec Cursor SearchFacts Engine EngineMergeFacts.
Import ListNotations.
Import Coq.Strings.String.StringSyntax. Delimit Scope string_scope with string.
Local Open Scope list_scope. Local Open Scope nat_scope.
Arguments N.add : simpl never. Arguments N.sub : simpl never. Arguments N.mul : simpl never.
Arguments N.div : simpl never. Arguments N.ltb : simpl never. Arguments N.leb : simpl never.
Arguments N.eqb : simpl never.

(** * The two binary searches are the same function *)

Lemma bs_loop_sim : forall fuel keys t base size,
  Engine.bs_loop fuel keys t (N.of_nat base) (N.of_nat size)
  = N.of_nat (Cursor.bs_loop fuel keys t base size).
Proof.
  induction fuel as [|f IH]; intros keys t base size; [reflexivity|].
  cbn [Engine.bs_loop Cursor.bs_loop].
  assert (Hle : (N.of_nat size <=? 1)%N = (size <=? 1)) by lia.
  rewrite Hle. destruct (size <=? 1); [reflexivity|]. cbv zeta.
  assert (Hhalf : (N.of_nat size / 2)%N = N.of_nat (size / 2)).
  { change 2%N with (N.of_nat 2). symmetry. apply Nat2N.inj_div. }
  rewrite Hhalf, <- Nat2N.inj_add, Nat2N.id, <- Nat2N.inj_sub.
  destruct (bcmp (nth (base + size / 2) keys []) t); apply IH.
Qed.

Theorem bsearch_agree : forall keys t,
  Engine.bsearch keys t = (let '(b, i) := Cursor.bsearch keys t in (b, N.of_nat i)).
Proof.
  intros [|a keys'] t; [reflexivity|].
  remember (a :: keys') as keys eqn:Ek.
  unfold Engine.bsearch, Cursor.bsearch. cbv zeta.
  assert (Hn : (llen keys =? 0)%N = false) by (subst keys; unfold llen; cbn [length]; lia).
  rewrite Hn. unfold llen.
  change 0%N with (N.of_nat 0). rewrite bs_loop_sim, Nat2N.id.
  assert (Hc : forall (X : Type) (x y : X), match keys with [] => x | _ :: _ => y end = y)
    by (intros; now subst keys).
  rewrite Hc.
  destruct (bcmp (nth (Cursor.bs_loop (length keys) keys t 0 (length keys)) keys []) t);
    try reflexivity.
  f_equal. lia.
Qed.

Lemma bsearch_agree_inv : forall keys t b i,
  Engine.bsearch keys t = (b, i) -> Cursor.bsearch keys t = (b, N.to_nat i).
Proof.
  intros keys t b i H. rewrite bsearch_agree in H.
  destruct (Cursor.bsearch keys t) as [b' i']. inversion H; subst. now rewrite Nat2N.id.
Qed.

Theorem ebsearch_found : forall keys t i, sorted_keys keys = true ->
  Engine.bsearch keys t = (true, i) -> nth_error keys (N.to_nat i) = Some t.
Proof.
  intros keys t i _ H. exact (proj2 (bsearch_true keys t i H)).
Qed.

Theorem ebsearch_missing : forall keys t i, sorted_keys keys = true ->
  Engine.bsearch keys t = (false, i) ->
  N.to_nat i <= length keys /\
  (forall j, j < N.to_nat i -> bcmp (nth j keys []) t = Lt) /\
  (forall j, N.to_nat i <= j < length keys -> bcmp (nth j keys []) t = Gt).
Proof.
  intros keys t i Hs H. apply bsearch_agree_inv in H. now apply bsearch_missing.
Qed.

Theorem ebsearch_complete : forall keys t, sorted_keys keys = true ->
  In t keys -> exists i, Engine.bsearch keys t = (true, i).
Proof.
  intros keys t Hs Hin. destruct (bsearch_complete keys t Hs Hin) as [i Hi].
  exists (N.of_nat i). now rewrite bsearch_agree, Hi.
Qed.

Theorem ebsearch_spec : forall keys t, sorted_keys keys = true ->
  (forall i, Engine.bsearch keys t = (true, i) -> nth_error keys (N.to_nat i) = Some t) /\
  (forall i, Engine.bsearch keys t = (false, i) ->
     N.to_nat i <= length keys /\
     (forall j, j < N.to_nat i -> bcmp (nth j keys []) t = Lt) /\
     (forall j, N.to_nat i <= j < length keys -> bcmp (nth j keys []) t = Gt)) /\
  (In t keys -> exists i, Engine.bsearch keys t = (true, i)).
Proof.
  intros keys t Hs. split; [|split].
  - intros i. now apply ebsearch_found.
  - intros i. now apply ebsearch_missing.
  - now apply ebsearch_complete.
Qed.

Corollary ebsearch_missing_notin : forall keys t i, sorted_keys keys = true ->
  Engine.bsearch keys t = (false, i) -> ~ In t keys.
Proof.
  intros keys t i Hs H Hin. destruct (ebsearch_complete keys t Hs Hin) as [i' Hi']. congruence.
Qed.

(** * The reference map operations on association lists *)

Lemma beq_refl : forall a, beq a a = true.
Proof. intros a. now apply beq_true. Qed.
Lemma beq_eq_bcmp : forall a b, beq a b = true -> bcmp a b = Eq.
Proof. intros a b H. apply beq_true in H. subst. apply bcmp_refl. Qed.

Section Assoc.
  Context {A : Type}.
  Implicit Types (l : list (bytes * A)) (k : bytes) (v : A).

  (* no hypothesis needed: ainsert always yields a list in which k is found *)
  Theorem alookup_ainsert : forall l k v k',
    Spec.alookup k' (Spec.ainsert k v l) = if beq k' k then Some v else Spec.alookup k' l.
  Proof.
    induction l as [|[k0 v0] l IH]; intros k v k'.
    - cbn [Spec.ainsert Spec.alookup]. unfold beq. now destruct (bcmp k' k).
    - cbn [Spec.ainsert]. destruct (bcmp k k0) eqn:E0.
      + apply bcmp_eq in E0. subst k0. cbn [Spec.alookup]. unfold beq. now destruct (bcmp k' k).
      + cbn [Spec.alookup]. unfold beq. destruct (bcmp k' k) eqn:E1; try reflexivity.
        now rewrite (bcmp_lt_trans _ _ _ E1 E0).
      + apply bcmp_lt_gt in E0. cbn [Spec.alookup]. destruct (bcmp k' k0) eqn:E1.
        * apply bcmp_eq in E1. subst k0. now rewrite (beq_false_lt _ _ E0).
        * now rewrite (beq_false_lt _ _ (bcmp_lt_trans _ _ _ E1 E0)).
        * apply IH.
  Qed.

  Lemma alookup_In : forall l k v, Spec.alookup k l = Some v -> In (k, v) l.
  Proof.
    induction l as [|[k0 v0] l IH]; intros k v H; [discriminate|].
    cbn [Spec.alookup] in H. destruct (bcmp k k0) eqn:E.
    - apply bcmp_eq in E. subst k0. inversion H; subst. now left.
    - discriminate.
    - right. now apply IH.
  Qed.

  Lemma ainsert_same : forall l k v, Spec.alookup k l = Some v -> Spec.ainsert k v l = l.
  Proof.
    induction l as [|[k0 v0] l IH]; intros k v H; [discriminate|].
    cbn [Spec.alookup] in H. cbn [Spec.ainsert]. destruct (bcmp k k0) eqn:E.
    - apply bcmp_eq in E. subst k0. now inversion H.
    - discriminate.
    - f_equal. now apply IH.
  Qed.

  Lemma ainsert_ainsert : forall l k v v', Spec.ainsert k v (Spec.ainsert k v' l) = Spec.ainsert k v l.
  Proof.
    induction l as [|[k0 v0] l IH]; intros k v v'; cbn [Spec.ainsert].
    - now rewrite bcmp_refl.
    - destruct (bcmp k k0) eqn:E; cbn [Spec.ainsert]; rewrite ?bcmp_refl, ?E; [reflexivity | reflexivity|].
      now rewrite IH.
  Qed.

  Lemma alookup_below : forall l k,
    Forall (fun x => bcmp k x = Lt) (map fst l) -> Spec.alookup k l = None.
  Proof.
    intros [|[k0 v0] l] k H; [reflexivity|]. cbn [map fst] in H. inversion H as [|? ? H0 _]; subst.
    cbn [Spec.alookup]. now rewrite H0.
  Qed.

  Theorem alookup_aremove : forall l k k', sorted_keys (map fst l) = true ->
    Spec.alookup k' (Spec.aremove k l) = if beq k' k then None else Spec.alookup k' l.
  Proof.
    induction l as [|[k0 v0] l IH]; intros k k' Hs.
    - cbn. now destruct (beq k' k).
    - cbn [map fst] in Hs. destruct (sorted_keys_cons _ _ Hs) as [Hall Hs'].
      cbn [Spec.aremove]. destruct (bcmp k k0) eqn:E0.
      + apply bcmp_eq in E0. subst k0. cbn [Spec.alookup]. unfold beq.
        destruct (bcmp k' k) eqn:E1; try reflexivity.
        * apply bcmp_eq in E1. subst k'. now apply alookup_below.
        * apply alookup_below. eapply Forall_impl; [|exact Hall]. cbn. intros x Hx.
          eapply bcmp_lt_trans; eauto.
      + destruct (beq k' k) eqn:E1; [|reflexivity]. apply beq_true in E1. subst k'.
        cbn [Spec.alookup]. now rewrite E0.
      + apply bcmp_lt_gt in E0. cbn [Spec.alookup]. destruct (bcmp k' k0) eqn:E1.
        * apply bcmp_eq in E1. subst k0. now rewrite (beq_false_lt _ _ E0).
        * now rewrite (beq_false_lt _ _ (bcmp_lt_trans _ _ _ E1 E0)).
        * now apply IH.
  Qed.

  Lemma ainsert_keys_above : forall l a k v,
    bcmp a k = Lt -> Forall (fun x => bcmp a x = Lt) (map fst l) ->
    Forall (fun x => bcmp a x = Lt) (map fst (Spec.ainsert k v l)).
  Proof.
    induction l as [|[k0 v0] l IH]; intros a k v Hak Hall.
    - cbn. constructor; [exact Hak | constructor].
    - cbn [map fst] in Hall. inversion Hall as [|? ? H0 Hl]; subst.
      cbn [Spec.ainsert]. destruct (bcmp k k0); cbn [map fst].
      + constructor; assumption.
      + constructor; [exact Hak | exact Hall].
      + constructor; [exact H0 | now apply IH].
  Qed.

  Theorem ainsert_sorted : forall l k v, sorted_keys (map fst l) = true ->
    sorted_keys (map fst (Spec.ainsert k v l)) = true.
  Proof.
    induction l as [|[k0 v0] l IH]; intros k v Hs; [reflexivity|].
    cbn [map fst] in Hs. destruct (sorted_keys_cons _ _ Hs) as [Hall Hs'].
    cbn [Spec.ainsert]. destruct (bcmp k k0) eqn:E0; cbn [map fst].
    - apply bcmp_eq in E0. subst k0. exact Hs.
    - apply sorted_keys_cons_intro; [|exact Hs]. constructor; [exact E0|].
      eapply Forall_impl; [|exact Hall]. cbn. intros x Hx. eapply bcmp_lt_trans; eauto.
    - apply sorted_keys_cons_intro; [|now apply IH].
      apply ainsert_keys_above; [now apply bcmp_lt_gt | exact Hall].
  Qed.

  Lemma aremove_keys_above : forall l a k,
    Forall (fun x => bcmp a x = Lt) (map fst l) ->
    Forall (fun x => bcmp a x = Lt) (map fst (Spec.aremove k l)).
  Proof.
    induction l as [|[k0 v0] l IH]; intros a k Hall; [constructor|].
    cbn [map fst] in Hall. inversion Hall as [|? ? H0 Hl]; subst.
    cbn [Spec.aremove]. destruct (bcmp k k0); cbn [map fst].
    - exact Hl.
    - exact Hall.
    - constructor; [exact H0 | now apply IH].
  Qed.

  Theorem aremove_sorted : forall l k, sorted_keys (map fst l) = true ->
    sorted_keys (map fst (Spec.aremove k l)) = true.
  Proof.
    induction l as [|[k0 v0] l IH]; intros k Hs; [reflexivity|].
    cbn [map fst] in Hs. destruct (sorted_keys_cons _ _ Hs) as [Hall Hs'].
    cbn [Spec.aremove]. destruct (bcmp k k0) eqn:E0; cbn [map fst].
    - exact Hs'.
    - exact Hs.
    - apply sorted_keys_cons_intro; [now apply aremove_keys_above | now apply IH].
  Qed.
End Assoc.

(** * Positional edits of a keyed list are the reference operations *)

Section Keyed.
  Context {A : Type} (key : A -> bytes).
  Definition kv_by (e : A) : bytes * A := (key e, e).
  Definition assoc_by (l : list A) : list (bytes * A) := map kv_by l.

  Lemma assoc_by_keys : forall l, map fst (assoc_by l) = map key l.
  Proof. intros l. unfold assoc_by. rewrite map_map. reflexivity. Qed.

  Definition ins_point (l : list A) (k : bytes) (i : nat) : Prop :=
    i <= length l /\
    (forall j, j < i -> bcmp (nth j (map key l) []) k = Lt) /\
    (forall j, i <= j < length l -> bcmp (nth j (map key l) []) k = Gt).

  Lemma ins_point_tl : forall a l k i, ins_point (a :: l) k (S i) -> ins_point l k i.
  Proof.
    intros a l k i (Hi & Hlt & Hgt). cbn [length] in *. split; [lia|]. split.
    - intros j Hj. apply (Hlt (S j)). lia.
    - intros j Hj. apply (Hgt (S j)). cbn [length]. lia.
  Qed.

  Lemma ainsert_cons : forall k (v : A) a r,
    Spec.ainsert k v (kv_by a :: r) =
    match bcmp k (key a) with
    | Eq => (k, v) :: r | Lt => (k, v) :: kv_by a :: r | Gt => kv_by a :: Spec.ainsert k v r end.
  Proof. reflexivity. Qed.
  Lemma aremove_cons : forall k a (r : list (bytes * A)),
    Spec.aremove k (kv_by a :: r) =
    match bcmp k (key a) with Eq => r | Lt => kv_by a :: r | Gt => kv_by a :: Spec.aremove k r end.
  Proof. reflexivity. Qed.

  Lemma insert_at_ainsert : forall l i e, ins_point l (key e) i ->
    assoc_by (insert_at l i e) = Spec.ainsert (key e) e (assoc_by l).
  Proof.
    unfold assoc_by. induction l as [|a l IH]; intros i e Hp.
    - destruct Hp as (Hi & _). cbn [length] in Hi. assert (i = 0) by lia. subst i. reflexivity.
    - destruct i as [|i].
      + destruct Hp as (_ & _ & Hgt). specialize (Hgt 0 ltac:(cbn [length]; lia)). cbn [map nth] in Hgt.
        apply bcmp_lt_gt in Hgt. cbn [insert_at map]. rewrite ainsert_cons, Hgt. reflexivity.
      + pose proof Hp as (_ & Hlt & _). specialize (Hlt 0 ltac:(lia)). cbn [map nth] in Hlt.
        apply bcmp_lt_gt in Hlt. cbn [insert_at map]. rewrite ainsert_cons, Hlt.
        f_equal. apply IH. eapply ins_point_tl; eauto.
  Qed.

  Lemma nth_error_keys_lt : forall l i e a,
    sorted_keys (map key (a :: l)) = true -> nth_error l i = Some e -> bcmp (key a) (key e) = Lt.
  Proof.
    intros l i e a Hs Hn. cbn [map] in Hs. destruct (sorted_keys_cons _ _ Hs) as [Hall _].
    rewrite Forall_forall in Hall. apply Hall. apply in_map. eapply nth_error_In; eauto.
  Qed.

  Lemma replace_at_ainsert : forall l i e e0, sorted_keys (map key l) = true ->
    nth_error l i = Some e0 -> key e0 = key e ->
    assoc_by (replace_at l i e) = Spec.ainsert (key e) e (assoc_by l).
  Proof.
    unfold assoc_by. induction l as [|a l IH]; intros i e e0 Hs Hn Hk; [destruct i; discriminate|].
    destruct i as [|i]; cbn [nth_error] in Hn.
    - inversion Hn; subst a. cbn [replace_at map]. rewrite ainsert_cons, Hk, bcmp_refl. reflexivity.
    - pose proof (nth_error_keys_lt l i e0 a Hs Hn) as Hlt. rewrite Hk in Hlt. apply bcmp_lt_gt in Hlt.
      cbn [replace_at map]. rewrite ainsert_cons, Hlt.
      f_equal. apply (IH i e e0); [|exact Hn | exact Hk].
      cbn [map] in Hs. eapply sorted_keys_tl; eauto.
  Qed.

  Lemma remove_at_aremove : forall l i e0 k, sorted_keys (map key l) = true ->
    nth_error l i = Some e0 -> key e0 = k ->
    assoc_by (remove_at l i) = Spec.aremove k (assoc_by l).
  Proof.
    unfold assoc_by. induction l as [|a l IH]; intros i e0 k Hs Hn Hk; [destruct i; discriminate|].
    destruct i as [|i]; cbn [nth_error] in Hn.
    - inversion Hn; subst a. cbn [remove_at map]. rewrite aremove_cons, Hk, bcmp_refl. reflexivity.
    - pose proof (nth_error_keys_lt l i e0 a Hs Hn) as Hlt. rewrite Hk in Hlt. apply bcmp_lt_gt in Hlt.
      cbn [remove_at map]. rewrite aremove_cons, Hlt.
      f_equal. apply (IH i e0 k); [|exact Hn | exact Hk].
      cbn [map] in Hs. eapply sorted_keys_tl; eauto.
  Qed.

  Lemma aremove_absent : forall l i k, ins_point l k i ->
    Spec.aremove k (assoc_by l) = assoc_by l.
  Proof.
    unfold assoc_by. induction l as [|a l IH]; intros i k Hp; [reflexivity|].
    destruct i as [|i].
    - destruct Hp as (_ & _ & Hgt). specialize (Hgt 0 ltac:(cbn [length]; lia)). cbn [map nth] in Hgt.
      apply bcmp_lt_gt in Hgt. cbn [map]. rewrite aremove_cons, Hgt. reflexivity.
    - pose proof Hp as (_ & Hlt & _). specialize (Hlt 0 ltac:(lia)). cbn [map nth] in Hlt.
      apply bcmp_lt_gt in Hlt. cbn [map]. rewrite aremove_cons, Hlt.
      f_equal. eapply IH. eapply ins_point_tl; eauto.
  Qed.
End Keyed.

(** * [leaf_insert] and [leaf_delete] *)

Definition kv_of (e : leafent) : bytes * leafent := (lkey e, e).
Definition assoc (l : list leafent) : list (bytes * leafent) := map kv_of l.

Lemma assoc_keys : forall l, map fst (assoc l) = map lkey l.
Proof. apply (assoc_by_keys lkey). Qed.

Lemma ebsearch_ins_point : forall (l : list leafent) k i, sorted_keys (map lkey l) = true ->
  Engine.bsearch (map lkey l) k = (false, i) -> ins_point lkey l k (N.to_nat i).
Proof.
  intros l k i Hs H. destruct (ebsearch_missing _ _ _ Hs H) as (Hi & Hlt & Hgt).
  rewrite map_length in Hi, Hgt. split; [exact Hi|]. split; assumption.
Qed.

Lemma ebsearch_found_ent : forall (l : list leafent) k i, sorted_keys (map lkey l) = true ->
  Engine.bsearch (map lkey l) k = (true, i) ->
  exists e0, nth_error l (N.to_nat i) = Some e0 /\ lkey e0 = k.
Proof.
  intros l k i Hs H. apply ebsearch_found in H; [|exact Hs]. rewrite nth_error_map in H.
  destruct (nth_error l (N.to_nat i)) as [e0|]; [|discriminate]. cbn in H. inversion H. eauto.
Qed.

Theorem leaf_insert_assoc : forall l e, sorted_keys (map lkey l) = true ->
  assoc (leaf_insert l e) = Spec.ainsert (lkey e) e (assoc l).
Proof.
  intros l e Hs. unfold leaf_insert.
  destruct (Engine.bsearch (map lkey l) (lkey e)) as [[|] i] eqn:Eb.
  - destruct (ebsearch_found_ent l _ i Hs Eb) as (e0 & Hn & Hk).
    exact (replace_at_ainsert lkey l _ e e0 Hs Hn Hk).
  - apply (insert_at_ainsert lkey). now apply ebsearch_ins_point.
Qed.

Theorem leaf_insert_sorted : forall l e, sorted_keys (map lkey l) = true ->
  sorted_keys (map lkey (leaf_insert l e)) = true.
Proof.
  intros l e Hs. rewrite <- assoc_keys, leaf_insert_assoc by exact Hs.
  apply ainsert_sorted. now rewrite assoc_keys.
Qed.

Theorem leaf_insert_lookup : forall l e k, sorted_keys (map lkey l) = true ->
  Spec.alookup k (assoc (leaf_insert l e))
  = if beq k (lkey e) then Some e else Spec.alookup k (assoc l).
Proof. intros l e k Hs. rewrite leaf_insert_assoc by exact Hs. apply alookup_ainsert. Qed.

Theorem leaf_delete_assoc : forall l k, sorted_keys (map lkey l) = true ->
  assoc (leaf_delete l k) = Spec.aremove k (assoc l).
Proof.
  intros l k Hs. unfold leaf_delete.
  destruct (Engine.bsearch (map lkey l) k) as [[|] i] eqn:Eb.
  - destruct (ebsearch_found_ent l _ i Hs Eb) as (e0 & Hn & Hk).
    exact (remove_at_aremove lkey l _ e0 k Hs Hn Hk).
  - symmetry. apply (aremove_absent lkey l (N.to_nat i)). now apply ebsearch_ins_point.
Qed.

Theorem leaf_delete_sorted : forall l k, sorted_keys (map lkey l) = true ->
  sorted_keys (map lkey (leaf_delete l k)) = true.
Proof.
  intros l k Hs. rewrite <- assoc_keys, leaf_delete_assoc by exact Hs.
  apply aremove_sorted. now rewrite assoc_keys.
Qed.

Theorem leaf_delete_lookup : forall l k k', sorted_keys (map lkey l) = true ->
  Spec.alookup k' (assoc (leaf_delete l k))
  = if beq k' k then None else Spec.alookup k' (assoc l).
Proof.
  intros l k k' Hs. rewrite leaf_delete_assoc by exact Hs.
  apply alookup_aremove. now rewrite assoc_keys.
Qed.

(** * [merge_data] *)

Section Sort.
  Context {A : Type} (key : A -> bytes).

  Definition keys_below (l1 l2 : list A) : Prop :=
    forall a b, In a l1 -> In b l2 -> bcmp (key a) (key b) = Lt.

  (* Two sorted lists, one wholly below the other, in either order: sorting the concatenation puts the lower
     one first.  The merged node is the LEFT neighbour when l2 is the lower one, the RIGHT one otherwise. *)
  Lemma isort_by_either : forall l1 l2,
    sorted_keys (map key l1) = true -> sorted_keys (map key l2) = true ->
    keys_below l2 l1 \/ keys_below l1 l2 ->
    sorted_keys (map key (isort_by key (l1 ++ l2))) = true /\
    Permutation (isort_by key (l1 ++ l2)) (l1 ++ l2) /\
    (keys_below l2 l1 -> isort_by key (l1 ++ l2) = l2 ++ l1) /\
    (keys_below l1 l2 -> isort_by key (l1 ++ l2) = l1 ++ l2).
  Proof.
    intros l1 l2 H1 H2 Hb.
    assert (Hl : keys_below l2 l1 -> isort_by key (l1 ++ l2) = l2 ++ l1).
    { intros Hb'. apply isort_by_app_rl; [exact H1 | exact H2 |]. intros x y Hx Hy. now apply Hb'. }
    assert (Hr : keys_below l1 l2 -> isort_by key (l1 ++ l2) = l1 ++ l2) by now apply isort_by_app_lr.
    split; [|split; [apply isort_by_perm | split; assumption]].
    destruct Hb as [Hb | Hb]; [rewrite (Hl Hb) | rewrite (Hr Hb)]; now apply sorted_map_app.
  Qed.
End Sort.

Definition lkeys_below := keys_below lkey.
Definition bkeys_below := keys_below (@fst bytes N).

Theorem merge_data_leaves_gen : forall l1 l2, NoDup (map lkey (l1 ++ l2)) ->
  exists m, merge_data (Leaves l1) (Leaves l2) = Ok (Leaves m) /\
            sorted_keys (map lkey m) = true /\ Permutation m (l1 ++ l2).
Proof.
  intros l1 l2 Hnd. exists (isort_by lkey (l1 ++ l2)). split; [reflexivity|]. split.
  - now apply isort_by_sorted.
  - apply isort_by_perm.
Qed.

Theorem merge_data_branches_gen : forall e1 e2, NoDup (map fst (e1 ++ e2)) ->
  exists m, merge_data (Branches e1) (Branches e2) = Ok (Branches m) /\
            sorted_keys (map fst m) = true /\ Permutation m (e1 ++ e2).
Proof.
  intros e1 e2 Hnd. exists (isort_by fst (e1 ++ e2)). split; [reflexivity|]. split.
  - now apply isort_by_sorted.
  - apply isort_by_perm.
Qed.

(* [merge_data sibling node] with node the LEFT neighbour of sibling (keys of l2 below keys of l1) *)
Theorem merge_data_leaves_left : forall l1 l2,
  sorted_keys (map lkey l1) = true -> sorted_keys (map lkey l2) = true -> lkeys_below l2 l1 ->
  merge_data (Leaves l1) (Leaves l2) = Ok (Leaves (l2 ++ l1)) /\
  sorted_keys (map lkey (l2 ++ l1)) = true /\ Permutation (l2 ++ l1) (l1 ++ l2).
Proof.
  intros l1 l2 H1 H2 Hb. destruct (isort_by_either lkey l1 l2 H1 H2 (or_introl Hb)) as (Hs & Hp & Hl & _).
  rewrite <- (Hl Hb). auto.
Qed.

(* ... with node the RIGHT neighbour of sibling (keys of l1 below keys of l2) *)
Theorem merge_data_leaves_right : forall l1 l2,
  sorted_keys (map lkey l1) = true -> sorted_keys (map lkey l2) = true -> lkeys_below l1 l2 ->
  merge_data (Leaves l1) (Leaves l2) = Ok (Leaves (l1 ++ l2)) /\
  sorted_keys (map lkey (l1 ++ l2)) = true /\ Permutation (l1 ++ l2) (l1 ++ l2).
Proof.
  intros l1 l2 H1 H2 Hb. destruct (isort_by_either lkey l1 l2 H1 H2 (or_intror Hb)) as (Hs & _ & _ & Hr).
  cbn [merge_data]. rewrite (Hr Hb) in *. auto.
Qed.

Theorem merge_data_leaves : forall l1 l2,
  sorted_keys (map lkey l1) = true -> sorted_keys (map lkey l2) = true ->
  lkeys_below l2 l1 \/ lkeys_below l1 l2 ->
  exists m, merge_data (Leaves l1) (Leaves l2) = Ok (Leaves m) /\
            sorted_keys (map lkey m) = true /\ Permutation m (l1 ++ l2) /\
            (lkeys_below l2 l1 -> m = l2 ++ l1) /\ (lkeys_below l1 l2 -> m = l1 ++ l2).
Proof.
  intros l1 l2 H1 H2 Hb. exists (isort_by lkey (l1 ++ l2)). split; [reflexivity|].
  now apply (isort_by_either lkey).
Qed.

Theorem merge_data_branches_left : forall e1 e2,
  sorted_keys (map fst e1) = true -> sorted_keys (map fst e2) = true -> bkeys_below e2 e1 ->
  merge_data (Branches e1) (Branches e2) = Ok (Branches (e2 ++ e1)) /\
  sorted_keys (map fst (e2 ++ e1)) = true /\ Permutation (e2 ++ e1) (e1 ++ e2).
Proof.
  intros e1 e2 H1 H2 Hb. destruct (isort_by_either fst e1 e2 H1 H2 (or_introl Hb)) as (Hs & Hp & Hl & _).
  rewrite <- (Hl Hb). auto.
Qed.

Theorem merge_data_branches_right : forall e1 e2,
  sorted_keys (map fst e1) = true -> sorted_keys (map fst e2) = true -> bkeys_below e1 e2 ->
  merge_data (Branches e1) (Branches e2) = Ok (Branches (e1 ++ e2)) /\
  sorted_keys (map fst (e1 ++ e2)) = true /\ Permutation (e1 ++ e2) (e1 ++ e2).
Proof.
  intros e1 e2 H1 H2 Hb. destruct (isort_by_either fst e1 e2 H1 H2 (or_intror Hb)) as (Hs & _ & _ & Hr).
  cbn [merge_data]. rewrite (Hr Hb) in *. auto.
Qed.

Theorem merge_data_branches : forall e1 e2,
  sorted_keys (map fst e1) = true -> sorted_keys (map fst e2) = true ->
  bkeys_below e2 e1 \/ bkeys_below e1 e2 ->
  exists m, merge_data (Branches e1) (Branches e2) = Ok (Branches m) /\
            sorted_keys (map fst m) = true /\ Permutation m (e1 ++ e2) /\
            (bkeys_below e2 e1 -> m = e2 ++ e1) /\ (bkeys_below e1 e2 -> m = e1 ++ e2).
Proof.
  intros e1 e2 H1 H2 Hb. exists (isort_by fst (e1 ++ e2)). split; [reflexivity|].
  now apply (isort_by_either fst).
Qed.

(* mixing a leaf with a branch is the library's panic *)
Lemma merge_data_mixed : forall l es,
  merge_data (Leaves l) (Branches es) = Panic "incompatible data types"%string /\
  merge_data (Branches es) (Leaves l) = Panic "incompatible data types"%string.
Proof. split; reflexivity. Qed.

(** * [split] *)

(* one entry type for both kinds of node *)
Definition ent : Type := (leafent + bytes * N)%type.
Definition ents_of (d : ndata) : list ent :=
  match d with Leaves l => map inl l | Branches es => map inr es end.

Lemma dlen_ents : forall d, dlen d = N.of_nat (length (ents_of d)).
Proof. intros [l|es]; cbn [dlen ents_of]; unfold llen; now rewrite map_length. Qed.

Lemma dlen_concat : forall ps,
  N.of_nat (length (concat (map ents_of ps))) = fold_right N.add 0%N (map dlen ps).
Proof.
  induction ps as [|p ps IH]; [reflexivity|].
  cbn [map concat fold_right]. rewrite app_length, Nat2N.inj_add, IH, dlen_ents. reflexivity.
Qed.

(* 4 = min_keys * split_min_mult and 40 = sizeof "Page" (EnginePins) *)
Theorem split_small : forall s d, (dlen d <= 4)%N \/ (40 + dsize d < psz s)%N -> split s d = (d, []).
Proof. intros s d H. apply EngineMergeFacts.split_small. lia. Qed.

Theorem split_concat : forall s d d0 rest, split s d = (d0, rest) ->
  concat (map ents_of (d0 :: rest)) = ents_of d /\
  Forall (fun p => is_leaf p = is_leaf d) (d0 :: rest).
Proof.
  intros s [l|l] d0 rest H;
    [destruct (split_leaves s l) as (l0 & ls & E & <- & _) | destruct (split_branches s l) as (l0 & ls & E & <- & _)];
    rewrite E in H; injection H as <- <-; cbn [map concat ents_of is_leaf];
    (split; [now rewrite map_map, map_app, concat_map
            | constructor; [reflexivity | apply Forall_map, Forall_forall; reflexivity]]).
Qed.

Corollary split_concat_leaves : forall s l d0 rest, split s (Leaves l) = (d0, rest) ->
  exists l0 ls, d0 = Leaves l0 /\ rest = map Leaves ls /\ concat (l0 :: ls) = l.
Proof.
  intros s l d0 rest H. destruct (split_leaves s l) as (l0 & ls & E & Hc & _).
  rewrite E in H. inversion H; subst. eauto.
Qed.

Corollary split_concat_branches : forall s es d0 rest, split s (Branches es) = (d0, rest) ->
  exists e0 ls, d0 = Branches e0 /\ rest = map Branches ls /\ concat (e0 :: ls) = es.
Proof.
  intros s es d0 rest H. destruct (split_branches s es) as (e0 & ls & E & Hc & _).
  rewrite E in H. inversion H; subst. eauto.
Qed.

Theorem split_count : forall s d d0 rest, split s d = (d0, rest) ->
  fold_right N.add 0%N (map dlen (d0 :: rest)) = dlen d.
Proof.
  intros s d d0 rest H. destruct (split_concat _ _ _ _ H) as (Hc & _).
  rewrite <- dlen_concat, Hc. symmetry. apply dlen_ents.
Qed.

Theorem split_pieces : forall s d d0 rest, split s d = (d0, rest) -> rest <> [] ->
  (4 < dlen d)%N /\
  Forall (fun p => (2 <= dlen p)%N) (d0 :: rest) /\
  fold_right N.add 0%N (map dlen (d0 :: rest)) = dlen d.
Proof.
  intros s d d0 rest H Hne. split; [|split; [|now apply (split_count s)]].
  - destruct ((dlen d <=? 4) || (40 + dsize d <? psz s))%N eqn:E; [|lia].
    rewrite (EngineMergeFacts.split_small s d E) in H. inversion H; subst. congruence.
  - destruct d as [l|es]; [exact (split_pieces_dlen Leaves dsplit_at_leaves (fun _ => eq_refl) s l d0 rest H Hne)
                          | exact (split_pieces_dlen Branches dsplit_at_branches (fun _ => eq_refl) s es d0 rest H Hne)].
Qed.

(** * Examples *)

Definition k300 (b : byte) : bytes := repeat x00 299 ++ [b].
Definition st1024 : txs :=
  {| free := []; pending := []; txid := 1; np := 10; psz := 1024; wr := []; flw := None; seqc := 1 |}.
Definition leaf6 : list leafent := map (fun b => LKv (k300 b) [b]) [x01; x02; x03; x04; x05; x06].
Definition leaf5 : list leafent := firstn 5 leaf6.

(* six entries with 300-byte keys at page size 1024: cut indices [2; 4], i.e. THREE pieces of two
   entries (every such leaf does: two entries already exceed the threshold 512) *)
Example split_leaf6 :
  sorted_keys (map lkey leaf6) = true /\
  dsize (Leaves leaf6) = 1998%N /\
  split_idx (Leaves leaf6) (psz st1024 / 2)%N 0 4 40%N 0%N = [2; 4] /\
  split st1024 (Leaves leaf6)
  = (Leaves (firstn 2 leaf6), [Leaves (firstn 2 (skipn 2 leaf6)); Leaves (skipn 4 leaf6)]).
Proof. repeat split; vm_compute; reflexivity. Qed.

Example split_leaf5 :
  split st1024 (Leaves leaf5) = (Leaves (firstn 2 leaf5), [Leaves (skipn 2 leaf5)]).
Proof. vm_compute; reflexivity. Qed.

(* the hypotheses of [split_pieces] are satisfiable, and its conclusion is what is computed *)
Example split_leaf6_pieces :
  let '(d0, rest) := split st1024 (Leaves leaf6) in
  rest <> [] /\ map dlen (d0 :: rest) = [2; 2; 2]%N /\ concat (map ents_of (d0 :: rest)) = ents_of (Leaves leaf6).
Proof. vm_compute. repeat split; try reflexivity. discriminate. Qed.

(* four entries are never split, however large *)
Example split_leaf4 : split st1024 (Leaves (firstn 4 leaf6)) = (Leaves (firstn 4 leaf6), []).
Proof. vm_compute; reflexivity. Qed.

(* leaf_insert / leaf_delete round trip: a new key, an overwrite, a delete, a delete of an absent key *)
Definition kA : bytes := ["a"%byte]. Definition kB : bytes := ["b"%byte].
Definition kC : bytes := ["c"%byte]. Definition kD : bytes := ["d"%byte].
Definition leaf3 : list leafent := [LKv kA [x01]; LKv kC [x03]; LBk kD 7 0].
Example leaf_round_trip :
  sorted_keys (map lkey leaf3) = true /\
  leaf_insert leaf3 (LKv kB [x02]) = [LKv kA [x01]; LKv kB [x02]; LKv kC [x03]; LBk kD 7 0] /\
  leaf_delete (leaf_insert leaf3 (LKv kB [x02])) kB = leaf3 /\
  leaf_insert leaf3 (LKv kC [x09]) = [LKv kA [x01]; LKv kC [x09]; LBk kD 7 0] /\
  leaf_delete leaf3 kB = leaf3 /\
  leaf_delete leaf3 kA = [LKv kC [x03]; LBk kD 7 0] /\
  Spec.alookup kB (assoc (leaf_insert leaf3 (LKv kB [x02]))) = Some (LKv kB [x02]) /\
  Spec.alookup kB (assoc (leaf_delete (leaf_insert leaf3 (LKv kB [x02])) kB)) = None.
Proof. repeat split; vm_compute; reflexivity. Qed.

Example merge_both_orders :
  merge_data (Leaves [LKv kC []; LBk kD 7 0]) (Leaves [LKv kA []; LKv kB []])
    = Ok (Leaves [LKv kA []; LKv kB []; LKv kC []; LBk kD 7 0]) /\
  merge_data (Leaves [LKv kA []; LKv kB []]) (Leaves [LKv kC []; LBk kD 7 0])
    = Ok (Leaves [LKv kA []; LKv kB []; LKv kC []; LBk kD 7 0]) /\
  lkeys_below [LKv kA []; LKv kB []] [LKv kC []; LBk kD 7 0].
Proof.
  repeat split; try (vm_compute; reflexivity).
  intros a b Ha Hb. cbn in Ha, Hb.
  destruct Ha as [<-|[<-|[]]]; destruct Hb as [<-|[<-|[]]]; reflexivity.
Qed.

(* isort_by does NOT produce a strictly sorted list when two keys coincide (the distinctness
   hypothesis of [isort_by_sorted] is needed) *)
Example isort_dup_not_sorted :
  sorted_keys (map lkey (isort_by lkey [LKv kA [x01]; LKv kA [x02]])) = false.
Proof. vm_compute; reflexivity. Qed.

Print Assumptions bs_loop_sim.
Print Assumptions bsearch_agree.
Print Assumptions ebsearch_spec.
Print Assumptions alookup_ainsert.
Print Assumptions alookup_aremove.
Print Assumptions leaf_insert_assoc.
Print Assumptions leaf_insert_sorted.
Print Assumptions leaf_insert_lookup.
Print Assumptions leaf_delete_assoc.
Print Assumptions leaf_delete_sorted.
Print Assumptions leaf_delete_lookup.
Print Assumptions merge_data_leaves_gen.
Print Assumptions merge_data_leaves.
Print Assumptions merge_data_leaves_left.
Print Assumptions merge_data_leaves_right.
Print Assumptions merge_data_branches_gen.
Print Assumptions merge_data_branches.
Print Assumptions split_small.
Print Assumptions split_concat.
Print Assumptions split_concat_leaves.
Print Assumptions split_concat_branches.
Print Assumptions split_pieces.
Print Assumptions split_count.
Print Assumptions split_leaf6.
Print Assumptions split_leaf5.
Print Assumptions leaf_round_trip.
