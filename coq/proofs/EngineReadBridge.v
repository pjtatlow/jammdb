(* The bridge between the write half (Engine / EngineAbs: abstract pages, [run_tx], the refinement theorem
   [run_txs_refines_init']) and the read half (Codec / Tree / Cursor: decoded pages, [Tree.tree], the cursor machine).
   [tree_of] is the [Tree.tree] stored below an engine page; the engine's invariant [PInv] gives [wf_tree_nh] of it,
   which is all the read specifications need; so on every committed state, and on the bytes the model writes for it,
   the cursor's get / scan / range / seek return what the reference returns ([cursor_agrees]). *)
From Coq Require Import List NArith Bool Arith Lia ZifyN ZifyNat ZifyBool.
From Coq.Strings Require Import Byte.
From Jamm Require Spec Tree Cursor Codec CodecFacts BytesFacts.
From Jamm Require Import ListFacts Bytes SearchFacts CursorFacts SeekFacts.
From Jamm Require Import Engine EngineAbs EngineFacts EngineSpillFacts EngineModifyFacts EngineBridgeFacts EngineRebalanceFacts.
From Jamm Require Import EngineTxInvFacts EngineRefines EngineOwnDefs EngineOwnSpill EngineAllocInv.
Import ListNotations.
Local Open Scope list_scope. Local Open Scope nat_scope.
Set Warnings "-abstract-large-number".

Notation tree := Tree.tree.
Notation TL := Tree.TL.
Notation TB := Tree.TB.
Notation lent := Codec.lent.
Notation EKv := Codec.EKv.
Notation EBk := Codec.EBk.
Notation lent_key := Codec.lent_key.
Notation flatten := Tree.flatten.

Definition ent_of (e : leafent) : lent :=
  match e with LKv k v => EKv k v | LBk k r nx => EBk k r nx end.

Lemma lent_key_ent_of : forall e, lent_key (ent_of e) = lkey e.
Proof. intros [k v|k r nx]; reflexivity. Qed.

Lemma map_key_ent_of : forall l, map lent_key (map ent_of l) = map lkey l.
Proof. intros l. rewrite map_map. apply map_ext. apply lent_key_ent_of. Qed.

Lemma ent_of_inj : forall a b, ent_of a = ent_of b -> a = b.
Proof. intros [k v|k r nx] [k' v'|k' r' nx'] H; inversion H; reflexivity. Qed.

Fixpoint omap {A B} (f : A -> option B) (l : list A) : option (list B) :=
  match l with
  | [] => Some []
  | x :: l' => match f x with
               | None => None
               | Some y => match omap f l' with None => None | Some ys => Some (y :: ys) end
               end
  end.

Lemma omap_Forall2 : forall {A B} (f : A -> option B) l ys, omap f l = Some ys -> Forall2 (fun x y => f x = Some y) l ys.
Proof.
  induction l as [|x l IH]; intros ys H; cbn [omap] in H.
  - inversion H. constructor.
  - destruct (f x) as [y|] eqn:Ef; [|discriminate]. destruct (omap f l) as [ys'|] eqn:Eo; [|discriminate].
    inversion H; subst ys. constructor; [exact Ef | now apply IH].
Qed.

Lemma Forall2_omap : forall {A B} (f : A -> option B) l ys, Forall2 (fun x y => f x = Some y) l ys -> omap f l = Some ys.
Proof.
  intros A B f l ys H. induction H as [|x y l ys Hx _ IH]; [reflexivity|]. cbn [omap]. now rewrite Hx, IH.
Qed.

(* the tree below page [p]: a [Leaves] page is a tree leaf, a [Branches] page a tree branch over the trees of its
   children, with the same separators; page id and overflow count are carried along. [None]: a page is missing or
   the fuel (an upper bound on the height) is exhausted. *)
Fixpoint tree_of (fuel : nat) (d : disk) (p : N) : option tree :=
  match fuel with
  | O => None
  | S f =>
      match dget d p with
      | None => None
      | Some a =>
          match ap_body a with
          | Leaves l => Some (TL p (ap_over a) (map ent_of l))
          | Branches es =>
              option_map (TB p (ap_over a))
                (omap (fun e : bytes * N => option_map (pair (fst e)) (tree_of f d (snd e))) es)
          end
      end
  end.

(* the bucket rooted at page [r], as the read half sees it *)
Definition bucket_tree (d : disk) (r : N) : option tree := tree_of fuel0 d r.

Lemma tree_of_leaf : forall f d p a l, dget d p = Some a -> ap_body a = Leaves l ->
  tree_of (S f) d p = Some (TL p (ap_over a) (map ent_of l)).
Proof. intros f d p a l Hg Hb. cbn [tree_of]. now rewrite Hg, Hb. Qed.

Lemma tree_of_branch_inv : forall f d p a es t, dget d p = Some a -> ap_body a = Branches es ->
  tree_of (S f) d p = Some t ->
  exists ks, t = TB p (ap_over a) ks /\
    Forall2 (fun (e : bytes * N) (kt : bytes * tree) => fst kt = fst e /\ tree_of f d (snd e) = Some (snd kt)) es ks.
Proof.
  intros f d p a es t Hg Hb H. cbn [tree_of] in H. rewrite Hg, Hb in H.
  destruct (omap _ es) as [ks|] eqn:Eo; [|discriminate]. cbn [option_map] in H. inversion H; subst t.
  exists ks. split; [reflexivity|]. apply omap_Forall2 in Eo.
  eapply Forall2_impl; [|exact Eo]. cbn beta. intros e kt He.
  destruct (tree_of f d (snd e)) as [c|]; [|discriminate]. cbn [option_map] in He. inversion He. cbn [fst snd]. auto.
Qed.

Lemma tree_of_branch_intro : forall f d p a es ks, dget d p = Some a -> ap_body a = Branches es ->
  Forall2 (fun (e : bytes * N) (kt : bytes * tree) => fst kt = fst e /\ tree_of f d (snd e) = Some (snd kt)) es ks ->
  tree_of (S f) d p = Some (TB p (ap_over a) ks).
Proof.
  intros f d p a es ks Hg Hb H. cbn [tree_of]. rewrite Hg, Hb.
  rewrite (Forall2_omap _ es ks); [reflexivity|].
  eapply Forall2_impl; [|exact H]. cbn beta. intros e [k c] [E1 E2]. cbn [fst snd] in *. now rewrite E2, E1.
Qed.

Lemma flat_map_concat_F2 : forall (ks : list (bytes * tree)) (ls : list (list leafent)),
  Forall2 (fun kt l => flatten (snd kt) = map ent_of l) ks ls ->
  flat_map (fun kt => flatten (snd kt)) ks = map ent_of (concat ls).
Proof.
  intros ks ls H. induction H as [|kt l ks ls Hx _ IH]; [reflexivity|].
  cbn [flat_map concat]. now rewrite map_app, Hx, IH.
Qed.

(* a page the engine can view has a tree, with the viewed entries as its leaves *)
Theorem PageView_tree : forall d h p l, PageView d h p l -> forall f, h <= f ->
  exists t, tree_of f d p = Some t /\ flatten t = map ent_of l /\ Tree.t_pid t = p.
Proof.
  intros d. induction h as [|h IH]; intros p l H f Hf; [inversion H|].
  destruct f as [|f]; [lia|].
  inversion H as [? ? a l0 Hg Hb | ? ? a es ls Hg Hb HF]; subst.
  - eexists. split; [eapply tree_of_leaf; eauto|]. split; reflexivity.
  - assert (Hks : exists ks, Forall2 (fun (e : bytes * N) (kt : bytes * tree) =>
                     fst kt = fst e /\ tree_of f d (snd e) = Some (snd kt)) es ks /\
                   Forall2 (fun kt l => flatten (snd kt) = map ent_of l) ks ls).
    { clear Hb Hg H. induction HF as [|e l0 es ls He _ IHr]; [exists []; split; constructor|].
      destruct IHr as (ks & H1 & H2). destruct (IH _ _ He f ltac:(lia)) as (c & Hc & Hfl & _).
      exists ((fst e, c) :: ks). split; constructor; cbn [fst snd]; auto. }
    destruct Hks as (ks & H1 & H2). exists (TB p (ap_over a) ks).
    split; [eapply tree_of_branch_intro; eauto|]. split; [|reflexivity].
    cbn [Tree.flatten]. now apply flat_map_concat_F2.
Qed.

(* conversely a tree is a view; so [tree_of] answers exactly where [PageView] holds *)
Theorem tree_of_PageView : forall f d p t, tree_of f d p = Some t ->
  exists l, PageView d f p l /\ flatten t = map ent_of l.
Proof.
  induction f as [|f IH]; intros d p t H; [discriminate|].
  cbn [tree_of] in H. destruct (dget d p) as [a|] eqn:Hg; [|discriminate].
  destruct (ap_body a) as [l|es] eqn:Hb.
  - inversion H; subst t. exists l. split; [eapply PV_leaf; eauto | reflexivity].
  - assert (H' : tree_of (S f) d p = Some t) by (cbn [tree_of]; now rewrite Hg, Hb).
    destruct (tree_of_branch_inv f d p a es t Hg Hb H') as (ks & -> & HF).
    assert (Hls : exists ls, Forall2 (fun e l => PageView d f (snd e) l) es ls /\
                   Forall2 (fun (kt : bytes * tree) l => flatten (snd kt) = map ent_of l) ks ls).
    { clear H H' Hb Hg. induction HF as [|e kt es ks [_ He] _ IHr]; [exists []; split; constructor|].
      destruct IHr as (ls & H1 & H2). destruct (IH _ _ _ He) as (l0 & Hv & Hfl).
      exists (l0 :: ls). split; constructor; auto. }
    destruct Hls as (ls & H1 & H2). exists (concat ls). split; [eapply PV_branch; eauto|].
    cbn [Tree.flatten]. now apply flat_map_concat_F2.
Qed.

(* the leaves of the tree are the entries the abstraction function [abs_bucket] reads *)
Theorem tree_of_flatten : forall f d p t, tree_of f d p = Some t -> forall F, f <= F ->
  flatten t = map ent_of (page_ents F d p).
Proof.
  intros f d p t H F HF. destruct (tree_of_PageView f d p t H) as (l & Hv & Hfl).
  now rewrite (PageView_page_ents d f p l Hv F HF).
Qed.

Lemma tree_of_mono : forall f d p t, tree_of f d p = Some t -> forall f', f <= f' -> tree_of f' d p = Some t.
Proof.
  induction f as [|f IH]; intros d p t H f' Hf; [discriminate|]. destruct f' as [|f']; [lia|].
  cbn [tree_of] in H. destruct (dget d p) as [a|] eqn:Hg; [|discriminate].
  destruct (ap_body a) as [l|es] eqn:Hb.
  - inversion H; subst t. eapply tree_of_leaf; eauto.
  - assert (H' : tree_of (S f) d p = Some t) by (cbn [tree_of]; now rewrite Hg, Hb).
    destruct (tree_of_branch_inv f d p a es t Hg Hb H') as (ks & -> & HF).
    eapply tree_of_branch_intro; eauto.
    eapply ListFacts.Forall2_impl; [|exact HF]. cbn beta. intros e kt [E1 E2]. split; [exact E1|].
    apply (IH _ _ _ E2). lia.
Qed.

(* [Tree.wf_shape] asks five things of a branch: non-empty, children well-formed, separators ascending, separators
   bounding the subtrees, all children of the same height. The engine's invariant [PInv] bounds the height but does
   not say that all leaves have the same depth ([PInv_not_uniform] below), so [Tree.wf_tree] is NOT a consequence of
   [PInv]. The cursor's correctness never uses the height conjunct: [wf_nh] is [wf_shape] without it (it is
   [SearchFacts.wf_sep]), and the read specifications hold from [wf_tree_nh]. *)
Module NH.
Import Tree Cursor Spec.
Local Open Scope nat_scope.

Fixpoint wf_nh (t : tree) : bool :=
  match t with
  | TL _ _ _ => true
  | TB _ _ ks =>
      negb (match ks with [] => true | _ => false end) &&
      forallb (fun kt : bytes * tree => wf_nh (snd kt)) ks &&
      sorted_keys (map fst ks) &&
      seps_ok true (map (fun kt : bytes * tree => (fst kt, flatten (snd kt))) ks)
  end.
Fixpoint uniform (t : tree) : bool :=
  match t with
  | TL _ _ _ => true
  | TB _ _ ks =>
      forallb (fun kt : bytes * tree => uniform (snd kt)) ks &&
      match ks with
      | [] => true
      | (_, c) :: ks' => forallb (fun kt : bytes * tree => Nat.eqb (height (snd kt)) (height c)) ks'
      end
  end.
(* the read half's hypothesis without the height demand *)
Definition wf_tree_nh (t : tree) : bool := wf_nh t && sorted_keys (map lent_key (flatten t)).

Lemma forallb_andb : forall {A} (f g : A -> bool) l, forallb (fun x => f x && g x) l = forallb f l && forallb g l.
Proof.
  induction l as [|x l IH]; [reflexivity|]. cbn [forallb]. rewrite IH.
  destruct (f x), (g x), (forallb f l), (forallb g l); reflexivity.
Qed.

Lemma forallb_ext_in : forall {A} (f g : A -> bool) l, Forall (fun x => f x = g x) l -> forallb f l = forallb g l.
Proof. intros A f g l H. induction H as [|x l Hx _ IH]; [reflexivity|]. cbn [forallb]. now rewrite Hx, IH. Qed.

Theorem wf_shape_split : forall t, wf_shape t = wf_nh t && uniform t.
Proof.
  induction t as [p o l | p o ks IH] using tree_ind'; [reflexivity|].
  cbn [wf_shape wf_nh uniform].
  rewrite (forallb_ext_in (fun kt : bytes * tree => wf_shape (snd kt))
             (fun kt => wf_nh (snd kt) && uniform (snd kt)) ks IH).
  rewrite forallb_andb.
  destruct (negb _), (forallb (fun kt : bytes * tree => wf_nh (snd kt)) ks),
    (forallb (fun kt : bytes * tree => uniform (snd kt)) ks), (sorted_keys (map fst ks)), (seps_ok true _);
    cbn [andb]; try reflexivity; destruct ks as [|[k c] ks']; try reflexivity;
    destruct (forallb _ ks'); reflexivity.
Qed.

Corollary wf_tree_split : forall t, wf_tree t = wf_tree_nh t && uniform t.
Proof.
  intros t. unfold wf_tree, wf_tree_nh. rewrite wf_shape_split.
  destruct (wf_nh t), (uniform t), (sorted_keys _); reflexivity.
Qed.

Lemma wf_nh_sep : forall t, wf_nh t = wf_sep t.
Proof.
  induction t as [p o l | p o ks IH] using tree_ind'; [reflexivity|].
  cbn [wf_nh wf_sep]. now rewrite (forallb_ext_in _ _ ks IH).
Qed.

Lemma wf_nh_neb : forall t, wf_nh t = true -> no_empty_branch t = true.
Proof. intros t H. apply wf_sep_neb. now rewrite <- wf_nh_sep. Qed.

Lemma wf_tree_nh_sep : forall t, wf_tree_nh t = true ->
  wf_sep t = true /\ sorted_keys (map lent_key (flatten t)) = true.
Proof.
  intros t H. unfold wf_tree_nh in H. apply andb_true_iff in H. now rewrite <- wf_nh_sep.
Qed.

(* the entry the cursor stands on after an exact search: [Cursor.get] before its [to_item] (this is how the library
   opens a nested bucket: seek to the name, read root page and counter from the leaf element) *)
Definition get_ent (t : tree) (k : bytes) : option lent :=
  let '(ex, st) := search (S (nodes t)) t k [] in
  if ex then match st with (lf, i) :: _ => val_at lf i | [] => None end else None.

Lemma get_get_ent : forall t k, Cursor.get t k = option_map Cursor.to_item (get_ent t k).
Proof.
  intros t k. unfold get, get_ent. destruct (search (S (nodes t)) t k []) as [ex st].
  destruct ex; [|reflexivity]. destruct st as [|[lf i] st']; reflexivity.
Qed.

Theorem get_ent_spec_nh : forall t k, wf_tree_nh t = true ->
  get_ent t k = find (fun e => beq (lent_key e) k) (flatten t).
Proof.
  intros t k Hwf. destruct (wf_tree_nh_sep t Hwf) as [Hsh Hs]. unfold get_ent.
  destruct (search (S (nodes t)) t k []) as [ex st] eqn:Es. exact (search_find t k ex st Hsh Hs Es).
Qed.

Theorem get_spec_nh : forall t k, wf_tree_nh t = true ->
  Cursor.get t k = option_map Cursor.to_item (find (fun e => beq (lent_key e) k) (flatten t)).
Proof. intros t k Hwf. now rewrite get_get_ent, (get_ent_spec_nh t k Hwf). Qed.

Theorem scan_spec_nh : forall t, wf_nh t = true -> scan t = CVal (map Cursor.to_item (flatten t)).
Proof. intros t Hwf. apply cursor_all. now apply wf_nh_neb. Qed.

Theorem seek_spec_nh : forall t k, wf_tree_nh t = true ->
  let items := map Cursor.to_item (flatten t) in
  exists ex l,
    seek_scan t k = (ex, CVal l) /\
    (ex = true <-> In k (map lent_key (flatten t))) /\
    (ex = true -> l = from_succ k items) /\
    (ex = false -> l = from_pred k items \/ l = from_succ k items).
Proof. intros t k Hwf. destruct (wf_tree_nh_sep t Hwf) as [Hsh Hs]. exact (seek_spec_gen t k Hsh Hs). Qed.

Theorem range_spec_nh : forall t lo hi, wf_tree_nh t = true ->
  range_scan t lo hi
  = CVal (filter (fun i => in_bounds lo hi (item_key i)) (map Cursor.to_item (flatten t))).
Proof. intros t lo hi Hwf. destruct (wf_tree_nh_sep t Hwf) as [Hsh Hs]. exact (range_spec_gen t lo hi Hsh Hs). Qed.

Corollary range_spec_empty_nh : forall t lo hi, wf_tree_nh t = true ->
  (forall k, in_bounds lo hi k = false) -> range_scan t lo hi = CVal [].
Proof.
  intros t lo hi Hwf He. rewrite (range_spec_nh t lo hi Hwf). f_equal.
  apply filter_none. intros x _. apply He.
Qed.

(* with equal heights, everything else the read half proves applies as it stands *)
Lemma wf_tree_of_nh : forall t, wf_tree_nh t = true -> uniform t = true -> wf_tree t = true.
Proof. intros t H1 H2. now rewrite wf_tree_split, H1, H2. Qed.

End NH.
Import NH.

Notation sorted_keys := Tree.sorted_keys.

(* children whose keys lie in the intervals [cbs] assigns them satisfy the separator check of [wf_shape] *)
Lemma seps_ok_cbs : forall (ksf : list (bytes * list lent)) (f : bytes -> option bytes) (first : bool) hi,
  Forall2 (fun kc b => Forall (inb (fst b) (snd b)) (map lent_key (snd kc))) ksf (cbs f (map fst ksf) hi) ->
  (first = false -> forall s, f s = Some s) ->
  Tree.seps_ok first ksf = true.
Proof.
  induction ksf as [|[k c] rest IH]; intros f first hi H Hf; [reflexivity|].
  cbn [map fst cbs] in H. inversion H as [|? ? ? ? Hc Hrest]; subst. cbn [fst snd] in Hc.
  cbn [Tree.seps_ok]. apply andb_true_iff. split; [apply andb_true_iff; split|].
  - destruct first; [reflexivity|]. cbn [orb]. unfold Tree.all_keys_ge. apply forallb_forall. intros e He.
    rewrite Forall_forall in Hc. destruct (Hc (lent_key e) (in_map _ _ _ He)) as [Hlo _].
    rewrite (Hf eq_refl k) in Hlo. cbn [le_lo] in Hlo. now apply ble_true.
  - destruct rest as [|[k' c'] rest']; [reflexivity|]. cbn [map fst nxt] in Hc.
    unfold Tree.all_keys_lt. apply forallb_forall. intros e He.
    rewrite Forall_forall in Hc. destruct (Hc (lent_key e) (in_map _ _ _ He)) as [_ Hhi].
    cbn [lt_hi] in Hhi. now apply blt_true.
  - apply (IH Some false hi Hrest). reflexivity.
Qed.

Lemma Forall2_map_fst_eq : forall {A B C} (R : A * B -> A * C -> Prop) xs ys,
  Forall2 R xs ys -> (forall x y, R x y -> fst y = fst x) -> map fst ys = map fst xs.
Proof. intros A B C R xs ys H Hr. induction H as [|x y xs ys Hx _ IH]; [reflexivity|]. cbn [map]. now rewrite IH, (Hr _ _ Hx). Qed.

(* three-way zip of Forall2 *)
Lemma Forall2_zip3 : forall {A B C} (P : A -> B -> Prop) (Q : A -> C -> Prop) (R : B -> C -> Prop) xs ys zs,
  Forall2 P xs ys -> Forall2 Q xs zs -> (forall x y z, P x y -> Q x z -> R y z) -> Forall2 R ys zs.
Proof.
  intros A B C P Q R xs ys zs HP. revert zs. induction HP as [|x y xs ys Hx _ IH]; intros zs HQ Hr.
  - inversion HQ. constructor.
  - inversion HQ as [|? z ? zs' Hz HQ']; subst. constructor; [eapply Hr; eauto | apply IH; auto].
Qed.

Lemma tree_keys_inb : forall h d lo hi ok q f t, PInv h d lo hi ok q -> tree_of f d q = Some t ->
  Forall (inb lo hi) (map lent_key (flatten t)).
Proof.
  intros h d lo hi ok q f t HP Ht. destruct (tree_of_PageView f d q t Ht) as (l & Hv & Hfl).
  rewrite Hfl, map_key_ent_of. eapply PInv_view_bounds; eauto.
Qed.

Theorem PInv_wf_nh : forall h d lo hi ok q f t, PInv h d lo hi ok q -> tree_of f d q = Some t -> wf_nh t = true.
Proof.
  induction h as [|h IH]; intros d lo hi ok q f t HP Ht; [destruct HP|].
  cbn [PInv] in HP. destruct HP as (a & Hg & _ & Hb).
  destruct f as [|f]; [discriminate|].
  destruct (ap_body a) as [l|es] eqn:Eb.
  - rewrite (tree_of_leaf f d q a l Hg Eb) in Ht. inversion Ht. reflexivity.
  - destruct Hb as (Hne & Hs & _ & _ & HC).
    destruct (tree_of_branch_inv f d q a es t Hg Eb Ht) as (ks & -> & HF).
    assert (Hfst : map fst ks = map fst es).
    { apply (Forall2_map_fst_eq _ _ _ HF). intros x y [E _]. exact E. }
    cbn [wf_nh]. repeat (apply andb_true_iff; split).
    + destruct HF; [congruence | reflexivity].
    + apply forallb_forall. intros kt Hin.
      destruct (ListFacts.Forall2_In_r _ _ _ _ HF Hin) as (e & He & _ & Hte).
      destruct (In_nth_error _ _ He) as [j Hj].
      destruct (Forall2_nth_error_l _ _ _ _ _ HC Hj) as (b & Hbj & HPj).
      eapply IH; eauto.
    + now rewrite Hfst.
    + apply (seps_ok_cbs _ (lo0 lo) true hi); [|discriminate].
      rewrite map_map. cbn [fst]. change (map (fun x : bytes * tree => fst x) ks) with (map fst ks).
      rewrite Hfst. fold (cbounds lo (map fst es) hi).
      assert (HZ : Forall2 (fun (b : option bytes * option bytes) (kt : bytes * tree) =>
                      Forall (inb (fst b) (snd b)) (map lent_key (flatten (snd kt))))
                     (cbounds lo (map fst es) hi) ks).
      { apply (Forall2_zip3 _ _ _ es _ _ HC HF). intros e b kt HPe [_ Hte]. eapply tree_keys_inb; eauto. }
      clear -HZ. induction HZ; cbn [map]; constructor; auto.
Qed.

Lemma PInv_wf_tree_nh : forall h d lo hi ok q f t, PInv h d lo hi ok q -> tree_of f d q = Some t ->
  wf_tree_nh t = true.
Proof.
  intros h d lo hi ok q f t HP Ht. destruct (tree_of_PageView f d q t Ht) as (l & Hv & Hfl).
  unfold wf_tree_nh. apply andb_true_iff. split; [eapply PInv_wf_nh; eauto|].
  rewrite Hfl, map_key_ent_of. eapply wf_page_sorted; [eapply PInv_wf_page; eauto | exact Hv].
Qed.

(* a strict page ([PInv]) has a tree; the tree passes the read half's checker minus the height demand;
   its keys lie in the page's interval; its leaves are what [abs_bucket] reads *)
Theorem PInv_tree : forall h d lo hi ok q, PInv h d lo hi ok q -> forall f, h <= f ->
  exists t, tree_of f d q = Some t /\ wf_tree_nh t = true /\
    Forall (inb lo hi) (map lent_key (flatten t)) /\
    (forall F, f <= F -> flatten t = map ent_of (page_ents F d q)).
Proof.
  intros h d lo hi ok q HP f Hf. destruct (PInv_PageView h d lo hi ok q HP) as [l Hv].
  destruct (PageView_tree d h q l Hv f Hf) as (t & Ht & Hfl & _). exists t.
  split; [exact Ht|]. split; [|split].
  - eapply PInv_wf_tree_nh; eauto.
  - eapply tree_keys_inb; eauto.
  - intros F HF. eapply tree_of_flatten; eauto.
Qed.

Corollary PInv_get : forall h d lo hi ok q f t k, PInv h d lo hi ok q -> tree_of f d q = Some t ->
  Cursor.get t k = option_map Cursor.to_item (find (fun e => beq (lent_key e) k) (flatten t)).
Proof.
  intros h d lo hi ok q f t k HP Ht. apply get_spec_nh. eapply PInv_wf_tree_nh; eauto. Qed.
Corollary PInv_scan : forall h d lo hi ok q f t, PInv h d lo hi ok q -> tree_of f d q = Some t ->
  Cursor.scan t = Cursor.CVal (map Cursor.to_item (flatten t)).
Proof. intros h d lo hi ok q f t HP Ht. apply scan_spec_nh. eapply PInv_wf_nh; eauto. Qed.

(* [PInv] does not give equal leaf depth: a strict tree the full checker [Tree.wf_tree] rejects, on which
    the cursor nevertheless answers correctly (as [PInv_get] says it must) *)
Module NotUniform.
Local Open Scope N_scope.
Definition ka : bytes := ["a"%byte]. Definition kc : bytes := ["c"%byte]. Definition ke : bytes := ["e"%byte].
(* root 3 = branch over leaf 4 and branch 5; branch 5 over leaf 6 *)
Definition dsk : disk :=
  [ (3, {| ap_over := 0; ap_body := Branches [(ka, 4); (kc, 5)] |});
    (4, {| ap_over := 0; ap_body := Leaves [LKv ka [x01]] |});
    (5, {| ap_over := 0; ap_body := Branches [(kc, 6)] |});
    (6, {| ap_over := 0; ap_body := Leaves [LKv kc [x02]; LKv ke [x03]] |}) ].
Definition tr : tree :=
  TB 3 0 [(ka, TL 4 0 [EKv ka [x01]]); (kc, TB 5 0 [(kc, TL 6 0 [EKv kc [x02]; EKv ke [x03]])])].
End NotUniform.

Example PInv_not_uniform :
  PInv 3 NotUniform.dsk None None None 3%N /\ NoDup (ppages 3 NotUniform.dsk 3%N) /\
  bucket_tree NotUniform.dsk 3%N = Some NotUniform.tr /\
  uniform NotUniform.tr = false /\ Tree.wf_tree NotUniform.tr = false /\ wf_tree_nh NotUniform.tr = true /\
  Cursor.get NotUniform.tr NotUniform.ke = Some (Spec.IKv NotUniform.ke [x03]).
Proof.
  split; [|split; [|repeat split; vm_compute; reflexivity]].
  - cbn [PInv]. eexists. split; [reflexivity|]. split; [exact I|]. cbn [ap_body].
    split; [discriminate|]. split; [reflexivity|].
    split; [repeat constructor; cbn; intuition (try discriminate; try lia)|].
    split; [Ex3.solve_inb|]. cbn [map fst cbounds cbs nxt lo0].
    apply Forall2_cons; [|apply Forall2_cons; [|apply Forall2_nil]]; cbn [fst snd].
    + Ex3.leaf_PInv.
    + eexists. split; [reflexivity|]. split; [reflexivity|]. cbn [ap_body].
      split; [discriminate|]. split; [reflexivity|]. split; [repeat constructor; cbn; intuition|].
      split; [Ex3.solve_inb|]. cbn [map fst cbounds cbs nxt lo0].
      apply Forall2_cons; [|apply Forall2_nil]; cbn [fst snd]. Ex3.leaf_PInv.
  - vm_compute. repeat constructor; cbn; intuition (try discriminate; try lia).
Qed.

(* one entry of the abstraction function (the same function as EnginePathFacts.ent_abs, which this file does not import) *)
Definition sn_of (f : nat) (d : disk) (e : leafent) : bytes * Spec.snode :=
  match e with LKv k v => (k, Spec.SVal v) | LBk k r nx => (k, abs_bucket f d r nx) end.

Lemma abs_bucket_S : forall f d r nx,
  abs_bucket (S f) d r nx = Spec.SBucket 0 nx (map (sn_of f d) (page_ents fuel0 d r)).
Proof. exact EnginePathFacts.abs_bucket_S. Qed.

Lemma abs_bucket_is_bucket : forall f d r nx, exists es, abs_bucket f d r nx = Spec.SBucket 0 nx es.
Proof. intros [|f] d r nx; eexists; reflexivity. Qed.

Lemma fst_sn_of : forall f d e, fst (sn_of f d e) = lkey e.
Proof. intros f d [k v|k r nx]; reflexivity. Qed.

(* the reference's item for an entry is the cursor's item for the decoded entry *)
Lemma to_item_sn_of : forall f d e, Spec.to_item (sn_of f d e) = Cursor.to_item (ent_of e).
Proof.
  intros f d [k v|k r nx]; [reflexivity|]. cbn [sn_of ent_of Cursor.to_item]. unfold Spec.to_item. cbn [fst snd].
  destruct (abs_bucket_is_bucket f d r nx) as [es ->]. reflexivity.
Qed.

(* on a list with ascending keys the reference's lookup is a plain search *)
Lemma alookup_find : forall {A} (g : leafent -> A) (l : list leafent) k, sorted_keys (map lkey l) = true ->
  Spec.alookup k (map (fun e => (lkey e, g e)) l) = option_map g (find (fun e => beq (lkey e) k) l).
Proof.
  intros A g l k. induction l as [|e l IH]; intros Hs; [reflexivity|].
  cbn [map] in Hs. destruct (sorted_keys_cons _ _ Hs) as [Hall Hs'].
  cbn [map Spec.alookup find]. destruct (bcmp k (lkey e)) eqn:E.
  - apply bcmp_eq in E. subst k. replace (beq (lkey e) (lkey e)) with true by (symmetry; now apply beq_true).
    reflexivity.
  - assert (E' : bcmp (lkey e) k = Gt) by now apply bcmp_lt_gt.
    rewrite (beq_false_gt _ _ E'). rewrite find_none_all; [reflexivity|].
    intros x Hx. apply beq_false_gt. apply bcmp_lt_gt.
    rewrite Forall_forall in Hall. eapply bcmp_lt_trans; [exact E|]. apply Hall. now apply in_map.
  - assert (E' : bcmp (lkey e) k = Lt) by now apply bcmp_lt_gt.
    rewrite (beq_false_lt _ _ E'). now apply IH.
Qed.

Lemma sn_of_eta : forall f d e, sn_of f d e = (lkey e, snd (sn_of f d e)).
Proof. intros f d [k v|k r nx]; reflexivity. Qed.

Lemma alookup_sn_of : forall f d l k, sorted_keys (map lkey l) = true ->
  Spec.alookup k (map (sn_of f d) l) = option_map (fun e => snd (sn_of f d e)) (find (fun e => beq (lkey e) k) l).
Proof.
  intros f d l k Hs. rewrite <- (alookup_find (fun e => snd (sn_of f d e)) l k Hs).
  f_equal. apply map_ext. apply sn_of_eta.
Qed.

Lemma find_map_ent_of : forall l k,
  find (fun e => beq (lent_key e) k) (map ent_of l) = option_map ent_of (find (fun e => beq (lkey e) k) l).
Proof.
  induction l as [|e l IH]; intros k; [reflexivity|]. cbn [map find]. rewrite lent_key_ent_of.
  destruct (beq (lkey e) k); [reflexivity | apply IH].
Qed.

(* what [sbk] says about one bucket, in the vocabulary of this file *)
Lemma sbk_bucket : forall n d r, sbk (S n) d r ->
  exists t l, bucket_tree d r = Some t /\ wf_tree_nh t = true /\ flatten t = map ent_of l /\
    page_ents fuel0 d r = l /\ sorted_keys (map lkey l) = true /\
    Forall (fun e => match e with LBk _ r' _ => sbk n d r' | LKv _ _ => True end) l.
Proof.
  intros n d r H. cbn [sbk] in H. destruct H as (h & l & Hh & HP & _ & Hv & HF).
  destruct (PageView_tree d h r l Hv fuel0 Hh) as (t & Ht & Hfl & _). exists t, l.
  split; [exact Ht|]. split; [eapply PInv_wf_tree_nh; eauto|]. split; [exact Hfl|].
  split; [eapply PageView_page_ents; eauto|]. split; [|exact HF].
  eapply wf_page_sorted; [eapply PInv_wf_page; eauto | exact Hv].
Qed.

(* the reference's answers on one bucket node *)
Definition ref_get (b : Spec.snode) (k : bytes) : option Spec.item :=
  option_map (fun c => Spec.to_item (k, c)) (Spec.alookup k (Spec.b_ents b)).

(* found flag of the reference's seek *)
Definition ref_found (b : Spec.snode) (k : bytes) : bool :=
  match Spec.alookup k (Spec.b_ents b) with Some _ => true | None => false end.

(* THE CURSOR ON TREE [t] AGREES WITH THE REFERENCE ON BUCKET NODE [b]: the four read operations of the API --
   get, full scan, range scan (all bound kinds), seek followed by iteration -- return what Spec.step returns for
   OGet / OScan / ORange / OSeek (for a seek of an absent key the reference allows the two neighbours) *)
Definition cursor_agrees (t : tree) (b : Spec.snode) : Prop :=
  (forall k, Cursor.get t k = ref_get b k) /\
  Cursor.scan t = Cursor.CVal (Spec.items_of b) /\
  (forall lo hi, Cursor.range_scan t lo hi
     = Cursor.CVal (filter (fun i => Spec.in_bounds lo hi (Spec.item_key i)) (Spec.items_of b))) /\
  (forall k, exists l, Cursor.seek_scan t k = (ref_found b k, Cursor.CVal l) /\
     if ref_found b k then l = Spec.from_succ k (Spec.items_of b)
     else l = Spec.from_pred k (Spec.items_of b) \/ l = Spec.from_succ k (Spec.items_of b)).

(* enough for [cursor_agrees]: the tree flattens to a view [l] that shows the reference's items and answers every key
   as the reference does (the found flag of a seek is whether the get finds something) *)
Lemma cursor_agrees_view : forall t (l : list leafent) b, wf_tree_nh t = true -> flatten t = map ent_of l ->
  map Cursor.to_item (map ent_of l) = Spec.items_of b ->
  (forall k, ref_get b k = option_map (fun e => Cursor.to_item (ent_of e)) (find (fun e => beq (lkey e) k) l)) ->
  cursor_agrees t b.
Proof.
  intros t l b Hwf Hfl Hitems Hget. rewrite <- Hfl in Hitems.
  split; [|split; [|split]].
  - intros k. rewrite (get_spec_nh t k Hwf), Hfl, find_map_ent_of, Hget. now destruct (find _ l).
  - assert (Hneb : wf_nh t = true) by (unfold wf_tree_nh in Hwf; apply andb_true_iff in Hwf; tauto).
    now rewrite (scan_spec_nh t Hneb), Hitems.
  - intros lo hi. now rewrite (range_spec_nh t lo hi Hwf), Hitems.
  - intros k. destruct (seek_spec_nh t k Hwf) as (ex & l0 & Hss & Hex & Ht & Hf). rewrite Hitems in Ht, Hf.
    exists l0. assert (Hfound : ref_found b k = ex).
    { specialize (Hget k). unfold ref_get in Hget. unfold ref_found. rewrite Hfl, map_key_ent_of in Hex.
      destruct (find (fun e => beq (lkey e) k) l) as [e|] eqn:Ef.
      - destruct (Spec.alookup k (Spec.b_ents b)); [|discriminate]. apply find_some in Ef. destruct Ef as [Hin Ek].
        apply beq_true in Ek. symmetry. apply Hex. rewrite <- Ek. now apply in_map.
      - destruct (Spec.alookup k (Spec.b_ents b)); [discriminate|]. destruct ex; [|reflexivity].
        pose proof (proj1 Hex eq_refl) as Hk. apply in_map_iff in Hk. destruct Hk as (e & Ek & Hin).
        pose proof (find_none _ _ Ef e Hin) as Hn. cbn beta in Hn. rewrite Ek in Hn.
        assert (beq k k = true) by now apply beq_true. congruence. }
    rewrite Hfound. split; [exact Hss|]. destruct ex; [now apply Ht | now apply Hf].
Qed.

Lemma cursor_agrees_intro : forall t l f d o nx, wf_tree_nh t = true -> flatten t = map ent_of l ->
  sorted_keys (map lkey l) = true -> cursor_agrees t (Spec.SBucket o nx (map (sn_of f d) l)).
Proof.
  intros t l f d o nx Hwf Hfl Hs. apply (cursor_agrees_view t l); [exact Hwf | exact Hfl | |].
  - unfold Spec.items_of. cbn [Spec.b_ents]. rewrite !map_map. apply map_ext. intros e.
    symmetry. apply to_item_sn_of.
  - intros k. unfold ref_get. cbn [Spec.b_ents]. rewrite (alookup_sn_of f d l k Hs).
    destruct (find (fun e => beq (lkey e) k) l) as [e|] eqn:Ef; [|reflexivity].
    cbn [option_map]. apply find_some in Ef. destruct Ef as [_ Ek]. apply beq_true in Ek.
    rewrite <- to_item_sn_of with (f := f) (d := d). rewrite (sn_of_eta f d e), Ek. reflexivity.
Qed.

(* ONE BUCKET: the cursor on the tree of a committed bucket returns what the reference returns on its abstraction *)
Theorem read_bucket : forall n d r nx, sbk (S n) d r ->
  exists t, bucket_tree d r = Some t /\ wf_tree_nh t = true /\ cursor_agrees t (abs_bucket (S n) d r nx).
Proof.
  intros n d r nx H. destruct (sbk_bucket n d r H) as (t & l & Ht & Hwf & Hfl & Hpe & Hs & _).
  exists t. split; [exact Ht|]. split; [exact Hwf|]. rewrite abs_bucket_S, Hpe. now apply cursor_agrees_intro.
Qed.

(* the engine side: the root page of the bucket reached from [r] by the names [path], each name looked up by the
   cursor's search on the decoded tree, root page read from the entry it stops on ([None]: a name is absent or names
   a plain value, or a tree cannot be built) *)
Fixpoint root_at (d : disk) (r : N) (path : list bytes) : option N :=
  match path with
  | [] => Some r
  | nm :: rest =>
      match bucket_tree d r with
      | None => None
      | Some t =>
          match get_ent t nm with
          | Some (EBk _ r' _) => root_at d r' rest
          | _ => None
          end
      end
  end.

(* ANY NESTED BUCKET: if the reference has a bucket at [path], the engine state has a tree there (found by
   [root_at]) on which the cursor returns the reference's answers; if the reference has no bucket there (absent,
   or a plain value), neither has the engine state *)
Definition reads_as (d : disk) (r : N) (b : Spec.snode) : Prop :=
  exists t, bucket_tree d r = Some t /\ wf_tree_nh t = true /\ cursor_agrees t b.

Theorem read_at_path : forall n d r nx path, sbk n d r ->
  match Spec.get_at path (abs_bucket n d r nx) with
  | Some (Spec.SBucket o x es) => exists r', root_at d r path = Some r' /\ reads_as d r' (Spec.SBucket o x es)
  | _ => root_at d r path = None
  end.
Proof.
  induction n as [|n IH]; intros d r nx path H; [destruct H|].
  destruct path as [|nm rest].
  - cbn [Spec.get_at root_at]. rewrite abs_bucket_S. exists r. split; [reflexivity|].
    rewrite <- abs_bucket_S. exact (read_bucket n d r nx H).
  - destruct (sbk_bucket n d r H) as (t & l & Ht & Hwf & Hfl & Hpe & Hs & HF).
    cbn [Spec.get_at root_at]. rewrite Ht, (get_ent_spec_nh t nm Hwf), Hfl, find_map_ent_of.
    rewrite abs_bucket_S, Hpe. cbn [Spec.b_ents]. rewrite (alookup_sn_of n d l nm Hs).
    destruct (find (fun e => beq (lkey e) nm) l) as [e|] eqn:Ef; cbn [option_map].
    2:{ reflexivity. }
    apply find_some in Ef. destruct Ef as [Hin _]. rewrite Forall_forall in HF. specialize (HF e Hin).
    destruct e as [k v|k r' nx']; cbn [sn_of snd ent_of].
    + destruct rest as [|nm' rest']; cbn [Spec.get_at Spec.b_ents Spec.alookup]; reflexivity.
    + exact (IH d r' nx' rest HF).
Qed.

Theorem state_read : forall st path, db_strict st ->
  match Spec.get_at path (abs_db st) with
  | Some (Spec.SBucket o x es) =>
      exists r', root_at (d_disk st) (d_root st) path = Some r' /\ reads_as (d_disk st) r' (Spec.SBucket o x es)
  | _ => root_at (d_disk st) (d_root st) path = None
  end.
Proof. intros st path H. exact (read_at_path 16 (d_disk st) (d_root st) (d_next st) path H). Qed.

Lemma db_okz_strict : forall st, db_okz st -> db_strict st.
Proof. intros st [[H _] _]. exact H. Qed.

(* any history from the empty database. What a read transaction on the committed state returns -- get, full
   scan, range scan and seek, by the cursor machine, in the root bucket and in every nested bucket -- is what the
   reference map returns after the same history; where the reference has no bucket, the engine finds none *)
Theorem history_read : forall P txs st', (0 < P)%N -> txs_ok' (init_db P) txs ->
  run_txs (init_db P) txs = Engine.Ok st' ->
  forall path,
  match Spec.get_at path (sem_txs txs (Spec.SBucket 0 0 [])) with
  | Some (Spec.SBucket o x es) =>
      exists r t, root_at (d_disk st') (d_root st') path = Some r /\ bucket_tree (d_disk st') r = Some t /\
        wf_tree_nh t = true /\ cursor_agrees t (Spec.SBucket o x es)
  | _ => root_at (d_disk st') (d_root st') path = None
  end.
Proof.
  intros P txs st' HP Htx Hrun path.
  destruct (run_txs_refines_init' P txs st' HP Htx Hrun) as [Hok Habs].
  pose proof (state_read st' path (db_okz_strict st' Hok)) as H. rewrite Habs in H.
  destruct (Spec.get_at path _) as [[v|o x es]|]; try exact H.
  destruct H as (r & Hr & t & Ht & Hwf & Hag). exists r, t. auto.
Qed.

Corollary history_read_root : forall P txs st', (0 < P)%N -> txs_ok' (init_db P) txs ->
  run_txs (init_db P) txs = Engine.Ok st' ->
  exists t, bucket_tree (d_disk st') (d_root st') = Some t /\ wf_tree_nh t = true /\
    cursor_agrees t (sem_txs txs (Spec.SBucket 0 0 [])).
Proof.
  intros P txs st' HP Htx Hrun. pose proof (history_read P txs st' HP Htx Hrun []) as H.
  destruct (run_txs_refines_init' P txs st' HP Htx Hrun) as [_ Habs].
  cbn [Spec.get_at root_at] in H. rewrite <- Habs in *. unfold abs_db in *. rewrite abs_bucket_S in *.
  destruct H as (r & t & Hr & H). inversion Hr; subst r. exists t. exact H.
Qed.

(* the reference: after an operation applied at [path], the bucket at [path] is the operation's result *)
Lemma sem_at_get_at : forall path f b b', sem_at path f b = Some b' -> exists b0, Spec.get_at path b' = Some (f b0).
Proof.
  induction path as [|nm rest IH]; intros f b b' H; cbn [sem_at] in H.
  - inversion H. exists b. reflexivity.
  - destruct (Spec.alookup nm (Spec.b_ents b)) as [c|] eqn:El.
    + destruct c as [v|o x es]; [discriminate|].
      destruct (sem_at rest f (Spec.SBucket o x es)) as [c'|] eqn:Es; [|discriminate]. inversion H; subst b'.
      cbn [Spec.get_at]. unfold set_ents. cbn [Spec.b_ents]. rewrite alookup_ainsert, beq_refl. eapply IH; eauto.
    + destruct (sem_at rest f (Spec.SBucket 0 0 [])) as [c'|] eqn:Es; [|discriminate]. inversion H; subst b'.
      cbn [Spec.get_at]. unfold set_ents. cbn [Spec.b_ents]. rewrite alookup_ainsert, beq_refl. eapply IH; eauto.
Qed.

(* the reference's put: afterwards the key reads as the value put -- unless it named a bucket (IncompatibleValue:
   no effect); the result is a bucket node in every case *)
Lemma ref_get_sem_put : forall k v b0, exists o x es, sem_put k v b0 = Spec.SBucket o x es /\
  (ref_get (sem_put k v b0) k = Some (Spec.IKv k v) \/
   (ref_get (sem_put k v b0) k = Some (Spec.IBk k) /\
    exists o' x' es', Spec.alookup k (Spec.b_ents b0) = Some (Spec.SBucket o' x' es'))).
Proof.
  intros k v b0. unfold sem_put, ref_get.
  destruct (Spec.alookup k (Spec.b_ents b0)) as [[w|o' x' es']|] eqn:El; unfold set_ents.
  - do 3 eexists. split; [reflexivity|]. left. cbn [Spec.b_ents]. now rewrite alookup_ainsert, beq_refl.
  - destruct b0 as [w|o x es]; [discriminate|]. do 3 eexists. split; [reflexivity|]. right.
    rewrite El. split; [reflexivity | eauto].
  - do 3 eexists. split; [reflexivity|]. left. cbn [Spec.b_ents]. now rewrite alookup_ainsert, beq_refl.
Qed.

Lemma sem_txs_app : forall a b m, sem_txs (a ++ b) m = sem_txs b (sem_txs a m).
Proof. induction a as [|[ops ord] a IH]; intros b m; cbn [app sem_txs]; [reflexivity | apply IH]. Qed.

(* a history whose last committed operation is [Put path k v], accepted by the reference: the engine state has the
   bucket at [path], and the cursor's lookup of [k] in it is the reference's lookup after the put *)
Lemma put_then_read : forall P txs ops ord path k v st' m',
  let hist := txs ++ [(ops ++ [Put path k v], ord)] in
  (0 < P)%N -> txs_ok' (init_db P) hist -> run_txs (init_db P) hist = Engine.Ok st' ->
  sem_at path (sem_put k v) (sem_tx ops (sem_txs txs (Spec.SBucket 0 0 []))) = Some m' ->
  exists r t b0, root_at (d_disk st') (d_root st') path = Some r /\ bucket_tree (d_disk st') r = Some t /\
    Spec.get_at path m' = Some (sem_put k v b0) /\ Cursor.get t k = ref_get (sem_put k v b0) k.
Proof.
  intros P txs ops ord path k v st' m' hist HP Htx Hrun Hsem.
  pose proof (history_read P hist st' HP Htx Hrun path) as H.
  assert (Hm : sem_txs hist (Spec.SBucket 0 0 []) = m').
  { unfold hist. rewrite sem_txs_app. cbn [sem_txs]. rewrite EnginePathFacts.sem_tx_snoc.
    unfold sem_op. cbn [op_path op_fun]. now rewrite Hsem. }
  rewrite Hm in H. destruct (sem_at_get_at path _ _ _ Hsem) as [b0 Hg]. rewrite Hg in H.
  destruct (ref_get_sem_put k v b0) as (o & x & es & E & _). rewrite E in H.
  destruct H as (r & t & Hr & Ht & _ & Hget & _). exists r, t, b0. repeat split; try assumption. rewrite E. apply Hget.
Qed.

(* PUT THEN GET, one theorem across both halves: a history whose last committed operation is [Put path k v].
   If the reference accepts the path (no component of it names a plain value; always so for the root bucket), then in
   the state the ENGINE commits, the bucket at [path] is found, and the CURSOR's point lookup of [k] in it returns
   the value put -- or the bucket item when [k] already named a nested bucket there (the put is then refused with
   IncompatibleValue by library, engine and reference alike) *)
Theorem put_then_get : forall P txs ops ord path k v st' m',
  let hist := txs ++ [(ops ++ [Put path k v], ord)] in
  (0 < P)%N -> txs_ok' (init_db P) hist -> run_txs (init_db P) hist = Engine.Ok st' ->
  sem_at path (sem_put k v) (sem_tx ops (sem_txs txs (Spec.SBucket 0 0 []))) = Some m' ->
  exists r t, root_at (d_disk st') (d_root st') path = Some r /\ bucket_tree (d_disk st') r = Some t /\
    (Cursor.get t k = Some (Spec.IKv k v) \/
     Cursor.get t k = Some (Spec.IBk k)).
Proof.
  intros P txs ops ord path k v st' m' hist HP Htx Hrun Hsem.
  destruct (put_then_read P txs ops ord path k v st' m' HP Htx Hrun Hsem) as (r & t & b0 & Hr & Ht & _ & Hget).
  exists r, t. split; [exact Hr|]. split; [exact Ht|]. rewrite Hget.
  destruct (ref_get_sem_put k v b0) as (_ & _ & _ & _ & [Hc | [Hc _]]); auto.
Qed.

(* the same with the refused case excluded by a hypothesis on the reference *)
Corollary put_then_get_kv : forall P txs ops ord path k v st' m',
  let hist := txs ++ [(ops ++ [Put path k v], ord)] in
  (0 < P)%N -> txs_ok' (init_db P) hist -> run_txs (init_db P) hist = Engine.Ok st' ->
  sem_at path (sem_put k v) (sem_tx ops (sem_txs txs (Spec.SBucket 0 0 []))) = Some m' ->
  (forall b, Spec.get_at path m' = Some b -> ref_get b k <> Some (Spec.IBk k)) ->
  exists r t, root_at (d_disk st') (d_root st') path = Some r /\ bucket_tree (d_disk st') r = Some t /\
    Cursor.get t k = Some (Spec.IKv k v).
Proof.
  intros P txs ops ord path k v st' m' hist HP Htx Hrun Hsem Hnb.
  destruct (put_then_read P txs ops ord path k v st' m' HP Htx Hrun Hsem) as (r & t & b0 & Hr & Ht & Hg & Hget).
  exists r, t. split; [exact Hr|]. split; [exact Ht|]. rewrite Hget.
  destruct (ref_get_sem_put k v b0) as (_ & _ & _ & _ & [Hc | [Hc _]]); [exact Hc|].
  exfalso. exact (Hnb _ Hg Hc).
Qed.

(* the full checker [Tree.wf_tree] (what [Tree.inv_check] demands of every bucket) holds under the equal-height check *)
Theorem reads_as_full : forall d r b t, reads_as d r b -> bucket_tree d r = Some t -> uniform t = true ->
  Tree.wf_tree t = true.
Proof.
  intros d r b t (t' & Ht' & Hwf & _) Ht Hu. rewrite Ht in Ht'. inversion Ht'; subst t'. now apply wf_tree_of_nh.
Qed.

(** * The theorems on the example states of EngineRefines / EngineTxInvFacts *)
Module Examples.
Import Ex3 ExHistory.

(* the two-transaction history: nested bucket kb/km, through [history_read] *)
Example hist_read_km : exists r t,
  root_at (d_disk hist_st) (d_root hist_st) [kb; km] = Some r /\ bucket_tree (d_disk hist_st) r = Some t /\
  Cursor.get t ke = Some (Spec.IKv ke [x04]) /\ Cursor.get t ka = None /\
  Cursor.scan t = Cursor.CVal [Spec.IKv ke [x04]].
Proof.
  pose proof (history_read 4096 hist hist_st eq_refl hist_ok' hist_run_ok [kb; km]) as H.
  assert (E : Spec.get_at [kb; km] (sem_txs hist (Spec.SBucket 0 0 [])) = Some (Spec.SBucket 0 1 [(ke, Spec.SVal [x04])]))
    by (vm_compute; reflexivity).
  rewrite E in H. destruct H as (r & t & Hr & Ht & _ & Hget & Hscan & _). exists r, t.
  rewrite !Hget, Hscan. repeat split; auto.
Qed.

(* bucket kb: a value and a nested bucket; the bucket reads as a bucket item *)
Example hist_read_kb : exists r t,
  root_at (d_disk hist_st) (d_root hist_st) [kb] = Some r /\ bucket_tree (d_disk hist_st) r = Some t /\
  Cursor.get t kd = Some (Spec.IKv kd [x03]) /\ Cursor.get t km = Some (Spec.IBk km) /\ Cursor.get t kc = None /\
  Cursor.scan t = Cursor.CVal [Spec.IKv kd [x03]; Spec.IBk km].
Proof.
  pose proof (history_read 4096 hist hist_st eq_refl hist_ok' hist_run_ok [kb]) as H.
  assert (E : Spec.get_at [kb] (sem_txs hist (Spec.SBucket 0 0 []))
              = Some (Spec.SBucket 0 3 [(kd, Spec.SVal [x03]); (km, Spec.SBucket 0 1 [(ke, Spec.SVal [x04])])]))
    by (vm_compute; reflexivity).
  rewrite E in H. destruct H as (r & t & Hr & Ht & _ & Hget & Hscan & _). exists r, t.
  rewrite !Hget, Hscan. repeat split; auto.
Qed.

(* where the reference has a plain value / nothing, the engine state has no bucket *)
Example hist_read_none :
  root_at (d_disk hist_st) (d_root hist_st) [kb; kd] = None /\ root_at (d_disk hist_st) (d_root hist_st) [ka] = None.
Proof.
  split.
  - exact (history_read 4096 hist hist_st eq_refl hist_ok' hist_run_ok [kb; kd]).
  - exact (history_read 4096 hist hist_st eq_refl hist_ok' hist_run_ok [ka]).
Qed.

(* both sides evaluated directly (no theorem): page ids, the decoded trees, cursor and reference answers *)
Example hist_eval :
  root_at (d_disk hist_st) (d_root hist_st) [kb; km] = Some 2%N /\
  bucket_tree (d_disk hist_st) 2 = Some (TL 2 0 [EKv ke [x04]]) /\
  root_at (d_disk hist_st) (d_root hist_st) [kb] = Some 3%N /\
  bucket_tree (d_disk hist_st) 3 = Some (TL 3 0 [EKv kd [x03]; EBk km 2 1]) /\
  option_map (fun t => Cursor.get t km) (bucket_tree (d_disk hist_st) 3)
    = Some (ref_get (Spec.SBucket 0 3 [(kd, Spec.SVal [x03]); (km, Spec.SBucket 0 1 [(ke, Spec.SVal [x04])])]) km).
Proof. vm_compute. repeat split; reflexivity. Qed.

(* put then get through [put_then_get_kv]: tx1, then a transaction ending in the put of kb/km/ke *)
Definition tx2' : list op * list bytes := ([Del [] ka] ++ [Put [kb; km] ke [x04]], [kb; km]).
Definition hist' : list (list op * list bytes) := [tx1] ++ [tx2'].
Definition hist'_run := Eval vm_compute in run_txs (init_db 4096) hist'.
Definition hist'_st : db := match hist'_run with Engine.Ok st => st | _ => init_db 4096 end.
Example hist'_run_ok : run_txs (init_db 4096) hist' = Engine.Ok hist'_st.
Proof. vm_compute. reflexivity. Qed.
Example hist'_ok : txs_ok' (init_db 4096) hist'.
Proof. apply txs_okb'_ok. vm_compute. reflexivity. Qed.
Example hist'_put_then_get : exists r t,
  root_at (d_disk hist'_st) (d_root hist'_st) [kb; km] = Some r /\ bucket_tree (d_disk hist'_st) r = Some t /\
  Cursor.get t ke = Some (Spec.IKv ke [x04]).
Proof.
  eapply (put_then_get_kv 4096 [tx1] [Del [] ka] [kb; km] [kb; km] ke [x04] hist'_st _ eq_refl hist'_ok hist'_run_ok).
  - vm_compute. reflexivity.
  - intros b Hb. vm_compute in Hb. inversion Hb; subst b. vm_compute. discriminate.
Qed.

(* the transaction of Ex3 (a three-leaf branch tree; rebalance merges two leaves), through [state_read] *)
Example ex3_read_kn : exists r t,
  root_at (d_disk Ex3R.ex3_st') (d_root Ex3R.ex3_st') [kn] = Some r /\ bucket_tree (d_disk Ex3R.ex3_st') r = Some t /\
  (forall k, Cursor.get t k = ref_get (Spec.SBucket 0 6 [(kb, Spec.SVal [x01]); (kc, Spec.SVal [x02]); (kd, Spec.SVal [x03]);
                                                         (kf, Spec.SVal [x05]); (kg, Spec.SVal [x06])]) k) /\
  Cursor.scan t = Cursor.CVal [Spec.IKv kb [x01]; Spec.IKv kc [x02]; Spec.IKv kd [x03]; Spec.IKv kf [x05]; Spec.IKv kg [x06]] /\
  Tree.height t = 1 /\ uniform t = true.
Proof.
  pose proof (state_read Ex3R.ex3_st' [kn] (db_okz_strict _ ex3_st'_okz)) as H.
  assert (E : Spec.get_at [kn] (abs_db Ex3R.ex3_st')
              = Some (Spec.SBucket 0 6 [(kb, Spec.SVal [x01]); (kc, Spec.SVal [x02]); (kd, Spec.SVal [x03]);
                                        (kf, Spec.SVal [x05]); (kg, Spec.SVal [x06])]))
    by (vm_compute; reflexivity).
  rewrite E in H. destruct H as (r & Hr & t & Ht & _ & Hget & Hscan & _). exists r, t.
  split; [exact Hr|]. split; [exact Ht|]. split; [exact Hget|]. split; [exact Hscan|].
  vm_compute in Hr. inversion Hr; subst r. vm_compute in Ht. inversion Ht; subst t. split; reflexivity.
Qed.
(* range scan and seek on the same bucket (a branch over two leaves after the merge), through the theorem *)
Example ex3_range_seek_kn : exists r t,
  root_at (d_disk Ex3R.ex3_st') (d_root Ex3R.ex3_st') [kn] = Some r /\ bucket_tree (d_disk Ex3R.ex3_st') r = Some t /\
  Cursor.range_scan t (Spec.BIncl kc) (Spec.BExcl kf) = Cursor.CVal [Spec.IKv kc [x02]; Spec.IKv kd [x03]] /\
  Cursor.seek_scan t kd = (true, Cursor.CVal [Spec.IKv kd [x03]; Spec.IKv kf [x05]; Spec.IKv kg [x06]]) /\
  (exists l, Cursor.seek_scan t ke = (false, Cursor.CVal l) /\
     (l = [Spec.IKv kd [x03]; Spec.IKv kf [x05]; Spec.IKv kg [x06]] \/ l = [Spec.IKv kf [x05]; Spec.IKv kg [x06]])).
Proof.
  pose proof (state_read Ex3R.ex3_st' [kn] (db_okz_strict _ ex3_st'_okz)) as H.
  assert (E : Spec.get_at [kn] (abs_db Ex3R.ex3_st')
              = Some (Spec.SBucket 0 6 [(kb, Spec.SVal [x01]); (kc, Spec.SVal [x02]); (kd, Spec.SVal [x03]);
                                        (kf, Spec.SVal [x05]); (kg, Spec.SVal [x06])]))
    by (vm_compute; reflexivity).
  rewrite E in H. destruct H as (r & Hr & t & Ht & _ & _ & _ & Hrange & Hseek). exists r, t.
  split; [exact Hr|]. split; [exact Ht|]. split; [rewrite Hrange; vm_compute; reflexivity|]. split.
  - destruct (Hseek kd) as (l & Hl & Hc). vm_compute in Hc. subst l. rewrite Hl. reflexivity.
  - destruct (Hseek ke) as (l & Hl & Hc). exists l. split; [rewrite Hl; reflexivity|]. vm_compute in Hc. exact Hc.
Qed.
End Examples.

(* The COMPLETE committed-state invariant [db_okz] of the refinement theorem does not imply equal leaf depth either:
   a state with the tree of [PInv_not_uniform] satisfies it. (The engine cannot REACH such a state: uniform depth is
   an invariant of its own, EngineDepth; the read specifications above do not need it and are proved from
   [wf_tree_nh].) *)
Definition nu_db : db :=
  {| d_disk := NotUniform.dsk; d_root := 3; d_next := 3; d_np := 7; d_fl := 2; d_fln := 1; d_flids := [];
     d_tx := 1; d_free := []; d_pending := []; d_psz := 4096 |}.
Example db_okz_not_uniform :
  db_okz nu_db /\ bucket_tree (d_disk nu_db) (d_root nu_db) = Some NotUniform.tr /\ Tree.wf_tree NotUniform.tr = false.
Proof.
  split; [|split; vm_compute; reflexivity].
  split; [|reflexivity]. apply db_ok'b_ok; [|vm_compute; reflexivity].
  unfold db_strict. cbn [d_disk d_root nu_db sbk].
  destruct PInv_not_uniform as (HP & Hnd & _).
  exists 3, [LKv NotUniform.ka [x01]; LKv NotUniform.kc [x02]; LKv NotUniform.ke [x03]].
  split; [unfold fuel0; lia|]. split; [exact HP|]. split; [exact Hnd|]. split; [|repeat constructor].
  change [LKv NotUniform.ka [x01]; LKv NotUniform.kc [x02]; LKv NotUniform.ke [x03]]
    with (concat [[LKv NotUniform.ka [x01]]; concat [[LKv NotUniform.kc [x02]; LKv NotUniform.ke [x03]]]]).
  eapply PV_branch; [reflexivity | reflexivity |].
  apply Forall2_cons; [eapply PV_leaf; reflexivity|]. apply Forall2_cons; [|apply Forall2_nil].
  eapply PV_branch; [reflexivity | reflexivity |]. apply Forall2_cons; [eapply PV_leaf; reflexivity | apply Forall2_nil].
Qed.

Module BytesLevel.
Import Codec CodecFacts.
Local Open Scope N_scope.

(* the page body the encoder is given for an abstract page (commit: Page::write_node of the node's data) *)
Definition body_of (a : apage) : pbody :=
  match ap_body a with Leaves l => PLeaf (map ent_of l) | Branches es => PBranch es end.
(* the bytes commit writes at offset [p * P] for the page stored at [p] *)
Definition page_bytes (pad : N -> byte) (p : N) (a : apage) : bytes := encode_page pad p (ap_over a) (body_of a).

(* the physical limits, which the abstract engine (unbounded numbers) cannot know: every field fits its 8 bytes, and
   the node fits its page run *)
Definition page_fits (P p : N) (a : apage) : Prop :=
  p < 2^64 /\ ap_over a < 2^64 /\ body_ok (body_of a) /\ body_size (body_of a) < 2^64 /\
  body_size (body_of a) <= (ap_over a + 1) * P.

(* the size the encoder uses is the size the engine allocates by: [node_size] *)
Lemma body_size_node_size : forall a, body_size (body_of a) = 40 + dsize (ap_body a).
Proof.
  intros a. unfold body_of, body_size. change Meta.page_hdr_size with 40. f_equal.
  destruct (ap_body a) as [l|es]; cbn [dsize].
  - change leaf_hdr with 32. unfold llen. rewrite map_length. generalize (32 * N.of_nat (List.length l)).
    induction l as [|e l IH]; intros acc; [reflexivity|]. cbn [map fold_left]. rewrite IH. f_equal.
    destruct e as [k v|k r nx]; cbn [ent_of lent_key lent_val lsize]; [lia|].
    unfold blen at 2. rewrite app_length, !BytesFacts.le_enc_length. unfold blen. lia.
  - reflexivity.
Qed.

(* ONE PAGE: decode (encode page) = page *)
Theorem encode_decode_apage : forall pad P p a rd, 0 < P -> page_fits P p a ->
  reads_buffer rd (p * P) (page_bytes pad p a) ->
  decode_page rd P p = Ok (mkPhdr p (body_type (body_of a)) (body_count (body_of a)) (ap_over a), body_of a).
Proof. intros pad P p a rd HP (H1 & H2 & H3 & H4 & H5) Hrd. now apply (codec_page pad). Qed.

(* the file holds, for every page of the set [R], the bytes the model writes for it *)
Definition file_encodes (pad : N -> byte) (rd : reader) (P : N) (d : disk) (R : list N) : Prop :=
  forall p a, In p R -> dget d p = Some a -> page_fits P p a /\ reads_buffer rd (p * P) (page_bytes pad p a).

Lemma Forall2_mapM : forall {A B} (f : A -> res B) l ys, Forall2 (fun x y => f x = Ok y) l ys -> mapM f l = Ok ys.
Proof. intros A B f l ys H. induction H as [|x y l ys Hx _ IH]; [reflexivity|]. cbn [mapM]. rewrite Hx. cbn [bind]. now rewrite IH. Qed.

(* THE TREE: the read half's [build_tree], run on the bytes, builds the tree [tree_of] of the abstract pages *)
Theorem build_tree_of : forall pad rd P d R, (0 < P) -> closedR d R -> file_encodes pad rd P d R ->
  forall f r t, In r R -> tree_of f d r = Some t -> Tree.build_tree f rd P r = Ok t.
Proof.
  intros pad rd P d R HP HC HE. induction f as [|f IH]; intros r t Hr Ht; [discriminate|].
  cbn [tree_of] in Ht. destruct (dget d r) as [a|] eqn:Hg; [|discriminate].
  destruct (HE r a Hr Hg) as [Hfit Hrd].
  cbn [Tree.build_tree]. rewrite (encode_decode_apage pad P r a rd HP Hfit Hrd). cbn [bind].
  pose proof (HC r a Hr Hg) as Hcl. unfold body_of. destruct (ap_body a) as [l|es] eqn:Hb.
  - cbn [ph_overflow]. now inversion Ht.
  - assert (Ht' : tree_of (S f) d r = Some t) by (cbn [tree_of]; now rewrite Hg, Hb).
    destruct (tree_of_branch_inv f d r a es t Hg Hb Ht') as (ks & -> & HF).
    rewrite (Forall2_mapM _ es ks); [reflexivity|].
    assert (Hin : forall e, In e es -> In (snd e) R) by exact Hcl.
    clear -HF IH Hin. induction HF as [|e [k c] es ks [E1 E2] _ IHF]; constructor.
    + cbn [fst snd] in *. rewrite (IH (snd e) c (Hin e (or_introl eq_refl)) E2). cbn [bind]. now rewrite E1.
    + apply IHF. intros e' He'. apply Hin. now right.
Qed.

(* navigation on the bytes: as [root_at], each bucket's tree built by the read half's [build_tree] from the file *)
Fixpoint root_at_b (rd : reader) (P : N) (r : N) (path : list bytes) : option N :=
  match path with
  | [] => Some r
  | nm :: rest =>
      match Tree.build_tree fuel0 rd P r with
      | Bad _ => None
      | Ok t =>
          match get_ent t nm with
          | Some (EBk _ r' _) => root_at_b rd P r' rest
          | _ => None
          end
      end
  end.

Lemma root_at_bytes : forall pad rd P d R, (0 < P) -> closedR d R -> file_encodes pad rd P d R ->
  forall path n r, In r R -> sbk n d r ->
    root_at_b rd P r path = root_at d r path /\ (forall r', root_at d r path = Some r' -> In r' R).
Proof.
  intros pad rd P d R HP HC HE. induction path as [|nm rest IH]; intros n r Hr Hs.
  - cbn [root_at_b root_at]. split; [reflexivity|]. intros r' E. inversion E; subst r'. exact Hr.
  - destruct n as [|n]; [destruct Hs|].
    destruct (sbk_bucket n d r Hs) as (t & l & Ht & Hwf & Hfl & Hpe & Hso & HF).
    cbn [root_at_b root_at]. rewrite Ht. unfold bucket_tree in Ht.
    rewrite (build_tree_of pad rd P d R HP HC HE fuel0 r t Hr Ht).
    rewrite (get_ent_spec_nh t nm Hwf), Hfl, find_map_ent_of.
    destruct (find (fun e => beq (lkey e) nm) l) as [e|] eqn:Ef; cbn [option_map].
    2:{ split; [reflexivity | discriminate]. }
    apply find_some in Ef. destruct Ef as [Hin _].
    destruct e as [k v|k r' nx']; cbn [ent_of]; [split; [reflexivity | discriminate]|].
    rewrite Forall_forall in HF. specialize (HF _ Hin). cbn beta iota in HF.
    destruct (tree_of_PageView fuel0 d r t Ht) as (l' & Hv & Hfl').
    assert (l' = l).
    { rewrite Hfl in Hfl'. clear -Hfl'. revert l' Hfl'. induction l as [|x l IHl]; intros [|y l'] H; try discriminate; auto.
      cbn [map] in H. inversion H as [[H1 H2]]. apply ent_of_inj in H1. subst y. f_equal. now apply IHl. }
    subst l'. pose proof (closed_view_entry d R fuel0 r l k r' nx' HC Hr Hv Hin) as Hr'.
    exact (IH n r' Hr' HF).
Qed.

(* a committed state and a file holding the bytes of its reachable pages ([Rof st] = every head page of the nested
   bucket tree; stale pages of the abstract disk, which may overlap live ones, are of no concern) *)
Theorem state_read_bytes : forall st pad rd P, db_okz st -> 0 < P -> file_encodes pad rd P (d_disk st) (Rof st) ->
  forall path,
  match Spec.get_at path (abs_db st) with
  | Some (Spec.SBucket o x es) =>
      exists r t, root_at_b rd P (d_root st) path = Some r /\ Tree.build_tree fuel0 rd P r = Ok t /\
        wf_tree_nh t = true /\ cursor_agrees t (Spec.SBucket o x es)
  | _ => root_at_b rd P (d_root st) path = None
  end.
Proof.
  intros st pad rd P Hok HP HE path.
  pose proof (db_okz_strict st Hok) as Hs. destruct Hok as [(_ & Hal & _) _].
  destruct Hal as (_ & _ & _ & _ & _ & _ & Hroot & HC & _).
  destruct (root_at_bytes pad rd P (d_disk st) (Rof st) HP HC HE path 16 (d_root st) Hroot Hs) as [E Hin].
  pose proof (state_read st path Hs) as H. rewrite E.
  destruct (Spec.get_at path (abs_db st)) as [[v|o x es]|]; try exact H.
  destruct H as (r & Hr & t & Ht & Hwf & Hag). exists r, t. split; [exact Hr|].
  split; [|auto]. exact (build_tree_of pad rd P _ _ HP HC HE fuel0 r t (Hin r Hr) Ht).
Qed.

(* any history from the empty database, any file that holds the bytes the model writes for the reachable
   pages of the committed state: the read half -- page decoder, tree builder, cursor -- run on those BYTES returns
   the reference's answers, in the root bucket and in every nested bucket *)
Theorem history_read_bytes : forall P0 txs st' pad rd P, (0 < P0) -> txs_ok' (init_db P0) txs ->
  run_txs (init_db P0) txs = Engine.Ok st' ->
  0 < P -> file_encodes pad rd P (d_disk st') (Rof st') ->
  forall path,
  match Spec.get_at path (sem_txs txs (Spec.SBucket 0 0 [])) with
  | Some (Spec.SBucket o x es) =>
      exists r t, root_at_b rd P (d_root st') path = Some r /\ Tree.build_tree fuel0 rd P r = Ok t /\
        wf_tree_nh t = true /\ cursor_agrees t (Spec.SBucket o x es)
  | _ => root_at_b rd P (d_root st') path = None
  end.
Proof.
  intros P0 txs st' pad rd P HP0 Htx Hrun HP HE path.
  destruct (run_txs_refines_init' P0 txs st' HP0 Htx Hrun) as [Hok Habs].
  rewrite <- Habs. exact (state_read_bytes st' pad rd P Hok HP HE path).
Qed.

Lemma slice_splice_inside : forall z o v o' l,
  (N.to_nat o + List.length v <= List.length z)%nat -> o' + l <= blen v ->
  slice (splice z o v) (o + o') l = slice v o' l.
Proof.
  intros z o v o' l Hz Hv. unfold blen in Hv.
  rewrite BytesFacts.slice_some by (rewrite BytesFacts.splice_length by assumption; lia).
  rewrite BytesFacts.slice_some by lia. f_equal. apply BytesFacts.nth_error_ext'. intros i.
  rewrite !BytesFacts.nth_error_firstn'. destruct (Nat.ltb_spec i (N.to_nat l)) as [L|L]; [|reflexivity].
  rewrite !BytesFacts.nth_error_skipn', BytesFacts.nth_error_splice by assumption.
  destruct (Nat.ltb_spec (N.to_nat (o + o') + i) (N.to_nat o)); [lia|].
  destruct (Nat.ltb_spec (N.to_nat (o + o') + i) (N.to_nat o + List.length v)); [|lia].
  f_equal. lia.
Qed.

(* every listed page written at its position into [z] *)
Definition image (pad : N -> byte) (P : N) (d : disk) (R : list N) (z : bytes) : bytes :=
  fold_right (fun p f => match dget d p with Some a => splice f (p * P) (page_bytes pad p a) | None => f end) z R.

Lemma prun_some : forall d p a, dget d p = Some a -> prun d p = nrun p (ap_over a + 1).
Proof. intros d p a H. unfold prun. now rewrite H. Qed.

Lemma image_spec : forall pad P d np, 0 < P -> forall R z, List.length z = N.to_nat (np * P) ->
  NoDup (flat_map (prun d) R) ->
  (forall p a, In p R -> dget d p = Some a -> page_fits P p a) ->
  (forall x, In x (flat_map (prun d) R) -> x < np) ->
  List.length (image pad P d R z) = List.length z /\
  forall p a, In p R -> dget d p = Some a -> forall o l, o + l <= blen (page_bytes pad p a) ->
    slice (image pad P d R z) (p * P + o) l = slice (page_bytes pad p a) o l.
Proof.
  intros pad P d np HP. induction R as [|q R IH]; intros z Hz Hnd Hfit Hnp.
  - split; [reflexivity|]. intros p a [].
  - cbn [flat_map] in Hnd, Hnp. cbn [image fold_right]. fold (image pad P d R z).
    destruct (IH z Hz (NoDup_app_r _ _ Hnd) (fun p a Hp => Hfit p a (or_intror Hp))
                (fun x Hx => Hnp x (in_or_app _ _ _ (or_intror Hx)))) as [IHlen IHrd].
    destruct (dget d q) as [aq|] eqn:Hq.
    2:{ split; [exact IHlen|]. intros p a [->|Hp] Hg; [congruence | now apply IHrd]. }
    destruct (Hfit q aq (or_introl eq_refl) Hq) as (_ & _ & _ & _ & Hroomq).
    pose proof (CodecFacts.encode_page_length pad q (ap_over aq) (body_of aq)) as Hlq. fold (page_bytes pad q aq) in Hlq.
    assert (Hinq : forall x, q <= x < q + (ap_over aq + 1) -> x < np).
    { intros x Hx. apply Hnp. apply in_or_app. left. rewrite (prun_some d q aq Hq). now apply In_nrun. }
    assert (Hzq : (N.to_nat (q * P) + List.length (page_bytes pad q aq) <= List.length (image pad P d R z))%nat).
    { rewrite IHlen, Hz. unfold blen in Hlq. specialize (Hinq (q + ap_over aq) ltac:(lia)). nia. }
    split; [rewrite BytesFacts.splice_length by exact Hzq; exact IHlen|].
    intros p a [->|Hp] Hg o l Hol.
    + rewrite Hq in Hg. inversion Hg; subst a. now apply slice_splice_inside.
    + destruct (Hfit p a (or_intror Hp) Hg) as (_ & _ & _ & _ & Hroomp).
      pose proof (CodecFacts.encode_page_length pad p (ap_over a) (body_of a)) as Hlp. fold (page_bytes pad p a) in Hlp.
      rewrite BytesFacts.slice_splice_other; [now apply IHrd | exact Hzq |].
      (* the two page runs are disjoint integer intervals *)
      assert (Hdis : forall x, q <= x < q + (ap_over aq + 1) -> p <= x < p + (ap_over a + 1) -> False).
      { intros x Hx1 Hx2. apply (NoDup_app_disj _ _ x Hnd).
        - rewrite (prun_some d q aq Hq). now apply In_nrun.
        - apply in_flat_map. exists p. split; [exact Hp|]. rewrite (prun_some d p a Hg). now apply In_nrun. }
      unfold blen in Hlq. rewrite <- Hlq in Hroomq. rewrite Hlp in Hol.
      destruct (N.le_gt_cases p q) as [Hpq|Hpq].
      * left. assert (p + (ap_over a + 1) <= q) by (apply N.le_ngt; intros Hc; apply (Hdis q); lia). nia.
      * right. assert (q + (ap_over aq + 1) <= p) by (apply N.le_ngt; intros Hc; apply (Hdis p); lia).
        unfold blen. nia.
Qed.

(* the image of the reachable pages of a state satisfying the invariant encodes them *)
Theorem image_encodes : forall st pad P, db_okz st -> 0 < P ->
  (forall p a, In p (Rof st) -> dget (d_disk st) p = Some a -> page_fits P p a) ->
  file_encodes pad (reader_of (image pad P (d_disk st) (Rof st) (zeros (N.to_nat (d_np st * P))))) P (d_disk st) (Rof st).
Proof.
  intros st pad P [(_ & Hal & Hnd & _) _] HP Hfit.
  destruct Hal as (_ & _ & _ & _ & _ & _ & _ & _ & Hlive).
  destruct (image_spec pad P (d_disk st) (d_np st) HP (Rof st) (zeros (N.to_nat (d_np st * P)))
              (BytesFacts.zeros_length _) (NoDup_app_l _ _ Hnd) Hfit) as [_ Hrd].
  { intros x Hx. apply (Hlive x). unfold live_of. apply in_or_app. now left. }
  intros p a Hp Hg. split; [now apply Hfit|]. intros o l Hol. unfold reader_of. now apply Hrd.
Qed.

(* in closed form: write the committed state's reachable pages with the page encoder into a zeroed file; the
   read half on that file returns the reference's answers. The only hypothesis beyond the history is that the pages
   respect the physical limits ([page_fits]: 8-byte fields, node within its run) *)
Theorem history_image_read : forall P0 txs st' pad P, (0 < P0) -> txs_ok' (init_db P0) txs ->
  run_txs (init_db P0) txs = Engine.Ok st' -> 0 < P ->
  (forall p a, In p (Rof st') -> dget (d_disk st') p = Some a -> page_fits P p a) ->
  let rd := reader_of (image pad P (d_disk st') (Rof st') (zeros (N.to_nat (d_np st' * P)))) in
  forall path,
  match Spec.get_at path (sem_txs txs (Spec.SBucket 0 0 [])) with
  | Some (Spec.SBucket o x es) =>
      exists r t, root_at_b rd P (d_root st') path = Some r /\ Tree.build_tree fuel0 rd P r = Ok t /\
        wf_tree_nh t = true /\ cursor_agrees t (Spec.SBucket o x es)
  | _ => root_at_b rd P (d_root st') path = None
  end.
Proof.
  intros P0 txs st' pad P HP0 Htx Hrun HP Hfit rd path.
  destruct (run_txs_refines_init' P0 txs st' HP0 Htx Hrun) as [Hok _].
  exact (history_read_bytes P0 txs st' pad rd P HP0 Htx Hrun HP (image_encodes st' pad P Hok HP Hfit) path).
Qed.

(* [page_fits] decided, for the examples *)
Definition lent_okb (e : lent) : bool :=
  (blen (lent_key e) <? 2^64) && (blen (lent_val e) <? 2^64) &&
  match e with EBk _ r n => (r <? 2^64) && (n <? 2^64) | EKv _ _ => true end.
Definition body_okb (b : pbody) : bool :=
  match b with
  | PLeaf l => forallb lent_okb l
  | PBranch es => forallb (fun e : bytes * N => (blen (fst e) <? 2^64) && (snd e <? 2^64)) es
  | PFree ids => forallb (fun i => i <? 2^64) ids
  end.
Definition page_fitsb (P p : N) (a : apage) : bool :=
  (p <? 2^64) && (ap_over a <? 2^64) && body_okb (body_of a) && (body_size (body_of a) <? 2^64) &&
  (body_size (body_of a) <=? (ap_over a + 1) * P).
Definition fitsb (P : N) (d : disk) (R : list N) : bool :=
  forallb (fun p => match dget d p with Some a => page_fitsb P p a | None => true end) R.

Lemma body_okb_ok : forall b, body_okb b = true -> body_ok b.
Proof.
  intros [l|es|ids] H; cbn [body_okb body_ok] in *; rewrite forallb_forall in H; apply Forall_forall; intros x Hx;
    specialize (H x Hx).
  - unfold lent_okb in H. apply andb_true_iff in H. destruct H as [H H3]. apply andb_true_iff in H. destruct H as [H1 H2].
    apply N.ltb_lt in H1. apply N.ltb_lt in H2. split; [exact H1|]. split; [exact H2|].
    destruct x as [k v|k r n]; [exact I|]. apply andb_true_iff in H3. destruct H3 as [H3 H4].
    apply N.ltb_lt in H3. apply N.ltb_lt in H4. auto.
  - apply andb_true_iff in H. destruct H as [H1 H2]. apply N.ltb_lt in H1. apply N.ltb_lt in H2. auto.
  - now apply N.ltb_lt in H.
Qed.

Lemma fitsb_ok : forall P d R, fitsb P d R = true -> forall p a, In p R -> dget d p = Some a -> page_fits P p a.
Proof.
  intros P d R H p a Hp Hg. unfold fitsb in H. rewrite forallb_forall in H. specialize (H p Hp). rewrite Hg in H.
  unfold page_fitsb in H. repeat (apply andb_true_iff in H; destruct H as [H ?]).
  repeat match goal with Hx : (_ <? _) = true |- _ => apply N.ltb_lt in Hx | Hx : (_ <=? _) = true |- _ => apply N.leb_le in Hx end.
  unfold page_fits. repeat split; auto. now apply body_okb_ok.
Qed.
End BytesLevel.

Module BytesExamples.
Import BytesLevel Codec CodecFacts.
Local Open Scope N_scope.
(* the byte level on the two-transaction history *)
Import Ex3 ExHistory.
Definition ex_pad : N -> byte := fun _ => xa5.          (* what the implementation leaves uninitialised *)
Definition hist_file : bytes :=
  image ex_pad 4096 (d_disk hist_st) (Rof hist_st) (zeros (N.to_nat (d_np hist_st * 4096))).

Example hist_fits : forall p a, In p (Rof hist_st) -> dget (d_disk hist_st) p = Some a -> page_fits 4096 p a.
Proof. apply fitsb_ok. vm_compute. reflexivity. Qed.

(* through the theorem: the nested bucket kb/km read from the file *)
Example hist_file_read_km : exists r t,
  root_at_b (reader_of hist_file) 4096 (d_root hist_st) [kb; km] = Some r /\
  Tree.build_tree fuel0 (reader_of hist_file) 4096 r = Ok t /\
  Cursor.get t ke = Some (Spec.IKv ke [x04]) /\ Cursor.scan t = Cursor.CVal [Spec.IKv ke [x04]].
Proof.
  pose proof (history_image_read 4096 hist hist_st ex_pad 4096 eq_refl hist_ok' hist_run_ok eq_refl hist_fits [kb; km]) as H.
  cbv zeta in H. unfold hist_file.
  assert (E : Spec.get_at [kb; km] (sem_txs hist (Spec.SBucket 0 0 [])) = Some (Spec.SBucket 0 1 [(ke, Spec.SVal [x04])]))
    by (vm_compute; reflexivity).
  rewrite E in H. destruct H as (r & t & Hr & Ht & _ & Hget & Hscan & _). exists r, t.
  split; [exact Hr|]. split; [exact Ht|]. rewrite Hget, Hscan. split; reflexivity.
Qed.

(* evaluated directly: 8 pages of 4096 bytes, decoded and searched *)
Example hist_file_eval :
  blen hist_file = 36864 /\
  root_at_b (reader_of hist_file) 4096 (d_root hist_st) [kb; km] = Some 2 /\
  Tree.build_tree fuel0 (reader_of hist_file) 4096 2 = Ok (TL 2 0 [EKv ke [x04]]) /\
  Tree.build_tree fuel0 (reader_of hist_file) 4096 (d_root hist_st) = Ok (TL 7 0 [EBk kb 3 3]) /\
  bucket_tree (d_disk hist_st) (d_root hist_st) = Some (TL 7 0 [EBk kb 3 3]).
Proof. vm_compute. repeat split; reflexivity. Qed.
End BytesExamples.

Print Assumptions tree_of_flatten.
Print Assumptions PageView_tree.
Print Assumptions wf_tree_split.
Print Assumptions get_spec_nh.
Print Assumptions get_ent_spec_nh.
Print Assumptions scan_spec_nh.
Print Assumptions seek_spec_nh.
Print Assumptions range_spec_nh.
Print Assumptions cursor_agrees_intro.
Print Assumptions PInv_wf_nh.
Print Assumptions PInv_tree.
Print Assumptions PInv_not_uniform.
Print Assumptions db_okz_not_uniform.
Print Assumptions read_bucket.
Print Assumptions read_at_path.
Print Assumptions state_read.
Print Assumptions history_read.
Print Assumptions history_read_root.
Print Assumptions put_then_get.
Print Assumptions put_then_get_kv.
Print Assumptions reads_as_full.
Print Assumptions BytesLevel.encode_decode_apage.
Print Assumptions BytesLevel.build_tree_of.
Print Assumptions BytesLevel.state_read_bytes.
Print Assumptions BytesLevel.history_read_bytes.
Print Assumptions BytesLevel.image_encodes.
Print Assumptions BytesLevel.history_image_read.
Print Assumptions BytesLevel.fitsb_ok.
Print Assumptions Examples.hist_read_km.
Print Assumptions Examples.hist'_put_then_get.
Print Assumptions Examples.ex3_read_kn.
Print Assumptions Examples.ex3_range_seek_kn.
Print Assumptions BytesExamples.hist_file_read_km.
Print Assumptions BytesExamples.hist_file_eval.
