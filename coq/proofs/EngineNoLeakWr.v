(* Exact accounting of the allocator state through the writes of the spill ([xframe]): nothing vanishes -- a page
   that is free, pending or written stays free, pending or written; growth of the file is written. And the
   completeness facts of [write_node] and of the tail of [spill_node]. *)
From Coq Require Import List NArith Bool Arith Lia ZifyN ZifyNat ZifyBool.
From Coq.Strings Require Import Byte.
From Jamm Require Spec.
From Jamm Require Import Bytes BytesFacts Tree Cursor SearchFacts Engine EngineAbs EngineFacts EngineMergeFacts.
From Jamm Require Import EngineModifyFacts EngineSpillFacts EnginePathFacts EngineBridgeFacts EngineRebalanceFacts.
From Jamm Require FreelistFacts EngineAllocFacts EngineSpillWfFacts.
From Jamm Require Import EngineTxInvFacts EngineSpillBucketFacts EngineRefines.
From Jamm Require Import EngineOwnDefs EngineOwnWr.
Import ListNotations.
Import Coq.Strings.String.StringSyntax. Delimit Scope string_scope with string.
Local Open Scope list_scope. Local Open Scope nat_scope.
Set Warnings "-abstract-large-number".

(* x lies in a page run written by the running transaction *)
Definition Wr (s : txs) (x : N) : Prop := exists q v, wr_get (wr s) q = Some v /\ In x (wrun (psz s) q v).

(* x is accounted for by the transaction state: free, pending or written *)
Definition Acc (s : txs) (x : N) : Prop := In x (free s) \/ In x (pend_all (pending s)) \/ Wr s x.

Record xframe (s s' : txs) : Prop := {
  xf_np : (np s <= np s')%N;
  xf_acc : forall x, Acc s x -> Acc s' x;
  xf_new : forall x, (np s <= x < np s')%N -> Acc s' x;
  xf_wr : forall q v, wr_get (wr s) q = Some v -> wr_get (wr s') q = Some v;
  xf_psz : psz s' = psz s;
  xf_freed : forall x, freed_in_tx s x = true -> freed_in_tx s' x = true }.

Lemma xframe_refl : forall s, xframe s s.
Proof. intros s. constructor; auto; [lia | intros x Hx; lia]. Qed.

Lemma xframe_trans : forall s1 s2 s3, xframe s1 s2 -> xframe s2 s3 -> xframe s1 s3.
Proof.
  intros s1 s2 s3 [A1 A2 A3 A4 A5 A6] [B1 B2 B3 B4 B5 B6]. constructor.
  - lia.
  - auto.
  - intros x Hx. destruct (N.lt_ge_cases x (np s2)) as [Hlt|Hge]; [apply B2, A3; lia | apply B3; lia].
  - auto.
  - congruence.
  - auto.
Qed.

(* a step that changes neither the free set, the high-water mark nor the write set, and only adds to the
   pending lists *)
Lemma xframe_frees : forall s s', free s' = free s -> np s' = np s -> wr s' = wr s -> psz s' = psz s ->
  (forall x, In x (pend_all (pending s)) -> In x (pend_all (pending s'))) ->
  (forall x, freed_in_tx s x = true -> freed_in_tx s' x = true) -> xframe s s'.
Proof.
  intros s s' E1 E2 E3 E4 Hp Hf. constructor.
  - lia.
  - intros x [H|[H|(q & v & H1 & H2)]]; [left; congruence | right; left; auto|].
    right; right. exists q, v. rewrite E3, E4. auto.
  - intros x Hx. lia.
  - intros q v H. now rewrite E3.
  - exact E4.
  - exact Hf.
Qed.

Lemma xframe_seqc : forall s s', same_but_seqc s s' -> xframe s s'.
Proof.
  intros s s' (A1 & A2 & A3 & A4 & A5 & A6 & A7 & A8).
  apply xframe_frees; try congruence.
  intros x Hx. unfold freed_in_tx in *. rewrite A2, A3. exact Hx.
Qed.

Lemma xframe_free_pages : forall s p n, xframe s (free_pages s p n).
Proof.
  intros s p n. destruct (free_pages_fields s p n) as (F1 & F2 & F3 & F4 & F5 & _).
  apply xframe_frees; auto.
  - intros x Hx. apply EngineAllocFacts.engine_free_pend_all. now left.
  - intros x Hx. apply free_pages_freed. now left.
Qed.

Lemma xframe_free_node_page : forall s n, xframe s (free_node_page s n).
Proof.
  intros s n. unfold free_node_page. destruct (n_page n =? 0)%N; [apply xframe_refl | apply xframe_free_pages].
Qed.

Lemma alloc_exact : forall live s b p n s', fresh_inv live s -> (0 < b)%N -> tx_allocate s b = (p, n, s') ->
  (forall x, In x (free s) -> In x (free s') \/ (p <= x < p + n)%N) /\
  (forall x, (np s <= x < np s')%N -> (p <= x < p + n)%N).
Proof.
  intros live s b p n s' [H1 H2 H3 H4 H5 H6] Hb Hal.
  destruct (EngineAllocFacts.engine_alloc_spec s b p n s' H3 H4 H1 Hb Hal)
    as (Hn & Hn0 & Etx & Epsz & Epd & Ewr & Eflw & Eseq & _ & Hcase).
  destruct Hcase as [(Enp & Hin & Hfree' & _) | (Ep & Enp & Efree & _)].
  - split.
    + intros x Hx. destruct (N.le_gt_cases p x) as [Hl|Hl]; [destruct (N.lt_ge_cases x (p + n)) as [Hu|Hu]|].
      * right. lia.
      * left. apply Hfree'. split; [exact Hx | lia].
      * left. apply Hfree'. split; [exact Hx | lia].
    + intros x Hx. lia.
  - split; [intros x Hx; left; now rewrite Efree | intros x Hx; lia].
Qed.

(* the node written by [write_node]: where, what, and the exact effect on the allocator state *)
Theorem write_node_cov : forall live s n n' s', fresh_inv live s -> (forall q, wr_get (wr s) q <> None -> In q live) ->
  write_node s n = (n', s') ->
  let p := n_page n' in let k := n_np n' in
  xframe s s' /\
  n' = set_page n p k /\ (2 <= p)%N /\ (0 < k)%N /\
  wr s' = wr_put (wr s) p (node_size n, n_data n) /\
  wrun (psz s') p (node_size n, n_data n) = nrun p k /\
  (forall x, freed_in_tx s' x = true <-> freed_in_tx s x = true \/ old_run n x) /\
  (forall q, wr_get (wr s) q <> None -> q <> p) /\
  fresh_inv (nrun p k ++ live) s' /\
  (forall q, wr_get (wr s') q <> None -> In q (nrun p k ++ live)).
Proof.
  intros live s n n' s' Hfi Hwl Hw.
  assert (Hex : (forall x, In x (free s) -> In x (free s') \/ (n_page n' <= x < n_page n' + n_np n')%N) /\
                (forall x, (np s <= x < np s')%N -> (n_page n' <= x < n_page n' + n_np n')%N)).
  { destruct (write_node_inv _ _ _ _ Hw) as (s2 & Hal & _ & ->).
    destruct (free_node_page_fields s n) as (F1 & F2 & _).
    destruct (alloc_exact live _ _ _ _ _ (free_node_page_fresh live s n Hfi) (node_size_pos n) Hal) as [X1 X2].
    cbn [np upd_wr free]. rewrite F1, F2 in *. split; [exact X1 | exact X2]. }
  pose proof (write_node_spec _ _ _ _ _ Hfi Hw) as Hs. cbv zeta in Hs |- *.
  destruct Hs as (En & Ek & Hk0 & Hp2 & Hnl & Hfi' & Ewr & Etx & Epsz & _ & _ & Hnp & Hfr & Hfreed & _ & Epd).
  set (p := n_page n') in *. set (k := n_np n') in *.
  assert (Erun : wrun (psz s') p (node_size n, n_data n) = nrun p k).
  { rewrite Epsz, wrun_pages_for; [now rewrite <- Ek | rewrite <- Ek; exact Hk0]. }
  assert (Hnew : forall q, wr_get (wr s) q <> None -> q <> p).
  { intros q Hq ->. apply (Hnl p); [lia | now apply Hwl]. }
  assert (Hmono : forall q v, wr_get (wr s) q = Some v -> wr_get (wr s') q = Some v).
  { intros q v Hq. rewrite Ewr, wr_get_put. destruct (N.eqb_spec p q) as [E|E]; [|exact Hq].
    exfalso. apply (Hnew q); [congruence | now symmetry]. }
  destruct Hex as [X1 X2].
  assert (Hwnew : forall x, (p <= x < p + k)%N -> Wr s' x).
  { intros x Hx. exists p, (node_size n, n_data n). split; [rewrite Ewr, wr_get_put, N.eqb_refl; reflexivity|].
    rewrite Erun. now apply In_nrun. }
  split; [|repeat (split; [assumption|])].
  - constructor; [exact Hnp | | | exact Hmono | exact Epsz |].
    + intros x [H|[H|(q & v & H1 & H2)]].
      * destruct (X1 x H) as [A|A]; [now left | right; right; now apply Hwnew].
      * right; left. rewrite Epd. apply free_node_page_pend_all. now left.
      * right; right. exists q, v. rewrite Epsz. auto.
    + intros x Hx. right; right. apply Hwnew, X2, Hx.
    + intros x Hx. apply Hfreed. now left.
  - intros q Hq. rewrite Ewr, wr_get_put in Hq. destruct (N.eqb_spec p q) as [E|E].
    + subst q. apply in_or_app. left. apply In_nrun. lia.
    + apply in_or_app. right. now apply Hwl.
Qed.

Lemma sibs_fold_cov : forall rest live l s0 sibs s',
  fresh_inv live s0 -> (forall q, wr_get (wr s0) q <> None -> In q live) ->
  fold_res spill_sib_step rest (l, s0) = Ok (sibs, s') ->
  xframe s0 s' /\ (forall x, freed_in_tx s' x = true -> freed_in_tx s0 x = true) /\
  exists new, sibs = l ++ new /\
    forall q, wr_get (wr s') q <> None -> wr_get (wr s0) q <> None \/ In q (map snd new).
Proof.
  induction rest as [|dd rest IH]; intros live l s0 sibs s' Hfi Hwl H; cbn [fold_res] in H.
  - inversion H; subst. split; [apply xframe_refl|]. split; [auto|]. exists []. rewrite app_nil_r. auto.
  - apply bind_ok_inv in H. destruct H as ([l1 s1] & Hst & H). unfold spill_sib_step in Hst.
    destruct (first_key dd) as [fk| |]; cbn [bind] in Hst; try discriminate.
    destruct (write_node s0 (Node 0 0 (Some fk) 0 dd [])) as [sn s2] eqn:Hwn. inversion Hst; subst l1 s1. clear Hst.
    pose proof (write_node_cov live s0 _ sn s2 Hfi Hwl Hwn) as Hc. cbv zeta in Hc.
    destruct Hc as (X1 & En & _ & _ & Ewr & _ & Hfreed & _ & Hfi2 & Hwl2).
    destruct (IH _ _ _ _ _ Hfi2 Hwl2 H) as (X2 & Hf2 & new & Es & Hnew).
    split; [eapply xframe_trans; eauto|]. split.
    + intros x Hx. apply Hf2 in Hx. apply Hfreed in Hx. destruct Hx as [Hx|[Hx _]]; [exact Hx|]. cbn [n_page] in Hx. now contradiction Hx.
    + exists ((fk, n_page sn) :: new). split; [rewrite Es, <- app_assoc; reflexivity|].
      intros q Hq. destruct (Hnew q Hq) as [A|A]; [|right; right; exact A].
      rewrite Ewr, wr_get_put in A. destruct (N.eqb_spec (n_page sn) q) as [E|E]; [right; left; exact E | now left].
Qed.

(* every page written by the tail of [spill_node] is a page of the output, or belongs to the stale first copy
   (whose run the second write handed back) *)
Theorem spill_tail_cov : forall live n d1 s1 orig fk p sibs s',
  fresh_inv live s1 -> (forall q, wr_get (wr s1) q <> None -> In q live) ->
  spill_tail n d1 s1 = Ok ((orig, (fk, p), sibs), s') ->
  xframe s1 s' /\
  (forall x, old_run n x -> freed_in_tx s' x = true) /\
  (forall q v x, wr_get (wr s') q = Some v -> In x (wrun (psz s') q v) ->
     wr_get (wr s1) q <> None \/ In q (p :: map snd sibs) \/ freed_in_tx s' x = true).
Proof.
  intros live n d1 s1 orig fk p sibs s' Hfi Hwl H. unfold spill_tail in H.
  destruct (split s1 d1) as [d0 rest].
  destruct (write_node s1 (set_kids (set_data n d0) [])) as [n1 s2] eqn:W1.
  pose proof (write_node_cov live s1 _ n1 s2 Hfi Hwl W1) as C1. cbv zeta in C1.
  destruct C1 as (X1 & En1 & Hp1 & Hk1 & Ewr1 & Erun1 & Hfreed1 & _ & Hfi2 & Hwl2).
  assert (Hold : forall x, old_run n x -> freed_in_tx s2 x = true).
  { intros x Hx. apply Hfreed1. right. destruct n; exact Hx. }
  destruct rest as [|r0 rest'].
  - cbn [fold_res bind] in H. destruct (first_key (n_data n1)) as [fk0| |]; cbn [bind] in H; try discriminate.
    inversion H; subst orig fk p sibs s'. clear H. split; [exact X1|]. split; [exact Hold|].
    intros q v x Hq Hx. rewrite Ewr1, wr_get_put in Hq. destruct (N.eqb_spec (n_page n1) q) as [E|E].
    + right; left. now left.
    + left. congruence.
  - destruct (write_node s2 n1) as [n2 s3] eqn:W2.
    pose proof (write_node_cov _ s2 _ n2 s3 Hfi2 Hwl2 W2) as C2. cbv zeta in C2.
    destruct C2 as (X2 & En2 & _ & Hk2 & Ewr2 & Erun2 & Hfreed2 & Hne2 & Hfi3 & Hwl3).
    apply bind_ok_inv in H. destruct H as ([sibs0 s4] & Hsf & H).
    destruct (first_key (n_data n2)) as [fk0| |]; cbn [bind] in H; try discriminate.
    inversion H; subst orig fk p sibs0 s4. clear H.
    destruct (sibs_fold_cov _ _ _ _ _ _ Hfi3 Hwl3 Hsf) as (X3 & Hf3 & new & Es & Hnew). cbn [app] in Es. subst new.
    pose proof (xframe_trans _ _ _ (xframe_trans _ _ _ X1 X2) X3) as X.
    split; [exact X|]. split.
    { intros x Hx. apply (xf_freed _ _ X3), (xf_freed _ _ X2), Hold, Hx. }
    intros q v x Hq Hx.
    assert (Hq' : wr_get (wr s') q <> None) by congruence.
    destruct (Hnew q Hq') as [A|A]; [|right; left; right; exact A].
    rewrite Ewr2, wr_get_put in A. destruct (N.eqb_spec (n_page n2) q) as [E|E]; [right; left; now left|].
    rewrite Ewr1, wr_get_put in A. destruct (N.eqb_spec (n_page n1) q) as [E1|E1]; [|now left].
    (* the stale first copy: its whole run was handed back by the second write *)
    right; right. subst q.
    assert (Hv : wr_get (wr s2) (n_page n1) = Some (node_size (set_kids (set_data n d0) []), n_data (set_kids (set_data n d0) []))).
    { rewrite Ewr1, wr_get_put, N.eqb_refl. reflexivity. }
    pose proof (xf_wr _ _ X3 _ _ (xf_wr _ _ X2 _ _ Hv)) as Hv'. rewrite Hv' in Hq. inversion Hq; subst v.
    rewrite (xf_psz _ _ X3), (xf_psz _ _ X2), Erun1 in Hx. apply In_nrun in Hx.
    apply (xf_freed _ _ X3). apply Hfreed2. right. split; [lia | exact Hx].
Qed.

Print Assumptions write_node_cov.
Print Assumptions spill_tail_cov.
