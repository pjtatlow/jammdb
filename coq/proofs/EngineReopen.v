(* Close + reopen ([Engine.reopen_db]): the in-memory free list is rebuilt from the ids recorded on the free-list page
   ([d_flids]); nothing is pending after the open.  Reopen changes neither the disk nor the meaning; the free list
   after it is exactly the recorded ids, strictly ascending, and with [flids_ok] every free and every pending page of
   the closed state is free after the open (the reopen half of C10).  The invariants [db_okz], [db_okd], [db_okr],
   [no_leak], [db_exact], [db_exactr] are kept (given [flids_ok]); [flids_ok] itself (a [Permutation]) needs in
   addition that no id is recorded twice ([pend_inv]) -- a counterexample shows that [db_exact_rec] alone is not
   enough.  Histories of transactions and reopens from [init_db P] keep the exact partition and refine the reference.
   The first transaction after a reopen starts from free = recorded ids, pending = []; for a state whose batches are
   all releasable it is the very same transaction: [run_tx (reopen_db st) = run_tx st]. *)
From Coq Require Import List NArith Bool Arith Lia ZifyN ZifyNat ZifyBool Permutation Sorting.Sorted.
From Coq.Strings Require Import Byte.
From Jamm Require Spec.
From Jamm Require Import Bytes BytesFacts Tree Cursor SearchFacts Engine EngineAbs EngineFacts EngineMergeFacts.
From Jamm Require Import EngineModifyFacts EngineSpillFacts EnginePathFacts EngineBridgeFacts EngineRebalanceFacts.
From Jamm Require FreelistFacts EngineAllocFacts EngineSpillWfFacts.
From Jamm Require Import EngineTxInvFacts EngineSpillBucketFacts EngineRefines.
From Jamm Require Import EngineOwnDefs EngineOwnWr EngineOwnOps EngineOwnReb EngineOwnSpill EngineOwnLnk EngineAllocInv.
From Jamm Require Import EngineDepth EngineNoPanic EngineSpillDepth.
From Jamm Require Import EngineNoLeakDefs EngineNoLeak.
From Jamm Require Import EngineR EngineRSim EngineRBegin EngineReadersInv EngineReaders EngineReadersExact.
From Jamm Require EngineReadersEx.
Import ListNotations.
Import Coq.Strings.String.StringSyntax. Delimit Scope string_scope with string.
Local Open Scope list_scope. Local Open Scope nat_scope.
Set Warnings "-abstract-large-number".

(** * Reopen changes neither the disk nor the meaning *)

Lemma reopen_disk : forall st, d_disk (reopen_db st) = d_disk st.   Proof. reflexivity. Qed.
Lemma reopen_root : forall st, d_root (reopen_db st) = d_root st.   Proof. reflexivity. Qed.
Lemma reopen_next : forall st, d_next (reopen_db st) = d_next st.   Proof. reflexivity. Qed.
Lemma reopen_np : forall st, d_np (reopen_db st) = d_np st.         Proof. reflexivity. Qed.
Lemma reopen_tx : forall st, d_tx (reopen_db st) = d_tx st.         Proof. reflexivity. Qed.
Lemma reopen_fl : forall st, d_fl (reopen_db st) = d_fl st.         Proof. reflexivity. Qed.
Lemma reopen_fln : forall st, d_fln (reopen_db st) = d_fln st.      Proof. reflexivity. Qed.
Lemma reopen_flids : forall st, d_flids (reopen_db st) = d_flids st. Proof. reflexivity. Qed.
Lemma reopen_psz : forall st, d_psz (reopen_db st) = d_psz st.      Proof. reflexivity. Qed.
Lemma reopen_pending : forall st, d_pending (reopen_db st) = [].    Proof. reflexivity. Qed.
Lemma reopen_free : forall st, d_free (reopen_db st) = fold_left (fun f p => sins p f) (d_flids st) [].
Proof. reflexivity. Qed.

Theorem reopen_unchanged : forall st,
  d_disk (reopen_db st) = d_disk st /\ d_root (reopen_db st) = d_root st /\ d_next (reopen_db st) = d_next st /\
  d_np (reopen_db st) = d_np st /\ d_tx (reopen_db st) = d_tx st /\ d_fl (reopen_db st) = d_fl st /\
  d_fln (reopen_db st) = d_fln st /\ d_flids (reopen_db st) = d_flids st /\ d_psz (reopen_db st) = d_psz st.
Proof.
  intros st.
  exact (conj (reopen_disk st) (conj (reopen_root st) (conj (reopen_next st) (conj (reopen_np st) (conj (reopen_tx st)
          (conj (reopen_fl st) (conj (reopen_fln st) (conj (reopen_flids st) (reopen_psz st))))))))).
Qed.

Theorem reopen_abs : forall st, abs_db (reopen_db st) = abs_db st.
Proof. reflexivity. Qed.

Lemma reopen_readable : forall st, readable (reopen_db st) <-> readable st.
Proof. intros st. unfold readable. cbn [d_disk d_root reopen_db]. tauto. Qed.
Lemma reopen_strict : forall st, db_strict (reopen_db st) <-> db_strict st.
Proof. intros st. unfold db_strict. cbn [d_disk d_root reopen_db]. tauto. Qed.
Lemma reopen_depth : forall st, db_depth (reopen_db st) <-> db_depth st.
Proof. intros st. unfold db_depth. cbn [d_disk d_root reopen_db]. tauto. Qed.
Lemma reopen_Rof : forall st, Rof (reopen_db st) = Rof st.
Proof. reflexivity. Qed.
Lemma reopen_live_of : forall st R, live_of (reopen_db st) R = live_of st R.
Proof. reflexivity. Qed.
(* every point read means the same: [root_bucket] is built from [d_root], [d_next] only *)
Lemma reopen_root_bucket : forall st, root_bucket (reopen_db st) = root_bucket st.
Proof. reflexivity. Qed.
Lemma reopen_idem : forall st, reopen_db (reopen_db st) = reopen_db st.
Proof. reflexivity. Qed.

(** * The free list after reopen is exactly the recorded ids *)

Theorem reopen_free_In : forall st x, In x (d_free (reopen_db st)) <-> In x (d_flids st).
Proof.
  intros st x. rewrite reopen_free. change (fun f p => sins p f) with (fun f p => Freelist.sins p f).
  rewrite FreelistFacts.fold_sins_In. cbn [In]. tauto.
Qed.

Theorem reopen_free_asc : forall st, FreelistFacts.asc (d_free (reopen_db st)).
Proof.
  intros st. rewrite reopen_free. change (fun f p => sins p f) with (fun f p => Freelist.sins p f).
  apply FreelistFacts.fold_sins_asc. constructor.
Qed.

Corollary reopen_free_NoDup : forall st, NoDup (d_free (reopen_db st)).
Proof. intros st. apply FreelistFacts.asc_NoDup. apply reopen_free_asc. Qed.

(* nothing is lost by closing: every free and every pending page of the closed state is free after the open,
   and nothing else is *)
Theorem reopen_free_all : forall st, flids_ok st ->
  forall x, In x (d_free (reopen_db st)) <-> In x (d_free st) \/ In x (pend_all (d_pending st)).
Proof.
  intros st Hp x. rewrite reopen_free_In. rewrite <- in_app_iff. split; intros H.
  - exact (Permutation_in _ Hp H).
  - exact (Permutation_in _ (Permutation_sym Hp) H).
Qed.

Corollary reopen_keeps_free : forall st x, flids_ok st -> In x (d_free st) -> In x (d_free (reopen_db st)).
Proof. intros st x Hp H. apply (reopen_free_all st Hp). now left. Qed.
Corollary reopen_frees_pending : forall st x, flids_ok st -> In x (pend_all (d_pending st)) -> In x (d_free (reopen_db st)).
Proof. intros st x Hp H. apply (reopen_free_all st Hp). now right. Qed.

(** * The invariants are kept (no reader is open: a reopen cannot happen with open transactions) *)

(* [alloc_ok], clause by clause.  Needed from [flids_ok st]: every recorded id is free or pending in [st] (the
   inclusion [d_flids] <= free + pending; the converse inclusion is not needed here) *)
Definition flids_sub (st : db) : Prop :=
  forall x, In x (d_flids st) -> In x (d_free st) \/ In x (pend_all (d_pending st)).
Definition flids_sup (st : db) : Prop :=
  forall x, In x (d_free st) \/ In x (pend_all (d_pending st)) -> In x (d_flids st).

Lemma flids_ok_sub : forall st, flids_ok st -> flids_sub st.
Proof. intros st Hp x H. apply in_app_or. exact (Permutation_in _ Hp H). Qed.
Lemma flids_ok_sup : forall st, flids_ok st -> flids_sup st.
Proof. intros st Hp x H. apply (Permutation_in _ (Permutation_sym Hp)). now apply in_or_app. Qed.

Lemma reopen_alloc_ok : forall st R, flids_sub st -> alloc_ok st R -> alloc_ok (reopen_db st) R.
Proof.
  intros st R Hsub (Hpsz & Hnp & Hasc & Hge & Hlt & Hpd & Hroot & Hcl & Hlive).
  unfold FreelistFacts.ge2 in Hge. rewrite Forall_forall in Hge, Hpd.
  assert (Hrng : forall x, In x (d_free (reopen_db st)) -> (2 <= x < d_np st)%N).
  { intros x Hx. apply reopen_free_In in Hx. destruct (Hsub x Hx) as [A|A].
    - specialize (Hge x A). specialize (Hlt x A). lia.
    - exact (Hpd x A). }
  split; [exact Hpsz|]. split; [exact Hnp|].
  split; [apply reopen_free_asc|].
  split; [unfold FreelistFacts.ge2; apply Forall_forall; intros x Hx; exact (proj1 (Hrng x Hx))|].
  split; [intros x Hx; rewrite reopen_np; exact (proj2 (Hrng x Hx))|].
  split; [rewrite reopen_pending; constructor|].
  split; [exact Hroot|]. split; [exact Hcl|].
  intros x Hx. rewrite reopen_live_of in Hx. destruct (Hlive x Hx) as (Hr & Hnf & Hnp').
  split; [exact Hr|]. split.
  - intros Hf. apply reopen_free_In in Hf. destruct (Hsub x Hf); contradiction.
  - rewrite reopen_pending. intros [].
Qed.

Lemma reopen_pend_le : forall st, pend_le (reopen_db st).
Proof. intros st. unfold pend_le. rewrite reopen_pending. constructor. Qed.

Lemma reopen_pend_inv : forall st, pend_inv (reopen_db st).
Proof. intros st. unfold pend_inv. rewrite reopen_pending. split; [constructor | intros x []]. Qed.

Theorem reopen_ok' : forall st, flids_sub st -> db_ok' st -> db_ok' (reopen_db st).
Proof.
  intros st Hsub (Hs & HA & Hnd & _). split; [now apply reopen_strict|].
  split; [rewrite reopen_Rof; now apply reopen_alloc_ok|].
  split; [rewrite reopen_Rof, reopen_live_of; exact Hnd | apply reopen_pend_le].
Qed.

Theorem reopen_okz : forall st, flids_sub st -> db_okz st -> db_okz (reopen_db st).
Proof. intros st Hsub [Hok Hz]. split; [now apply reopen_ok' | exact Hz]. Qed.

Theorem reopen_okd : forall st, flids_sub st -> db_okd st -> db_okd (reopen_db st).
Proof. intros st Hsub [Hok Hd]. split; [now apply reopen_okz | now apply reopen_depth]. Qed.

Theorem reopen_okr : forall st, flids_sub st -> db_okz st -> db_okr (reopen_db st).
Proof. intros st Hsub Hok. split; [now apply reopen_okz | apply reopen_pend_inv]. Qed.

(* nothing leaked: needs the other inclusion (every free and every pending id is recorded) *)
Theorem reopen_no_leak : forall st, flids_sup st -> no_leak st -> no_leak (reopen_db st).
Proof.
  intros st Hsup Hnl x Hx. rewrite reopen_np in Hx. rewrite reopen_Rof, reopen_live_of.
  destruct (Hnl x Hx) as [A|A]; [now left | right; left]. apply reopen_free_In. now apply Hsup.
Qed.

Theorem reopen_exact : forall st, flids_ok st -> db_exact st -> db_exact (reopen_db st).
Proof.
  intros st Hp [Hok Hnl]. split; [apply reopen_okz; [now apply flids_ok_sub | exact Hok]|].
  apply reopen_no_leak; [now apply flids_ok_sup | exact Hnl].
Qed.

(* the free-list record itself: [flids_ok] is a [Permutation], so it also counts multiplicities.  No id is recorded
   twice: free ids are strictly ascending, and [pend_inv] *)
Lemma flids_NoDup : forall st, FreelistFacts.asc (d_free st) -> pend_inv st -> flids_ok st -> NoDup (d_flids st).
Proof.
  intros st Hasc [Hnd Hdisj] Hp. apply (Permutation_NoDup (Permutation_sym Hp)).
  apply ListFacts.NoDup_app_iff. split; [now apply FreelistFacts.asc_NoDup|]. split; [exact Hnd|].
  intros x Hf Hx. exact (Hdisj x Hx Hf).
Qed.

Theorem reopen_flids_ok : forall st, NoDup (d_flids st) -> flids_ok (reopen_db st).
Proof.
  intros st Hnd. unfold flids_ok. rewrite reopen_pending, reopen_flids. cbn [pend_all flat_map]. rewrite app_nil_r.
  apply NoDup_Permutation; [exact Hnd | apply reopen_free_NoDup|]. intros x. symmetry. apply reopen_free_In.
Qed.

(* the converse: if an id is recorded twice, the record of the reopened state is NOT a permutation of its free list *)
Theorem reopen_flids_ok_iff : forall st, flids_ok (reopen_db st) <-> NoDup (d_flids st).
Proof.
  intros st. split; [|apply reopen_flids_ok]. unfold flids_ok. rewrite reopen_pending, reopen_flids.
  cbn [pend_all flat_map]. rewrite app_nil_r. intros Hp.
  exact (Permutation_NoDup (Permutation_sym Hp) (reopen_free_NoDup st)).
Qed.

(* [db_exact_rec] with [pend_inv] (that is [db_exactr], the invariant of histories with readers) is kept *)
Theorem reopen_exact_rec : forall st, db_exact_rec st -> pend_inv st -> db_exact_rec (reopen_db st).
Proof.
  intros st [Hex Hp] Hpi. split; [now apply reopen_exact|]. apply reopen_flids_ok.
  exact (flids_NoDup st (ok_asc st (db_ok'_facts st (proj1 (proj1 Hex)))) Hpi Hp).
Qed.

Theorem reopen_exactr : forall st, db_exactr st -> db_exactr (reopen_db st).
Proof.
  intros st Hx. pose proof (db_exactr_rec st Hx) as Hrec. destruct Hx as ([Hokz Hpi] & Hnl & Hp).
  destruct (reopen_exact_rec st Hrec Hpi) as [[Hokz' Hnl'] Hp'].
  split; [split; [exact Hokz' | apply reopen_pend_inv]|]. split; assumption.
Qed.

(* Counterexample to "[db_exact_rec st -> db_exact_rec (reopen_db st)]": a hand-made state in which page 4 is free AND
   pending (so it is recorded twice).  It satisfies [db_exact_rec] ([alloc_ok] does not ask the free and the pending
   ids to be disjoint -- [pend_inv] does), but after the reopen the record [4; 4] is not a permutation of the free
   list [4].  No such state is reachable: histories keep [pend_inv] (EngineReadersInv). *)
Definition cex_db : db :=
  {| d_disk := d_disk (init_db 4096); d_root := 3; d_next := 0; d_np := 5; d_fl := 2; d_fln := 1; d_flids := [4; 4]%N;
     d_tx := 0; d_free := [4]%N; d_pending := [(0, [4])]%N; d_psz := 4096 |}.
Example cex_exact_rec : db_exact_rec cex_db.
Proof.
  split; [split; [split|]|].
  - apply db_ok'b_ok; [exact (init_db_strict 4096) | vm_compute; reflexivity].
  - reflexivity.
  - apply no_leakb_ok. vm_compute. reflexivity.
  - unfold flids_ok. cbn. apply Permutation_refl.
Qed.
Example cex_reopen_eval : (d_flids (reopen_db cex_db), d_free (reopen_db cex_db), d_pending (reopen_db cex_db))
                          = ([4; 4]%N, [4]%N, []).
Proof. vm_compute. reflexivity. Qed.
Example cex_reopen_not_flids_ok : ~ flids_ok (reopen_db cex_db).
Proof. intros Hp. apply Permutation_length in Hp. vm_compute in Hp. discriminate. Qed.
Example cex_reopen_not_exact_rec : db_exact_rec cex_db /\ ~ db_exact_rec (reopen_db cex_db).
Proof. split; [exact cex_exact_rec | intros [_ Hp]; exact (cex_reopen_not_flids_ok Hp)]. Qed.
(* everything else survives even there *)
Example cex_reopen_exact : db_exact (reopen_db cex_db).
Proof. apply reopen_exact; [exact (proj2 cex_exact_rec) | exact (proj1 cex_exact_rec)]. Qed.

(** * Histories of transactions and reopens *)

Inductive hop := HTx (ops : list op) (ord : list bytes) | HReopen.

Definition step_hop (st : db) (h : hop) : res db :=
  match h with HTx ops ord => run_tx st ops ord | HReopen => Ok (reopen_db st) end.
Fixpoint run_hops (st : db) (hs : list hop) : res db :=
  match hs with
  | [] => Ok st
  | h :: hs' => bind (step_hop st h) (fun st1 => run_hops st1 hs')
  end.
(* the meaning: the transactions in order; a reopen is the identity on the reference *)
Fixpoint sem_hops (hs : list hop) (m : snode) : snode :=
  match hs with
  | [] => m
  | HTx ops _ :: hs' => sem_hops hs' (sem_tx ops m)
  | HReopen :: hs' => sem_hops hs' m
  end.
(* the side condition (cf. EngineAllocInv.txs_ok'): every operation admissible in the state it is applied to, every
   committed state readable (for a reopen this is the readability of the state before it) *)
Fixpoint hops_ok (st : db) (hs : list hop) : Prop :=
  match hs with
  | [] => True
  | h :: hs' =>
      match h with HTx ops _ => Forall (op_ok (d_disk st)) ops | HReopen => True end /\
      forall st1, step_hop st h = Ok st1 -> readable st1 /\ hops_ok st1 hs'
  end.

(* without reopens this is [run_txs] *)
Definition hops_of (txs : list (list op * list bytes)) : list hop := map (fun t => HTx (fst t) (snd t)) txs.
Lemma run_hops_txs : forall txs st, run_hops st (hops_of txs) = run_txs st txs.
Proof.
  induction txs as [|[ops ord] txs IH]; intros st; cbn [hops_of map run_hops run_txs step_hop fst snd]; [reflexivity|].
  destruct (run_tx st ops ord) as [st1|m|e]; cbn [bind]; [apply IH | reflexivity | reflexivity].
Qed.
Lemma sem_hops_txs : forall txs m, sem_hops (hops_of txs) m = sem_txs txs m.
Proof. induction txs as [|[ops ord] txs IH]; intros m; cbn [hops_of map sem_hops sem_txs fst snd]; [reflexivity | apply IH]. Qed.

(* the invariant of these histories, and the hypothesis on the initial state of the crash / fault / mixed history
   theorems (EngineCrashHistories, EngineFaultHistories, EngineMixedHistories).  It bundles [db_okz], [pend_inv],
   [no_leak], [flids_ok] (together [db_exactr]) and uniform depth; [db_inv_facts] unpacks it *)
Definition db_inv (st : db) : Prop := db_exactr st /\ db_depth st.

Lemma db_inv_facts : forall st, db_inv st ->
  db_exact_rec st /\ db_okz st /\ db_okd st /\ db_okr st /\ no_leak st /\ flids_ok st.
Proof.
  intros st [Hx Hd]. pose proof (db_exactr_rec st Hx) as Hrec. destruct Hx as (Hokr & Hnl & Hp).
  split; [exact Hrec|]. split; [exact (proj1 Hokr)|]. split; [split; [exact (proj1 Hokr) | exact Hd]|].
  split; [exact Hokr|]. split; assumption.
Qed.

Lemma init_db_inv : forall P, (0 < P)%N -> db_inv (init_db P).
Proof. intros P HP. split; [now apply init_db_exactr | apply init_db_depth]. Qed.

Theorem reopen_inv : forall st, db_inv st -> db_inv (reopen_db st).
Proof. intros st [Hx Hd]. split; [now apply reopen_exactr | now apply reopen_depth]. Qed.

Theorem run_tx_inv : forall st ops ord st', db_inv st -> Forall (op_ok (d_disk st)) ops ->
  run_tx st ops ord = Ok st' -> readable st' -> db_inv st' /\ abs_db st' = sem_tx ops (abs_db st).
Proof.
  intros st ops ord st' [Hx Hd] Hops Hrun Hrd.
  assert (Hrun' : run_tx_r st (d_tx st + 1) ops ord = Ok st') by (rewrite run_tx_r_none; [exact Hrun | lia]).
  destruct (run_tx_r_exact st _ ops ord st' Hx Hops Hrun' Hrd) as [Hx' Habs].
  split; [|exact Habs]. split; [exact Hx'|].
  assert (Hokd : db_okd st) by (split; [exact (proj1 (proj1 Hx)) | exact Hd]).
  exact (proj2 (run_tx_okd st ops ord st' Hokd Hops Hrun Hrd)).
Qed.

Theorem step_hop_inv : forall st h st', db_inv st ->
  match h with HTx ops _ => Forall (op_ok (d_disk st)) ops | HReopen => True end ->
  step_hop st h = Ok st' -> readable st' -> db_inv st' /\ abs_db st' = sem_hops [h] (abs_db st).
Proof.
  intros st [ops ord|] st' Hinv Hops Hstep Hrd; cbn [step_hop sem_hops] in *.
  - exact (run_tx_inv st ops ord st' Hinv Hops Hstep Hrd).
  - inversion Hstep; subst st'. split; [now apply reopen_inv | apply reopen_abs].
Qed.

Lemma run_hops_fold : forall hs st, run_hops st hs = fold_res step_hop hs st.
Proof.
  induction hs as [|h hs IH]; intros st; cbn [run_hops fold_res]; [reflexivity|].
  destruct (step_hop st h); cbn [bind]; [apply IH | reflexivity | reflexivity].
Qed.

Theorem run_hops_inv : forall hs st st', db_inv st -> hops_ok st hs -> run_hops st hs = Ok st' ->
  db_inv st' /\ abs_db st' = sem_hops hs (abs_db st).
Proof.
  intros hs st st' Hinv Hok Hrun. rewrite run_hops_fold in Hrun.
  (* [steps_inv]: EngineMergeFacts, section Steps.  [fun _ _ _ H => H] is the unfolding of [hops_ok] at a cons,
     [fun _ => eq_refl] is [sem_hops [] m = m] *)
  apply (steps_inv step_hop _ _ hops_ok (fun st m => db_inv st /\ abs_db st = m) sem_hops (fun _ _ _ H => H)
           (fun _ => eq_refl)) with (st := st); [| | split; [exact Hinv | reflexivity] | exact Hok | exact Hrun].
  - intros [ops ord|] hs0 m; reflexivity.
  - intros s m h s1 [Hi <-] Ha Hs Hg. exact (step_hop_inv s h s1 Hi Ha Hs Hg).
Qed.

Definition hops_okb : db -> list hop -> bool :=
  steps_okb step_hop (fun _ h => match h with HTx ops _ => forallb op_okb ops | HReopen => true end) readableb.
Lemma hops_okb_ok : forall hs st, hops_okb st hs = true -> hops_ok st hs.
Proof.
  apply (steps_okb_ok step_hop (fun st h => match h with HTx ops _ => Forall (op_ok (d_disk st)) ops | HReopen => True end)
           readable hops_ok).
  - intros st [ops ord|] H; [now apply op_okb_ok | exact I].
  - exact readableb_ok.
  - intros st. exact I.
  - intros st h hs H. exact H.
Qed.

(* from the empty database, whatever the closes and reopens: the final state accounts for every page exactly once,
   its free-list record lists exactly the non-live pages, it has uniform depth, and it means what the specification
   says *)
Corollary run_hops_exact_init : forall P hs st', (0 < P)%N -> hops_ok (init_db P) hs ->
  run_hops (init_db P) hs = Ok st' ->
  db_exact_rec st' /\ db_okd st' /\ db_okr st' /\ abs_db st' = sem_hops hs (SBucket 0 0 []) /\
  forall x, In x (d_flids st') <-> ((2 <= x < d_np st')%N /\ ~ In x (live_of st' (Rof st'))).
Proof.
  intros P hs st' HP Hok Hrun.
  destruct (run_hops_inv hs _ st' (init_db_inv P HP) Hok Hrun) as [Hinv Habs].
  destruct (db_inv_facts st' Hinv) as (Hrec & _ & Hokd & Hokr & _).
  split; [exact Hrec|]. split; [exact Hokd|]. split; [exact Hokr|]. split; [exact Habs | now apply flids_exact].
Qed.

(* after a reopen the free list is exactly the set of non-live pages of [2, d_np): everything is reusable *)
Corollary reopen_free_exact : forall st, db_exact_rec st ->
  forall x, In x (d_free (reopen_db st)) <-> ((2 <= x < d_np st)%N /\ ~ In x (live_of st (Rof st))).
Proof. intros st Hrec x. rewrite reopen_free_In. now apply flids_exact. Qed.

(** * The first transaction after a reopen *)

(* it starts with free = the recorded ids (as a strictly ascending list), nothing pending *)
Theorem begin_w_reopen : forall st,
  begin_w (reopen_db st) =
  {| free := fold_left (fun f p => sins p f) (d_flids st) []; pending := []; txid := d_tx st + 1; np := d_np st;
     psz := d_psz st; wr := []; flw := None; seqc := 1 |}.
Proof. reflexivity. Qed.

Corollary begin_w_reopen_free : forall st x, In x (free (begin_w (reopen_db st))) <-> In x (d_flids st).
Proof. intros st x. rewrite begin_w_reopen. cbn [free]. exact (reopen_free_In st x). Qed.
Corollary begin_w_reopen_pending : forall st, pending (begin_w (reopen_db st)) = [].
Proof. reflexivity. Qed.
(* everything freed before the close is allocatable at once *)
Corollary begin_w_reopen_all : forall st x, flids_ok st ->
  (In x (free (begin_w (reopen_db st))) <-> In x (d_free st) \/ In x (pend_all (d_pending st))).
Proof. intros st x Hp. rewrite begin_w_reopen. cbn [free]. exact (reopen_free_all st Hp x). Qed.

Lemma ss_perm_eq : forall a b : list N, StronglySorted N.le a -> StronglySorted N.le b -> Permutation a b -> a = b.
Proof.
  induction a as [|x a IH]; intros b Ha Hb Hp.
  - apply Permutation_nil in Hp. now subst.
  - destruct b as [|y b]; [apply Permutation_sym, Permutation_nil in Hp; discriminate|].
    inversion Ha as [|? ? Ha' Hx]; subst. inversion Hb as [|? ? Hb' Hy]; subst.
    rewrite Forall_forall in Hx, Hy.
    assert (E : x = y).
    { assert (Hxin : In x (y :: b)) by (apply (Permutation_in _ Hp); now left).
      assert (Hyin : In y (x :: a)) by (apply (Permutation_in _ (Permutation_sym Hp)); now left).
      destruct Hxin as [E|Hxin]; [now symmetry|]. destruct Hyin as [E|Hyin]; [exact E|].
      specialize (Hx y Hyin). specialize (Hy x Hxin). lia. }
    subst y. f_equal. apply IH; auto. now apply Permutation_cons_inv in Hp.
Qed.

Lemma asc_ext : forall a b, FreelistFacts.asc a -> FreelistFacts.asc b -> (forall x : N, In x a <-> In x b) -> a = b.
Proof.
  assert (Hle : forall l, FreelistFacts.asc l -> StronglySorted N.le l).
  { induction 1 as [|x l _ IH Hx]; constructor; [exact IH|]. eapply Forall_impl; [|exact Hx]. cbn beta. intros y Hy. lia. }
  intros a b Ha Hb Hab. apply ss_perm_eq; [now apply Hle | now apply Hle|].
  apply NoDup_Permutation; [now apply FreelistFacts.asc_NoDup | now apply FreelistFacts.asc_NoDup | exact Hab].
Qed.

(* it is the transaction of ANY state with the same disk, header, counters, the same free SET and no pending batch *)
Theorem begin_w_same_free : forall st st2,
  d_tx st2 = d_tx st -> d_np st2 = d_np st -> d_psz st2 = d_psz st -> d_pending st2 = [] ->
  FreelistFacts.asc (d_free st2) -> (forall x, In x (d_free st2) <-> In x (d_flids st)) ->
  begin_w (reopen_db st) = begin_w st2.
Proof.
  intros st st2 Etx Enp Epsz Epd Hasc Hin. rewrite begin_w_reopen. unfold begin_w. rewrite Epd, Etx, Enp, Epsz. cbn [release].
  f_equal. apply asc_ext; [exact (reopen_free_asc st) | exact Hasc|].
  intros x. rewrite Hin. exact (reopen_free_In st x).
Qed.

(* in particular of the closed state itself, when all its batches are releasable ([pend_le]: no reader was open):
   the writer that follows a close + reopen is THE SAME as the writer that would have followed without the close *)
Theorem begin_w_reopen_eq : forall st, FreelistFacts.asc (d_free st) -> pend_le st -> flids_ok st ->
  begin_w (reopen_db st) = begin_w st.
Proof.
  intros st Hasc Hpl Hp. rewrite begin_w_reopen. unfold begin_w.
  assert (Hall : Forall (fun b : N * list N => (fst b < d_tx st + 1)%N) (d_pending st)).
  { eapply Forall_impl; [|exact Hpl]. cbn beta. intros b Hb. lia. }
  destruct (EngineAllocFacts.release_all _ _ (d_free st) Hall) as [fr Er]. rewrite Er. f_equal.
  destruct (EngineAllocFacts.release_split _ _ _ _ _ Er) as (rel & E & _ & Hin & Hasc'). rewrite app_nil_r in E. subst rel.
  apply asc_ext; [exact (reopen_free_asc st) | now apply Hasc'|]. intros x. rewrite (reopen_free_all st Hp x).
  symmetry. apply Hin.
Qed.

Theorem run_tx_reopen : forall st ops ord, FreelistFacts.asc (d_free st) -> pend_le st -> flids_ok st ->
  run_tx (reopen_db st) ops ord = run_tx st ops ord.
Proof.
  intros st ops ord Hasc Hpl Hp. unfold run_tx. rewrite (begin_w_reopen_eq st Hasc Hpl Hp). reflexivity.
Qed.

Corollary run_tx_reopen_inv : forall st ops ord, db_exact_rec st -> run_tx (reopen_db st) ops ord = run_tx st ops ord.
Proof.
  intros st ops ord [[[Hok _] _] Hp]. pose proof (db_ok'_facts st Hok) as F.
  exact (run_tx_reopen st ops ord (ok_asc st F) (ok_pend_le st F) Hp).
Qed.

(* consequently reopens can be erased from a history: the final state is the one of the transactions alone,
   or its reopening when the history ends with a reopen *)
Fixpoint txs_of (hs : list hop) : list (list op * list bytes) :=
  match hs with
  | [] => []
  | HTx ops ord :: hs' => (ops, ord) :: txs_of hs'
  | HReopen :: hs' => txs_of hs'
  end.

Lemma sem_hops_txs_of : forall hs m, sem_hops hs m = sem_txs (txs_of hs) m.
Proof. induction hs as [|[ops ord|] hs IH]; intros m; cbn [sem_hops txs_of sem_txs]; [reflexivity | apply IH | apply IH]. Qed.

Lemma run_txs_reopen : forall txs st, db_exact_rec st -> txs <> [] -> run_txs (reopen_db st) txs = run_txs st txs.
Proof.
  intros [|[ops ord] txs] st Hrec Hne; [congruence|]. cbn [run_txs]. now rewrite (run_tx_reopen_inv st ops ord Hrec).
Qed.

Theorem run_hops_erase : forall hs st st', db_inv st -> hops_ok st hs -> run_hops st hs = Ok st' ->
  exists st2, run_txs st (txs_of hs) = Ok st2 /\ (st' = st2 \/ st' = reopen_db st2).
Proof.
  induction hs as [|h hs IH]; intros st st' Hinv Hok Hrun; cbn [run_hops] in Hrun.
  - inversion Hrun; subst. exists st'. split; [reflexivity | now left].
  - apply bind_ok_inv in Hrun. destruct Hrun as (st1 & H1 & H2). destruct Hok as [Hops Hnext].
    destruct (Hnext st1 H1) as [Hrd Hok1].
    destruct (step_hop_inv st h st1 Hinv Hops H1 Hrd) as [Hinv1 _].
    destruct (IH st1 st' Hinv1 Hok1 H2) as (st2 & Hr2 & Hst'). destruct h as [ops ord|]; cbn [step_hop txs_of] in *.
    + exists st2. split; [|exact Hst']. cbn [run_txs]. rewrite H1. exact Hr2.
    + inversion H1; subst st1. destruct (txs_of hs) as [|t txs] eqn:Et.
      * cbn [run_txs] in Hr2. inversion Hr2; subst st2. exists st. split; [reflexivity|]. right.
        destruct Hst' as [E|E]; [exact E | rewrite E; apply reopen_idem].
      * exists st2. split; [|exact Hst']. rewrite <- Hr2. symmetry. apply run_txs_reopen; [|discriminate].
        exact (proj1 (db_inv_facts st Hinv)).
Qed.

(* the two-transaction history of EngineRefines: its final state has an empty free list and the batch 2 = [4; 5; 6]
   pending; the free-list page records [4; 5; 6]; after close + reopen these three pages are free *)
Example hist_st_reopen_eval :
  d_free ExHistory.hist_st = [] /\ d_pending ExHistory.hist_st = [(2, [4; 5; 6])]%N /\
  d_flids ExHistory.hist_st = [4; 5; 6]%N /\
  d_free (reopen_db ExHistory.hist_st) = [4; 5; 6]%N /\ d_pending (reopen_db ExHistory.hist_st) = [].
Proof. vm_compute. repeat split; reflexivity. Qed.

Example hist_st_inv : db_inv ExHistory.hist_st.
Proof.
  assert (Hok : hops_ok (init_db 4096) (hops_of ExHistory.hist)) by (apply hops_okb_ok; vm_compute; reflexivity).
  refine (proj1 (run_hops_inv (hops_of ExHistory.hist) _ _ (init_db_inv 4096 eq_refl) Hok _)).
  rewrite run_hops_txs. exact ExHistory.hist_run_ok.
Qed.
Example hist_st_reopen_exact : db_exact_rec (reopen_db ExHistory.hist_st) /\ db_okd (reopen_db ExHistory.hist_st).
Proof.
  destruct (db_inv_facts _ (reopen_inv _ hist_st_inv)) as (A & _ & B & _). split; assumption.
Qed.

(* a history with two reopens: tx1, close + reopen, tx2, close + reopen *)
Definition histR : list hop :=
  [HTx (fst ExHistory.tx1) (snd ExHistory.tx1); HReopen; HTx (fst ExHistory.tx2) (snd ExHistory.tx2); HReopen].
Definition histR_run := Eval vm_compute in run_hops (init_db 4096) histR.
Definition histR_st : db := match histR_run with Ok st => st | _ => init_db 4096 end.
Example histR_run_ok : run_hops (init_db 4096) histR = Ok histR_st.
Proof. vm_compute. reflexivity. Qed.
Example histR_ok : hops_ok (init_db 4096) histR.
Proof. apply hops_okb_ok. vm_compute. reflexivity. Qed.
Example histR_exact :
  db_exact_rec histR_st /\ db_okd histR_st /\ abs_db histR_st = sem_txs ExHistory.hist (SBucket 0 0 []).
Proof.
  destruct (run_hops_exact_init 4096 histR histR_st eq_refl histR_ok histR_run_ok) as (A & B & _ & C & _).
  split; [exact A|]. split; [exact B|]. rewrite C. reflexivity.
Qed.
(* the reopens are transparent: the final state is the reopening of the state of the history without them *)
Example histR_st_eq : histR_st = reopen_db ExHistory.hist_st.
Proof. vm_compute. reflexivity. Qed.

(* the history with readers of EngineReadersEx: in its final state a reader (id 3) is still open, the batches 3, 4, 5
   are pending and nothing is free.  If the process ends there (the reader dies with it), the next open finds all
   eight recorded pages free, and the invariants hold *)
Example histB_reopen_eval :
  d_free EngineReadersEx.ExReaders.curB = [] /\
  d_pending EngineReadersEx.ExReaders.curB = [(3, [8; 9; 10]); (4, [11; 12; 13]); (5, [3; 4])]%N /\
  d_free (reopen_db EngineReadersEx.ExReaders.curB) = [3; 4; 8; 9; 10; 11; 12; 13]%N /\ d_pending (reopen_db EngineReadersEx.ExReaders.curB) = [].
Proof. vm_compute. repeat split; reflexivity. Qed.
Example histB_reopen_exact : db_exact_rec (reopen_db EngineReadersEx.ExReaders.curB) /\ db_okr (reopen_db EngineReadersEx.ExReaders.curB).
Proof.
  pose proof (proj1 EngineReadersEx.ExReaders.histB_exact) as Hrec.
  destruct EngineReadersEx.ExReaders.histB_isolation as (_ & _ & [Hokz Hpi] & _).
  split; [exact (reopen_exact_rec _ Hrec Hpi)|]. apply reopen_okr; [apply flids_ok_sub; exact (proj2 Hrec) | exact Hokz].
Qed.

(* the state of a history with readers when no reader is open: the reopened state with no reader is again a state of
   such histories *)
Lemma reopen_HInv : forall st, flids_sub st -> HInv (st, []) -> HInv (reopen_db st, []).
Proof. intros st Hsub [[Hokz _] _]. split; [exact (reopen_okr st Hsub Hokz) | constructor]. Qed.

Print Assumptions reopen_unchanged.
Print Assumptions reopen_abs.
Print Assumptions reopen_free_In.
Print Assumptions reopen_free_asc.
Print Assumptions reopen_free_all.
Print Assumptions reopen_free_exact.
Print Assumptions reopen_okz.
Print Assumptions reopen_okd.
Print Assumptions reopen_okr.
Print Assumptions reopen_no_leak.
Print Assumptions reopen_exact.
Print Assumptions reopen_flids_ok_iff.
Print Assumptions reopen_exact_rec.
Print Assumptions reopen_exactr.
Print Assumptions cex_reopen_not_exact_rec.
Print Assumptions run_hops_inv.
Print Assumptions run_hops_exact_init.
Print Assumptions begin_w_reopen.
Print Assumptions begin_w_same_free.
Print Assumptions begin_w_reopen_eq.
Print Assumptions run_tx_reopen.
Print Assumptions run_hops_erase.
Print Assumptions histR_exact.
Print Assumptions histB_reopen_exact.
