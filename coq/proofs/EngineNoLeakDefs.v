(* The exact page partition of committed states: definitions and the boolean checker.
   [db_exact st]: [db_okz st] (nothing live is free) and NOTHING IS LEAKED: every page id of [2, d_np) is live
   (a page of the run of a reachable tree page, or of the free-list run), free, or pending. *)
From Coq Require Import List NArith Bool Arith Lia ZifyN ZifyNat ZifyBool.
From Coq.Strings Require Import Byte.
From Jamm Require Spec.
From Jamm Require Import Bytes BytesFacts Tree Cursor SearchFacts Engine EngineAbs EngineFacts EngineMergeFacts.
From Jamm Require Import EngineModifyFacts EngineSpillFacts EnginePathFacts EngineBridgeFacts EngineRebalanceFacts.
From Jamm Require FreelistFacts EngineAllocFacts EngineSpillWfFacts.
From Jamm Require Import EngineTxInvFacts EngineSpillBucketFacts EngineRefines.
From Jamm Require Import EngineOwnDefs EngineOwnWr EngineOwnOps EngineOwnReb EngineOwnSpill EngineOwnLnk EngineAllocInv.
Import ListNotations.
Import Coq.Strings.String.StringSyntax. Delimit Scope string_scope with string.
Local Open Scope list_scope. Local Open Scope nat_scope.
Set Warnings "-abstract-large-number".

Definition no_leak (st : db) : Prop :=
  forall x, (2 <= x < d_np st)%N ->
    In x (live_of st (Rof st)) \/ In x (d_free st) \/ In x (pend_all (d_pending st)).

Definition db_exact (st : db) : Prop := db_okz st /\ no_leak st.

Definition no_leakb (st : db) : bool :=
  forallb (fun x => memb x (live_of st (Rof st)) || memb x (d_free st) || memb x (pend_all (d_pending st)))
          (nrun 2 (d_np st - 2)).

Lemma no_leakb_ok : forall st, no_leakb st = true -> no_leak st.
Proof.
  intros st H x Hx. unfold no_leakb in H. rewrite forallb_forall in H.
  assert (Hin : In x (nrun 2 (d_np st - 2))) by (apply In_nrun; lia).
  specialize (H x Hin). apply orb_true_iff in H. destruct H as [H|H].
  - apply orb_true_iff in H. destruct H as [H|H]; [left | right; left]; now apply memb_In.
  - right; right. now apply memb_In.
Qed.

(* the leaked pages of a state *)
Definition leaked (st : db) : list N :=
  filter (fun x => negb (memb x (live_of st (Rof st)) || memb x (d_free st) || memb x (pend_all (d_pending st))))
         (nrun 2 (d_np st - 2)).

Print Assumptions no_leakb_ok.

