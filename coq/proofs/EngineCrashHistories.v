(* C02 over HISTORIES at the ENGINE level, with contents.
   A process runs a write transaction on the engine state; the power fails at an arbitrary point of the commit's I/O
   (any [n], any [fates]); the machine restarts and REOPENS the file ([reopen_db]) on whatever header the crashed disk
   selects; the next transaction runs from there; and so on, any number of times.
   [crash_run st cd l survivors stf cdf]: the image of each attempt decides whether it is lost or durable.
   The first part (up to [commit_outcome]) serves the I/O-fault and the mixed histories as well. *)
From Coq Require Import List NArith Bool Arith Lia.
From Coq.Strings Require Import Byte.
From Jamm Require Spec.
From Jamm Require Import Bytes BytesFacts Tree Cursor SearchFacts Engine EngineAbs EngineFacts EngineMergeFacts.
From Jamm Require Import EngineModifyFacts EngineSpillFacts EnginePathFacts EngineBridgeFacts EngineRebalanceFacts.
From Jamm Require Import EngineTxInvFacts EngineSpillBucketFacts EngineRefines.
From Jamm Require Import EngineOwnDefs EngineOwnWr EngineOwnOps EngineOwnReb EngineOwnSpill EngineOwnLnk EngineAllocInv.
From Jamm Require Import EngineCow EngineReopen.
From Jamm Require Crash CrashFacts CrashCurrent CrashHistories.
Import ListNotations.

(* the engine state the process holds over the crash-model disk: the disk selects the state's header (its tx id and
   the pages of its snapshot), and every page that header needs holds what its own or an earlier transaction wrote
   ([CrashHistories.hist_inv]).  Not the thread-level relation [ConcEngine.Sim]. *)
Definition Sim (st : db) (cd : Crash.disk) : Prop :=
  Crash.select cd = Some (eng_header st) /\ CrashHistories.hist_inv cd.

Lemma eng_header_reopen : forall st, eng_header (reopen_db st) = eng_header st.
Proof. intro st. unfold eng_header. now rewrite reopen_tx, reopen_Rof, reopen_live_of. Qed.

Lemma Sim_reopen : forall st cd, Sim st cd -> Sim (reopen_db st) cd.
Proof. intros st cd [Hs Hi]. split; [now rewrite eng_header_reopen | exact Hi]. Qed.

(* [w] is a write set of the commit st -> st': copy-on-write, and the new snapshot consists of written and old pages *)
Definition is_write_set (st st' : db) (w : list (N * (N * ndata))) : Prop :=
  tx_cow st st' w /\
  forall x, In x (live_of st' (Rof st')) -> written st st' w x \/ In x (live_of st (Rof st)).

Lemma run_tx_has_write_set : forall st ops ord st', db_inv st -> Forall (op_ok (d_disk st)) ops ->
  run_tx st ops ord = Ok st' -> readable st' -> exists w, is_write_set st st' w.
Proof.
  intros st ops ord st' Hinv Hops Hrun Hrd. destruct (db_inv_facts _ Hinv) as (_ & Hok & _).
  destruct (run_tx_write_set_new st ops ord st' Hok Hops Hrun) as (w & C & Hnew).
  exists w. split; [exact C | exact (Hnew Hrd)].
Qed.

Lemma write_set_setting : forall st st' w, is_write_set st st' w ->
  forall cd : Crash.disk, Crash.select cd = Some (eng_header st) ->
    CrashFacts.commit_setting cd (eng_header st) (eng_header st') (d_tx st') (tx_written st st' w).
Proof.
  intros st st' w [C Hnew] cd Hsel. constructor.
  - exact Hsel.
  - reflexivity.
  - cbn [Crash.h_tx eng_header]. rewrite (tc_tx _ _ _ C). lia.
  - intros p Hp. cbn [Crash.h_live eng_header]. apply In_tx_written in Hp. exact (tc_cow _ _ _ C p Hp).
  - intros p Hp. cbn [Crash.h_live eng_header] in *. destruct (Hnew p Hp) as [Hw|Hl]; [left; now apply In_tx_written | now right].
  - apply NoDup_nodup.
Qed.

(* the two outcomes of a commit exclude each other: the transaction ids differ *)
Lemma headers_differ : forall st st' w, is_write_set st st' w -> eng_header st <> eng_header st'.
Proof.
  intros st st' w [C _] E. apply (f_equal Crash.h_tx) in E. cbn [Crash.h_tx eng_header] in E.
  rewrite (tc_tx _ _ _ C) in E. lia.
Qed.

Lemma select_old_xor_new : forall st st' w img, is_write_set st st' w ->
  Crash.select img = Some (eng_header st) -> Crash.select img = Some (eng_header st') -> False.
Proof. intros st st' w img Hw H1 H2. apply (headers_differ _ _ _ Hw). congruence. Qed.

(* what every history below preserves: the pair (engine state, disk) is in the simulation, the engine invariant
   holds, and the database means [m] *)
Definition Good (st : db) (cd : Crash.disk) (m : Spec.snode) : Prop := Sim st cd /\ db_inv st /\ abs_db st = m.

Lemma Good_intro : forall st cd, Sim st cd -> db_inv st -> Good st cd (abs_db st).
Proof. intros st cd HSim Hinv. exact (conj HSim (conj Hinv eq_refl)). Qed.

Lemma Good_reopen : forall st cd m, Good st cd m -> Good (reopen_db st) cd m.
Proof.
  intros st cd m (HSim & Hinv & Habs).
  split; [now apply Sim_reopen|]. split; [now apply reopen_inv | now rewrite reopen_abs].
Qed.

(* one commit, whatever interrupts it: on any disk image that shows the commit wholly or not at all, the process may
   go on from the old state if the image selects the old header and from the new state if it selects the new one *)
Lemma commit_outcome : forall st cd m ops ord st' w img, Good st cd m ->
  Forall (op_ok (d_disk st)) ops -> run_tx st ops ord = Ok st' -> readable st' -> is_write_set st st' w ->
  CrashFacts.pre_or_post cd (eng_header st) (eng_header st') (d_tx st') (tx_written st st' w) img ->
  (Crash.select img = Some (eng_header st) -> Good st img m) /\
  (Crash.select img = Some (eng_header st') -> Good st' img (sem_tx ops m)) /\
  (Crash.select img = Some (eng_header st) \/ Crash.select img = Some (eng_header st')).
Proof.
  intros st cd m ops ord st' w img ([Hsel Hhist] & Hinv & <-) Hops Hrun Hrd Hw Hpp.
  destruct (run_tx_inv _ _ _ _ Hinv Hops Hrun Hrd) as [Hinv' Habs].
  destruct (CrashHistories.pre_or_post_keeps_hist_inv _ _ _ _ _ Hhist (write_set_setting _ _ _ Hw cd Hsel) Hpp)
    as [Hhist' Hs].
  split; [|split; [|exact Hs]]; intro Hs'; (split; [exact (conj Hs' Hhist')|]); [now split | split; assumption].
Qed.

(* the image a power loss leaves of the commit st -> st' *)
Definition crash_image (st st' : db) (w : list (N * (N * ndata))) (cd : Crash.disk) (n : nat) (fates : nat -> Crash.fate)
  : Crash.disk :=
  Crash.power_image (d_tx st') (eng_header st') (negb (Crash.current_slot cd)) cd
    (Crash.commit_io (tx_written st st' w)) n fates.

Lemma crash_image_pp : forall st st' w cd n fates, Sim st cd -> is_write_set st st' w ->
  CrashFacts.pre_or_post cd (eng_header st) (eng_header st') (d_tx st') (tx_written st st' w)
    (crash_image st st' w cd n fates).
Proof.
  intros st st' w cd n fates [Hsel _] Hw.
  exact (CrashCurrent.power_current _ _ _ _ _ (write_set_setting _ _ _ Hw cd Hsel) n fates).
Qed.

Lemma crash_image_0 : forall st st' w cd fates, crash_image st st' w cd 0 fates = cd.
Proof. intros st st' w cd fates. unfold crash_image, Crash.power_image. now destruct (Crash.commit_io _). Qed.

(* a power loss after every call of the commit was issued *)
Lemma crash_image_complete : forall st st' w cd fates, Sim st cd -> is_write_set st st' w ->
  Crash.select (crash_image st st' w cd (List.length (Crash.commit_io (tx_written st st' w))) fates)
    = Some (eng_header st').
Proof.
  intros st st' w cd fates [Hsel _] Hw.
  exact (proj1 (CrashCurrent.durable_current _ _ _ _ _ (write_set_setting _ _ _ Hw cd Hsel) fates)).
Qed.

(* one attempt of [crash_run]: the file is reopened, the transaction runs, the power fails *)
Lemma engine_attempt : forall st cd m ops ord st' w n fates, Good st cd m ->
  Forall (op_ok (d_disk (reopen_db st))) ops -> run_tx (reopen_db st) ops ord = Ok st' -> readable st' ->
  is_write_set (reopen_db st) st' w ->
  let img := crash_image (reopen_db st) st' w cd n fates in
  (Crash.select img = Some (eng_header st) -> Good (reopen_db st) img m) /\
  (Crash.select img = Some (eng_header st') -> Good st' img (sem_tx ops m)) /\
  (Crash.select img = Some (eng_header st) \/ Crash.select img = Some (eng_header st')).
Proof.
  intros st cd m ops ord st' w n fates HG Hops Hrun Hrd Hw img. apply Good_reopen in HG.
  rewrite <- (eng_header_reopen st).
  exact (commit_outcome _ _ _ _ _ _ _ img HG Hops Hrun Hrd Hw (crash_image_pp _ _ _ _ n fates (proj1 HG) Hw)).
Qed.

Record attempt_e := mkAE { e_ops : list op; e_ord : list bytes; e_n : nat; e_fates : nat -> Crash.fate }.

Inductive crash_run : db -> Crash.disk -> list attempt_e -> list (list op) -> db -> Crash.disk -> Prop :=
| cr_nil : forall st cd, crash_run st cd [] [] st cd
| cr_lost : forall st cd a r surv st' w stf cdf,
    Forall (op_ok (d_disk (reopen_db st))) (e_ops a) ->
    run_tx (reopen_db st) (e_ops a) (e_ord a) = Ok st' -> readable st' -> is_write_set (reopen_db st) st' w ->
    let img := crash_image (reopen_db st) st' w cd (e_n a) (e_fates a) in
    Crash.select img = Some (eng_header st) ->
    crash_run (reopen_db st) img r surv stf cdf ->
    crash_run st cd (a :: r) surv stf cdf
| cr_durable : forall st cd a r surv st' w stf cdf,
    Forall (op_ok (d_disk (reopen_db st))) (e_ops a) ->
    run_tx (reopen_db st) (e_ops a) (e_ord a) = Ok st' -> readable st' -> is_write_set (reopen_db st) st' w ->
    let img := crash_image (reopen_db st) st' w cd (e_n a) (e_fates a) in
    Crash.select img = Some (eng_header st') ->
    crash_run st' img r surv stf cdf ->
    crash_run st cd (a :: r) (e_ops a :: surv) stf cdf.

Definition sem_survivors (surv : list (list op)) (m : Spec.snode) : Spec.snode :=
  fold_left (fun m ops => sem_tx ops m) surv m.

Lemma crash_run_good : forall st cd l surv stf cdf, crash_run st cd l surv stf cdf ->
  forall m, Good st cd m -> Good stf cdf (sem_survivors surv m).
Proof.
  induction 1 as [st cd | st cd a r surv st' w stf cdf Hops Hrun Hrd Hw img Hsel _ IH
                         | st cd a r surv st' w stf cdf Hops Hrun Hrd Hw img Hsel _ IH]; intros m HG.
  - exact HG.
  - exact (IH _ (proj1 (engine_attempt _ _ _ _ _ _ _ _ _ HG Hops Hrun Hrd Hw) Hsel)).
  - exact (IH _ (proj1 (proj2 (engine_attempt _ _ _ _ _ _ _ _ _ HG Hops Hrun Hrd Hw)) Hsel)).
Qed.

(* after any such history the database means the reference after exactly the surviving transactions, in order;
   [db_inv]: EngineReopen *)
Theorem engine_crash_history : forall st0 cd0 l surv stf cdf,
  crash_run st0 cd0 l surv stf cdf -> Sim st0 cd0 -> db_inv st0 ->
  Sim stf cdf /\ db_inv stf /\ abs_db stf = sem_survivors surv (abs_db st0).
Proof. intros st0 cd0 l surv stf cdf H HSim Hinv. exact (crash_run_good _ _ _ _ _ _ H _ (Good_intro _ _ HSim Hinv)). Qed.

Print Assumptions engine_crash_history.

(* totality.  The side conditions: the next transaction is admissible and succeeds, with a readable result, on the
   reopened state -- along BOTH possible continuations (the attempt lost / the attempt durable) *)
Fixpoint attempts_okE (st : db) (l : list attempt_e) : Prop :=
  match l with
  | [] => True
  | a :: r => Forall (op_ok (d_disk (reopen_db st))) (e_ops a) /\
              exists st', run_tx (reopen_db st) (e_ops a) (e_ord a) = Ok st' /\ readable st' /\
                          attempts_okE (reopen_db st) r /\ attempts_okE st' r
  end.

Theorem crash_run_total : forall l st cd, Sim st cd -> db_inv st -> attempts_okE st l ->
  exists surv stf cdf, crash_run st cd l surv stf cdf.
Proof.
  induction l as [|a r IH]; intros st cd HSim Hinv Hok.
  - exists [], st, cd. constructor.
  - destruct Hok as (Hops & st' & Hrun & Hrd & HokL & HokD).
    destruct (run_tx_has_write_set _ _ _ _ (reopen_inv st Hinv) Hops Hrun Hrd) as (w & Hw).
    destruct (engine_attempt _ _ _ _ _ _ _ (e_n a) (e_fates a) (Good_intro _ _ HSim Hinv) Hops Hrun Hrd Hw)
      as (Hold & Hnew & [Hsel|Hsel]).
    + destruct (Hold Hsel) as (HS & HI & _). destruct (IH _ _ HS HI HokL) as (surv & stf & cdf & Hr).
      exists surv, stf, cdf. eapply cr_lost; eauto.
    + destruct (Hnew Hsel) as (HS & HI & _). destruct (IH _ _ HS HI HokD) as (surv & stf & cdf & Hr).
      exists (e_ops a :: surv), stf, cdf. eapply cr_durable; eauto.
Qed.

Corollary engine_crash_history_total : forall l st0 cd0, Sim st0 cd0 -> db_inv st0 -> attempts_okE st0 l ->
  exists surv stf cdf, crash_run st0 cd0 l surv stf cdf /\
    Sim stf cdf /\ db_inv stf /\ abs_db stf = sem_survivors surv (abs_db st0).
Proof.
  intros l st0 cd0 HSim Hinv Hok. destruct (crash_run_total l st0 cd0 HSim Hinv Hok) as (surv & stf & cdf & Hr).
  exists surv, stf, cdf. split; [exact Hr | exact (engine_crash_history _ _ _ _ _ _ Hr HSim Hinv)].
Qed.

(* the survivors are a sub-list, in order, of the attempted operation lists *)
Inductive sublist {A} : list A -> list A -> Prop :=
| sub_nil : sublist [] []
| sub_skip : forall x l s, sublist s l -> sublist s (x :: l)
| sub_keep : forall x l s, sublist s l -> sublist (x :: s) (x :: l).

Lemma crash_run_survivors : forall st cd l surv stf cdf, crash_run st cd l surv stf cdf ->
  sublist surv (map e_ops l).
Proof.
  intros st cd l surv stf cdf H. induction H; cbn [map]; [constructor | now apply sub_skip | now apply sub_keep].
Qed.

(* a completed attempt is durable *)
Theorem engine_attempt_complete : forall st cd ops ord st' w fates, Sim st cd -> db_inv st ->
  Forall (op_ok (d_disk (reopen_db st))) ops -> run_tx (reopen_db st) ops ord = Ok st' -> readable st' ->
  is_write_set (reopen_db st) st' w ->
  let n := List.length (Crash.commit_io (tx_written (reopen_db st) st' w)) in
  Sim st' (crash_image (reopen_db st) st' w cd n fates).
Proof.
  intros st cd ops ord st' w fates HSim Hinv Hops Hrun Hrd Hw n.
  destruct (engine_attempt _ _ _ _ _ _ _ n fates (Good_intro _ _ HSim Hinv) Hops Hrun Hrd Hw) as (_ & Hnew & _).
  exact (proj1 (Hnew (crash_image_complete _ _ _ _ fates (Sim_reopen _ _ HSim) Hw))).
Qed.

(* the run is determined up to the choice of the write set: with the same write set the two branches exclude each other *)
Lemma lost_xor_durable : forall st st' w img, is_write_set (reopen_db st) st' w ->
  Crash.select img = Some (eng_header st) -> Crash.select img = Some (eng_header st') -> False.
Proof. intros st st' w img Hw. rewrite <- (eng_header_reopen st). exact (select_old_xor_new _ _ _ _ Hw). Qed.

(* in a run: if the first attempt issued every call of its commit (whatever write set the run used), it survived *)
Corollary crash_run_complete_durable : forall st cd a r surv stf cdf, Sim st cd ->
  crash_run st cd (a :: r) surv stf cdf ->
  (forall st' w, run_tx (reopen_db st) (e_ops a) (e_ord a) = Ok st' -> is_write_set (reopen_db st) st' w ->
     e_n a = List.length (Crash.commit_io (tx_written (reopen_db st) st' w))) ->
  exists surv', surv = e_ops a :: surv'.
Proof.
  intros st cd a r surv stf cdf HSim H Hn.
  inversion H as [| st1 cd1 a1 r1 surv1 st' w stf1 cdf1 Hops Hrun Hrd Hw img Hsel Hrest
                  | st1 cd1 a1 r1 surv1 st' w stf1 cdf1 Hops Hrun Hrd Hw img Hsel Hrest]; subst; [|eexists; reflexivity].
  exfalso. apply (lost_xor_durable st st' w img Hw Hsel). unfold img. rewrite (Hn st' w Hrun Hw).
  exact (crash_image_complete _ _ _ _ _ (Sim_reopen _ _ HSim) Hw).
Qed.

Print Assumptions crash_run_total.
Print Assumptions engine_crash_history_total.
Print Assumptions engine_attempt_complete.
Print Assumptions crash_run_complete_durable.

(* the premises are satisfiable *)
Module ExCrash.
Import Ex3.
Definition st0 : db := init_db 1024.
(* pages 3 (the empty root leaf) and 2 (the free-list page) written by "transaction 0"; header in slot 0 *)
Definition cd0 : Crash.disk :=
  Crash.mkDisk [(3%N, Crash.Written 0%N); (2%N, Crash.Written 0%N)] (Crash.SValid (eng_header st0)) Crash.SInvalid.

Example st0_live : eng_header st0 = Crash.mkHeader 0 [3%N; 2%N].
Proof. vm_compute. reflexivity. Qed.

Example sim0 : Sim st0 cd0.
Proof.
  split; [reflexivity|]. exists (eng_header st0). split; [reflexivity|].
  rewrite st0_live. cbn [Crash.h_live Crash.h_tx]. intros p [<-|[<-|[]]]; exists 0%N; (split; [reflexivity | lia]).
Qed.

Example inv0 : db_inv st0.
Proof. apply init_db_inv. lia. Qed.

Definition fates1 (i : nat) : Crash.fate := match i with 0%nat => Crash.Applied | 1%nat => Crash.Torn | _ => Crash.Lost end.
Definition a1 (n : nat) : attempt_e := mkAE (fst ExHistory.tx1) (snd ExHistory.tx1) n fates1.
Definition a2 (n : nat) : attempt_e := mkAE [Put [] ka [x02]] [] n (fun _ => Crash.Torn).

(* a transaction that the model runs to a readable state: the first three conjuncts of the acceptance predicates *)
Ltac tx_ok := split; [repeat constructor; cbn; lia|]; eexists;
  split; [vm_compute; reflexivity|]; split; [apply readableb_ok; vm_compute; reflexivity|].

Example attempts_ok0 : forall n1 n2, attempts_okE st0 [a1 n1; a2 n2].
Proof. intros n1 n2. cbn [attempts_okE a1 a2 e_ops e_ord]. tx_ok. split; tx_ok; split; exact I. Qed.

(* hence: wherever the two commits are cut, a run exists and ends in the simulation with exactly the survivors applied *)
Example two_crashes : forall n1 n2, exists surv stf cdf, crash_run st0 cd0 [a1 n1; a2 n2] surv stf cdf /\
  Sim stf cdf /\ db_inv stf /\ abs_db stf = sem_survivors surv (abs_db st0).
Proof. intros n1 n2. exact (engine_crash_history_total _ _ _ sim0 inv0 (attempts_ok0 n1 n2)). Qed.
End ExCrash.
Print Assumptions ExCrash.two_crashes.

(* one concrete attempt, both outcomes *)
Module ExCuts.
Import Ex3 ExCrash.
Definition run1 := Eval vm_compute in run_tx (reopen_db st0) (fst ExHistory.tx1) (snd ExHistory.tx1).
Definition st1 : db := match run1 with Ok st => st | _ => st0 end.
Example run1_ok : run_tx (reopen_db st0) (fst ExHistory.tx1) (snd ExHistory.tx1) = Ok st1.
Proof. vm_compute. reflexivity. Qed.
Example ops1_ok : Forall (op_ok (d_disk (reopen_db st0))) (fst ExHistory.tx1).
Proof. repeat constructor; cbn; lia. Qed.
Example st1_readable : readable st1.
Proof. apply readableb_ok. vm_compute. reflexivity. Qed.
Example st1_write_set : exists w, is_write_set (reopen_db st0) st1 w.
Proof. exact (run_tx_has_write_set _ _ _ _ (reopen_inv _ inv0) ops1_ok run1_ok st1_readable). Qed.

(* power lost before the first call is issued: the attempt is lost, the reopened old state goes on *)
Example lost_cut : crash_run st0 cd0 [a1 0] [] (reopen_db st0) cd0.
Proof.
  destruct st1_write_set as (w & Hw).
  apply (cr_lost st0 cd0 (a1 0) [] [] st1 w (reopen_db st0) cd0 ops1_ok run1_ok st1_readable Hw);
    cbn [a1 e_n]; rewrite crash_image_0; [exact (proj1 sim0) | constructor].
Qed.

(* every call issued (the last one is the sync after the header): the attempt is durable whatever [fates] says *)
Example durable_cut : exists n cdf, crash_run st0 cd0 [a1 n] [fst ExHistory.tx1] st1 cdf /\
  Sim st1 cdf /\ abs_db st1 = sem_tx (fst ExHistory.tx1) (abs_db st0).
Proof.
  destruct st1_write_set as (w & Hw).
  set (n := List.length (Crash.commit_io (tx_written (reopen_db st0) st1 w))).
  assert (Hr : crash_run st0 cd0 [a1 n] [fst ExHistory.tx1] st1 (crash_image (reopen_db st0) st1 w cd0 n fates1)).
  { apply (cr_durable st0 cd0 (a1 n) [] [] st1 w st1 _ ops1_ok run1_ok st1_readable Hw); [|constructor].
    exact (crash_image_complete _ _ _ _ fates1 (Sim_reopen _ _ sim0) Hw). }
  destruct (engine_crash_history _ _ _ _ _ _ Hr sim0 inv0) as (HS & _ & HA).
  exists n. eexists. split; [exact Hr | split; [exact HS | exact HA]].
Qed.
End ExCuts.
Print Assumptions ExCuts.lost_cut.
Print Assumptions ExCuts.durable_cut.
