(* The writer that begins while readers are open, related to the reader-less writer.
   [begin_w_r st bound] = [addp pd (begin_w (hat st bound))] where (fr, pd) is what [release (min bound (d_tx st + 1))]
   returns and [hat st bound] is [st] with [d_free := fr], [d_pending := []] (the batches that stay pending are
   dropped: "leaked" in [hat]).  By the parametricity theorem of EngineRSim every function of the write path run on
   [addp pd s] yields the result on [s] with [pd] put in front of the pending list: the transaction with readers
   and the reader-less transaction on [hat st bound] build the same overlay, the same write set, the same new tree.
   They differ only in the last step of [commit] (the size of the free-list page counts the pending ids). *)
From Coq Require Import List NArith Bool Arith Lia ZifyN ZifyNat ZifyBool Permutation.
From Coq.Strings Require Import Byte.
From Jamm Require Import Bytes Engine EngineR EngineMergeFacts EnginePathFacts EngineSpillFacts EngineRSim.
From Jamm Require FreelistFacts EngineAllocFacts EngineOwnDefs.
Import ListNotations.
Local Open Scope list_scope. Local Open Scope nat_scope.

Notation pend_all := PL.pend_all.

Definition addp (old : list (N * list N)) (s : txs) : txs := upd_pending s (old ++ pending s).

(* the batches [old] belong to older transactions; every batch of the running state is its own *)
Definition Jt (old : list (N * list N)) (s : txs) : Prop :=
  Forall (fun b : N * list N => (fst b < txid s)%N) old /\
  Forall (fun b : N * list N => fst b = txid s) (pending s) /\
  NoDup (pend_all (pending s)).

Lemma pend_add_old : forall t p old l, Forall (fun b : N * list N => (fst b < t)%N) old ->
  pend_add t p (old ++ l) = old ++ pend_add t p l.
Proof.
  intros t p old l H. induction H as [|[u ps] old Hu _ IH]; [reflexivity|]. cbn [app pend_add]. cbn [fst] in Hu.
  destruct (N.eqb_spec u t); [lia|]. destruct (N.ltb_spec t u); [lia|]. now rewrite IH.
Qed.

Lemma freed_old : forall old s p, Forall (fun b : N * list N => (fst b < txid s)%N) old ->
  freed_in_tx (addp old s) p = freed_in_tx s p.
Proof.
  intros old s p H. apply eq_true_iff_eq. rewrite !freed_in_tx_pend_at. unfold addp, FreelistFacts.pend_at.
  cbn [pending txid upd_pending]. rewrite filter_app.
  replace (filter _ old) with (@nil (N * list N)); [reflexivity|].
  symmetry. induction H as [|[u ps] old Hu _ IH]; [reflexivity|]. cbn [filter fst] in *.
  destruct (N.eqb_spec u (txid s)); [lia | exact IH].
Qed.

Lemma pend_add_NoDup : forall t p l, NoDup (pend_all l) -> ~ In p (pend_all l) -> NoDup (pend_all (pend_add t p l)).
Proof.
  intros t p l Hnd Hp. apply (Permutation_NoDup (Permutation_sym (FreelistFacts.pend_add_all t p l))).
  constructor; assumption.
Qed.

(* a page of a batch filed under the running transaction's id counts as freed by it *)
Lemma own_pages_freed : forall s l x, incl l (pending s) -> Forall (fun b : N * list N => fst b = txid s) l ->
  In x (pend_all l) -> freed_in_tx s x = true.
Proof.
  intros s l x Hl H Hin. apply in_flat_map in Hin. destruct Hin as (b & Hb & Hp).
  apply freed_in_tx_pend_at, in_flat_map. exists b. split; [|exact Hp]. apply filter_In. split; [now apply Hl|].
  apply N.eqb_eq. exact (proj1 (Forall_forall _ _) H b Hb).
Qed.

Lemma own_freed : forall s p, Forall (fun b : N * list N => fst b = txid s) (pending s) ->
  freed_in_tx s p = false -> ~ In p (pend_all (pending s)).
Proof. intros s p H Hf Hin. rewrite (own_pages_freed s (pending s) p (incl_refl _) H Hin) in Hf. discriminate. Qed.

Lemma addp_psz : forall old s, psz (addp old s) = psz s. Proof. reflexivity. Qed.
Lemma addp_wr : forall old s, wr (addp old s) = wr s. Proof. reflexivity. Qed.
Lemma addp_free : forall old s, free (addp old s) = free s. Proof. reflexivity. Qed.
Lemma addp_np : forall old s, np (addp old s) = np s. Proof. reflexivity. Qed.
Lemma addp_txid : forall old s, txid (addp old s) = txid s. Proof. reflexivity. Qed.
Lemma addp_pending : forall old s, pending (addp old s) = old ++ pending s. Proof. reflexivity. Qed.

Lemma addp_seq : forall old s, Jt old s -> next_seq (addp old s) = (fst (next_seq s), addp old (snd (next_seq s))).
Proof. reflexivity. Qed.
Lemma Jt_seq : forall old s, Jt old s -> Jt old (snd (next_seq s)).
Proof. intros old s H. exact H. Qed.

Lemma Jt_ext : forall old s s', txid s' = txid s -> pending s' = pending s -> Jt old s -> Jt old s'.
Proof. intros old s s' E1 E2 H. unfold Jt in *. now rewrite E1, E2. Qed.

Lemma addp_free_run : forall old n s p, Jt old s ->
  free_run (addp old s) p n = addp old (free_run s p n) /\ Jt old (free_run s p n).
Proof.
  intros old. induction n as [|n IH]; intros s p HJ; cbn [free_run]; [auto|].
  pose proof HJ as (H1 & H2 & H3). rewrite (freed_old old s p H1).
  destruct (freed_in_tx s p) eqn:Ef; [now apply IH|].
  assert (E : upd_pending (addp old s) (pend_add (txid (addp old s)) p (pending (addp old s)))
              = addp old (upd_pending s (pend_add (txid s) p (pending s)))).
  { unfold addp. cbn [pending txid upd_pending free np psz wr flw seqc]. now rewrite (pend_add_old _ _ _ _ H1). }
  rewrite E. apply IH. split; [exact H1|]. cbn [pending txid upd_pending]. split.
  - apply (EngineOwnDefs.pend_add_ids (txid s) p (pending s) (fun u => u = txid s)); [reflexivity | exact H2].
  - apply pend_add_NoDup; [exact H3 | now apply own_freed].
Qed.

Lemma addp_freep : forall old s p n, Jt old s -> free_pages (addp old s) p n = addp old (free_pages s p n).
Proof. intros old s p n H. unfold free_pages. now apply addp_free_run. Qed.
Lemma Jt_freep : forall old s p n, Jt old s -> Jt old (free_pages s p n).
Proof. intros old s p n H. unfold free_pages. now apply addp_free_run. Qed.

Lemma addp_alloc : forall old s b, Jt old s ->
  tx_allocate (addp old s) b = (fst (tx_allocate s b), addp old (snd (tx_allocate s b))).
Proof.
  intros old s b _. unfold tx_allocate. cbn [free psz np addp upd_pending].
  destruct (fl_allocate (free s) _) as [[p f']|]; reflexivity.
Qed.
Lemma Jt_alloc : forall old s b, Jt old s -> Jt old (snd (tx_allocate s b)).
Proof.
  intros old s b H. unfold tx_allocate. destruct (fl_allocate (free s) _) as [[p f']|]; cbn [snd]; exact H.
Qed.

Lemma addp_updwr : forall old s w, Jt old s -> upd_wr (addp old s) w = addp old (upd_wr s w).
Proof. reflexivity. Qed.
Lemma Jt_updwr : forall old s w, Jt old s -> Jt old (upd_wr s w).
Proof. intros old s w H. exact H. Qed.

(* the parametricity theorems of EngineRSim at this instance *)
Section Inst.
Variable old : list (N * list N).
Let A := addp old.
Let J := Jt old.

Lemma tx_fold_addp : forall st ops rb s, J s ->
  simr (m2 A) (p2 J) (tx_fold st ops (rb, A s)) (tx_fold st ops (rb, s)).
Proof.
  intros. apply (tx_fold_sim A J (addp_seq old) (Jt_seq old) (addp_freep old) (Jt_freep old)). assumption.
Qed.

Lemma rebalance_addp : forall f d b s, J s -> simr (m2 A) (p2 J) (rebalance f d b (A s)) (rebalance f d b s).
Proof.
  intros. apply (rebalance_sim A J (addp_psz old) (addp_seq old) (Jt_seq old) (addp_freep old) (Jt_freep old)). assumption.
Qed.

Lemma spill_bucket_addp : forall f d b s ord, J s ->
  simr (m4 A) (p4 J) (spill_bucket f d b (A s) ord) (spill_bucket f d b s ord).
Proof.
  intros. apply (spill_bucket_sim A J (addp_psz old) (addp_wr old) (addp_seq old) (Jt_seq old) (addp_freep old)
                   (Jt_freep old) (addp_alloc old) (Jt_alloc old) (addp_updwr old) (Jt_updwr old)). assumption.
Qed.
End Inst.

Notation asc := FreelistFacts.asc.

(* the release bound of a writer that begins with oldest-reader bound [b] *)
Definition rbound (st : db) (b : N) : N := N.min b (d_tx st + 1).
(* the free list after the release, the batches that stay pending, the batches released *)
Definition rfree (st : db) (b : N) : list N := fst (release (rbound st b) (d_free st) (d_pending st)).
Definition kept (st : db) (b : N) : list (N * list N) := snd (release (rbound st b) (d_free st) (d_pending st)).

(* [st] seen by a reader-less writer: the released ids are free, the kept batches are forgotten *)
Definition hat (st : db) (b : N) : db :=
  {| d_disk := d_disk st; d_root := d_root st; d_next := d_next st; d_np := d_np st; d_fl := d_fl st; d_fln := d_fln st;
     d_flids := d_flids st; d_tx := d_tx st; d_free := rfree st b; d_pending := []; d_psz := d_psz st |}.

Lemma begin_w_hat : forall st b, begin_w (hat st b) =
  {| free := rfree st b; pending := []; txid := (d_tx st + 1)%N; np := d_np st; psz := d_psz st; wr := []; flw := None; seqc := 1%N |}.
Proof. reflexivity. Qed.

Theorem begin_w_r_eq : forall st b, begin_w_r st b = addp (kept st b) (begin_w (hat st b)).
Proof.
  intros st b. rewrite begin_w_hat. unfold begin_w_r, addp, rfree, kept, rbound. cbn [pending upd_pending free txid np psz wr flw seqc].
  destruct (release (N.min b (d_tx st + 1)) (d_free st) (d_pending st)) as [fr pd]. cbn [fst snd]. now rewrite app_nil_r.
Qed.

Lemma kept_suffix : forall st b, exists rel, d_pending st = rel ++ kept st b /\
  Forall (fun x : N * list N => (fst x < rbound st b)%N) rel /\
  (forall x, In x (rfree st b) <-> In x (d_free st) \/ In x (pend_all rel)) /\ (asc (d_free st) -> asc (rfree st b)).
Proof.
  intros st b. unfold kept, rfree. destruct (release (rbound st b) (d_free st) (d_pending st)) as [fr pd] eqn:E.
  cbn [fst snd]. exact (EngineAllocFacts.release_split _ _ _ _ _ E).
Qed.

Lemma Jt_begin : forall st b, EngineOwnDefs.pend_le st -> Jt (kept st b) (begin_w (hat st b)).
Proof.
  intros st b Hpl. rewrite begin_w_hat. unfold Jt. cbn [txid pending]. split; [|split; [constructor | constructor]].
  destruct (kept_suffix st b) as (rel & E & _). unfold EngineOwnDefs.pend_le in Hpl. rewrite E in Hpl.
  apply Forall_app in Hpl. destruct Hpl as [_ Hk]. eapply Forall_impl; [|exact Hk]. cbn beta. intros x Hx. lia.
Qed.

(* with no reader to respect the writer is the reader-less one *)
Theorem begin_w_r_none : forall st b, (d_tx st + 1 <= b)%N -> begin_w_r st b = begin_w st.
Proof. intros st b H. unfold begin_w_r, begin_w. replace (N.min b (d_tx st + 1)) with (d_tx st + 1)%N by lia. reflexivity. Qed.

Theorem run_tx_r_none : forall st b ops ord, (d_tx st + 1 <= b)%N -> run_tx_r st b ops ord = run_tx st ops ord.
Proof. intros st b ops ord H. unfold run_tx_r, run_tx. now rewrite (begin_w_r_none st b H). Qed.

Lemma run_tx_r_fold : forall st b ops ord,
  run_tx_r st b ops ord =
  bind (tx_fold st ops (root_bucket st, begin_w_r st b)) (fun p => commit st (fst p) (snd p) ord).
Proof.
  intros st b ops ord. unfold run_tx_r, tx_fold, tx_step.
  match goal with |- bind ?X _ = bind ?Y _ => change Y with X; destruct X as [[r s]| |] end; reflexivity.
Qed.

(* the last step of [commit] *)
Definition commit_tail (st : db) (r nx : N) (s2 : txs) : db :=
  let s3 := free_pages s2 (d_fl st) (d_fln st) in
  let '(flp, fln, s4) := tx_allocate s3 (40 + 8 * llen (all_pages s3))%N in
  {| d_disk := apply_wr (wr s4) (psz s4) (d_disk st); d_root := r; d_next := nx; d_np := np s4; d_fl := flp;
     d_fln := fln; d_flids := all_pages s4; d_tx := txid s4; d_free := free s4; d_pending := pending s4;
     d_psz := psz s4 |}.

Lemma commit_unfold : forall st b s ord, commit st b s ord =
  bind (rebalance fuel0 (d_disk st) b s) (fun y =>
  bind (spill_bucket fuel0 (d_disk st) (fst y) (snd y) ord) (fun z =>
  Ok (commit_tail st (fst (fst (fst z))) (snd (fst (fst z))) (snd (fst z))))).
Proof.
  intros st b s ord. rewrite commit_apply_wr. unfold commit_with_apply_wr, commit_tail.
  destruct (rebalance fuel0 (d_disk st) b s) as [[b1 s1]| |]; cbn [bind fst snd]; try reflexivity.
  destruct (spill_bucket fuel0 (d_disk st) b1 s1 ord) as [[[[r nx] s2] o]| |]; cbn [bind fst snd]; try reflexivity.
  destruct (tx_allocate _ _) as [[flp fln] s4]. reflexivity.
Qed.

Lemma simr_inv : forall {R} (m : R -> R) (P : R -> Prop) r1 r2 z, simr m P r1 r2 -> r1 = Ok z ->
  exists y, r2 = Ok y /\ z = m y /\ P y.
Proof.
  intros R m P r1 r2 z H E. destruct r2 as [y|e|e]; cbn [simr] in H.
  - destruct H as [H1 H2]. exists y. split; [reflexivity|]. split; [congruence | exact H2].
  - congruence.
  - congruence.
Qed.

(* the transaction with readers, step by step next to the reader-less transaction on [hat st b] *)
Record tx_decomp (st : db) (b : N) (ops : list op) (ord : list bytes) (st' : db)
  (root' : bucket) (sh' : txs) (b1 : bucket) (sh1 : txs) (r nx : N) (sh2 : txs) (ord' : list bytes) : Prop := {
  (* the reader-less run on [hat st b] *)
  td_fold_h : tx_fold (hat st b) ops (root_bucket (hat st b), begin_w (hat st b)) = Ok (root', sh');
  td_reb_h : rebalance fuel0 (d_disk st) root' sh' = Ok (b1, sh1);
  td_run_h : run_tx (hat st b) ops ord = Ok (commit_tail (hat st b) r nx sh2);
  (* every batch of its pending lists is its own *)
  td_J1 : Jt (kept st b) sh1; td_J2 : Jt (kept st b) sh2;
  (* the run with readers: the same, with the kept batches in front *)
  td_reb : rebalance fuel0 (d_disk st) root' (addp (kept st b) sh') = Ok (b1, addp (kept st b) sh1);
  td_spill : spill_bucket fuel0 (d_disk st) b1 (addp (kept st b) sh1) ord = Ok (r, nx, addp (kept st b) sh2, ord');
  td_commit : commit st root' (addp (kept st b) sh') ord = Ok st';
  td_st' : st' = commit_tail st r nx (addp (kept st b) sh2) }.

Theorem run_tx_r_decomp : forall st b ops ord st', EngineOwnDefs.pend_le st -> run_tx_r st b ops ord = Ok st' ->
  exists root' sh' b1 sh1 r nx sh2 ord', tx_decomp st b ops ord st' root' sh' b1 sh1 r nx sh2 ord'.
Proof.
  intros st b ops ord st' Hpl Hrun. rewrite run_tx_r_fold in Hrun.
  apply bind_ok_inv in Hrun. destruct Hrun as ([root' s'] & Hf & Hc). cbn [fst snd] in Hc.
  pose proof (Jt_begin st b Hpl) as HJ0. rewrite begin_w_r_eq in Hf.
  destruct (simr_inv _ _ _ _ _ (tx_fold_addp (kept st b) st ops (root_bucket st) _ HJ0) Hf) as ([root2 sh'] & Hfh & E & HJ').
  unfold m2, p2 in E, HJ'. cbn [fst snd] in E, HJ'. inversion E; subst root2 s'. clear E.
  pose proof Hc as Hc0. rewrite commit_unfold in Hc.
  apply bind_ok_inv in Hc. destruct Hc as ([b1 s1] & Hr & Hc). cbn [fst snd] in Hc.
  destruct (simr_inv _ _ _ _ _ (rebalance_addp (kept st b) fuel0 (d_disk st) root' sh' HJ') Hr) as ([b2 sh1] & Hrh & E & HJ1).
  unfold m2, p2 in E, HJ1. cbn [fst snd] in E, HJ1. inversion E; subst b2 s1. clear E.
  apply bind_ok_inv in Hc. destruct Hc as ([[[r nx] s2] ord'] & Hs & Hc). cbn [fst snd] in Hc.
  destruct (simr_inv _ _ _ _ _ (spill_bucket_addp (kept st b) fuel0 (d_disk st) b1 sh1 ord HJ1) Hs) as ([[[r2 nx2] sh2] ord2] & Hsh & E & HJ2).
  unfold m4, p4 in E, HJ2. cbn [fst snd] in E, HJ2. inversion E; subst r2 nx2 s2 ord2. clear E.
  inversion Hc; subst st'. clear Hc.
  exists root', sh', b1, sh1, r, nx, sh2, ord'. constructor; try assumption; try reflexivity.
  rewrite run_tx_fold. unfold tx_fold in *. cbn [d_disk hat] in *. change (root_bucket (hat st b)) with (root_bucket st) in *.
  rewrite Hfh. cbn [bind fst snd]. rewrite commit_unfold. cbn [d_disk hat]. rewrite Hrh. cbn [bind fst snd]. rewrite Hsh. reflexivity.
Qed.
