(* C02 over HISTORIES: any number of commit attempts in a row, each cut by a power loss at any point with any fate
   for every un-synced write (a torn header included), each starting from whatever the previous crash left on disk.
   The single-commit theorems (CrashCurrent.power_current) speak about one commit from a disk that selects [cur]; here
   the invariant [hist_inv] (a header is selected; every page it needs holds what was written by its own transaction
   or an earlier one -- no garbage, nothing from a later transaction) is shown to survive every such attempt, so it holds
   after every history. The target slot of each attempt is [negb (current_slot d)] evaluated on the disk AS THE CRASH
   LEFT IT: after a torn header the invalid slot is written again, never the only valid one.
   Premise per attempt: [commit_setting] relative to the header selected at that moment (copy-on-write with respect to
   THAT header: discharged for the engine model by EngineCow for every state, in particular the reopened pre / post state). *)
From Coq Require Import List NArith Bool Arith Lia.
From Jamm Require Import Bytes Consts PL Crash CrashFacts CrashCurrent.
Import ListNotations.

Definition page_settled (d : disk) (h : header) (p : N) : Prop :=
  exists t', lookup_page p (pages d) = Written t' /\ (t' <= h_tx h)%N.
Definition hist_inv (d : disk) : Prop :=
  exists cur, select d = Some cur /\ forall p, In p (h_live cur) -> page_settled d cur p.

(* one attempt: what the transaction wants to commit, and where / how the power loss cuts it *)
Record attempt := mkAttempt { a_newh : header; a_written : list N; a_n : nat; a_fates : nat -> fate }.
Definition attempt_image (d : disk) (a : attempt) : disk :=
  power_image (h_tx (a_newh a)) (a_newh a) (negb (current_slot d)) d (commit_io (a_written a)) (a_n a) (a_fates a).
(* the attempt is a commit of the state the disk shows now *)
Definition attempt_ok (d : disk) (a : attempt) : Prop :=
  exists cur, commit_setting d cur (a_newh a) (h_tx (a_newh a)) (a_written a).

(* any image that shows the commit wholly or not at all keeps the invariant *)
Lemma pre_or_post_keeps_hist_inv : forall d cur newh written img,
  hist_inv d -> commit_setting d cur newh (h_tx newh) written -> pre_or_post d cur newh (h_tx newh) written img ->
  hist_inv img /\ (select img = Some cur \/ select img = Some newh).
Proof.
  intros d cur newh written img (cur' & Hsel & Hlive) HS Hpp.
  assert (cur' = cur) by (pose proof (cs_select _ _ _ _ _ HS) as E; rewrite Hsel in E; now inversion E). subst cur'.
  destruct Hpp as [[Hs Hi]|[Hs Hi]].
  - split; [|now left]. exists cur. split; [exact Hs|]. intros p Hp. destruct (Hlive p Hp) as (t' & Ht' & Hle).
    exists t'. split; [|exact Hle]. rewrite (Hi p Hp). exact Ht'.
  - split; [|now right]. exists newh. split; [exact Hs|]. intros p Hp. pose proof (Hi p Hp) as Hc. unfold orig_new in Hc.
    destruct (memN p written) eqn:Em.
    + exists (h_tx newh). split; [exact Hc | lia].
    + destruct (cs_new _ _ _ _ _ HS p Hp) as [Hw|Hc'].
      * apply PLFacts.memN_In in Hw. congruence.
      * destruct (Hlive p Hc') as (t' & Ht' & Hle). exists t'. split; [now rewrite Hc|].
        pose proof (cs_lt _ _ _ _ _ HS). lia.
Qed.

Lemma attempt_outcome : forall d a cur, select d = Some cur -> attempt_ok d a ->
  pre_or_post d cur (a_newh a) (h_tx (a_newh a)) (a_written a) (attempt_image d a).
Proof.
  intros d a cur Hsel (cur' & HS). pose proof (cs_select _ _ _ _ _ HS) as E. rewrite Hsel in E. injection E as <-.
  exact (power_current _ _ _ _ _ HS (a_n a) (a_fates a)).
Qed.

Lemma attempt_keeps_inv : forall d a, hist_inv d -> attempt_ok d a -> hist_inv (attempt_image d a).
Proof.
  intros d a Hd (cur & HS).
  exact (proj1 (pre_or_post_keeps_hist_inv _ _ _ _ _ Hd HS (power_current _ _ _ _ _ HS (a_n a) (a_fates a)))).
Qed.

(* histories: each attempt is made on the image the previous one left *)
Fixpoint run_attempts (d : disk) (l : list attempt) : disk :=
  match l with [] => d | a :: r => run_attempts (attempt_image d a) r end.
Fixpoint attempts_ok (d : disk) (l : list attempt) : Prop :=
  match l with [] => True | a :: r => attempt_ok d a /\ attempts_ok (attempt_image d a) r end.

Theorem crash_history_inv : forall l d, hist_inv d -> attempts_ok d l -> hist_inv (run_attempts d l).
Proof.
  induction l as [|a r IH]; intros d Hd Hok; cbn [run_attempts]; [exact Hd|].
  destruct Hok as [Ha Hr]. apply IH; [now apply attempt_keeps_inv | exact Hr].
Qed.

(* what is selected after a history is the initial header or the header of one of the attempts *)
Lemma history_selects : forall l d cur0, select d = Some cur0 -> attempts_ok d l ->
  exists h, select (run_attempts d l) = Some h /\ (h = cur0 \/ In h (map a_newh l)).
Proof.
  induction l as [|a r IH]; intros d cur0 Hsel Hok; cbn [run_attempts map].
  - exists cur0. split; [exact Hsel | now left].
  - destruct Hok as [Ha Hr].
    destruct (attempt_outcome d a cur0 Hsel Ha) as [[Hs _]|[Hs _]];
      destruct (IH _ _ Hs Hr) as (h & Hh & [E|Hin]); exists h; (split; [exact Hh|]); cbn [In]; auto.
Qed.

(* [history_selects] with [hist_inv d] among the hypotheses (it is not used): the form props/C02.v quotes *)
Theorem crash_history_selects : forall l d cur0, select d = Some cur0 -> hist_inv d -> attempts_ok d l ->
  exists h, select (run_attempts d l) = Some h /\ (h = cur0 \/ In h (map a_newh l)).
Proof. intros l d cur0 Hsel _. now apply history_selects. Qed.

(* after a torn header the next attempt writes the INVALID slot: the slot holding the only valid header is never the target *)
Theorem target_is_never_the_current_slot : forall d cur, select d = Some cur ->
  get_slot d (current_slot d) = SValid cur /\ negb (current_slot d) <> current_slot d.
Proof.
  intros d cur H. split; [now apply current_slot_holds | destruct (current_slot d); discriminate].
Qed.

(* the opposite rule -- write the slot whose raw tx id is lower, looking at the raw word and not at validity -- loses
   everything in two crashes: computed. Slot 0 holds the valid header (tx 5), slot 1 was torn by the first crash while
   carrying the raw id 6; "the lower raw id" is slot 0; the second crash tears that write too. *)
Definition ex_two : disk := mkDisk [(4%N, Written 5%N)] (SValid (mkHeader 5 [4%N])) SInvalid.
Example two_crashes_other_rule_loses_all :
  select ex_two = Some (mkHeader 5 [4%N]) /\
  select (write_slot ex_two false SInvalid) = None /\
  select (write_slot ex_two (negb (current_slot ex_two)) SInvalid) = Some (mkHeader 5 [4%N]).
Proof. vm_compute. repeat split. Qed.

(* non-vacuity: the two-slot disk [ex_two] satisfies the invariant *)
Example hist_inv_inhabited : hist_inv ex_two.
Proof.
  exists (mkHeader 5 [4%N]). split; [reflexivity|]. intros p [<-|[]]. exists 5%N. split; [reflexivity | cbn; lia].
Qed.

Print Assumptions crash_history_inv.
Print Assumptions crash_history_selects.
Print Assumptions target_is_never_the_current_slot.
Print Assumptions two_crashes_other_rule_loses_all.

(* the rule the model uses for the target slot is the one the translator finds in write_data (tools/gen_consts.py:
   meta_page_id = (self.meta.meta_page == 0) for page id, stored slot number and file offset, self.meta taken from the
   validated selection in Tx::new) *)
Lemma header_target_pinned : header_target_other_than_current = true.
Proof. reflexivity. Qed.
