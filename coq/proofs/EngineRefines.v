(* One transaction of the engine model refines the functional semantics: from a committed state that is strict and
   satisfies the allocation invariant ([db_ok]), a successful [run_tx] commits a state that means
   [sem_tx ops (abs_db st)] and is strict again. The allocation invariant of the new state is a hypothesis of
   [run_tx_refines] here, decidable by [db_alloc_okb]; EngineAllocInv proves it and states the refinement without it.
   The overlay invariant [XDF] adds what neither [SDeep] / [RDeep] of EngineTxInvFacts nor [ovl_wf] of EnginePathFacts
   records: the pages an overlay names are pages of the committed tree (for keep <= live and for freshness); an opened
   bucket that is not dirty still carries the (root, next) of its entry and has no root node (the clean clause of
   [SReady]); the overlay is at most 9 buckets deep, so that [is_dirty fuel0 b = false] means "nothing below b is
   dirty" (the dirty test is fuelled: without a depth bound the clean clause is not derivable). [live_of] includes the
   overflow runs of multi-page nodes. *)
From Coq Require Import List NArith Bool Arith Lia ZifyN ZifyNat ZifyBool Permutation.
From Coq.Strings Require Import Byte.
From Jamm Require Spec.
From Jamm Require Import ListFacts Bytes BytesFacts Tree Cursor SearchFacts Engine EngineAbs EngineFacts EngineMergeFacts.
From Jamm Require Import EngineModifyFacts EngineSpillFacts EnginePathFacts EngineBridgeFacts EngineRebalanceFacts.
From Jamm Require FreelistFacts EngineAllocFacts EngineSpillWfFacts.
From Jamm Require Import EngineTxInvFacts EngineSpillBucketFacts.
Import ListNotations.
Import Coq.Strings.String.StringSyntax. Delimit Scope string_scope with string.
Local Open Scope list_scope. Local Open Scope nat_scope.
Set Warnings "-abstract-large-number".

Notation snode := Spec.snode.
Notation SBucket := Spec.SBucket.
Notation SVal := Spec.SVal.
Notation asc := FreelistFacts.asc.
Notation ge2 := FreelistFacts.ge2.
Notation pend_all := PL.pend_all.

(** * The allocation invariant of a committed state *)

(* the page run of the node stored at q (head page and overflow pages) *)
Definition prun (d : disk) (q : N) : list N :=
  match dget d q with Some a => nrun q (ap_over a + 1) | None => [q] end.

(* [R] is closed under "child of a branch page" and "root of a nested bucket" *)
Definition closedR (d : disk) (R : list N) : Prop :=
  forall q a, In q R -> dget d q = Some a ->
    match ap_body a with
    | Branches es => forall e, In e es -> In (snd e) R
    | Leaves l => forall k r nx, In (LBk k r nx) l -> In r R
    end.

(* the pages that must not be handed out: the runs of the allocated tree pages [R], and the free-list run *)
Definition live_of (st : db) (R : list N) : list N :=
  flat_map (prun (d_disk st)) R ++ nrun (d_fl st) (d_fln st).

(* [alloc_ok st R]: R contains the root and is closed, so it contains every page reachable from the root through
   branch entries and nested buckets; it MAY contain more: leaked pages are harmless here *)
Definition alloc_ok (st : db) (R : list N) : Prop :=
  (0 < d_psz st)%N /\ (2 <= d_np st)%N /\
  asc (d_free st) /\ ge2 (d_free st) /\ (forall x, In x (d_free st) -> (x < d_np st)%N) /\
  Forall (fun x => (2 <= x < d_np st)%N) (pend_all (d_pending st)) /\
  In (d_root st) R /\ closedR (d_disk st) R /\
  (forall x, In x (live_of st R) ->
     (2 <= x < d_np st)%N /\ ~ In x (d_free st) /\ ~ In x (pend_all (d_pending st))).

Definition db_alloc_ok (st : db) : Prop := exists R, alloc_ok st R.
Definition db_ok (st : db) : Prop := db_strict st /\ db_alloc_ok st.

Lemma In_prun_self : forall d q, In q (prun d q).
Proof.
  intros d q. unfold prun. destruct (dget d q); [|now left]. apply In_nrun. lia.
Qed.

Lemma R_live : forall st R q, In q R -> In q (live_of st R).
Proof.
  intros st R q H. unfold live_of. apply in_or_app. left. apply in_flat_map. exists q. split; [exact H | apply In_prun_self].
Qed.

Theorem begin_w_fresh : forall st R, alloc_ok st R -> fresh_inv (live_of st R) (begin_w st).
Proof.
  intros st R (Hpsz & Hnp & Hasc & Hge & Hlt & Hpd & _ & _ & Hlive). unfold begin_w.
  destruct (release (d_tx st + 1) (d_free st) (d_pending st)) as [fr pd] eqn:Er.
  destruct (EngineAllocFacts.release_src _ _ _ _ _ Er Hasc) as [A B].
  pose proof (FreelistFacts.release_ge2 (d_tx st + 1) (d_pending st) (d_free st) fr pd Hge) as G.
  rewrite Forall_forall in Hpd.
  constructor; cbn [free np psz].
  - exact Hpsz.
  - exact Hnp.
  - exact A.
  - apply G; [|exact Er]. apply Forall_forall. intros x Hx. apply (Hpd x Hx).
  - intros x Hx. destruct (B x Hx) as [Hf | Hp]; [now apply Hlt | apply (Hpd x Hp)].
  - intros x Hx. destruct (Hlive x Hx) as (L1 & L2 & L3). split; [apply L1|].
    intros Hf. destruct (B x Hf); tauto.
Qed.

Lemma begin_w_fields : forall st, wr (begin_w st) = [] /\ np (begin_w st) = d_np st /\ psz (begin_w st) = d_psz st.
Proof.
  intros st. unfold begin_w. destruct (release (d_tx st + 1) (d_free st) (d_pending st)). cbn. auto.
Qed.

(** * Closed page sets *)

Lemma closed_subtree : forall d R, closedR d R -> forall q x, in_subtree d q x -> In q R -> In x R.
Proof.
  intros d R HC q x H. induction H as [q | q a es e x Hg Hb He Hsub IH]; intros Hq; [exact Hq|].
  apply IH. specialize (HC q a Hq Hg). rewrite Hb in HC. now apply HC.
Qed.

(* an entry of the view of page r sits in a leaf page below r *)
Lemma PageView_entry_page : forall d h r l, PageView d h r l -> forall e, In e l ->
  exists q a l0, in_subtree d r q /\ dget d q = Some a /\ ap_body a = Leaves l0 /\ In e l0.
Proof.
  intros d. induction h as [|h IH]; intros r l H e He; [inversion H|].
  inversion H as [? ? a l0 Hg Hb | ? ? a es ls Hg Hb HF]; subst.
  - exists r, a, l. split; [apply ist_self|]. auto.
  - apply in_concat in He. destruct He as (lj & Hlj & He).
    destruct (In_nth_error _ _ Hlj) as [j Hj].
    assert (Hx : exists x, nth_error es j = Some x /\ PageView d h (snd x) lj).
    { clear -HF Hj. revert j Hj. induction HF as [|x y xs ys Hxy _ IHF]; intros j Hj; [destruct j; discriminate|].
      destruct j as [|j]; cbn [nth_error] in *; [inversion Hj; subst; eauto | now apply IHF]. }
    destruct Hx as (x & Hxj & Hvx). destruct (IH _ _ Hvx e He) as (q & a' & l0 & Hsub & Hg' & Hb' & Hin).
    exists q, a', l0. split; [|auto]. eapply ist_kid; eauto. eapply nth_error_In; eauto.
Qed.

Lemma closed_view_entry : forall d R h r l k r' nx, closedR d R -> In r R -> PageView d h r l ->
  In (LBk k r' nx) l -> In r' R.
Proof.
  intros d R h r l k r' nx HC Hr Hv He.
  destruct (PageView_entry_page _ _ _ _ Hv _ He) as (q & a & l0 & Hsub & Hg & Hb & Hin).
  pose proof (closed_subtree d R HC _ _ Hsub Hr) as Hq. specialize (HC q a Hq Hg). rewrite Hb in HC. eapply HC; eauto.
Qed.

(* a strict committed bucket whose root is in a closed set is kept by it, nested buckets included *)
Lemma closed_ckept : forall d R, closedR d R -> forall n r, sbk n d r -> In r R -> ckept n d R r.
Proof.
  intros d R HC. induction n as [|n IH]; intros r Hs Hr; [destruct Hs|].
  cbn [sbk] in Hs. destruct Hs as (h & l & Hh & _ & _ & Hv & HF). cbn [ckept]. split.
  - intros x Hx. eapply closed_subtree; eauto.
  - exists l. split; [eapply PageView_mono; eauto|]. rewrite Forall_forall in *. intros e He.
    specialize (HF e He). destruct e as [k v|k r' nx]; [exact I|]. apply IH; [exact HF|].
    eapply closed_view_entry; eauto.
Qed.

(** * The named pages do not depend on the height bound *)

Lemma ppages_present_stable : forall h d q, pages_present h d q -> forall h', h <= h' -> ppages h' d q = ppages h d q.
Proof.
  induction h as [|h IH]; intros d q H h' Hle; [destruct H|]. destruct h' as [|h']; [lia|].
  cbn [pages_present] in H. cbn [ppages]. destruct (dget d q) as [a|]; [|reflexivity].
  destruct (ap_body a) as [l|es]; [reflexivity|]. f_equal. apply flat_map_ext_in. intros e He.
  apply IH; [apply H, He | lia].
Qed.

Lemma ppages_stable : forall h d lo hi ok q, PInv h d lo hi ok q -> forall h', h <= h' -> ppages h' d q = ppages h d q.
Proof. intros h d lo hi ok q H. exact (ppages_present_stable h d q (EngineSpillWfFacts.PInv_present _ _ _ _ _ _ H)). Qed.

Lemma npages_stable : forall h d z lo hi n, Inv h d z lo hi n -> forall h', h <= h' -> npages h' d n = npages h d n.
Proof.
  induction h as [|h IH]; intros d z lo hi n H h' Hle; [destruct H|]. destruct h' as [|h']; [lia|].
  destruct n as [p np o s [l|es] ks]; [reflexivity|]. rewrite !npages_branch_eq. f_equal.
  apply flat_map_ext_in. intros e He. destruct (Inv_child _ _ _ _ _ _ _ _ _ _ _ _ H He) as (b & Hb).
  unfold CInv in Hb. unfold cpages. destruct (find_kid (snd e) ks) as [kd|].
  - apply (IH _ _ _ _ _ Hb). lia.
  - apply (ppages_stable _ _ _ _ _ _ Hb). lia.
Qed.

(* the pages below a strict page, as [in_subtree] sees them *)
Lemma ppages_subtree : forall h d q x, In x (ppages h d q) -> in_subtree d q x.
Proof.
  induction h as [|h IH]; intros d q x H; [destruct H|]. cbn [ppages] in H.
  destruct (dget d q) as [a|] eqn:Hg; [|destruct H]. destruct (ap_body a) as [l|es] eqn:Hb; [destruct H|].
  apply in_app_or in H. destruct H as [H|H].
  - apply in_map_iff in H. destruct H as (e & <- & He). eapply ist_kid; eauto. apply ist_self.
  - apply in_flat_map in H. destruct H as (e & He & Hx). eapply ist_kid; eauto.
Qed.

Lemma closed_ppages : forall d R h q, closedR d R -> In q R -> incl (ppages h d q) R.
Proof. intros d R h q HC Hq x Hx. eapply closed_subtree; eauto. eapply ppages_subtree; eauto. Qed.

(** * What the operations keep of the overlay beyond [SDeep] *)

Section Overlay.
Variables (d : disk) (R : list N).
Hypothesis HCR : closedR d R.

(* the pages the bucket's own tree names are allocated *)
Definition root_in (b : bucket) : Prop :=
  match b_rootn b with Some n => incl (npages fuel0 d n) R | None => In (b_root_page b) R end.

(* the roots of the nested buckets that are not opened are allocated *)
Definition unopened_in (subs : list (bytes * bucket)) (l : list leafent) : Prop :=
  forall k k' r nx, Spec.alookup k (assoc l) = Some (LBk k' r nx) -> sub_find k subs = None -> In r R.

(* an opened bucket that is not dirty still carries the (root, next) of its entry *)
Definition linked (l : list leafent) (x : bytes * bucket) : Prop :=
  b_dirty (snd x) = false ->
  Spec.alookup (fst x) (assoc l) = Some (LBk (fst x) (b_root_page (snd x)) (b_next (snd x))).

(* [XDF f b]: for [b] and every bucket opened below it (nesting depth <= f) *)
Fixpoint XDF (f : nat) (b : bucket) : Prop :=
  match f with
  | O => False
  | S f' =>
      root_in b /\ (b_dirty b = false -> b_rootn b = None) /\
      (forall l, bucket_view d b l ->
         unopened_in (b_subs b) l /\ (b_dirty b = false -> Forall (linked l) (b_subs b))) /\
      Forall (fun x => XDF f' (snd x)) (b_subs b)
  end.

Lemma XDF_S : forall f b, XDF (S f) b =
  (root_in b /\ (b_dirty b = false -> b_rootn b = None) /\
   (forall l, bucket_view d b l ->
      unopened_in (b_subs b) l /\ (b_dirty b = false -> Forall (linked l) (b_subs b))) /\
   Forall (fun x => XDF f (snd x)) (b_subs b)).
Proof. reflexivity. Qed.

Lemma XDF_mono : forall f b, XDF f b -> forall f', f <= f' -> XDF f' b.
Proof.
  induction f as [|f IH]; intros b H f' Hle; [destruct H|]. destruct f' as [|f']; [lia|].
  cbn [XDF] in *. destruct H as (A & B & C & D). repeat (split; [assumption|]).
  eapply Forall_impl; [|exact D]. cbn beta. intros x Hx. apply (IH _ Hx). lia.
Qed.

(* [b_modify] names no new page *)
Lemma b_modify_root_in : forall s b h l o b' s', BLoc d s b h l -> root_in b -> b_modify d b o s = Ok (b', s') ->
  root_in b'.
Proof.
  intros s b h l o b' s' (Hh & HB & HX & _ & _) HR H. unfold b_modify in H.
  apply bind_ok_inv in H. destruct H as ([root s0] & Er & H).
  apply bind_ok_inv in H. destruct H as ([n' s1] & Em & H). inversion H; subst b' s'. clear H.
  destruct (ensure_root_exact _ _ _ _ _ _ HB HX Er) as ((HI & Hnp & Hsq & Hlt) & HXr & S0).
  destruct (modify_Inv fuel0 h d s0 false None None root o n' s1 HI HXr (conj I I) Hsq Hlt Em)
    as (I1 & _ & _ & _ & _ & _ & P5 & _).
  unfold root_in. cbn [b_rootn]. rewrite (npages_stable _ _ _ _ _ _ I1 fuel0 Hh), P5.
  unfold ensure_root, root_in, BInv in *. destruct (b_rootn b) as [n|].
  - inversion Er; subst root s0. rewrite <- (npages_stable _ _ _ _ _ _ HI fuel0 Hh). exact HR.
  - destruct (dget d (b_root_page b)) as [a|] eqn:Hg; [|discriminate]. cbn [next_seq] in Er. inversion Er; subst root s0.
    rewrite (node_of_page_npages h d _ a _ Hg). now apply closed_ppages.
Qed.

Lemma XDF_dirty : forall f b, b_dirty b = true -> root_in b ->
  (forall l, bucket_view d b l -> unopened_in (b_subs b) l) ->
  Forall (fun x => XDF f (snd x)) (b_subs b) -> XDF (S f) b.
Proof.
  intros f b Hd HR HU HS. cbn [XDF]. split; [exact HR|]. split; [intros E; congruence|]. split; [|exact HS].
  intros l Hv. split; [now apply HU | intros E; congruence].
Qed.

(* bookkeeping of the un-opened entries, as for [SubsOk] *)
Lemma unopened_sub_put : forall subs l name sb, unopened_in subs l -> unopened_in (sub_put name sb subs) l.
Proof. intros subs l name sb H k k' r nx Hk Hs. apply sub_find_put_None in Hs. destruct Hs as [_ Hs]. eauto. Qed.

Lemma unopened_create : forall subs l l' name r nx sb, unopened_in subs l ->
  assoc l' = Spec.ainsert name (LBk name r nx) (assoc l) -> unopened_in (sub_put name sb subs) l'.
Proof.
  intros subs l l' name r nx sb H Ha k k' r0 nx0 Hk Hs. apply sub_find_put_None in Hs. destruct Hs as [Hne Hs].
  rewrite Ha, alookup_ainsert, (beq_false_ne _ _ Hne) in Hk. eauto.
Qed.

Lemma unopened_put_kv : forall subs l l' k v, unopened_in subs l ->
  assoc l' = Spec.ainsert k (LKv k v) (assoc l) -> unopened_in subs l'.
Proof.
  intros subs l l' k v H Ha k0 k' r0 nx0 Hk Hs. rewrite Ha, alookup_ainsert in Hk.
  destruct (beq k0 k); [discriminate | eauto].
Qed.

Lemma unopened_remove : forall subs subs' l l' k, unopened_in subs l -> sorted_keys (map lkey l) = true ->
  assoc l' = Spec.aremove k (assoc l) -> (forall k0, k0 <> k -> sub_find k0 subs' = sub_find k0 subs) ->
  unopened_in subs' l'.
Proof.
  intros subs subs' l l' k H Hs Ha Hother k0 k' r0 nx0 Hk Hsf.
  rewrite Ha, alookup_aremove in Hk by now rewrite assoc_keys.
  destruct (beq k0 k) eqn:E; [discriminate|]. apply (H k0 k' r0 nx0 Hk). rewrite <- Hother; [exact Hsf|].
  intros ->. rewrite beq_refl in E. discriminate.
Qed.

(* [same_id]: a bucket that comes out clean went in clean, with the same (root, next); [xd_pres]: the contract of an
   operation applied at the end of a path *)
Definition same_id (b b' : bucket) : Prop :=
  b_dirty b' = false -> b_dirty b = false /\ b_root_page b' = b_root_page b /\ b_next b' = b_next b.

Definition xd_pres (f : bucket -> txs -> res (bucket * txs)) : Prop :=
  forall k b s b' s', 2 <= k -> SDeep d s b -> XDF k b -> f b s = Ok (b', s') -> XDF k b' /\ same_id b b'.

Lemma same_id_refl : forall b, same_id b b.
Proof. intros b E. auto. Qed.

Lemma same_id_dirty : forall b b', b_dirty b' = true -> same_id b b'.
Proof. intros b b' E E'. congruence. Qed.

Lemma XDF_inv : forall f b s h l, XDF f b -> BLoc d s b h l ->
  exists f', f = S f' /\ root_in b /\ (b_dirty b = false -> b_rootn b = None) /\ unopened_in (b_subs b) l /\
    (b_dirty b = false -> Forall (linked l) (b_subs b)) /\ Forall (fun x => XDF f' (snd x)) (b_subs b).
Proof.
  intros [|f] b s h l H HL; [destruct H|]. cbn [XDF] in H. destruct H as (A & B & C & D).
  destruct (C l (BLoc_bucket_view _ _ _ _ _ HL)) as [C1 C2]. exists f. auto 8.
Qed.

Lemma XDF_sub : forall f b name sb, XDF (S f) b -> sub_find name (b_subs b) = Some sb -> XDF f sb.
Proof.
  intros f b name sb (_ & _ & _ & HF) Hsf. rewrite Forall_forall in HF. exact (HF _ (sub_find_In _ _ _ Hsf)).
Qed.

(* the result of [b_modify] (possibly with a new counter) satisfies the invariant *)
Lemma XDF_modified : forall f s b h l o b2 s2 nx' subs', BLoc d s b h l -> root_in b ->
  b_modify d b o s = Ok (b2, s2) ->
  unopened_in subs' (apply_lop o l) -> Forall (fun x => XDF f (snd x)) subs' ->
  XDF (S f) (Bucket (b_root_page b2) nx' true (b_rootn b2) subs').
Proof.
  intros f s b h l o b2 s2 nx' subs' HL HR Hm HU HS.
  pose proof (b_modify_root_in _ _ _ _ _ _ _ HL HR Hm) as HR2.
  destruct (b_modify_BLoc _ _ _ _ _ _ _ _ HL Hm) as (HL' & _).
  apply XDF_dirty; [reflexivity | exact HR2 | | exact HS]. cbn [b_subs]. intros l' Hv'.
  rewrite (BLoc_view_eq _ _ _ _ _ _ _ HL' eq_refl eq_refl Hv'). exact HU.
Qed.

(* a leaf operation other than the insertion of a bucket entry *)
Lemma kvop_xd : forall k s b o b' s2, SDeep d s b -> XDF k b -> kv_done d b o s b' s2 -> XDF k b' /\ same_id b b'.
Proof.
  intros k s b o b' s2 HD HX [[-> ->] | (cur & b2 & nx' & _ & _ & Hno & Hm & ->)]; [split; [exact HX | apply same_id_refl]|].
  split; [|now apply same_id_dirty]. destruct (SDeep_inv _ _ _ HD) as (h & l & HL & HS).
  destruct (XDF_inv _ _ _ _ _ HX HL) as (f' & -> & HR & _ & HU & _ & HF).
  apply (XDF_modified f' s b h l _ b2 s2 _ _ HL HR Hm); [|exact HF].
  pose proof (BLoc_sorted _ _ _ _ _ HL) as Hs. pose proof (apply_lop_assoc o l Hs) as Ha.
  destruct o as [[k0 v|k0 r nx]|k0]; cbn [aop lkey] in Ha.
  - eapply unopened_put_kv; eauto.
  - exfalso. eapply Hno; eauto.
  - eapply unopened_remove; eauto.
Qed.

(* a freshly opened committed bucket, and a freshly created one *)
Lemma open_XDF : forall r nx, In r R -> XDF 1 (Bucket r nx false None []).
Proof.
  intros r nx Hr. cbn [XDF b_subs b_dirty b_rootn]. split; [exact Hr|]. split; [reflexivity|]. split; [|constructor].
  intros l (h & _ & Hv). unfold BucketView in Hv. cbn [b_rootn b_root_page] in Hv. split; [|intros _; constructor].
  intros k k' r0 nx0 Hk _. apply alookup_assoc_key in Hk. destruct Hk as [_ Hin]. eapply closed_view_entry; eauto.
Qed.

Lemma new_XDF : forall sq, XDF 1 (Bucket 0 0 true (Some (Node 0 0 None sq (Leaves []) [])) []).
Proof.
  intros sq. apply XDF_dirty; [reflexivity | | | constructor].
  - unfold root_in. cbn [b_rootn]. intros x [].
  - intros l (h & _ & Hv). unfold BucketView in Hv. cbn [b_rootn] in Hv. apply NodeView_leaf_inv in Hv.
    destruct Hv as [-> _]. intros k k' r nx Hk. discriminate.
Qed.

Lemma opened_XDF : forall k s b name b0, 2 <= k -> SDeep d s b -> XDF k b -> opened d b name b0 ->
  XDF k b0 /\ same_id b b0.
Proof.
  intros k s b name b0 Hk HD HX [sb _ | k0 r nx Hsf Hl]; [split; [exact HX | apply same_id_refl]|].
  destruct (SDeep_inv _ _ _ HD) as (h & l & HL & _). pose proof (BLoc_lookup_LBk _ _ _ _ _ _ _ _ _ HL Hl) as Hal.
  destruct (XDF_inv _ _ _ _ _ HX HL) as (f & -> & HR & HN & HU & HLk & HF).
  split; [|intros E; cbn in *; auto].
  rewrite XDF_S. split; [exact HR|]. split; [exact HN|]. cbn [b_subs b_dirty]. split.
  - intros l' Hv'. rewrite (BLoc_view_eq _ _ _ _ _ _ _ HL eq_refl eq_refl Hv'). split; [now apply unopened_sub_put|]. intros Ed. apply sub_put_Forall; [now apply HLk|].
    intros _. cbn [fst snd b_root_page b_next]. exact Hal.
  - apply sub_put_Forall; [exact HF|]. apply (XDF_mono 1); [|lia]. apply open_XDF.
    exact (HU name name r nx Hal Hsf).
Qed.

Theorem b_get_or_create_xd : forall name k b s b' s', 2 <= k -> SDeep d s b -> XDF k b ->
  b_get_or_create d b name s = Ok (b', s') -> XDF k b' /\ same_id b b'.
Proof.
  intros name k b s b' s' Hk HD HX H.
  destruct (b_get_or_create_ok_inv _ _ _ _ _ _ H) as [[Ho ->] | (Hsf & _ & b2 & Hm & ->)]; [eapply opened_XDF; eauto|].
  destruct (SDeep_inv _ _ _ HD) as (h & l & HL & HS).
  destruct (XDF_inv _ _ _ _ _ HX HL) as (f & -> & HR & _ & HU & _ & HF).
  assert (Hle1 : (seqc s <= seqc (snd (next_seq s)))%N) by (cbn; lia).
  pose proof (BLoc_seqc_mono _ _ _ _ _ _ Hle1 HL) as HL1.
  destruct (b_modify_BLoc _ _ _ _ _ _ _ _ HL1 Hm) as (_ & Ha & _). cbn [aop lkey] in Ha.
  split; [|now apply same_id_dirty].
  apply (XDF_modified f _ b h l _ b2 s' _ _ HL1 HR Hm).
  - eapply unopened_create; eauto.
  - apply sub_put_Forall; [exact HF|]. apply (XDF_mono 1); [apply new_XDF | lia].
Qed.

(* storing the modified sub-bucket back into its parent *)
Lemma put_back_XDF : forall f s b h l name sb sb', BLoc d s b h l -> XDF (S f) b ->
  sub_find name (b_subs b) = Some sb -> XDF f sb' -> same_id sb sb' ->
  XDF (S f) (Bucket (b_root_page b) (b_next b) (b_dirty b) (b_rootn b) (sub_put name sb' (b_subs b))).
Proof.
  intros f s b h l name sb sb' HL HX Hsf HX' Hid.
  destruct (XDF_inv _ _ _ _ _ HX HL) as (f' & E & HR & HN & HU & HLk & HF). inversion E; subst f'. clear E.
  rewrite XDF_S. split; [exact HR|]. split; [exact HN|]. cbn [b_subs b_dirty]. split.
  - intros l' Hv'. rewrite (BLoc_view_eq _ _ _ _ _ _ _ HL eq_refl eq_refl Hv'). split; [now apply unopened_sub_put|]. intros Ed. specialize (HLk Ed).
    apply sub_put_Forall; [exact HLk|]. intros Ed'. cbn [fst snd] in *. destruct (Hid Ed') as (E1 & E2 & E3).
    rewrite Forall_forall in HLk. specialize (HLk _ (sub_find_In _ _ _ Hsf) E1). cbn [fst snd] in HLk.
    rewrite E2, E3. exact HLk.
  - apply sub_put_Forall; [exact HF | exact HX'].
Qed.

(* every level of the path uses one level of the nesting budget [k]; the last one may open or create a bucket *)
Theorem at_path_xd : forall f, xd_pres f -> forall path fuel k b s b' s', length path + 2 <= k -> SDeep d s b -> XDF k b ->
  at_path fuel d b path f s = Ok (b', s') -> XDF k b' /\ same_id b b'.
Proof.
  intros f Hf path fuel k b s b' s' Hk HD HX H. revert k Hk HD HX.
  pattern path, b, s, b', s'. apply (at_path_ok_ind d f) with (3 := H).
  - intros b0 s0 b0' s0' H0 k Hk HD HX. exact (Hf k b0 s0 b0' s0' Hk HD HX H0).
  - intros nm rest b0 s0 b1 s1 sb sb' s2 Hg Hsf IH k Hk HD HX. cbn [length] in Hk.
    destruct (b_get_or_create_pres d nm b0 s0 b1 s1 HD Hg) as [HD1 _].
    destruct (b_get_or_create_xd nm k b0 s0 b1 s1 ltac:(lia) HD HX Hg) as [HX1 Hid1].
    destruct (SDeep_inv _ _ _ HD1) as (h1 & l1 & HL1 & _). destruct k as [|k]; [lia|].
    destruct (IH k ltac:(lia) (SDeep_sub _ _ _ _ _ HD1 Hsf) (XDF_sub _ _ _ _ HX1 Hsf)) as [HX2 Hid2].
    split; [eapply put_back_XDF; eauto|]. intros E. cbn [b_dirty b_root_page b_next] in *. exact (Hid1 E).
Qed.

Lemma delb_phase2_xd : forall k b0 name sb s0 b' s', SDeep d s0 b0 -> XDF k b0 ->
  sub_find name (b_subs b0) = Some sb -> delb_phase2 d b0 name s0 = Ok (b', s') -> XDF k b' /\ b_dirty b' = true.
Proof.
  intros k b0 name sb s0 b' s' HD HX Hsf H.
  destruct (delb_phase2_inv _ _ _ _ _ _ _ HD Hsf H)
    as (h & l & r & nx & rest & s1 & HL & HS & Hal & Hnone & Hother & Hnd' & Hin & _ & Hle1 & HL1 & Hm).
  destruct (XDF_inv _ _ _ _ _ HX HL) as (f' & -> & HR & _ & HU & _ & HF).
  destruct (b_modify_BLoc _ _ _ _ _ _ _ _ HL1 Hm) as (_ & Ha & _). cbn [aop] in Ha.
  destruct (b_modify_ok_inv _ _ _ _ _ _ Hm) as [n' ->]. split; [|reflexivity].
  apply (XDF_modified f' s1 _ h l _ _ s' _ _ HL1 HR Hm).
  - eapply unopened_remove; [exact HU | eapply BLoc_sorted; eauto | exact Ha | exact Hother].
  - rewrite Forall_forall in *. intros x Hx. apply HF, Hin, Hx.
Qed.

Theorem op_run_xd : forall o, xd_pres (op_run d o).
Proof.
  intros [p k v|p k|p nm|p] kk b s b' s' Hkk HD HX H; cbn [op_run] in H.
  - exact (kvop_xd _ _ _ _ _ _ HD HX (soft_put_inv _ _ _ _ _ _ _ H)).
  - exact (kvop_xd _ _ _ _ _ _ HD HX (soft_delete_inv _ _ _ _ _ _ H)).
  - destruct (soft_delete_bucket_inv _ _ _ _ _ _ H) as [[-> ->] | (b0 & sb & Ho & Hsf & H2)];
      [split; [exact HX | apply same_id_refl]|].
    destruct (opened_XDF kk s b nm b0 Hkk HD HX Ho) as [HX0 _].
    destruct (delb_phase2_xd _ _ _ _ _ _ _ (opened_SDeep _ _ _ _ _ HD Ho) HX0 Hsf H2) as [A B].
    split; [exact A | now apply same_id_dirty].
  - inversion H; subst. split; [exact HX | apply same_id_refl].
Qed.

(* the steps of a transaction: a path is shorter than at_path's fuel 8 *)
Theorem tx_step_xd : forall o rb s rb' s' k, 9 <= k -> SDeep d s rb -> XDF k rb -> tx_step d (rb, s) o = Ok (rb', s') ->
  XDF k rb'.
Proof.
  intros o rb s rb' s' k Hk HD HX H. destruct (tx_step_ok_inv _ _ _ _ _ _ H) as [[-> ->] | [Hlen H']]; [exact HX|].
  eapply (at_path_xd _ (op_run_xd o)); eauto. lia.
Qed.

Theorem tx_fold_xd : forall st ops rb s root' s' k, d_disk st = d -> 9 <= k -> SDeep d s rb -> XDF k rb ->
  tx_fold st ops (rb, s) = Ok (root', s') -> XDF k root'.
Proof.
  intros st ops rb s root' s' k Ed Hk HD HX H.
  apply (tx_fold_inv st (fun rb' s' => SDeep d s' rb' /\ XDF k rb') ) with (3 := H); [|auto].
  intros o rb1 s1 rb2 s2 [HD1 HX1] Hst. rewrite Ed in Hst.
  split; [eapply tx_step_SDeep; eauto | eapply tx_step_xd; eauto].
Qed.

End Overlay.

(* what the operations of a transaction leave, from a committed state *)
Theorem tx_ops_XDF : forall st R ops root' s', db_strict st -> alloc_ok st R ->
  tx_fold st ops (root_bucket st, begin_w st) = Ok (root', s') -> XDF (d_disk st) R 9 root'.
Proof.
  intros st R ops root' s' Hdb (_ & _ & _ & _ & _ & _ & Hroot & HC & _) H.
  eapply (tx_fold_xd (d_disk st) R HC st ops (root_bucket st) (begin_w st)); eauto.
  - apply root_bucket_SDeep. exact Hdb.
  - unfold root_bucket. eapply XDF_mono; [apply open_XDF; eauto | lia].
Qed.

(** * Rebalance preserves the meaning of the overlay *)

(* [merge_nodes] touches only the tree *)
Lemma merge_nodes_fields : forall d b s b' s', merge_nodes d b s = Ok (b', s') ->
  b_next b' = b_next b /\ b_subs b' = b_subs b /\ b_dirty b' = b_dirty b.
Proof.
  intros d b s b' s' H. destruct (merge_nodes_ok_inv _ _ _ _ _ H) as (root & s0 & root1 & s1 & _ & _ & T).
  destruct T; cbn; auto.
Qed.

(* lookups in two lists of opened buckets with the same names *)
Lemma sub_find_F2 : forall (P : bucket -> bucket -> Prop) subs subs',
  Forall2 (fun x y => fst x = fst y /\ P (snd x) (snd y)) subs subs' -> forall k,
  match sub_find k subs with
  | Some sb => exists sb', sub_find k subs' = Some sb' /\ P sb sb'
  | None => sub_find k subs' = None end.
Proof.
  intros P subs subs' H k. induction H as [|[n b] [n' b'] subs subs' [E Hp] _ IH]; [reflexivity|].
  cbn [fst snd] in E, Hp. subst n'. rewrite !sub_find_cons. destruct (beq n k); [eauto | exact IH].
Qed.

Definition ovl_same (d : disk) (b b' : bucket) : Prop := forall m, OvlAbs d b m -> OvlAbs d b' m.

(* the meaning is determined by the view, the counter, and the meanings of the opened sub-buckets *)
Lemma OvlAbs_transfer : forall d b b' l, bucket_view d b l -> bucket_view d b' l -> b_next b' = b_next b ->
  Forall2 (fun x y => fst x = fst y /\ ovl_same d (snd x) (snd y)) (b_subs b) (b_subs b') -> ovl_same d b b'.
Proof.
  intros d b b' l Hv Hv' En HS m HO. inversion HO as [b0 l0 ents Hv0 HF]; subst b0 m.
  rewrite (bucket_view_det _ _ _ _ Hv0 Hv) in HF. rewrite <- En. apply OvlAbs_intro with (l := l); [exact Hv'|].
  eapply Forall2_impl; [|exact HF]. intros e kv He.
  pose proof (sub_find_F2 _ _ _ HS) as Hfind.
  inversion He as [? k v | ? k r nx sb m' Hs Hm | ? k r nx m' Hs Hm]; subst.
  - apply OE_kv.
  - specialize (Hfind k). rewrite Hs in Hfind. destruct Hfind as (sb' & Hs' & Hp). eapply OE_sub; eauto.
  - specialize (Hfind k). rewrite Hs in Hfind. now apply OE_disk.
Qed.

Lemma BGood_bucket_view : forall d s b l, BGood d s b l -> bucket_view d b l.
Proof. intros d s b l (h & Hh & _ & Hv). exists h. auto. Qed.

Lemma Forall2_Forall_l : forall {A B} (Q : A -> B -> Prop) (J : A -> Prop) xs ys,
  Forall2 Q xs ys -> (forall x y, Q x y -> J x) -> Forall J xs.
Proof. intros A B Q J xs ys H HQ. induction H; constructor; eauto. Qed.

Theorem rebalance_OvlAbs : forall f fv d s b v b' s', Deep fv d s b v -> rebalance f d b s = Ok (b', s') ->
  ovl_same d b b'.
Proof.
  induction f as [|f IH]; intros fv d s b v b' s' HD H; [discriminate|].
  destruct (rebalance_view (S f) fv d s b v b' s' HD H) as (HD' & _ & En).
  destruct fv as [|fv]; [destruct HD|]. destruct v as [l vs]. cbn [Deep] in HD, HD'.
  destruct HD as [HG HS]. destruct HD' as [HG' _].
  rewrite rebalance_S in H. destruct (negb (is_dirty fuel0 b)).
  { inversion H; subst. intros m Hm. exact Hm. }
  apply bind_ok_inv in H. destruct H as ([subs' s1] & Ef & H).
  destruct (merge_nodes_fields _ _ _ _ _ H) as (_ & Es & _). cbn [b_subs] in Es.
  destruct (reb_fold_each f d (fun s0 x => exists y, Deep fv d s0 (snd x) y)
              (fun x y => fst x = fst y /\ ovl_same d (snd x) (snd y))) with (subs := b_subs b)
              (s0 := s) (subs' := subs') (s1 := s1) as [R1 _].
  - intros s0 s0' x Hle [y Hy]. exists y. eapply Deep_seqc_mono; eauto.
  - intros s0 x bx sx [y Hy] Ex. destruct (rebalance_view f fv d s0 (snd x) y bx sx Hy Ex) as (_ & Tx & _).
    split; [apply (tx_frame_le _ _ Tx)|]. split; [reflexivity|]. cbn [snd]. eapply IH; eauto.
  - eapply Forall2_Forall_l; [exact HS|]. intros x y [_ Hy]. eauto.
  - exact Ef.
  - eapply OvlAbs_transfer; [eapply BGood_bucket_view; eauto | eapply BGood_bucket_view; eauto | exact En |].
    rewrite Es. exact R1.
Qed.

(** * Rebalance leaves the overlay ready for the spill *)

Lemma spill_ready_Rdy : forall d keep lo hi n, spill_ready d keep lo hi n -> Rdy d keep n.
Proof.
  intros d keep lo hi n H. induction H as [lo hi pg npg o sq l Hne | lo hi pg npg o sq es kids Hne Hr Hnd Hk Hkid IH Hkeep].
  - now apply Rdy_leaf.
  - apply Rdy_branch; [|exact Hkeep]. intros e kd He Hf.
    destruct (EngineSpillFacts.chb_In lo hi es e He) as (l0 & h0 & Hin). eapply IH; eauto.
Qed.

Lemma root_ready_RRdy : forall d keep n, root_ready d keep n -> RRdy d keep n.
Proof. intros d keep n [E | H]; [now left | right; eapply spill_ready_Rdy; eauto]. Qed.

(** ** clean buckets *)
Lemma Forall_sbk_fuel : forall d (l : list leafent),
  Forall (fun e => match e with LBk _ r _ => exists n, sbk n d r | LKv _ _ => True end) l ->
  exists n, Forall (fun e => match e with LBk _ r _ => sbk n d r | LKv _ _ => True end) l.
Proof.
  intros d l H. apply (Forall_exists_fuel (fun n e => match e with LBk _ r _ => sbk n d r | LKv _ _ => True end)).
  - intros n m [k v|k r nx] Hle; [auto|]. intros Hs. exact (sbk_mono _ _ _ Hs _ Hle).
  - eapply Forall_impl; [|exact H]. intros [k v|k r nx]; [exists 0; exact I | auto].
Qed.

Lemma In_alookup : forall l e, sorted_keys (map lkey l) = true -> In e l -> Spec.alookup (lkey e) (assoc l) = Some e.
Proof. intros l e Hs Hin. destruct (In_nth_error _ _ Hin) as [i Hi]. eapply alookup_nth; eauto. Qed.

Lemma is_dirty_S : forall j b, is_dirty (S j) b = b_dirty b || existsb (fun x => is_dirty j (snd x)) (b_subs b).
Proof. reflexivity. Qed.

(* a bucket in which nothing is dirty (to the depth the dirty test looks) is an untouched copy of its committed
   root, and so is everything opened below it *)
Lemma clean_SClean : forall d R, closedR d R -> forall k j fv s b, k <= j -> is_dirty j b = false ->
  XDF d R k b -> SDeepF fv d s b -> SClean d R b /\ (exists n, sbk n d (b_root_page b)) /\ In (b_root_page b) R.
Proof.
  intros d R HC. induction k as [|k IH]; intros j fv s b Hkj Hd HX HD; [destruct HX|].
  destruct j as [|j]; [lia|]. destruct fv as [|fv]; [destruct HD|]. cbn [SDeepF] in HD.
  destruct HD as (h & l & HL & (Hnd & H2 & H3)).
  rewrite is_dirty_S in Hd. apply orb_false_iff in Hd. destruct Hd as [Hd1 Hd2].
  destruct (XDF_inv _ _ _ _ _ _ _ HX HL) as (f' & E & HR & HN & HU & HLk & HF). inversion E; subst f'. clear E.
  specialize (HN Hd1). specialize (HLk Hd1). pose proof (BLoc_sorted _ _ _ _ _ HL) as Hsorted.
  destruct HL as (Hh & HB & _ & _ & HV). unfold BInv, BucketView in HB, HV. unfold root_in in HR.
  rewrite HN in HB, HV, HR. destruct HB as [HP HNd].
  rewrite Forall_forall in H2, HF, HLk.
  assert (Hsub : forall x, In x (b_subs b) -> b_dirty (snd x) = false /\ SClean d R (snd x) /\
                   exists n, sbk n d (b_root_page (snd x))).
  { intros x Hx. assert (Hdx : is_dirty j (snd x) = false).
    { destruct (is_dirty j (snd x)) eqn:E; [|reflexivity].
      assert (existsb (fun y => is_dirty j (snd y)) (b_subs b) = true) by (apply existsb_exists; eauto). congruence. }
    pose proof (HF x Hx) as HXx. destruct (H2 x Hx) as [_ HDx].
    destruct (IH j fv s (snd x) ltac:(lia) Hdx HXx HDx) as (A & B & _). split; [|auto].
    destruct k as [|k']; [destruct HXx|]. destruct j as [|j']; [lia|]. rewrite is_dirty_S in Hdx.
    apply orb_false_iff in Hdx. apply Hdx. }
  assert (Hent : Forall (fun e => match e with LBk _ r _ => exists n, sbk n d r | LKv _ _ => True end) l).
  { apply Forall_forall. intros [k0 v0|k0 r nx] He; [exact I|].
    pose proof (In_alookup l _ Hsorted He) as Hal. cbn [lkey] in Hal.
    destruct (sub_find k0 (b_subs b)) as [sb|] eqn:Hsf.
    - pose proof (sub_find_In _ _ _ Hsf) as Hin. destruct (Hsub _ Hin) as (D1 & _ & D3). cbn [snd] in *.
      pose proof (HLk _ Hin D1) as Hlk. cbn [fst snd] in Hlk. rewrite Hal in Hlk. inversion Hlk; subst. exact D3.
    - eapply H3; eauto. }
  destruct (Forall_sbk_fuel _ _ Hent) as [n Hn].
  assert (Hsbk : sbk (S n) d (b_root_page b)).
  { cbn [sbk]. exists h, l. auto 6. }
  split; [|split; [eauto | exact HR]]. apply SClean_intro; [exact HN| |].
  - exists (S n). split; [now apply sbk_cwf | now apply closed_ckept].
  - intros nm sb Hin. destruct (Hsub _ Hin) as (D1 & D2 & _). cbn [snd] in *. split; [exact D2|].
    intros l0 Hv0. rewrite (PageView_det _ _ _ _ Hv0 _ _ HV).
    pose proof (HLk _ Hin D1) as Hlk. cbn [fst snd] in Hlk. apply alookup_assoc_key in Hlk. apply Hlk.
Qed.

(** ** [merge_nodes] names no new page *)
Lemma merge_nodes_root_in : forall h d R s b l b' s', closedR d R -> h <= fuel0 ->
  BInv h d s b -> BucketView d h b l -> root_in d R b -> merge_nodes d b s = Ok (b', s') -> root_in d R b'.
Proof.
  intros h d R s b l b' s' HC Hh HB HV HR H.
  destruct (merge_nodes_ok_inv _ _ _ _ _ H) as (root & s0 & root1 & s1 & Er & E1 & T).
  destruct (ensure_root_RInv _ _ _ _ _ _ _ HB HV Er) as ((HI & Hnp & Hsq & Hlt) & HVr & _).
  assert (Hroot : incl (npages h d root) R).
  { pose proof (ensure_root_cases d b s) as Cr. rewrite Er in Cr. unfold root_in in HR.
    destruct Cr as [[En _] | (En & _ & a & Hg & ->)]; rewrite En in HR.
    - rewrite <- (npages_stable _ _ _ _ _ _ HI fuel0 Hh). exact HR.
    - rewrite (node_of_page_npages h d _ a _ Hg). now apply closed_ppages. }
  assert (H1 : Inv h d true None None root1 /\ incl (npages h d root1) R).
  { destruct (is_leaf (n_data root)) eqn:Elf.
    - inversion E1; subst root1 s1. split; [eapply Inv_z_true; eauto | exact Hroot].
    - pose proof (rebalance_kids_view fuel0 h d s0 false None None root l root1 s1 HI Elf HVr Hnp Hsq Hlt E1)
        as (R1 & _ & _ & _ & _ & _ & _ & R8 & _). split; [exact R1|]. intros x Hx. apply Hroot, R8, Hx. }
  destruct H1 as [HI1 Hin1]. destruct (Inv_height _ _ _ _ _ _ HI1) as [h0 Eh]. subst h.
  destruct T as [k0 q Ed | Ed | Ed]; unfold root_in; cbn [b_rootn b_root_page].
  - destruct root1 as [p1 np1 og1 sq1 dd ks1]. cbn [n_data n_kids] in *. subst dd.
    rewrite Inv_branch_eq in HI1. destruct HI1 as (_ & _ & _ & _ & _ & HCk).
    cbn [map fst] in HCk. inversion HCk as [|? bb ? ? Cq _]; subst. unfold CInv in Cq. cbn [snd] in Cq.
    rewrite npages_branch_eq in Hin1. cbn [map snd flat_map] in Hin1. unfold cpages in Hin1.
    destruct (find_kid q ks1) as [kd|].
    + rewrite (npages_stable _ _ _ _ _ _ Cq fuel0 ltac:(lia)). intros x Hx. apply Hin1. apply in_or_app. right.
      apply in_or_app. now left.
    + apply Hin1. apply in_or_app. left. now left.
  - destruct root1 as [p1 np1 og1 sq1 dd1 ks1]. cbn [set_data]. intros x [].
  - rewrite (npages_stable _ _ _ _ _ _ HI1 fuel0 Hh). exact Hin1.
Qed.

(** ** the whole bucket tree *)
Lemma Forall2_map_fst : forall {A B C} (Q : A * B -> A * C -> Prop) xs ys,
  Forall2 Q xs ys -> (forall x y, Q x y -> fst x = fst y) -> map fst xs = map fst ys.
Proof. intros A B C Q xs ys H HQ. induction H as [|x y xs ys Hq _ IH]; [reflexivity|]. cbn [map]. f_equal; eauto. Qed.

Theorem rebalance_SReady : forall d R, closedR d R -> forall f fv k s b b' s', k <= fuel0 ->
  SDeepF fv d s b -> XDF d R k b -> rebalance f d b s = Ok (b', s') -> SReady d R b'.
Proof.
  intros d R HC. induction f as [|f IH]; intros fv k s b b' s' Hk HD HX H; [discriminate|].
  rewrite rebalance_S in H. destruct (negb (is_dirty fuel0 b)) eqn:Edirty.
  { inversion H; subst b' s'. apply negb_true_iff in Edirty. apply SReady_clean_struct; [exact Edirty|].
    eapply (clean_SClean d R HC k fuel0); eauto. }
  destruct fv as [|fv]; [destruct HD|]. cbn [SDeepF] in HD. destruct HD as (h & l & HL & (Hnd & H2 & H3)).
  destruct (XDF_inv _ _ _ _ _ _ _ HX HL) as (k' & -> & HR & _ & HU & _ & HF).
  pose proof (BLoc_sorted _ _ _ _ _ HL) as Hsorted.
  apply bind_ok_inv in H. destruct H as ([subs' s1] & Ef & H).
  destruct (reb_fold_each f d (fun s0 x => SDeepF fv d s0 (snd x) /\ XDF d R k' (snd x))
              (fun x y => fst x = fst y /\ SReady d R (snd y))) with (subs := b_subs b)
              (s0 := s) (subs' := subs') (s1 := s1) as [R1 Hle1].
  - intros s0 s0' x Hle [A B]. split; [eapply SDeepF_seqc_mono; eauto | exact B].
  - intros s0 x bx sx [Dx Xx] Ex. split.
    + destruct (SDeepF_Deep _ _ _ _ Dx) as [v Hv].
      destruct (rebalance_view f fv d s0 (snd x) v bx sx Hv Ex) as (_ & Tx & _). apply (tx_frame_le _ _ Tx).
    + split; [reflexivity|]. cbn [snd]. eapply (IH fv k'); eauto. lia.
  - rewrite Forall_forall in *. intros x Hx. split; [apply (H2 x Hx) | apply (HF x Hx)].
  - exact Ef.
  - destruct HL as (Hh & HB & _ & HK & HV).
    set (b0 := Bucket (b_root_page b) (b_next b) true (b_rootn b) subs') in *.
    assert (HB0 : BInv h d s1 b0) by (exact (BInv_seqc_mono _ _ _ _ _ Hle1 HB)).
    assert (HV0 : BucketView d h b0 l) by exact HV. assert (HK0 : BLK b0) by exact HK.
    assert (HR0 : root_in d R b0) by exact HR.
    destruct (merge_nodes_root_ready h d s1 b0 l b' s' HB0 HK0 HV0 H) as (h' & Hle & HB' & HV' & HK' & Hrdy).
    pose proof (merge_nodes_root_in h d R s1 b0 l b' s' HC Hh HB0 HV0 HR0 H) as HR'.
    destruct (merge_nodes_fields _ _ _ _ _ H) as (_ & Es & Ed). cbn [b0 b_subs b_dirty] in Es, Ed.
    pose proof (sub_find_F2 (fun _ sb' => SReady d R sb') (b_subs b) subs') as Hfind.
    apply SReady_dirty with (h := h') (l := l).
    + unfold fuel0. rewrite is_dirty_S, Ed. reflexivity.
    + lia.
    + exact HV'.
    + unfold DRoot, root_in in *. destruct (b_rootn b') as [n'|] eqn:En.
      * split; [eapply BInv_root_Inv; eauto|]. apply root_ready_RRdy. apply (Hrdy n' R eq_refl).
        rewrite <- (npages_stable _ _ _ _ _ _ (BInv_root_Inv _ _ _ _ _ HB' En) fuel0 ltac:(lia)). exact HR'.
      * split; [intros x Hx; eapply closed_subtree; eauto|]. intros _. unfold BInv in HB'. rewrite En in HB'. apply HB'.
    + rewrite Es, <- (Forall2_map_fst _ _ _ R1); [exact Hnd|]. intros x y [E _]. exact E.
    + rewrite Es. intros nm sb' Hin. destruct (Forall2_In_r _ _ _ _ R1 Hin) as (x & Hx & Ex & HSx). cbn [fst snd] in *.
      split; [|exact HSx]. rewrite Forall_forall in H2. destruct (H2 x Hx) as [(r & nx & Hal) _].
      exists r, nx. rewrite Ex in Hal. apply alookup_assoc_key in Hal. apply Hal.
    + rewrite Es. intros k0 r nx Hin Hsf.
      assert (Hsf0 : sub_find k0 (b_subs b) = None).
      { specialize (Hfind R1 k0). destruct (sub_find k0 (b_subs b)); [|reflexivity].
        destruct Hfind as (sb' & Hs' & _). congruence. }
      pose proof (In_alookup l _ Hsorted Hin) as Hal. cbn [lkey] in Hal.
      destruct (H3 _ _ _ _ Hal Hsf0) as [n Hn]. exists n. split; [now apply sbk_cwf|].
      apply closed_ckept; [exact HC | exact Hn | exact (HU _ _ _ _ Hal Hsf0)].
Qed.

(** * The meaning equation for one transaction *)

(* the trees of the new state fit the reading fuels of [abs_db] (height <= 64, nesting <= 16): decidable on
   a concrete state; cannot be bounded a priori (the height of a tree is not bounded by the model) *)
Definition readable (st : db) : Prop := cpres 16 (d_disk st) (d_root st).

(* what the layers say about the state after the operations and a successful rebalance: the hypotheses of
   [commit_meaning] *)
Lemma rebalanced_ready : forall st R ops root' s' b1 s1 m, db_strict st -> alloc_ok st R ->
  tx_fold st ops (root_bucket st, begin_w st) = Ok (root', s') ->
  OvlAbs (d_disk st) root' m -> tx_frees (begin_w st) s' ->
  rebalance fuel0 (d_disk st) root' s' = Ok (b1, s1) ->
  fresh_inv (live_of st R) s1 /\ wr s1 = [] /\ SReady (d_disk st) R b1 /\ OvlAbs (d_disk st) b1 m.
Proof.
  intros st R ops root' s' b1 s1 m Hdb HA Hf Ha Hfr Hr.
  destruct (tx_ops_SDeep' st ops root' s' Hdb Hf) as [f HD].
  destruct (SDeepF_LDeep _ _ _ _ HD) as [v Hv]. pose proof (LDeep_Deep _ _ _ _ _ Hv) as HDeep.
  destruct (rebalance_view fuel0 f _ _ _ v _ _ HDeep Hr) as (_ & Tx & _).
  destruct Hfr as (F1 & _ & F3 & F4 & F5 & _). destruct Tx as (T1 & _ & T3 & T4 & T5 & _).
  destruct (begin_w_fields st) as (W1 & _).
  pose proof HA as (_ & _ & _ & _ & _ & _ & _ & HC & _).
  split. { eapply fresh_inv_ext; [| | |apply (begin_w_fresh st R HA)]; congruence. }
  split; [congruence|]. split.
  - eapply (rebalance_SReady (d_disk st) R HC fuel0 f 9); eauto; [unfold fuel0; lia|]. eapply tx_ops_XDF; eauto.
  - eapply rebalance_OvlAbs; eauto.
Qed.

Theorem run_tx_meaning : forall st ops ord st', db_ok st -> Forall (op_ok (d_disk st)) ops ->
  run_tx st ops ord = Ok st' -> readable st' -> abs_db st' = sem_tx ops (abs_db st).
Proof.
  intros st ops ord st' [Hdb [R HA]] Hops Hrun Hrd.
  destruct (run_tx_rebalance_ready st ops ord st' Hdb Hops Hrun)
    as (root' & s' & b1 & s1 & fv & v & Hf & _ & Ha & Hfr & _ & Hr & _).
  destruct (rebalanced_ready st R ops root' s' b1 s1 _ Hdb HA Hf Ha Hfr Hr) as (Hfi & Hwr & HS & HO).
  assert (Hc : commit st root' s' ord = Ok st') by (rewrite run_tx_fold, Hf in Hrun; exact Hrun).
  assert (Hk : forall x, In x R -> In x (live_of st R)) by (intros x Hx; now apply R_live).
  assert (Hu : forall x, In x R -> wr_get (wr s1) x = None) by (intros x _; rewrite Hwr; reflexivity).
  destruct (commit_meaning st root' s' ord st' b1 s1 R (live_of st R) (sem_tx ops (abs_db st)) Hr Hfi Hk Hu HS HO Hc)
    as (r & nx & s2 & ord' & alloc & dead & _ & _ & _ & _ & _ & _ & _ & _ & Habs).
  apply Habs. exact Hrd.
Qed.

(** * Deciding the side conditions on concrete states *)

Fixpoint presentb (fuel : nat) (d : disk) (p : N) : bool :=
  match fuel with
  | O => false
  | S f => match dget d p with
           | None => false
           | Some a => match ap_body a with
                       | Leaves _ => true
                       | Branches es => forallb (fun e => presentb f d (snd e)) es end end
  end.

Lemma presentb_ok : forall f d p, presentb f d p = true -> pages_present f d p.
Proof.
  induction f as [|f IH]; intros d p H; [discriminate|]. cbn [presentb pages_present] in *.
  destruct (dget d p) as [a|]; [|discriminate]. destruct (ap_body a) as [l|es]; [exact I|].
  intros e He. apply IH. rewrite forallb_forall in H. now apply H.
Qed.

Fixpoint cpresb (n : nat) (d : disk) (r : N) : bool :=
  match n with
  | O => false
  | S n' => presentb fuel0 d r &&
            forallb (fun e => match e with LBk _ r' _ => cpresb n' d r' | LKv _ _ => true end) (page_ents fuel0 d r)
  end.

Lemma cpresb_ok : forall n d r, cpresb n d r = true -> cpres n d r.
Proof.
  induction n as [|n IH]; intros d r H; [discriminate|]. cbn [cpresb cpres] in *.
  apply andb_true_iff in H. destruct H as [H1 H2]. split; [now apply presentb_ok|].
  apply Forall_forall. intros e He. rewrite forallb_forall in H2. specialize (H2 e He).
  destruct e as [k v|k r' nx]; [exact I | now apply IH].
Qed.

Definition readableb (st : db) : bool := cpresb 16 (d_disk st) (d_root st).
Lemma readableb_ok : forall st, readableb st = true -> readable st.
Proof. intros st H. now apply cpresb_ok. Qed.

(* every page of the bucket tree rooted at r, nested buckets included (head pages) *)
Fixpoint reach (n : nat) (d : disk) (r : N) : list N :=
  match n with
  | O => []
  | S n' => subtree_pages fuel0 d r ++
            flat_map (fun e => match e with LBk _ r' _ => reach n' d r' | LKv _ _ => [] end) (page_ents fuel0 d r)
  end.

Definition memb (x : N) (l : list N) : bool := existsb (N.eqb x) l.
Lemma memb_In : forall x l, memb x l = true <-> In x l.
Proof.
  intros x l. unfold memb. rewrite existsb_exists. split.
  - intros (y & Hy & E). apply N.eqb_eq in E. now subst.
  - intros H. exists x. split; [exact H | apply N.eqb_refl].
Qed.
Lemma memb_false : forall x l, memb x l = false -> ~ In x l.
Proof. intros x l H Hin. apply memb_In in Hin. congruence. Qed.

Fixpoint ascb (l : list N) : bool :=
  match l with [] => true | x :: l' => forallb (N.ltb x) l' && ascb l' end.
Lemma ascb_ok : forall l, ascb l = true -> asc l.
Proof.
  induction l as [|x l IH]; intros H; [constructor|]. cbn [ascb] in H. apply andb_true_iff in H. destruct H as [H1 H2].
  constructor; [now apply IH|]. apply Forall_forall. intros y Hy. rewrite forallb_forall in H1.
  apply N.ltb_lt. now apply H1.
Qed.

Definition closedRb (d : disk) (R : list N) : bool :=
  forallb (fun q => match dget d q with
                    | None => true
                    | Some a => match ap_body a with
                                | Branches es => forallb (fun e => memb (snd e) R) es
                                | Leaves l => forallb (fun e => match e with LBk _ r _ => memb r R | LKv _ _ => true end) l
                                end end) R.
Lemma closedRb_ok : forall d R, closedRb d R = true -> closedR d R.
Proof.
  intros d R H q a Hq Hg. unfold closedRb in H. rewrite forallb_forall in H. specialize (H q Hq). rewrite Hg in H.
  destruct (ap_body a) as [l|es]; rewrite forallb_forall in H.
  - intros k r nx Hin. specialize (H _ Hin). now apply memb_In.
  - intros e He. apply memb_In. now apply H.
Qed.

Definition alloc_okb (st : db) (R : list N) : bool :=
  (0 <? d_psz st)%N && (2 <=? d_np st)%N && ascb (d_free st) && forallb (N.leb 2) (d_free st) &&
  forallb (fun x => (x <? d_np st)%N) (d_free st) &&
  forallb (fun x => (2 <=? x)%N && (x <? d_np st)%N) (pend_all (d_pending st)) &&
  memb (d_root st) R && closedRb (d_disk st) R &&
  forallb (fun x => (2 <=? x)%N && (x <? d_np st)%N && negb (memb x (d_free st)) &&
                    negb (memb x (pend_all (d_pending st)))) (live_of st R).

Lemma alloc_okb_ok : forall st R, alloc_okb st R = true -> alloc_ok st R.
Proof.
  intros st R H. unfold alloc_okb in H.
  apply andb_true_iff in H. destruct H as [H Hi]. apply andb_true_iff in H. destruct H as [H Hh].
  apply andb_true_iff in H. destruct H as [H Hg]. apply andb_true_iff in H. destruct H as [H Hf].
  apply andb_true_iff in H. destruct H as [H He]. apply andb_true_iff in H. destruct H as [H Hd].
  apply andb_true_iff in H. destruct H as [H Hc]. apply andb_true_iff in H. destruct H as [Ha Hb].
  rewrite forallb_forall in Hd, He, Hf, Hi.
  unfold alloc_ok. split; [lia|]. split; [lia|]. split; [now apply ascb_ok|].
  split. { apply Forall_forall. intros x Hx. specialize (Hd x Hx). lia. }
  split. { intros x Hx. specialize (He x Hx). lia. }
  split. { apply Forall_forall. intros x Hx. specialize (Hf x Hx). lia. }
  split; [now apply memb_In|]. split; [now apply closedRb_ok|].
  intros x Hx. specialize (Hi x Hx).
  apply andb_true_iff in Hi. destruct Hi as [Hi H4]. apply andb_true_iff in Hi. destruct Hi as [Hi H3].
  split; [lia|]. split; apply memb_false; now apply negb_true_iff.
Qed.

(* the canonical choice of R: everything reachable from the root *)
Definition db_alloc_okb (st : db) : bool := alloc_okb st (reach 16 (d_disk st) (d_root st)).
Lemma db_alloc_okb_ok : forall st, db_alloc_okb st = true -> db_alloc_ok st.
Proof. intros st H. eexists. apply alloc_okb_ok. exact H. Qed.

(** * Examples *)

Example init_db_ok : forall P, (0 < P)%N -> db_ok (init_db P).
Proof.
  intros P HP. split; [apply init_db_strict|]. exists [3%N]. apply alloc_okb_ok. unfold alloc_okb.
  cbn [d_psz d_np d_free d_pending d_root d_disk init_db]. rewrite (proj2 (N.ltb_lt 0 P) HP). vm_compute. reflexivity.
Qed.

Example init_db_4096_ok : db_ok (init_db 4096).
Proof. split; [apply init_db_strict | apply db_alloc_okb_ok; vm_compute; reflexivity]. Qed.

Module Ex3R.
Import Ex3.
(* the committed state of the example of EngineTxInvFacts: a root bucket with a nested bucket whose tree has two levels *)
Example ex3_db_ok : db_ok ex3_db.
Proof. split; [exact ex3_strict | apply db_alloc_okb_ok; vm_compute; reflexivity]. Qed.

Example ex3_reach : reach 16 (d_disk ex3_db) (d_root ex3_db) = [3; 10; 11; 12; 13]%N.
Proof. vm_compute. reflexivity. Qed.

Lemma ex3_ops_ok : Forall (op_ok (d_disk ex3_db)) ex3_ops.
Proof. repeat constructor; cbn; lia. Qed.

Definition ex3_ord : list bytes := [kn; km].
Definition ex3_run := Eval vm_compute in run_tx ex3_db ex3_ops ex3_ord.
Definition ex3_st' : db := match ex3_run with Ok st' => st' | _ => ex3_db end.
Example ex3_run_ok : run_tx ex3_db ex3_ops ex3_ord = Ok ex3_st'.
Proof. vm_compute. reflexivity. Qed.

(* [run_tx_meaning] applies: the committed result means what the functional semantics says *)
Example ex3_meaning : abs_db ex3_st' = sem_tx ex3_ops (abs_db ex3_db).
Proof.
  apply (run_tx_meaning ex3_db ex3_ops ex3_ord ex3_st' ex3_db_ok ex3_ops_ok ex3_run_ok).
  apply readableb_ok. vm_compute. reflexivity.
Qed.

(* ... and both sides compute to this *)
Example ex3_meaning_value : abs_db ex3_st' =
  SBucket 0 4 [ (ka, SVal [x08]);
                (km, SBucket 0 1 [(kc, SVal [x07])]);
                (kn, SBucket 0 6 [(kb, SVal [x01]); (kc, SVal [x02]); (kd, SVal [x03]); (kf, SVal [x05]); (kg, SVal [x06])]) ].
Proof. vm_compute. reflexivity. Qed.

(* the allocation invariant holds again in the new state: decided here; in general, [EngineAllocInv.run_tx_alloc_ok] *)
Example ex3_st'_alloc_ok : db_alloc_ok ex3_st'.
Proof. apply db_alloc_okb_ok. vm_compute. reflexivity. Qed.
End Ex3R.

(** * The new state is strict again *)

(** ** [modify] names the same pages (no exactness needed) *)
Lemma modify_npages : forall f h d z lo hi n o s n' s', Inv h d z lo hi n -> modify f d n o s = Ok (n', s') ->
  npages h d n' = npages h d n /\ n_page n' = n_page n.
Proof.
  induction f as [|f IH]; intros h d z lo hi n o s n' s' HI H; [discriminate|].
  destruct (Inv_height _ _ _ _ _ _ HI) as [h0 ->]. destruct n as [p np og sq [l|es] ks].
  - cbn [modify] in H. inversion H; subst. split; reflexivity.
  - rewrite modify_branch in H. destruct (index_of (Branches es) (lop_key o)) as [i ex].
    destruct (nthN es i) as [[sep q]|] eqn:En; [|discriminate]. unfold nthN in En.
    rewrite Inv_branch_eq in HI. destruct HI as (_ & _ & Hnd & _ & _ & HC).
    destruct (Forall2_nth_error_l _ _ _ _ _ HC En) as (b & _ & Hc). unfold CInv in Hc. cbn [snd] in Hc.
    destruct (find_kid q ks) as [kd|] eqn:Ef.
    + apply bind_ok_inv in H. destruct H as ([kd' s1] & Em & H). cbn [fst snd] in H. inversion H; subst n' s'. clear H.
      destruct (IH _ _ _ _ _ _ _ _ _ _ Hc Em) as [P1 P2]. split; [|reflexivity].
      destruct (find_kid_In _ _ _ Ef) as [_ Hpq]. rewrite Hpq in P2.
      destruct (replace_kid_upd ks q kd' P2) as [U1 U2].
      apply npages_upd. intros e He. unfold cpages. destruct (N.eq_dec (snd e) q) as [E|NE].
      * rewrite E, U1, Ef. exact P1.
      * now rewrite (U2 _ NE).
    + destruct (dget d q) as [a|] eqn:Hg; [|discriminate].
      apply bind_ok_inv in H. destruct H as ([kd' s1] & Em & H). cbn [fst snd] in H. inversion H; subst n' s'. clear H.
      pose proof (node_of_page_Inv _ _ _ _ _ _ _ (seqc s) Hg Hc) as I0.
      destruct (IH _ _ _ _ _ _ _ _ _ _ I0 Em) as [P1 P2]. split; [|reflexivity].
      assert (Hpq : n_page kd' = q) by (rewrite P2; reflexivity).
      destruct (app_kid_upd ks q kd' Ef Hpq) as [U1 U2].
      apply npages_upd. intros e He. unfold cpages. destruct (N.eq_dec (snd e) q) as [E|NE].
      * rewrite E, U1, Ef, P1. now apply node_of_page_npages.
      * now rewrite (U2 _ NE).
Qed.

(** ** ... hence so do [b_modify] and the parent updates of [spill_bucket] *)
Definition bpg (h : nat) (d : disk) (b : bucket) : list N :=
  match b_rootn b with Some n => npages h d n | None => ppages h d (b_root_page b) end.

Lemma b_modify_bpg : forall d keep h b o s b' s', SRoot d keep h b -> b_modify d b o s = Ok (b', s') ->
  bpg h d b' = bpg h d b.
Proof.
  intros d keep h b o s b' s' HS H. unfold b_modify in H.
  apply bind_ok_inv in H. destruct H as ([root s0] & Er & H).
  apply bind_ok_inv in H. destruct H as ([n' s1] & Em & H). inversion H; subst b' s'. clear H.
  unfold bpg. cbn [b_rootn]. unfold SRoot, ensure_root in *. destruct (b_rootn b) as [n|].
  - inversion Er; subst root s0. destruct HS as [HI _]. exact (proj1 (modify_npages _ _ _ _ _ _ _ _ _ _ _ HI Em)).
  - destruct HS as [HP _]. destruct (dget d (b_root_page b)) as [a|] eqn:Hg; [|discriminate].
    cbn [next_seq] in Er. inversion Er; subst root s0.
    pose proof (node_of_page_Inv _ _ _ _ _ _ _ (seqc s) Hg HP) as I0.
    rewrite (proj1 (modify_npages _ _ _ _ _ _ _ _ _ _ _ I0 Em)). now apply node_of_page_npages.
Qed.

Lemma meta_step_bpg : forall d keep h bb s0 m b' s', SRoot d keep h bb -> meta_step d (bb, s0) m = Ok (b', s') ->
  bpg h d b' = bpg h d bb.
Proof.
  intros d keep h bb s0 [[nm r] nx] b' s' HS H. unfold meta_step in H.
  apply bind_ok_inv in H. destruct H as (cur & _ & H). destruct cur as [e|].
  - destruct (is_kv e); [discriminate|]. eapply b_modify_bpg; eauto.
  - apply bind_ok_inv in H. destruct H as ([b2 s2] & Hm & H). inversion H; subst b' s'.
    rewrite <- (b_modify_bpg _ _ _ _ _ _ _ _ HS Hm). reflexivity.
Qed.

Lemma meta_fold_bpg : forall d keep h (ms : list meta) bb l s0 b1 s2,
  SRoot d keep h bb -> BucketView d h bb l -> h <= fuel0 -> NoDup (map m_name ms) ->
  (forall m, In m ms -> exists r0 nx0, In (LBk (m_name m) r0 nx0) l) ->
  fold_res (meta_step d) ms (bb, s0) = Ok (b1, s2) -> bpg h d b1 = bpg h d bb.
Proof.
  intros d keep h. induction ms as [|[[nm r] nx] ms IH]; intros bb l s0 b1 s2 HS HV Hh Hnd Hall H.
  - cbn [fold_res] in H. inversion H; subst. reflexivity.
  - cbn [fold_res] in H. apply bind_ok_inv in H. destruct H as ([b' s'] & Est & H).
    cbn [map] in Hnd. inversion Hnd as [|? ? Hni Hnd']; subst.
    destruct (Hall _ (or_introl eq_refl)) as (r0 & nx0 & Hin). cbn [m_name fst] in Hin.
    destruct (meta_step_replace d keep h bb l s0 nm r nx r0 nx0 b' s' HS HV Hh Hin Est) as (A1 & A2 & _).
    rewrite <- (meta_step_bpg _ _ _ _ _ _ _ _ HS Est). apply (IH b' _ s' b1 s2 A1 A2 Hh Hnd'); [|exact H].
    intros m Hm. destruct (Hall m (or_intror Hm)) as (r1 & nx1 & Hin1). exists r1, nx1.
    apply (in_map (patch [(nm, r, nx)])) in Hin1. rewrite patch_other in Hin1; [exact Hin1|].
    cbn [lkey]. intros E. apply Hni. rewrite <- E. apply (in_map m_name _ _ Hm).
Qed.

(** ** the strict committed bucket tree, fuel-free; kept buckets stay strict *)
Inductive Strict (d : disk) : N -> Prop :=
| Strict_intro : forall r h l, PInv h d None None None r -> NoDup (ppages h d r) -> PageView d h r l ->
    Forall (StrictEnt d) l -> Strict d r
with StrictEnt (d : disk) : leafent -> Prop :=
| SE_kv : forall k v, StrictEnt d (LKv k v)
| SE_bk : forall k r nx, Strict d r -> StrictEnt d (LBk k r nx).

Lemma PInv_transfer : forall d d' h lo hi ok q, PInv h d lo hi ok q ->
  (forall x, in_subtree d q x -> dget d' x = dget d x) -> PInv h d' lo hi ok q.
Proof.
  intros d d'. induction h as [|h IH]; intros lo hi ok q H Hk; [destruct H|]. cbn [PInv] in *.
  destruct H as (a & Hg & Hok & Hb). exists a. split; [rewrite (Hk q (ist_self d q)); exact Hg|]. split; [exact Hok|].
  destruct (ap_body a) as [l|es] eqn:Eb; [exact Hb|]. destruct Hb as (H1 & H2 & H3 & H4 & H5).
  repeat (split; [assumption|]). eapply ListFacts.Forall2_impl_in; [|exact H5]. cbn beta.
  intros e b He Hp. apply IH; [exact Hp|]. intros x Hx. apply Hk. eapply ist_kid; eauto.
Qed.

Lemma ppages_transfer : forall d d' h q, (forall x, in_subtree d q x -> dget d' x = dget d x) ->
  ppages h d' q = ppages h d q.
Proof.
  intros d d'. induction h as [|h IH]; intros q Hk; [reflexivity|]. cbn [ppages].
  rewrite (Hk q (ist_self d q)). destruct (dget d q) as [a|] eqn:Hg; [|reflexivity].
  destruct (ap_body a) as [l|es] eqn:Eb; [reflexivity|]. f_equal. apply flat_map_ext_in. intros e He.
  apply IH. intros x Hx. apply Hk. eapply ist_kid; eauto.
Qed.

(* a strict committed bucket all of whose pages are kept is strict on every disk that agrees on the kept pages *)
Lemma kept_Strict : forall d d' keep, (forall x, In x keep -> dget d' x = dget d x) ->
  forall n r, sbk n d r -> ckept n d keep r -> Strict d' r.
Proof.
  intros d d' keep Hk. induction n as [|n IH]; intros r Hs Hc; [destruct Hs|].
  cbn [sbk] in Hs. destruct Hs as (h & l & Hh & HP & Hnd & HV & HF).
  cbn [ckept] in Hc. destruct Hc as (Hsub & l' & HV' & HF').
  rewrite (PageView_det _ _ _ _ HV' _ _ HV) in HF'. clear l' HV'.
  assert (Hag : forall x, in_subtree d r x -> dget d' x = dget d x) by (intros x Hx; apply Hk, Hsub, Hx).
  apply Strict_intro with (h := h) (l := l).
  - eapply PInv_transfer; eauto.
  - rewrite (ppages_transfer d d' h r Hag). exact Hnd.
  - eapply PageView_transfer; eauto.
  - rewrite Forall_forall in *. intros e He. specialize (HF e He). specialize (HF' e He).
    destruct e as [k v|k r' nx]; [apply SE_kv | apply SE_bk; now apply IH].
Qed.

(* reading a strict tree within the fuels of the model: [sbk] *)
Lemma PInv_lower : forall h d H lo hi ok q, PInv H d lo hi ok q -> pages_present h d q -> PInv h d lo hi ok q.
Proof.
  induction h as [|h IH]; intros d H lo hi ok q HP Hp; [destruct Hp|]. destruct H as [|H]; [destruct HP|].
  cbn [PInv] in *. cbn [pages_present] in Hp. destruct HP as (a & Hg & Hok & Hb). rewrite Hg in Hp.
  exists a. split; [exact Hg|]. split; [exact Hok|]. destruct (ap_body a) as [l|es]; [exact Hb|].
  destruct Hb as (H1 & H2 & H3 & H4 & H5). repeat (split; [assumption|]).
  eapply ListFacts.Forall2_impl_in; [|exact H5]. cbn beta. intros e b He HPe. eapply IH; eauto.
Qed.

Theorem Strict_sbk : forall n d r, Strict d r -> cpres n d r -> sbk n d r.
Proof.
  induction n as [|n IH]; intros d r HS Hc; [destruct Hc|]. cbn [cpres] in Hc. destruct Hc as [Hp Hall].
  inversion HS as [r0 h l HP Hnd HV HF]; subst r0.
  pose proof (page_ents_PageView fuel0 d r Hp) as HV0.
  assert (El : page_ents fuel0 d r = l) by (eapply PageView_det; eauto). rewrite El in *.
  cbn [sbk]. exists fuel0, l. split; [lia|]. split; [eapply PInv_lower; eauto|]. split; [|split; [exact HV0|]].
  - pose proof (EngineSpillWfFacts.PInv_present _ _ _ _ _ _ HP) as Hph.
    rewrite <- (ppages_present_stable fuel0 d r Hp (Nat.max h fuel0) ltac:(lia)).
    rewrite (ppages_present_stable h d r Hph (Nat.max h fuel0) ltac:(lia)). exact Hnd.
  - rewrite Forall_forall in *. intros e He. specialize (HF e He). specialize (Hall e He).
    destruct e as [k v|k r' nx]; [exact I|]. inversion HF; subst. now apply IH.
Qed.

(** ** what the spill needs, beyond [SReady], to write strict trees; rebalance leaves it *)
Definition XRoot (d : disk) (R : list N) (b : bucket) : Prop :=
  exists h, h <= fuel0 /\
    match b_rootn b with
    | Some n => Inv h d false None None n /\ NoDup (npages h d n) /\ incl (npages h d n) R
    | None => PInv h d None None None (b_root_page b) /\ NoDup (ppages h d (b_root_page b)) /\ In (b_root_page b) R
    end.

Inductive SReadyX (d : disk) (R : list N) : bucket -> Prop :=
| SX_clean : forall b, is_dirty fuel0 b = false -> (exists n, sbk n d (b_root_page b)) -> In (b_root_page b) R ->
    SReadyX d R b
| SX_dirty : forall b, is_dirty fuel0 b = true -> XRoot d R b ->
    (forall nm sb, In (nm, sb) (b_subs b) -> SReadyX d R sb) ->
    (forall l k r nx, bucket_view d b l -> In (LBk k r nx) l -> sub_find k (b_subs b) = None ->
       (exists n, sbk n d r) /\ In r R) ->
    SReadyX d R b.

Theorem rebalance_SReadyX : forall d R, closedR d R -> forall f fv k s b b' s', k <= fuel0 ->
  SDeepF fv d s b -> XDF d R k b -> rebalance f d b s = Ok (b', s') -> SReadyX d R b'.
Proof.
  intros d R HC. induction f as [|f IH]; intros fv k s b b' s' Hk HD HX H; [discriminate|].
  rewrite rebalance_S in H. destruct (negb (is_dirty fuel0 b)) eqn:Edirty.
  { inversion H; subst b' s'. apply negb_true_iff in Edirty.
    destruct (clean_SClean d R HC k fuel0 fv s b Hk Edirty HX HD) as (_ & A & B). now apply SX_clean. }
  destruct fv as [|fv]; [destruct HD|]. cbn [SDeepF] in HD. destruct HD as (h & l & HL & (Hnd & H2 & H3)).
  destruct (XDF_inv _ _ _ _ _ _ _ HX HL) as (k' & -> & HR & _ & HU & _ & HF).
  pose proof (BLoc_sorted _ _ _ _ _ HL) as Hsorted.
  apply bind_ok_inv in H. destruct H as ([subs' s1] & Ef & H).
  destruct (reb_fold_each f d (fun s0 x => SDeepF fv d s0 (snd x) /\ XDF d R k' (snd x))
              (fun x y => fst x = fst y /\ SReadyX d R (snd y))) with (subs := b_subs b)
              (s0 := s) (subs' := subs') (s1 := s1) as [R1 Hle1].
  - intros s0 s0' x Hle [A B]. split; [eapply SDeepF_seqc_mono; eauto | exact B].
  - intros s0 x bx sx [Dx Xx] Ex. split.
    + destruct (SDeepF_Deep _ _ _ _ Dx) as [v Hv].
      destruct (rebalance_view f fv d s0 (snd x) v bx sx Hv Ex) as (_ & Tx & _). apply (tx_frame_le _ _ Tx).
    + split; [reflexivity|]. cbn [snd]. eapply (IH fv k'); eauto. lia.
  - rewrite Forall_forall in *. intros x Hx. split; [apply (H2 x Hx) | apply (HF x Hx)].
  - exact Ef.
  - destruct HL as (Hh & HB & _ & HK & HV).
    set (b0 := Bucket (b_root_page b) (b_next b) true (b_rootn b) subs') in *.
    assert (HB0 : BInv h d s1 b0) by (exact (BInv_seqc_mono _ _ _ _ _ Hle1 HB)).
    assert (HV0 : BucketView d h b0 l) by exact HV. assert (HK0 : BLK b0) by exact HK.
    assert (HR0 : root_in d R b0) by exact HR.
    destruct (merge_nodes_root_ready h d s1 b0 l b' s' HB0 HK0 HV0 H) as (h' & Hle & HB' & HV' & _ & _).
    pose proof (merge_nodes_root_in h d R s1 b0 l b' s' HC Hh HB0 HV0 HR0 H) as HR'.
    destruct (merge_nodes_fields _ _ _ _ _ H) as (_ & Es & Ed). cbn [b0 b_subs b_dirty] in Es, Ed.
    pose proof (sub_find_F2 (fun _ sb' => SReadyX d R sb') (b_subs b) subs') as Hfind.
    apply SX_dirty.
    + unfold fuel0. rewrite is_dirty_S, Ed. reflexivity.
    + exists h'. split; [lia|]. unfold root_in, BInv in *. destruct (b_rootn b') as [n'|] eqn:En.
      * destruct HB' as (I1 & I2 & _). split; [exact I1|]. split; [exact I2|].
        rewrite <- (npages_stable _ _ _ _ _ _ I1 fuel0 ltac:(lia)). exact HR'.
      * destruct HB' as [P1 P2]. auto.
    + rewrite Es. intros nm sb' Hin. destruct (Forall2_In_r _ _ _ _ R1 Hin) as (x & _ & _ & HSx). exact HSx.
    + rewrite Es. intros l' k0 r nx Hv' Hin Hsf.
      assert (El : l' = l) by (eapply bucket_view_det; [exact Hv' | exists h'; split; [lia | exact HV']]). subst l'.
      assert (Hsf0 : sub_find k0 (b_subs b) = None).
      { specialize (Hfind R1 k0). destruct (sub_find k0 (b_subs b)); [|reflexivity].
        destruct Hfind as (sb' & Hs' & _). congruence. }
      pose proof (In_alookup l _ Hsorted Hin) as Hal. cbn [lkey] in Hal.
      split; [exact (H3 _ _ _ _ Hal Hsf0) | exact (HU _ _ _ _ Hal Hsf0)].
Qed.

(** ** [spill_bucket] writes strict trees *)
Definition WrittenS (d : disk) (live A : list N) (s : txs) (r : N) : Prop :=
  forall s'' a2 d2 P, frame (A ++ live) s s'' a2 d2 -> Strict (apply_wr (wr s'') P d) r.

Lemma WrittenS_later : forall d live A s s1 a dd r,
  frame (A ++ live) s s1 a dd -> WrittenS d live A s r -> WrittenS d live (a ++ A) s1 r.
Proof. intros d live A s s1 a dd r Hf HW s'' a2 d2 P Hf2. exact (HW _ _ _ P (frame_later _ _ _ _ _ _ _ _ _ Hf Hf2)). Qed.

Lemma WrittenS_kept : forall n d keep live A s r,
  fresh_inv (A ++ live) s -> (forall x, In x keep -> In x live) -> unwritten keep s ->
  sbk n d r -> ckept n d keep r -> WrittenS d live A s r.
Proof.
  intros n d keep live A s r Hfi Hk Hu Hs Hc s'' a2 d2 P Hf.
  apply (kept_Strict d _ keep) with (n := n); try assumption.
  apply unwritten_dget. exact (Henceforth_unwritten keep live A s Hfi Hk Hu s'' a2 d2 Hf).
Qed.

Definition SpillPostS (d : disk) (live : list N) (s : txs) (res : N * N * txs * list bytes) : Prop :=
  let '(r, _, s', _) := res in exists alloc dead, frame live s s' alloc dead /\ WrittenS d live alloc s' r.

Definition RecOKS (d : disk) (keep : list N)
                  (rec : bucket -> txs -> list bytes -> res (N * N * txs * list bytes)) : Prop :=
  forall live b s ord res m, fresh_inv live s -> (forall x, In x keep -> In x live) -> unwritten keep s ->
    SReady d keep b -> OvlAbs d b m -> SReadyX d keep b -> rec b s ord = Ok res -> SpillPostS d live s res.

Definition SubInvS (d : disk) (live : list N) (s : txs) (ms : list meta) (s0 : txs) : Prop :=
  exists A D, frame live s s0 A D /\ Forall (fun m : meta => WrittenS d live A s0 (snd (fst m))) ms.

Lemma sub_step_invS : forall d keep live s subs rec, RecOKS d keep rec ->
  fresh_inv live s -> (forall x, In x keep -> In x live) -> unwritten keep s ->
  (forall nm sb, In (nm, sb) subs -> SReady d keep sb /\ (exists ms, OvlAbs d sb ms) /\ SReadyX d keep sb) ->
  forall ms s0 nm sb o r nx s' o', In (nm, sb) subs -> SubInvS d live s ms s0 ->
    rec sb s0 o = Ok (r, nx, s', o') -> SubInvS d live s (ms ++ [(nm, r, nx)]) s'.
Proof.
  intros d keep live s subs rec HR Hfi Hk Hu Hsubs ms s0 nm sb o r nx s' o' Hin (A & D & Hfr & Hall) Hrec.
  destruct (Hsubs nm sb Hin) as (HS & [msb Hmsb] & HSX).
  assert (Hk' : forall x, In x keep -> In x (A ++ live)) by (intros y Hy; apply in_or_app; right; apply Hk, Hy).
  pose proof (HR (A ++ live) sb s0 o _ msb (fr_fresh _ _ _ _ _ Hfr) Hk'
                 (frame_unwritten _ _ _ _ _ keep Hfi Hfr Hk Hu) HS Hmsb HSX Hrec) as HP.
  cbn [SpillPostS] in HP. destruct HP as (a1 & d1 & Hf1 & HW).
  exists (a1 ++ A), (D ++ d1). split; [eapply frame_trans; eauto|].
  apply Forall_app. split.
  - eapply Forall_impl; [|exact Hall]. intros m0 X. eapply WrittenS_later; eauto.
  - repeat constructor. cbn [fst snd]. intros s'' a2 d2 P Hf2. rewrite <- app_assoc in Hf2. apply (HW s'' a2 d2 P Hf2).
Qed.

(* a root that is ready for the spill has the shape EngineSpillWfFacts asks *)
Lemma Rdy_shape_ok : forall h d keep lo hi n, Inv h d false lo hi n -> Rdy d keep n -> EngineSpillWfFacts.shape_ok n.
Proof.
  induction h as [|h IH]; intros d keep lo hi n HI HR; [destruct HI|].
  inversion HR as [pg npg o sq l Hne | pg npg o sq es kids Hk Hkeep]; subst n.
  - now apply EngineSpillWfFacts.so_leaf.
  - apply EngineSpillWfFacts.so_branch. intros kd Hkd. pose proof HI as HI0. rewrite Inv_branch_eq in HI0.
    destruct HI0 as (_ & _ & _ & _ & [Lnd LF] & _). rewrite Forall_forall in LF. destruct (LF kd Hkd) as (key & Hin & _).
    pose proof (find_kid_NoDup _ _ Lnd Hkd) as Hf.
    destruct (Inv_kid _ _ _ _ _ _ _ _ _ _ _ _ _ HI Hin Hf) as (b & Hc).
    eapply IH; [exact Hc|]. apply (Hk (key, n_page kd) kd Hin Hf).
Qed.

(* the entries of the patched view are strict on the later disk *)
Lemma patched_strict : forall d' subs (ms : list meta) l,
  (forall m, In m ms -> Strict d' (snd (fst m))) ->
  (forall x, In x subs -> In (fst x) (map m_name ms)) ->
  (forall k r nx, In (LBk k r nx) l -> sub_find k subs = None -> Strict d' r) ->
  Forall (StrictEnt d') (map (patch ms) l).
Proof.
  intros d' subs ms l Hms Hcov Hdisk. apply Forall_forall. intros e' He'. apply in_map_iff in He'.
  destruct He' as (e & <- & He). destruct e as [k v|k r nx]; cbn [patch]; [apply SE_kv|].
  destruct (find (fun m => beq (m_name m) k) ms) as [[[k1 r1] nx1]|] eqn:Ef.
  - apply find_some in Ef. destruct Ef as [E1 _]. apply SE_bk. exact (Hms _ E1).
  - apply SE_bk. exact (Hdisk k r nx He (unpatched_unopened _ _ _ Hcov Ef)).
Qed.

(* the pages named by a bucket's root, against [XRoot] (which may be stated at another height) *)
Lemma XRoot_bpg : forall d R h b, closedR d R -> XRoot d R b -> SRoot d R h b ->
  NoDup (bpg h d b) /\ incl (bpg h d b) R.
Proof.
  intros d R h b HC (h2 & Hh2 & HX) HS. unfold bpg, SRoot in *. destruct (b_rootn b) as [n|].
  - destruct HX as (I2 & N2 & C2). destruct HS as [I1 _].
    assert (E : npages h d n = npages h2 d n).
    { rewrite <- (npages_stable _ _ _ _ _ _ I1 (Nat.max h h2) ltac:(lia)).
      apply (npages_stable _ _ _ _ _ _ I2). lia. }
    rewrite E. auto.
  - destruct HX as (P2 & N2 & C2). destruct HS as [P1 _].
    assert (E : ppages h d (b_root_page b) = ppages h2 d (b_root_page b)).
    { rewrite <- (ppages_stable _ _ _ _ _ _ P1 (Nat.max h h2) ltac:(lia)).
      apply (ppages_stable _ _ _ _ _ _ P2). lia. }
    rewrite E. split; [exact N2 | now apply closed_ppages].
Qed.

Notation swfh := EngineSpillWfFacts.swfh.
Notation upages := EngineSpillWfFacts.upages.

Lemma spill_tail_strict : forall d keep live s A D s1 s2 h l subs (ms : list meta) rn p s3,
  fresh_inv live s -> (forall x, In x keep -> In x live) -> unwritten keep s ->
  frame live s s1 A D -> same_but_seqc s1 s2 ->
  Inv h d false None None rn -> RRdy d keep rn -> NodeView d h rn (map (patch ms) l) ->
  NoDup (npages h d rn) -> incl (npages h d rn) keep ->
  Forall (fun m : meta => WrittenS d live A s1 (snd (fst m))) ms ->
  (forall x, In x subs -> In (fst x) (map m_name ms)) ->
  (forall k r nx, In (LBk k r nx) l -> sub_find k subs = None -> exists n, sbk n d r /\ ckept n d keep r) ->
  spill_root fuel0 rn s2 = Ok (p, s3) ->
  exists alloc dead, frame live s s3 alloc dead /\ WrittenS d live alloc s3 p.
Proof.
  intros d keep live s A D s1 s2 h l subs ms rn p s3 Hfi Hk Hu Hfr Hs12 HI HR HV Hnp Hinc Hms Hcov Hdisk Hsp.
  pose proof (frame_seqc_r _ _ _ _ _ _ Hfr Hs12) as Hfr2.
  pose proof (fr_fresh _ _ _ _ _ Hfr2) as Hfi2.
  assert (Hk2 : forall x, In x keep -> In x (A ++ live)) by (intros y Hy; apply in_or_app; right; apply Hk, Hy).
  pose proof (frame_unwritten _ _ _ _ _ keep Hfi Hfr2 Hk Hu) as Hu2.
  assert (Hents : forall alloc dead s'' a2 d2 P, frame (A ++ live) s2 s3 alloc dead ->
            frame (alloc ++ A ++ live) s3 s'' a2 d2 -> unwritten keep s'' ->
            Forall (StrictEnt (apply_wr (wr s'') P d)) (map (patch ms) l)).
  { intros alloc dead s'' a2 d2 P F1 Hf'' G2. apply (patched_strict _ subs); [|exact Hcov|].
    - intros m Hm. rewrite Forall_forall in Hms.
      apply (Hms m Hm s'' (a2 ++ alloc) (dead ++ d2) P). apply (frame_seqc_l _ _ _ _ _ _ Hs12). eapply frame_trans; eauto.
    - intros k r nx Hin Hsf. destruct (Hdisk k r nx Hin Hsf) as (n & Hs & Hc).
      apply (kept_Strict d _ keep) with (n := n); try assumption. now apply unwritten_dget. }
  destruct HR as [E | HRd].
  - (* the empty root leaf *)
    destruct (spill_root_view d keep (A ++ live) h rn _ fuel0 s2 p s3 (Inv_wf_node _ _ _ _ _ HI) HV
                (or_introl E) Hfi2 Hsp) as (alloc & dead & good & lv & F1 & F2 & F3 & _).
    destruct (EngineSpillWfFacts.spill_root_empty_wf (A ++ live) fuel0 rn s2 p s3 Hfi2 E Hsp) as [_ Hw].
    pose proof (NodeView_empty_leaf _ _ _ _ HV E) as El.
    exists (alloc ++ A), (D ++ dead). split; [eapply frame_trans; eauto|].
    intros s'' a2 d2 P Hf''. rewrite <- app_assoc in Hf''.
    destruct (frame_later_ok _ _ _ _ _ good keep s'' a2 d2 Hfi2 F1 F2 Hk2 Hu2 Hf'') as [G1 G2].
    assert (G1' : wr_agree [p] (wr s3) (wr s'')) by (intros q [<-|[]]; apply G1, F3).
    destruct (Hw (wr s'') P d G1') as (W1 & W2 & _ & W4). cbv zeta in *.
    apply Strict_intro with (h := 1) (l := []); [exact W1 | rewrite W2; constructor | exact W4 | constructor].
  - assert (Hup : forall x, In x (upages h d rn) -> In x keep).
    { intros x Hx. apply Hinc. now apply EngineSpillWfFacts.upages_incl_npages. }
    pose proof (EngineSpillWfFacts.Inv_swfh h d keep h None None rn HI (Rdy_shape_ok _ _ _ _ _ _ HI HRd) Hup (le_n h)) as Hsw.
    pose proof (EngineSpillWfFacts.NoDup_npages_upages h d rn Hnp) as Hund.
    destruct (EngineSpillWfFacts.spill_root_wf h d keep (A ++ live) fuel0 rn s2 p s3 h Hfi2 Hk2 Hsw Hund Hsp)
      as (alloc & dead & good & lv & F1 & F2 & F3 & _ & _ & _ & Hfin).
    exists (alloc ++ A), (D ++ dead). split; [eapply frame_trans; eauto|].
    intros s'' a2 d2 P Hf''. rewrite <- app_assoc in Hf''.
    destruct (frame_later_ok _ _ _ _ _ good keep s'' a2 d2 Hfi2 F1 F2 Hk2 Hu2 Hf'') as [G1 G2].
    destruct (Hfin (wr s'') P G1 G2) as (_ & R1 & R2 & _ & _ & R5). cbv zeta in *.
    rewrite (NodeView_view_leaves d h rn _ HV h (le_n h)) in R5.
    apply Strict_intro with (h := lv + h) (l := map (patch ms) l); [exact R1 | now inversion R2 | exact R5|].
    eapply Hents; eauto.
Qed.

Lemma RecOKS_step : forall d keep f, closedR d keep ->
  RecOKS d keep (spill_bucket f d) -> RecOKS d keep (spill_bucket (S f) d).
Proof.
  intros d keep f HC HR live b s ord res m Hfi Hk Hu HS HO HSX H.
  destruct (is_dirty fuel0 b) eqn:Ed.
  2:{ rewrite (spill_bucket_clean _ _ _ _ _ Ed) in H. inversion H; subst res.
      inversion HSX as [b0 _ [n Hn] Hin | b0 Hd]; subst b0; [|congruence].
      cbn [SpillPostS]. exists [], []. split; [now apply frame_refl|].
      apply (WrittenS_kept n d keep live [] s); auto. now apply closed_ckept. }
  destruct (SReady_dirty_inv d keep b m HS HO Ed) as (h & l & ents & Hh & HV & HD & Hnd & Hsubs & _).
  inversion HSX as [b0 Hd | b0 _ HXR HXsubs HXun]; subst b0; [congruence|].
  assert (Hsubs'' : forall nm sb, In (nm, sb) (b_subs b) ->
            SReady d keep sb /\ (exists ms, OvlAbs d sb ms) /\ SReadyX d keep sb).
  { intros nm sb Hin. destruct (Hsubs nm sb Hin) as (_ & X1 & X2). split; [exact X1|]. split; [exact X2 | eauto]. }
  assert (Hdisk' : forall k r0 nx0, In (LBk k r0 nx0) l -> sub_find k (b_subs b) = None ->
            exists n, sbk n d r0 /\ ckept n d keep r0).
  { intros k r0 nx0 Hin Hsf. destruct (HXun l k r0 nx0 (ex_intro _ h (conj Hh HV)) Hin Hsf) as [[n Hn] Hr0].
    exists n. split; [exact Hn | now apply closed_ckept]. }
  destruct (spill_bucket_dirty_inv d keep f b s ord res h l (SubInvS d live s) Ed Hh HV HD Hnd
              (fun nm sb Hin => proj1 (Hsubs nm sb Hin)))
    as (metas & s1 & ord1 & (A & D & Hfr & HmsS) & J3 & Hcov & Hall & HT); [| |exact H|].
  { exists [], []. split; [now apply frame_refl | constructor]. }
  { intros ms s0 nm sb o r nx s' o' Hin _. exact (sub_step_invS d keep live s (b_subs b) _ HR Hfi Hk Hu Hsubs'' ms s0 nm sb o r nx s' o' Hin). }
  destruct HT as [Ern -> HD1 HVp | b1 s2 rn p s3 HSR Hf2 _ Ern B6 HI HRd B2 Hsp]; cbn [SpillPostS].
  - (* the promoted root that was never loaded, no opened sub-bucket: the committed page is returned *)
    exists A, D. split; [exact Hfr|].
    destruct HXR as (h2 & Hh2 & HX). rewrite Ern in HX. destruct HX as (P2 & N2 & _).
    intros s'' a2 d2 P Hf''.
    pose proof (Henceforth_unwritten keep live A s1 (fr_fresh _ _ _ _ _ Hfr) Hk
                  (frame_unwritten _ _ _ _ _ keep Hfi Hfr Hk Hu) s'' a2 d2 Hf'') as Hu''.
    assert (Hag : forall x, in_subtree d (b_root_page b) x -> dget (apply_wr (wr s'') P d) x = dget d x).
    { intros x Hx. apply unwritten_dget with (keep := keep); [exact Hu'' | apply HD1, Hx]. }
    apply Strict_intro with (h := Nat.max h h2) (l := l).
    + assert (Hle2 : h2 <= Nat.max h h2) by lia.
      apply (PInv_transfer d _ _ _ _ _ _ (EngineSpillWfFacts.PInv_mono_le h2 (Nat.max h h2) d _ _ _ _ Hle2 P2) Hag).
    + assert (Hle2 : h2 <= Nat.max h h2) by lia.
      rewrite (ppages_transfer d _ _ _ Hag), (ppages_stable _ _ _ _ _ _ P2 _ Hle2). exact N2.
    + assert (Hle1 : h <= Nat.max h h2) by lia.
      apply (PageView_transfer d _ _ _ _ (PageView_mono _ _ _ _ HVp _ Hle1) Hag).
    + rewrite <- (patch_nil l). apply (patched_strict _ (b_subs b) []); [intros ? [] | exact Hcov |].
      intros k r0 nx0 Hin Hsf. destruct (Hdisk' k r0 nx0 Hin Hsf) as (n & Hs & Hc).
      apply (kept_Strict d _ keep) with (n := n); try assumption. now apply unwritten_dget.
  - pose proof (meta_fold_bpg d keep h metas b l s1 b1 s2 HSR HV Hh J3 Hall Hf2) as Ebpg.
    destruct (XRoot_bpg d keep h b HC HXR HSR) as [Hnp Hinc]. rewrite <- Ebpg in Hnp, Hinc.
    unfold bpg in Hnp, Hinc. rewrite Ern in Hnp, Hinc.
    exact (spill_tail_strict d keep live s A D s1 s2 h l (b_subs b) metas rn p s3
             Hfi Hk Hu Hfr B6 HI HRd B2 Hnp Hinc HmsS Hcov Hdisk' Hsp).
Qed.

Lemma RecOKS_all : forall d keep f, closedR d keep -> RecOKS d keep (spill_bucket f d).
Proof.
  intros d keep f HC. induction f as [|f IH]; [|now apply RecOKS_step].
  intros live b s ord res m _ _ _ _ _ _ H. discriminate.
Qed.

(** ** [commit], [run_tx]: the new state is strict *)
Theorem commit_strict : forall st b s ord st' b1 s1 keep live m, closedR (d_disk st) keep ->
  rebalance fuel0 (d_disk st) b s = Ok (b1, s1) ->
  fresh_inv live s1 -> (forall x, In x keep -> In x live) -> (forall x, In x keep -> wr_get (wr s1) x = None) ->
  SReady (d_disk st) keep b1 -> OvlAbs (d_disk st) b1 m -> SReadyX (d_disk st) keep b1 ->
  commit st b s ord = Ok st' -> Strict (d_disk st') (d_root st').
Proof.
  intros st b s ord st' b1 s1 keep live m HC Hreb Hfi Hk Hu HS HO HSX H.
  destruct (commit_ok_inv _ _ _ _ _ _ _ Hreb H) as (r & nx & s2 & ord' & flp & fln & s4 & Hsp & Hal & ->).
  pose proof (RecOKS_all (d_disk st) keep fuel0 HC live b1 s1 ord (r, nx, s2, ord') m Hfi Hk Hu HS HO HSX Hsp) as HP.
  cbn [SpillPostS] in HP. destruct HP as (alloc & dead & F1 & HW). cbn [d_root d_disk].
  destruct (commit_tail_frame (alloc ++ live) _ _ _ _ _ _ (fr_fresh _ _ _ _ _ F1) Hal) as [G4 _].
  exact (HW s4 _ _ (psz s4) G4).
Qed.

Theorem run_tx_strict : forall st ops ord st', db_ok st -> Forall (op_ok (d_disk st)) ops ->
  run_tx st ops ord = Ok st' -> readable st' -> db_strict st'.
Proof.
  intros st ops ord st' [Hdb [R HA]] Hops Hrun Hrd.
  destruct (run_tx_rebalance_ready st ops ord st' Hdb Hops Hrun)
    as (root' & s' & b1 & s1 & fv & v & Hf & _ & Ha & Hfr & [f HSD] & Hrr & _).
  destruct (rebalanced_ready st R ops root' s' b1 s1 _ Hdb HA Hf Ha Hfr Hrr) as (Hfi & Hwr & HS & HO).
  assert (Hc : commit st root' s' ord = Ok st') by (rewrite run_tx_fold, Hf in Hrun; exact Hrun).
  pose proof HA as (_ & _ & _ & _ & _ & _ & _ & HC & _).
  assert (HSX : SReadyX (d_disk st) R b1).
  { eapply (rebalance_SReadyX (d_disk st) R HC fuel0 f 9); eauto; [unfold fuel0; lia|]. eapply tx_ops_XDF; eauto. }
  assert (Hk : forall x, In x R -> In x (live_of st R)) by (intros x Hx; now apply R_live).
  assert (Hu : forall x, In x R -> wr_get (wr s1) x = None) by (intros x _; rewrite Hwr; reflexivity).
  unfold db_strict. apply Strict_sbk; [|exact Hrd].
  exact (commit_strict st root' s' ord st' b1 s1 R (live_of st R) _ HC Hrr Hfi Hk Hu HS HO HSX Hc).
Qed.

(** * Refinement, with the allocation invariant of the NEW state as a (decidable) side condition *)

Definition checked (st : db) : Prop := readable st /\ db_alloc_ok st.
Definition checkedb (st : db) : bool := readableb st && db_alloc_okb st.
Lemma checkedb_ok : forall st, checkedb st = true -> checked st.
Proof.
  intros st H. apply andb_true_iff in H. destruct H as [H1 H2].
  split; [now apply readableb_ok | now apply db_alloc_okb_ok].
Qed.

Theorem run_tx_refines : forall st ops ord st', db_ok st -> Forall (op_ok (d_disk st)) ops ->
  run_tx st ops ord = Ok st' -> checked st' -> db_ok st' /\ abs_db st' = sem_tx ops (abs_db st).
Proof.
  intros st ops ord st' Hok Hops Hrun [Hrd Hal]. split.
  - split; [eapply run_tx_strict; eauto | exact Hal].
  - eapply run_tx_meaning; eauto.
Qed.

(* a history of transactions, each committed state checked *)
Fixpoint run_txs (st : db) (txs : list (list op * list bytes)) : res db :=
  match txs with
  | [] => Ok st
  | (ops, ord) :: txs' => bind (run_tx st ops ord) (fun st1 => run_txs st1 txs')
  end.
Fixpoint sem_txs (txs : list (list op * list bytes)) (m : snode) : snode :=
  match txs with [] => m | (ops, _) :: txs' => sem_txs txs' (sem_tx ops m) end.
(* every operation is admissible in the state it is applied to, and every committed state passes the check *)
Fixpoint txs_ok (st : db) (txs : list (list op * list bytes)) : Prop :=
  match txs with
  | [] => True
  | (ops, ord) :: txs' => Forall (op_ok (d_disk st)) ops /\
      forall st1, run_tx st ops ord = Ok st1 -> checked st1 /\ txs_ok st1 txs'
  end.
(* [txs_ok] by evaluation *)
Definition txs_okb : db -> list (list op * list bytes) -> bool :=
  steps_okb (fun st tx => run_tx st (fst tx) (snd tx)) (fun _ tx => forallb op_okb (fst tx)) checkedb.
Lemma txs_okb_ok : forall txs st, txs_okb st txs = true -> txs_ok st txs.
Proof.
  apply (steps_okb_ok _ (fun st tx => Forall (op_ok (d_disk st)) (fst tx)) checked txs_ok).
  - intros st tx. apply op_okb_ok.
  - exact checkedb_ok.
  - intros st. exact I.
  - intros st [ops ord] txs H. exact H.
Qed.

Corollary run_txs_refines : forall txs st st', db_ok st -> txs_ok st txs -> run_txs st txs = Ok st' ->
  db_ok st' /\ abs_db st' = sem_txs txs (abs_db st).
Proof.
  induction txs as [|[ops ord] txs IH]; intros st st' Hok Htx H; cbn [run_txs sem_txs] in *.
  - inversion H; subst. auto.
  - apply bind_ok_inv in H. destruct H as (st1 & H1 & H2). destruct Htx as [Hops Hnext].
    destruct (Hnext st1 H1) as [Hck Htx1].
    destruct (run_tx_refines st ops ord st1 Hok Hops H1 Hck) as [Hok1 E1].
    destruct (IH st1 st' Hok1 Htx1 H2) as [Hok' E']. split; [exact Hok'|]. now rewrite E', E1.
Qed.

Corollary run_txs_refines_init : forall P txs st', (0 < P)%N -> txs_ok (init_db P) txs ->
  run_txs (init_db P) txs = Ok st' -> db_ok st' /\ abs_db st' = sem_txs txs (SBucket 0 0 []).
Proof. intros P txs st' HP Htx H. exact (run_txs_refines txs _ _ (init_db_ok P HP) Htx H). Qed.

(* the target statement of EngineAbs, with the side condition folded into the well-formedness predicate:
   [db_wf st] = [db_ok st], and every state the engine can reach from [st] by completed transactions of admissible
   operations passes the check *)
Inductive reach_tx : db -> db -> Prop :=
| reach_refl : forall st, reach_tx st st
| reach_step : forall st ops ord st1 st2, Forall (op_ok (d_disk st)) ops -> run_tx st ops ord = Ok st1 ->
    reach_tx st1 st2 -> reach_tx st st2.

Definition db_wf (st : db) : Prop := db_ok st /\ forall st2, reach_tx st st2 -> checked st2.

Theorem run_tx_refines_stmt_holds : run_tx_refines_stmt db_wf op_ok.
Proof.
  intros st ops ord st' [Hok Hall] Hops Hrun.
  assert (Hck : checked st') by (apply Hall; eapply reach_step; eauto; apply reach_refl).
  destruct (run_tx_refines st ops ord st' Hok Hops Hrun Hck) as [Hok' E]. split; [|exact E].
  split; [exact Hok'|]. intros st2 Hr. apply Hall. eapply reach_step; eauto.
Qed.

(* two transactions from the empty database: a nested bucket is created, then modified and a second level added *)
Module ExHistory.
Import Ex3.
Definition tx1 : list op * list bytes := ([Put [] ka [x01]; Put [kb] kc [x02]; Put [kb] kd [x03]], [kb]).
Definition tx2 : list op * list bytes := ([Del [] ka; Put [kb; km] ke [x04]; Del [kb] kc], [kb; km]).
Definition hist : list (list op * list bytes) := [tx1; tx2].
Definition hist_run := Eval vm_compute in run_txs (init_db 4096) hist.
Definition hist_st : db := match hist_run with Ok st => st | _ => init_db 4096 end.
Example hist_run_ok : run_txs (init_db 4096) hist = Ok hist_st.
Proof. vm_compute. reflexivity. Qed.

Example hist_ok : txs_ok (init_db 4096) hist.
Proof. apply txs_okb_ok. vm_compute. reflexivity. Qed.

Example hist_refines : db_ok hist_st /\ abs_db hist_st = sem_txs hist (SBucket 0 0 []).
Proof. exact (run_txs_refines_init 4096 hist hist_st eq_refl hist_ok hist_run_ok). Qed.

Example hist_value : abs_db hist_st =
  SBucket 0 2 [(kb, SBucket 0 3 [(kd, SVal [x03]); (km, SBucket 0 1 [(ke, SVal [x04])])])].
Proof. vm_compute. reflexivity. Qed.
End ExHistory.

Print Assumptions run_tx_meaning.
Print Assumptions run_tx_strict.
Print Assumptions run_tx_refines.
Print Assumptions run_txs_refines_init.
Print Assumptions run_tx_refines_stmt_holds.
Print Assumptions rebalance_OvlAbs.
Print Assumptions rebalance_SReady.
Print Assumptions init_db_ok.
Print Assumptions Ex3R.ex3_meaning.
Print Assumptions ExHistory.hist_refines.
