(* The cursor stack machine of model/Cursor.v, which is cursor.rs with the end test `index + 1 >= len` and with
   empty leaves skipped: a scan delivers every entry once, in tree order, and a cursor that has ended keeps
   returning None without panic. Both follow from an invariant of the stack together with the list of entries
   the stack still has to deliver, which every [next] shortens by its head. cursor.rs as it stands
   ([next_legacy]) fails both. The only well-formedness needed is [no_empty_branch]; empty leaves are allowed
   anywhere. *)
From Coq Require Import List NArith Bool Arith Lia.
From Coq.Strings Require Import Byte.
From Jamm Require Import Bytes Codec Tree Spec Cursor.
Import ListNotations.
Local Open Scope list_scope. Local Open Scope nat_scope.

Fixpoint no_empty_branch (t : tree) : bool :=
  match t with
  | TL _ _ _ => true
  | TB _ _ ks =>
      negb (match ks with [] => true | _ => false end) &&
      forallb (fun kt : bytes * tree => no_empty_branch (snd kt)) ks
  end.

Section tree_ind.
  Variable P : tree -> Prop.
  Hypothesis HL : forall p o l, P (TL p o l).
  Hypothesis HB : forall p o ks, Forall (fun kt : bytes * tree => P (snd kt)) ks -> P (TB p o ks).
  Fixpoint tree_ind' (t : tree) : P t :=
    match t with
    | TL p o l => HL p o l
    | TB p o ks =>
        HB p o ks
          ((fix go (ks : list (bytes * tree)) : Forall (fun kt : bytes * tree => P (snd kt)) ks :=
              match ks with
              | [] => Forall_nil _
              | kt :: ks' => Forall_cons kt (tree_ind' (snd kt)) (go ks')
              end) ks)
    end.
End tree_ind.

Lemma skipn_nth_error {A} : forall (l : list A) i x,
  nth_error l i = Some x -> skipn i l = x :: skipn (S i) l.
Proof.
  induction l as [|a l IH]; intros [|i] x H; try discriminate.
  - inversion H; reflexivity.
  - cbn [nth_error] in H. apply IH in H. cbn [skipn]. cbn [skipn] in H. exact H.
Qed.

Lemma flat_map_length_skipn {A B} (f : A -> list B) : forall (l : list A) i,
  length (flat_map f (skipn i l)) <= length (flat_map f l).
Proof.
  intros l i. rewrite <- (firstn_skipn i l) at 2. rewrite flat_map_app, app_length. lia.
Qed.

Lemma flat_map_ext_Forall {A B} (f g : A -> list B) : forall l,
  Forall (fun a => f a = g a) l -> flat_map f l = flat_map g l.
Proof.
  induction 1 as [|a l Ha _ IH]; [reflexivity|]. cbn [flat_map]. rewrite Ha, IH. reflexivity.
Qed.

Lemma child_at_inv : forall p i c, child_at p i = Some c ->
  exists pid o ks k, p = TB pid o ks /\ nth_error ks i = Some (k, c).
Proof.
  intros [pid o l|pid o ks] i c H; [discriminate|].
  cbn [child_at] in H. destruct (nth_error ks i) as [[k c']|] eqn:E; [|discriminate].
  cbn in H. inversion H; subst. exists pid, o, ks, k. split; [reflexivity|exact E].
Qed.

Lemma height_child : forall p i c, child_at p i = Some c -> height c < height p.
Proof.
  intros p i c H. destruct (child_at_inv _ _ _ H) as (pid & o & ks & k & -> & E).
  cbn [height]. apply Nat.lt_succ_r. clear H. revert i E.
  induction ks as [|[k' c'] ks IH]; intros [|i] E; try discriminate; cbn [nth_error] in E.
  - inversion E; subst. cbn [fold_right snd]. lia.
  - cbn [fold_right snd]. specialize (IH _ E). lia.
Qed.

Lemma neb_child : forall p i c, no_empty_branch p = true -> child_at p i = Some c ->
  no_empty_branch c = true.
Proof.
  intros p i c Hp H. destruct (child_at_inv _ _ _ H) as (pid & o & ks & k & -> & E).
  cbn [no_empty_branch] in Hp. apply andb_true_iff in Hp. destruct Hp as [_ Hp].
  rewrite forallb_forall in Hp. apply nth_error_In in E. apply (Hp _ E).
Qed.

Lemma neb_branch_len : forall pid o ks, no_empty_branch (TB pid o ks) = true -> 0 < length ks.
Proof.
  intros pid o [|kt ks] H; [discriminate|]. cbn [length]. lia.
Qed.

Lemma tlen_TL : forall p o l, tlen (TL p o l) = length l.
Proof. intros. unfold tlen. cbn [keys_of]. apply map_length. Qed.
Lemma tlen_TB : forall p o ks, tlen (TB p o ks) = length ks.
Proof. intros. unfold tlen. cbn [keys_of]. apply map_length. Qed.

Lemma child_at_lt : forall pid o ks i, i < length ks -> exists c, child_at (TB pid o ks) i = Some c.
Proof.
  intros pid o ks i H. cbn [child_at]. destruct (nth_error ks i) as [[k c]|] eqn:E.
  - exists c. reflexivity.
  - apply nth_error_None in E. lia.
Qed.

Lemma height_le_nodes : forall t, height t <= nodes t.
Proof.
  induction t as [p o l|p o ks IH] using tree_ind'; cbn [height nodes]; [lia|].
  apply le_n_S.
  induction IH as [|[k c] ks Hc _ IH']; cbn [fold_right snd length]; [lia|].
  cbn [snd] in Hc. lia.
Qed.

Inductive wf_stack (root : tree) : stack -> Prop :=
| wf_root : forall i, wf_stack root [(root, i)]
| wf_push : forall c j p i rest,
    wf_stack root ((p, i) :: rest) -> child_at p i = Some c -> wf_stack root ((c, j) :: (p, i) :: rest).

Definition height_top (st : stack) : nat := match st with (t, _) :: _ => height t | [] => 0 end.
Definition neb_top (st : stack) : Prop := match st with (t, _) :: _ => no_empty_branch t = true | [] => True end.
Definition top_ok (st : stack) : Prop := match st with (t, i) :: _ => i = 0 \/ i < tlen t | [] => False end.
Definition settled (st : stack) : Prop := match st with (t, _) :: _ => is_leaf t = true | [] => False end.

Lemma wf_stack_len : forall root st, wf_stack root st -> length st + height_top st <= S (height root).
Proof.
  induction 1 as [i|c j p i rest Hwf IH Hc].
  - cbn [length height_top]. lia.
  - cbn [length height_top] in *. apply height_child in Hc. lia.
Qed.

Lemma wf_stack_neb : forall root st, no_empty_branch root = true -> wf_stack root st -> neb_top st.
Proof.
  intros root st Hr. induction 1 as [i|c j p i rest Hwf IH Hc]; cbn [neb_top] in *.
  - exact Hr.
  - eapply neb_child; eassumption.
Qed.

Lemma wf_stack_reindex : forall root t i j rest, wf_stack root ((t, i) :: rest) -> wf_stack root ((t, j) :: rest).
Proof.
  intros root t i j rest H. inversion H; subst.
  - apply wf_root.
  - apply wf_push; assumption.
Qed.

Lemma wf_stack_tail : forall root f g rest, wf_stack root (f :: g :: rest) -> wf_stack root (g :: rest).
Proof. intros root f g rest H. inversion H; subst. assumption. Qed.

(* [from st]: what a scan standing at [st] still has to visit, the current position included; [after st]: the same
   past the current position. [leafpart l i] is what a leaf contributes from its index [i] on. *)
Section Gen.
  Context {A : Type}.
  Variable leafpart : list lent -> nat -> list A.

  Fixpoint gflat (t : tree) : list A :=
    match t with
    | TL _ _ l => leafpart l 0
    | TB _ _ ks => flat_map (fun kt : bytes * tree => gflat (snd kt)) ks
    end.
  Definition frame_from (f : frame) : list A :=
    match f with
    | (TL _ _ l, i) => leafpart l i
    | (TB _ _ ks, i) => flat_map (fun kt : bytes * tree => gflat (snd kt)) (skipn i ks)
    end.
  Definition frame_after (f : frame) : list A := frame_from (fst f, S (snd f)).
  Definition after (st : stack) : list A := flat_map frame_after st.
  Definition from (st : stack) : list A :=
    match st with [] => [] | f :: rest => frame_from f ++ after rest end.

  Lemma after_cons : forall f rest, after (f :: rest) = frame_after f ++ after rest.
  Proof. reflexivity. Qed.

  Lemma after_is_from : forall t i rest, after ((t, i) :: rest) = from ((t, S i) :: rest).
  Proof. reflexivity. Qed.

  Lemma frame_from_0 : forall c, frame_from (c, 0) = gflat c.
  Proof. intros [p o l|p o ks]; reflexivity. Qed.

  Lemma child_from : forall p i c, child_at p i = Some c ->
    frame_from (p, i) = gflat c ++ frame_after (p, i).
  Proof.
    intros p i c H. destruct (child_at_inv _ _ _ H) as (pid & o & ks & k & -> & E).
    unfold frame_after. cbn [frame_from fst snd]. rewrite (skipn_nth_error _ _ _ E).
    reflexivity.
  Qed.

  Lemma seek_first_from : forall f st st', seek_first f st = Some st' -> from st' = from st.
  Proof.
    induction f as [|f IH]; intros st st' H; cbn [seek_first] in H; [discriminate|].
    destruct st as [|[t i] rest]; [discriminate|].
    destruct (is_leaf t); [inversion H; reflexivity|].
    destruct (Nat.eqb (tlen t) 0); [inversion H; reflexivity|].
    destruct (child_at t i) as [c|] eqn:Ec; [|discriminate].
    apply IH in H. rewrite H. cbn [from]. rewrite after_cons, frame_from_0.
    rewrite (child_from _ _ _ Ec), app_assoc. reflexivity.
  Qed.

  Hypothesis leafpart_end : forall l i, length l <= S i -> leafpart l (S i) = [].

  Lemma frame_after_end : forall t i, tlen t <= i + 1 -> frame_after (t, i) = [].
  Proof.
    intros [p o l|p o ks] i H; unfold frame_after; cbn [frame_from fst snd].
    - rewrite tlen_TL in H. apply leafpart_end. lia.
    - rewrite tlen_TB in H. rewrite skipn_all2 by lia. reflexivity.
  Qed.

  Lemma advance_from : forall f h st st', advance f h st = Some (Some st') -> from st' = after st.
  Proof.
    induction f as [|f IH]; intros h st st' H; cbn [advance] in H; [discriminate|].
    destruct st as [|[t i] rest]; [discriminate|].
    destruct (tlen t <=? i + 1) eqn:El.
    - apply Nat.leb_le in El. rewrite after_cons, (frame_after_end _ _ El). cbn [app].
      destruct rest as [|g rest]; [discriminate|]. apply IH in H. exact H.
    - destruct (seek_first h ((t, i + 1) :: rest)) as [s|] eqn:Es; [|discriminate].
      cbn in H. inversion H; subst. apply seek_first_from in Es. rewrite Es.
      rewrite Nat.add_1_r. reflexivity.
  Qed.

  Lemma advance_end : forall f h st, advance f h st = Some None -> after st = [].
  Proof.
    induction f as [|f IH]; intros h st H; cbn [advance] in H; [discriminate|].
    destruct st as [|[t i] rest]; [discriminate|].
    destruct (tlen t <=? i + 1) eqn:El.
    - apply Nat.leb_le in El. rewrite after_cons, (frame_after_end _ _ El). cbn [app].
      destruct rest as [|g rest]; [reflexivity|]. apply IH in H. exact H.
    - destruct (seek_first h ((t, i + 1) :: rest)); discriminate.
  Qed.

  Hypothesis leafpart_le : forall l i, length (leafpart l i) <= length (leafpart l 0).

  Lemma frame_from_le : forall t i, length (frame_from (t, i)) <= length (gflat t).
  Proof.
    intros [p o l|p o ks] i; cbn [frame_from gflat].
    - apply leafpart_le.
    - apply flat_map_length_skipn.
  Qed.

  Lemma from_bound : forall root st, wf_stack root st -> length (from st) <= length (gflat root).
  Proof.
    induction 1 as [i|c j p i rest Hwf IH Hc].
    - cbn [from after flat_map]. rewrite app_nil_r. apply frame_from_le.
    - cbn [from] in *. rewrite after_cons. rewrite (child_from _ _ _ Hc) in IH.
      pose proof (frame_from_le c j) as Hle. rewrite !app_length in *. lia.
  Qed.
End Gen.

(* The two instances: the entries still to come, and the measure that bounds the loop of [skip_empty]. In the
   measure a leaf at index 0 weighs one more than its length: [top_ok] admits index 0 on an empty leaf, where
   [current] is None, and stepping over that leaf must still decrease the measure ([current_none_measure]). *)
Definition lp_e (l : list lent) (i : nat) : list lent := skipn i l.
Definition lp_n (l : list lent) (i : nat) : list unit :=
  match i with O => repeat tt (S (length l)) | S _ => repeat tt (length l - i) end.
Notation from_e := (from lp_e).
Notation after_e := (after lp_e).
Notation from_n := (from lp_n).
Notation after_n := (after lp_n).

Lemma lp_e_end : forall l i, length l <= S i -> lp_e l (S i) = [].
Proof. intros l i H. unfold lp_e. apply skipn_all2. exact H. Qed.
Lemma lp_n_end : forall l i, length l <= S i -> lp_n l (S i) = [].
Proof.
  intros l i H. assert (E : length l - S i = 0) by lia.
  change (repeat tt (length l - S i) = []). rewrite E. reflexivity.
Qed.
Lemma lp_n_le : forall l i, length (lp_n l i) <= length (lp_n l 0).
Proof. intros l [|i]; unfold lp_n; rewrite !repeat_length; lia. Qed.

Lemma gflat_e : forall t, gflat lp_e t = flatten t.
Proof.
  induction t as [p o l|p o ks IH] using tree_ind'; cbn [gflat flatten]; [reflexivity|].
  apply flat_map_ext_Forall. exact IH.
Qed.

Lemma gflat_n_nodes : forall t, length (gflat lp_n t) <= nodes t.
Proof.
  induction t as [p o l|p o ks IH] using tree_ind'; cbn [gflat nodes].
  - unfold lp_n. rewrite repeat_length. lia.
  - apply le_S.
    induction IH as [|[k c] ks Hc _ IH']; cbn [flat_map fold_right snd length]; [lia|].
    cbn [snd] in Hc. rewrite app_length. lia.
Qed.

Lemma flatten_le_nodes : forall t, length (flatten t) <= nodes t.
Proof.
  induction t as [p o l|p o ks IH] using tree_ind'; cbn [flatten nodes]; [lia|].
  apply le_S.
  induction IH as [|[k c] ks Hc _ IH']; cbn [flat_map fold_right snd length]; [lia|].
  cbn [snd] in Hc. rewrite app_length. lia.
Qed.

Lemma seek_first_ok root : forall f st,
  wf_stack root st -> top_ok st -> neb_top st -> height_top st < f ->
  exists st', seek_first f st = Some st' /\ wf_stack root st' /\ top_ok st' /\ settled st'.
Proof.
  induction f as [|f IH]; intros st Hwf Htop Hneb Hh; [lia|].
  destruct st as [|[t i] rest]; [contradiction|].
  cbn [seek_first]. destruct t as [p o l|p o ks].
  - cbn [is_leaf]. exists ((TL p o l, i) :: rest). repeat split; assumption.
  - cbn [is_leaf]. cbn [neb_top] in Hneb. pose proof (neb_branch_len _ _ _ Hneb) as Hlen.
    rewrite tlen_TB. destruct (Nat.eqb (length ks) 0) eqn:E0; [apply Nat.eqb_eq in E0; lia|].
    cbn [top_ok] in Htop. rewrite tlen_TB in Htop.
    destruct (child_at_lt p o ks i) as [c Hc]; [lia|]. rewrite Hc.
    apply IH.
    + apply wf_push; assumption.
    + cbn [top_ok]. left; reflexivity.
    + cbn [neb_top]. eapply neb_child; eassumption.
    + cbn [height_top] in *. apply height_child in Hc. lia.
Qed.

Lemma advance_ok root : no_empty_branch root = true -> forall h, height root < h -> forall f st,
  wf_stack root st -> length st <= f ->
  advance f h st = Some None \/
  exists st', advance f h st = Some (Some st') /\ wf_stack root st' /\ top_ok st' /\ settled st'.
Proof.
  intros Hr h Hh. induction f as [|f IH]; intros st Hwf Hlen.
  - inversion Hwf; subst; cbn [length] in Hlen; lia.
  - destruct st as [|[t i] rest]; [inversion Hwf|]. cbn [advance].
    destruct (tlen t <=? i + 1) eqn:El.
    + destruct rest as [|g rest]; [left; reflexivity|]. apply IH.
      * eapply wf_stack_tail; eassumption.
      * cbn [length] in *; lia.
    + apply Nat.leb_gt in El. right.
      assert (Hwf' : wf_stack root ((t, i + 1) :: rest)) by (eapply wf_stack_reindex; eassumption).
      destruct (seek_first_ok root h ((t, i + 1) :: rest)) as (st' & Hs & Hw & Ht & Hse).
      * exact Hwf'.
      * cbn [top_ok]. right; lia.
      * eapply wf_stack_neb; eassumption.
      * pose proof (wf_stack_len _ _ Hwf) as Hl. cbn [height_top length] in *. lia.
      * exists st'. rewrite Hs. cbn [option_map]. auto.
Qed.

Lemma current_settled : forall st, settled st ->
  (exists d, current st = CVal (Some (to_item d)) /\ from_e st = d :: after_e st) \/
  (current st = CVal None /\ from_e st = after_e st).
Proof.
  intros [|[t i] rest] Hs; [contradiction|]. destruct t as [p o l|p o ks]; [|discriminate].
  cbn [current is_leaf val_at]. cbn [from]. rewrite after_cons. unfold frame_after.
  cbn [frame_from fst snd]. unfold lp_e.
  destruct (nth_error l i) as [d|] eqn:E.
  - left. exists d. split; [reflexivity|]. rewrite (skipn_nth_error _ _ _ E). reflexivity.
  - right. split; [reflexivity|]. apply nth_error_None in E.
    rewrite (skipn_all2 l (n:=i)), (skipn_all2 l (n:=S i)) by lia. reflexivity.
Qed.

Lemma from_n_pos : forall st, settled st -> top_ok st -> 0 < length (from_n st).
Proof.
  intros [|[t i] rest] Hs Ht; [contradiction|]. destruct t as [p o l|p o ks]; [|discriminate].
  cbn [top_ok] in Ht. rewrite tlen_TL in Ht.
  cbn [from frame_from]. rewrite app_length.
  destruct i as [|i]; unfold lp_n; rewrite repeat_length; lia.
Qed.

Lemma current_none_measure : forall st, settled st -> top_ok st -> current st = CVal None ->
  length (from_n st) = S (length (after_n st)).
Proof.
  intros [|[t i] rest] Hs Ht Hc; [contradiction|]. destruct t as [p o l|p o ks]; [|discriminate].
  cbn [top_ok] in Ht. rewrite tlen_TL in Ht.
  cbn [current is_leaf val_at] in Hc.
  destruct (nth_error l i) as [d|] eqn:E; [discriminate|]. apply nth_error_None in E.
  assert (i = 0) by lia. subst i.
  cbn [from]. rewrite after_cons. unfold frame_after. cbn [frame_from fst snd].
  rewrite !app_length. unfold lp_n. rewrite !repeat_length. lia.
Qed.

Lemma skip_empty_spec root F : no_empty_branch root = true -> height root < F -> forall fuel st,
  wf_stack root st -> settled st -> top_ok st -> length (from_n st) <= fuel ->
  match from_e st with
  | [] => skip_empty fuel F st = CVal None
  | d :: l => exists st', skip_empty fuel F st = CVal (Some (st', to_item d)) /\
        wf_stack root st' /\ settled st' /\ top_ok st' /\ after_e st' = l
  end.
Proof.
  intros Hr Hh. induction fuel as [|fuel IH]; intros st Hwf Hs Ht Hm.
  - pose proof (from_n_pos st Hs Ht). lia.
  - cbn [skip_empty]. destruct (current_settled st Hs) as [(d & Hc & Hf)|(Hc & Hf)].
    + rewrite Hc, Hf. exists st. auto.
    + rewrite Hc. pose proof (current_none_measure st Hs Ht Hc) as Hmeas.
      assert (Hlen : length st <= F) by (pose proof (wf_stack_len _ _ Hwf); lia).
      destruct (advance_ok root Hr F Hh F st Hwf Hlen) as [He|(st' & Ha & Hw & Ht' & Hs')].
      * rewrite He. apply (advance_end lp_e lp_e_end) in He. rewrite Hf, He. reflexivity.
      * rewrite Ha. pose proof (advance_from lp_e lp_e_end _ _ _ _ Ha) as Hfe.
        pose proof (advance_from lp_n lp_n_end _ _ _ _ Ha) as Hfn.
        rewrite Hf, <- Hfe. apply IH; try assumption. rewrite Hfn. lia.
Qed.

(* invariant of the cursors reachable from [new_cursor root] by [next] *)
Definition cinv (root : tree) (c : cursor) : Prop :=
  c_root c = root /\
  (c_stack c = [] \/
   (c_next_called c = true /\ wf_stack root (c_stack c) /\ settled (c_stack c) /\ top_ok (c_stack c))).
(* the entries still to be delivered *)
Definition rem (c : cursor) : list lent :=
  match c_stack c with [] => flatten (c_root c) | st => after_e st end.
(* the result [r] of a step delivers the head of R, or None when R is empty, without panic, and leaves a cursor in
   the invariant whose remainder is the tail of R *)
Definition yields (root : tree) (r : cur_res (cursor * option item)) (R : list lent) : Prop :=
  exists c', r = CVal (c', option_map to_item (hd_error R)) /\
    cinv root c' /\ c_next_called c' = true /\ rem c' = tl R.

Lemma rem_settled : forall root st b, settled st -> rem (mkCursor root st b) = after_e st.
Proof. intros root [|f rest] b Hs; [contradiction|reflexivity]. Qed.

Lemma settled_from_nil : forall st, settled st -> from_e st = [] -> after_e st = [].
Proof.
  intros st Hs Hf. destruct (current_settled st Hs) as [(d & _ & H)|(_ & H)]; rewrite H in Hf;
    [discriminate|exact Hf].
Qed.

Lemma from_root {A} (lp : list lent -> nat -> list A) : forall root, from lp [(root, 0)] = gflat lp root.
Proof. intros root. cbn [from after flat_map]. rewrite app_nil_r. apply frame_from_0. Qed.

(* what [next] does once the stack to start from is known *)
Definition finish (F : nat) (root : tree) (st : stack) : cur_res (cursor * option item) :=
  match skip_empty F F st with
  | CPanic => CPanic
  | CVal None => CVal (mkCursor root st true, None)
  | CVal (Some (st', d)) => CVal (mkCursor root st' true, Some d)
  end.

Lemma cinv_started : forall root st, wf_stack root st -> settled st -> top_ok st -> cinv root (mkCursor root st true).
Proof. intros root st Hwf Hs Ht. split; [reflexivity|]. right. cbn [c_stack c_next_called]. auto. Qed.

Lemma finish_spec root F st : no_empty_branch root = true -> nodes root < F ->
  wf_stack root st -> settled st -> top_ok st -> yields root (finish F root st) (from_e st).
Proof.
  intros Hr HF Hwf Hs Ht.
  assert (Hh : height root < F) by (pose proof (height_le_nodes root); lia).
  assert (Hm : length (from_n st) <= F).
  { pose proof (from_bound lp_n lp_n_le root st Hwf). pose proof (gflat_n_nodes root). lia. }
  pose proof (skip_empty_spec root F Hr Hh F st Hwf Hs Ht Hm) as Hsp.
  unfold finish, yields. destruct (from_e st) as [|d l] eqn:Hf.
  - rewrite Hsp. exists (mkCursor root st true). split; [reflexivity|]. split; [now apply cinv_started|].
    split; [reflexivity|]. rewrite rem_settled by assumption. apply settled_from_nil; assumption.
  - destruct Hsp as (st' & Hsk & Hw' & Hs' & Ht' & Ha). rewrite Hsk.
    exists (mkCursor root st' true). split; [reflexivity|]. split; [now apply cinv_started|].
    split; [reflexivity|]. rewrite rem_settled by assumption. exact Ha.
Qed.

Lemma next_spec root F c : no_empty_branch root = true -> nodes root < F -> cinv root c ->
  yields root (next F c) (rem c).
Proof.
  intros Hr HF [Hroot Hc]. destruct c as [r st b]. cbn [c_root c_stack c_next_called] in *. subst r.
  assert (Hh : height root < F) by (pose proof (height_le_nodes root); lia).
  destruct Hc as [-> | (-> & Hwf & Hs & Ht)].
  - change (rem (mkCursor root [] b)) with (flatten root).
    unfold next. cbn [c_root c_stack c_next_called].
    destruct (seek_first_ok root F [(root, 0)]) as (st' & Hsf & Hw & Ht & Hs).
    + apply wf_root.
    + left; reflexivity.
    + exact Hr.
    + exact Hh.
    + rewrite Hsf. pose proof (seek_first_from lp_e _ _ _ Hsf) as Hfe.
      rewrite from_root, gflat_e in Hfe. rewrite <- Hfe.
      apply (finish_spec root F st' Hr HF Hw Hs Ht).
  - destruct st as [|f rest]; [contradiction|].
    rewrite (rem_settled root (f :: rest) true Hs).
    unfold next. cbn [c_root c_stack c_next_called].
    assert (Hlen : length (f :: rest) <= F) by (pose proof (wf_stack_len _ _ Hwf); lia).
    destruct (advance_ok root Hr F Hh F (f :: rest) Hwf Hlen) as [He|(st' & Ha & Hw' & Ht' & Hs')].
    + rewrite He. rewrite (advance_end lp_e lp_e_end _ _ _ He).
      exists (mkCursor root (f :: rest) true). split; [reflexivity|]. split; [now apply cinv_started|].
      split; [reflexivity|]. rewrite rem_settled by assumption. apply (advance_end lp_e lp_e_end _ _ _ He).
    + rewrite Ha. rewrite <- (advance_from lp_e lp_e_end _ _ _ _ Ha).
      apply (finish_spec root F st' Hr HF Hw' Hs' Ht').
Qed.

(* a cursor [seek] has positioned, before its first [next] *)
Lemma next_seek_spec root F st : no_empty_branch root = true -> nodes root < F ->
  wf_stack root st -> settled st -> top_ok st -> yields root (next F (mkCursor root st false)) (from_e st).
Proof. intros Hr HF Hwf Hs Ht. destruct st as [|f rest]; [contradiction|]. now apply finish_spec. Qed.

Lemma cinv_new : forall t, cinv t (new_cursor t).
Proof. intros t. split; [reflexivity|]. left; reflexivity. Qed.

Lemma iterate_yields root F : no_empty_branch root = true -> nodes root < F ->
  forall R c n, yields root (next F c) R -> length R <= n -> iterate n F c = CVal (map to_item R).
Proof.
  intros Hr HF. induction R as [|d l IH]; intros c n (c' & Hnx & Hc' & _ & Hrem) Hn.
  - destruct n as [|n]; [reflexivity|]. cbn [iterate]. now rewrite Hnx.
  - destruct n as [|n]; [cbn [length] in Hn; lia|]. cbn [iterate]. rewrite Hnx. cbn [hd_error option_map].
    rewrite (IH c' n); [reflexivity | | cbn [length] in Hn; lia].
    cbn [tl] in Hrem. rewrite <- Hrem. now apply next_spec.
Qed.

Theorem cursor_all : forall t, no_empty_branch t = true -> scan t = CVal (map to_item (flatten t)).
Proof.
  intros t Hr. unfold scan.
  apply (iterate_yields t (S (nodes t)) Hr (Nat.lt_succ_diag_r _) (flatten t) (new_cursor t)).
  - apply (next_spec t _ _ Hr (Nat.lt_succ_diag_r _) (cinv_new t)).
  - pose proof (flatten_le_nodes t). lia.
Qed.
Print Assumptions cursor_all.

(* [run m F c]: call next m times, collecting the results *)
Fixpoint run (m F : nat) (c : cursor) : cur_res (cursor * list (option item)) :=
  match m with
  | O => CVal (c, [])
  | S m' =>
      match next F c with
      | CPanic => CPanic
      | CVal (c', r) =>
          match run m' F c' with
          | CPanic => CPanic
          | CVal (c'', rs) => CVal (c'', r :: rs)
          end
      end
  end.


Lemma run_ended root F : no_empty_branch root = true -> nodes root < F ->
  forall m c, cinv root c -> rem c = [] ->
  exists c', run m F c = CVal (c', repeat None m) /\ cinv root c' /\ rem c' = [].
Proof.
  intros Hr HF. induction m as [|m IH]; intros c Hc Hrem.
  - exists c. cbn [run repeat]. auto.
  - cbn [run repeat]. destruct (next_spec root F c Hr HF Hc) as (c' & Hnx & Hc' & _ & Hrem').
    rewrite Hrem in Hnx, Hrem'. rewrite Hnx.
    destruct (IH c' Hc' Hrem') as (c'' & Hrun & Hc'' & Hrem''). rewrite Hrun.
    exists c''. auto.
Qed.

Lemma run_spec root F : no_empty_branch root = true -> nodes root < F ->
  forall l c, cinv root c -> rem c = l -> forall m,
  exists c', run (length l + m) F c = CVal (c', map (fun e => Some (to_item e)) l ++ repeat None m)
             /\ cinv root c' /\ rem c' = [].
Proof.
  intros Hr HF. induction l as [|d l IH]; intros c Hc Hrem m.
  - cbn [length Nat.add map app]. apply (run_ended root F Hr HF m c Hc Hrem).
  - cbn [length Nat.add map app run].
    destruct (next_spec root F c Hr HF Hc) as (c' & Hnx & Hc' & _ & Hrem').
    rewrite Hrem in Hnx, Hrem'. rewrite Hnx.
    destruct (IH c' Hc' Hrem' m) as (c'' & Hrun & Hc'' & Hrem''). rewrite Hrun.
    exists c''. auto.
Qed.

Theorem cursor_end : forall t, no_empty_branch t = true -> forall m,
  exists c_end,
    run (length (flatten t) + m) (S (nodes t)) (new_cursor t)
    = CVal (c_end, map (fun e => Some (to_item e)) (flatten t) ++ repeat None m).
Proof.
  intros t Hr m.
  destruct (run_spec t (S (nodes t)) Hr (Nat.lt_succ_diag_r _) (flatten t) (new_cursor t)
              (cinv_new t) eq_refl m) as (c' & Hrun & _).
  exists c'. exact Hrun.
Qed.
Print Assumptions cursor_end.

Inductive reachable (F : nat) (t : tree) : cursor -> Prop :=
| reach_new : reachable F t (new_cursor t)
| reach_next : forall c c' r, reachable F t c -> next F c = CVal (c', r) -> reachable F t c'.


Lemma reachable_cinv : forall t, no_empty_branch t = true -> forall c,
  reachable (S (nodes t)) t c -> cinv t c.
Proof.
  intros t Hr c H. induction H as [|c c' r H IH Hnx]; [apply cinv_new|].
  destruct (next_spec t (S (nodes t)) c Hr (Nat.lt_succ_diag_r _) IH) as (c0 & Hnx0 & Hc0 & _).
  rewrite Hnx0 in Hnx. inversion Hnx; subst; exact Hc0.
Qed.

Theorem cursor_never_panics : forall t, no_empty_branch t = true -> forall c,
  reachable (S (nodes t)) t c -> next (S (nodes t)) c <> CPanic.
Proof.
  intros t Hr c H. pose proof (reachable_cinv t Hr c H) as Hc.
  destruct (next_spec t (S (nodes t)) c Hr (Nat.lt_succ_diag_r _) Hc) as (c0 & Hnx0 & _).
  rewrite Hnx0. discriminate.
Qed.
Print Assumptions cursor_never_panics.

Theorem cursor_end_stable : forall t, no_empty_branch t = true -> forall c c',
  reachable (S (nodes t)) t c -> next (S (nodes t)) c = CVal (c', None) ->
  forall m, exists c'', run m (S (nodes t)) c' = CVal (c'', repeat None m).
Proof.
  intros t Hr c c' H Hnx m. pose proof (reachable_cinv t Hr c H) as Hc.
  destruct (next_spec t (S (nodes t)) c Hr (Nat.lt_succ_diag_r _) Hc) as (c0 & Hnx0 & Hc0 & _ & Hrem0).
  rewrite Hnx0 in Hnx. destruct (rem c); [|discriminate]. inversion Hnx; subst.
  destruct (run_ended t (S (nodes t)) Hr (Nat.lt_succ_diag_r _) m c' Hc0 Hrem0) as (c'' & Hrun & _).
  exists c''. exact Hrun.
Qed.
Print Assumptions cursor_end_stable.

Corollary cursor_end_stable_1 : forall t, no_empty_branch t = true -> forall c c',
  reachable (S (nodes t)) t c -> next (S (nodes t)) c = CVal (c', None) ->
  exists c'', next (S (nodes t)) c' = CVal (c'', None).
Proof.
  intros t Hr c c' H Hnx. destruct (cursor_end_stable t Hr c c' H Hnx 1) as (c'' & Hrun).
  cbn [run repeat] in Hrun. destruct (next (S (nodes t)) c') as [|[c1 r]]; [discriminate|].
  inversion Hrun; subst. eexists. reflexivity.
Qed.

(* Why [cursor_end_stable] speaks of results only: [next F c' = CVal (c', None)] is false in general. With
   several trailing empty leaves the stack still moves on to a later empty leaf while None is returned. *)
Definition two_empty : tree := TB 5 0 [([x01], TL 3 0 []); ([x02], TL 4 0 [])].
Lemma end_state_not_fixed :
  exists c1 c2, next 10 (new_cursor two_empty) = CVal (c1, None) /\
                next 10 c1 = CVal (c2, None) /\ c_stack c1 <> c_stack c2 /\
                next 10 c2 = CVal (c2, None).
Proof.
  eexists. eexists. split; [vm_compute; reflexivity|]. split; [vm_compute; reflexivity|].
  split; [cbn; discriminate|vm_compute; reflexivity].
Qed.

Definition empty_bucket : tree := TL 3 0 [].

(* debug build: the second call on an empty bucket panics (usize underflow in len - 1) *)
Lemma next_legacy_debug_refuted : forall F,
  exists c1, next_legacy true (S F) (new_cursor empty_bucket) = CVal (c1, None) /\
             next_legacy true (S F) c1 = CPanic.
Proof. intros F. eexists. split; reflexivity. Qed.
Print Assumptions next_legacy_debug_refuted.

Fixpoint iterate_legacy (debug : bool) (n F : nat) (c : cursor) : cur_res (list item) :=
  match n with
  | O => CVal []
  | S n' =>
      match next_legacy debug F c with
      | CPanic => CPanic
      | CVal (_, None) => CVal []
      | CVal (c', Some d) =>
          match iterate_legacy debug n' F c' with CPanic => CPanic | CVal l => CVal (d :: l) end
      end
  end.

(* release build: an empty first leaf ends the iteration although a later leaf has entries *)
Definition skip_tree : tree := TB 5 0 [([x01], TL 3 0 []); ([x02], TL 4 0 [EKv [x02] [x2a]])].
Lemma next_legacy_skips_refuted :
  no_empty_branch skip_tree = true /\
  flatten skip_tree = [EKv [x02] [x2a]] /\
  iterate_legacy false (S (nodes skip_tree)) (S (nodes skip_tree)) (new_cursor skip_tree) = CVal [] /\
  scan skip_tree = CVal [IKv [x02] [x2a]].
Proof. repeat split; vm_compute; reflexivity. Qed.
Print Assumptions next_legacy_skips_refuted.

(* the hypothesis [no_empty_branch] is necessary: on an empty branch the cursor panics
   (seek_first stops on the branch, current on a branch frame = library panic) *)
Lemma empty_branch_panics : scan (TB 5 0 []) = CPanic /\
  scan (TB 5 0 [([x01], TL 3 0 [EKv [x01] [x2a]]); ([x02], TB 6 0 [])]) = CPanic.
Proof. split; vm_compute; reflexivity. Qed.
Print Assumptions end_state_not_fixed.
