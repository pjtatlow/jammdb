(* C16 for reads: the page size is a performance parameter for what a transaction READS, too. Two engines configured
   with different page sizes and fed the same committed transactions answer every read of the next write transaction
   identically -- after any operations so far, at any bucket path: get, full scan, every range, and seek of a present key
   (for an absent key the property lets seek land on either neighbour, which depends on where the leaves are cut).
   Corollary of EngineTxScan.tx_reads_cursor and run_txs_refines_init'. *)
From Coq Require Import List NArith Bool.
From Jamm Require Import Bytes Spec Cursor Engine EngineAbs EnginePathFacts EngineTxInvFacts EngineRefines EngineOwnSpill EngineAllocInv
  EngineReadBridge EngineScan EngineTxScan.
Import ListNotations.
Local Open Scope N_scope.

Lemma reachable_pages_wf : forall P txs st, 0 < P -> txs_ok' (init_db P) txs -> run_txs (init_db P) txs = Ok st ->
  db_pages_wf st.
Proof.
  intros P txs st HP T R. apply db_strict_pages_wf, db_okz_strict.
  exact (proj1 (run_txs_refines_init' P txs st HP T R)).
Qed.

Theorem reads_page_size_irrelevant : forall P1 P2 txs st1 st2 ops path o x es, 0 < P1 -> 0 < P2 ->
  txs_ok' (init_db P1) txs -> txs_ok' (init_db P2) txs ->
  run_txs (init_db P1) txs = Ok st1 -> run_txs (init_db P2) txs = Ok st2 ->
  Forall (op_ok (d_disk st1)) ops -> Forall (op_ok (d_disk st2)) ops ->
  Spec.get_at path (sem_tx ops (abs_db st1)) = Some (SBucket o x es) ->
  tx_scan st1 ops path = tx_scan st2 ops path /\
  (forall k, tx_cget st1 ops path k = tx_cget st2 ops path k) /\
  (forall lo hi, tx_range st1 ops path lo hi = tx_range st2 ops path lo hi) /\
  (forall k, ref_found (SBucket o x es) k = true -> tx_seek st1 ops path k = tx_seek st2 ops path k).
Proof.
  intros P1 P2 txs st1 st2 ops path o x es H1 H2 T1 T2 R1 R2 O1 O2 Hg.
  assert (E : abs_db st1 = abs_db st2).
  { destruct (run_txs_refines_init' P1 txs st1 H1 T1 R1) as [_ E1].
    destruct (run_txs_refines_init' P2 txs st2 H2 T2 R2) as [_ E2]. now rewrite E1, E2. }
  pose proof Hg as Hg2. rewrite E in Hg2.
  destruct (tx_reads_cursor st1 ops path o x es (reachable_pages_wf P1 txs st1 H1 T1 R1) O1 Hg) as (G1 & S1 & Rg1 & K1).
  destruct (tx_reads_cursor st2 ops path o x es (reachable_pages_wf P2 txs st2 H2 T2 R2) O2 Hg2) as (G2 & S2 & Rg2 & K2).
  split; [now rewrite S1, S2|]. split; [intros k; now rewrite G1, G2|]. split; [intros lo hi; now rewrite Rg1, Rg2|].
  intros k Hf. destruct (K1 k) as (l1 & Hs1 & Hl1). destruct (K2 k) as (l2 & Hs2 & Hl2).
  rewrite Hf in Hl1, Hl2. rewrite Hs1, Hs2, Hl1, Hl2. reflexivity.
Qed.

Print Assumptions reads_page_size_irrelevant.
