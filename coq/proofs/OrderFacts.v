(* The lexicographic order on byte strings ([Bytes.bcmp], = Rust's `[u8]::cmp`) is a strict total order; [beq], [blt],
   [ble] decide it. Loads no Zify instance: every file with keys in it imports this one. *)
From Coq Require Import List NArith Bool Arith Lia.
From Coq.Strings Require Import Byte.
From Jamm Require Import Bytes.
Import ListNotations.
Local Open Scope list_scope. Local Open Scope nat_scope.

Lemma byte_to_N_inj : forall x y, Byte.to_N x = Byte.to_N y -> x = y.
Proof.
  intros x y H.
  pose proof (Byte.of_to_N x) as Hx. pose proof (Byte.of_to_N y) as Hy.
  rewrite H in Hx. rewrite Hx in Hy. now inversion Hy.
Qed.

Lemma bcmp_refl : forall a, bcmp a a = Eq.
Proof.
  induction a as [|x a IH]; cbn; [reflexivity|].
  now rewrite N.compare_refl.
Qed.

Lemma bcmp_eq : forall a b, bcmp a b = Eq -> a = b.
Proof.
  induction a as [|x a IH]; intros [|y b] H; cbn in H; try discriminate; [reflexivity|].
  destruct (N.compare (Byte.to_N x) (Byte.to_N y)) eqn:E; try discriminate.
  apply N.compare_eq in E. apply byte_to_N_inj in E. subst y.
  f_equal. now apply IH.
Qed.

Lemma bcmp_eq_iff : forall a b, bcmp a b = Eq <-> a = b.
Proof. split; [apply bcmp_eq | intros ->; apply bcmp_refl]. Qed.

Lemma bcmp_antisym : forall a b, bcmp a b = CompOpp (bcmp b a).
Proof.
  induction a as [|x a IH]; intros [|y b]; cbn; try reflexivity.
  rewrite (N.compare_antisym (Byte.to_N x) (Byte.to_N y)).
  destruct (N.compare (Byte.to_N x) (Byte.to_N y)); cbn; auto.
Qed.

Lemma bcmp_lt_gt : forall a b, bcmp a b = Lt <-> bcmp b a = Gt.
Proof.
  intros a b. rewrite (bcmp_antisym a b). destruct (bcmp b a); cbn; split; congruence.
Qed.

Lemma bcmp_lt_trans : forall a b c, bcmp a b = Lt -> bcmp b c = Lt -> bcmp a c = Lt.
Proof.
  induction a as [|x a IH]; intros [|y b] [|z c] H1 H2; cbn in *; try discriminate; try reflexivity.
  destruct (N.compare (Byte.to_N x) (Byte.to_N y)) eqn:E1; try discriminate;
  destruct (N.compare (Byte.to_N y) (Byte.to_N z)) eqn:E2; try discriminate.
  - apply N.compare_eq in E1. rewrite E1, E2. eauto.
  - apply N.compare_eq in E1. rewrite E1, E2. reflexivity.
  - apply N.compare_eq in E2. rewrite <- E2, E1. reflexivity.
  - rewrite N.compare_lt_iff in E1, E2.
    assert (E3 : (Byte.to_N x < Byte.to_N z)%N) by (eapply N.lt_trans; eauto).
    rewrite <- N.compare_lt_iff in E3. now rewrite E3.
Qed.

Lemma bcmp_gt_trans : forall a b c, bcmp a b = Gt -> bcmp b c = Gt -> bcmp a c = Gt.
Proof.
  intros a b c H1 H2. apply bcmp_lt_gt in H1, H2. apply bcmp_lt_gt. eapply bcmp_lt_trans; eauto.
Qed.

(* "a <= b" is [bcmp a b <> Gt] *)
Lemma bcmp_le_lt_trans : forall a b c, bcmp a b <> Gt -> bcmp b c = Lt -> bcmp a c = Lt.
Proof.
  intros a b c H1 H2. destruct (bcmp a b) eqn:E; try congruence.
  - apply bcmp_eq in E. now subst.
  - eapply bcmp_lt_trans; eauto.
Qed.

Lemma bcmp_lt_le_trans : forall a b c, bcmp a b = Lt -> bcmp b c <> Gt -> bcmp a c = Lt.
Proof.
  intros a b c H1 H2. destruct (bcmp b c) eqn:E; try congruence.
  - apply bcmp_eq in E. now subst.
  - eapply bcmp_lt_trans; eauto.
Qed.

Lemma bcmp_le_trans : forall a b c, bcmp a b <> Gt -> bcmp b c <> Gt -> bcmp a c <> Gt.
Proof.
  intros a b c H1 H2. destruct (bcmp a b) eqn:E; try congruence.
  - apply bcmp_eq in E. now subst.
  - rewrite (bcmp_lt_le_trans a b c E H2). discriminate.
Qed.

Lemma blt_true : forall a b, blt a b = true <-> bcmp a b = Lt.
Proof. intros a b. unfold blt. destruct (bcmp a b); split; congruence. Qed.
Lemma ble_true : forall a b, ble a b = true <-> bcmp a b <> Gt.
Proof. intros a b. unfold ble. destruct (bcmp a b); split; congruence. Qed.
Lemma beq_true : forall a b, beq a b = true <-> a = b.
Proof.
  intros a b. unfold beq. rewrite <- bcmp_eq_iff. destruct (bcmp a b); split; congruence.
Qed.
Lemma beq_false_lt : forall a b, bcmp a b = Lt -> beq a b = false.
Proof. intros a b H. unfold beq. now rewrite H. Qed.
Lemma beq_false_gt : forall a b, bcmp a b = Gt -> beq a b = false.
Proof. intros a b H. unfold beq. now rewrite H. Qed.
