(* Uniform depth: all leaves of a bucket's tree are at the same depth.  The initial state has it, the operations of a
   transaction and rebalance keep it, and under it [merge_data] only ever meets two nodes of the same kind, which is
   the one panic the invariant of EngineRebalanceFacts leaves open in rebalance.
   Spill / assembly: EngineNoPanic.v; the spill re-establishes uniform depth: EngineSpillDepth.v. *)
From Coq Require Import List NArith Bool Arith Lia ZifyN ZifyNat ZifyBool Permutation.
From Coq.Strings Require Import Byte.
From Jamm Require Spec.
From Jamm Require Import Bytes Tree Cursor SearchFacts Engine EngineFacts EngineMergeFacts EngineModifyFacts EngineAbs.
From Jamm Require Import EnginePathFacts EngineRebalanceFacts EngineTxInvFacts.
Import ListNotations.
Import Coq.Strings.String.StringSyntax. Delimit Scope string_scope with string.
Local Open Scope list_scope. Local Open Scope nat_scope.
Set Warnings "-abstract-large-number".

Definition ent_ok (G : N -> Prop) (e : leafent) : Prop :=
  match e with LBk _ r _ => G r | LKv _ _ => True end.

(* the committed tree below page q has EXACT height h: a page at height 1 is a leaf, a page at height S h (h >= 1) is
   a branch all of whose children have exact height h; every bucket entry [LBk _ r _] stored in a leaf satisfies [G r] *)
Fixpoint PDp (G : N -> Prop) (h : nat) (d : disk) (q : N) : Prop :=
  match h with O => False | S h' =>
    exists a, dget d q = Some a /\
      match ap_body a with
      | Leaves l => h' = O /\ Forall (ent_ok G) l
      | Branches es => h' <> O /\ Forall (fun e => PDp G h' d (snd e)) es
      end end.

(* the same for an overlay node: the committed disk d is immutable during a transaction, so every entry of an overlay
   branch still names a committed page of exact height h - 1 (materialised or not), and every materialised kid has
   exact height h - 1 *)
Fixpoint NDp (G : N -> Prop) (h : nat) (d : disk) (n : node) : Prop :=
  match h with O => False | S h' =>
    match n with
    | Node _ _ _ _ (Leaves l) _ => h' = O /\ Forall (ent_ok G) l
    | Node _ _ _ _ (Branches es) ks =>
        h' <> O /\ Forall (fun e => PDp G h' d (snd e)) es /\ Forall (NDp G h' d) ks
    end end.

(* page r heads a committed bucket of uniform depth, and so does every bucket nested in it (nesting depth < n) *)
Fixpoint dbk (n : nat) (d : disk) (r : N) : Prop :=
  match n with O => False | S n' => exists h, PDp (dbk n' d) h d r end.

Definition db_depth (st : db) : Prop := exists n, dbk n (d_disk st) (d_root st).

(* the bucket roots an overlay leaf may name: 0 (a bucket created in this transaction) or a committed bucket *)
Definition Gd (d : disk) (r : N) : Prop := r = 0%N \/ exists n, dbk n d r.

Lemma PDp_S : forall G h d q, PDp G (S h) d q =
  exists a, dget d q = Some a /\
    match ap_body a with
    | Leaves l => h = O /\ Forall (ent_ok G) l
    | Branches es => h <> O /\ Forall (fun e => PDp G h d (snd e)) es
    end.
Proof. reflexivity. Qed.

Lemma NDp_leaf : forall G h d p np o s l ks,
  NDp G (S h) d (Node p np o s (Leaves l) ks) = (h = O /\ Forall (ent_ok G) l).
Proof. reflexivity. Qed.

Lemma NDp_branch : forall G h d p np o s es ks,
  NDp G (S h) d (Node p np o s (Branches es) ks) =
  (h <> O /\ Forall (fun e => PDp G h d (snd e)) es /\ Forall (NDp G h d) ks).
Proof. reflexivity. Qed.

Lemma ent_ok_mono : forall (G G' : N -> Prop) e, (forall r, G r -> G' r) -> ent_ok G e -> ent_ok G' e.
Proof. intros G G' [k v|k r nx] H; cbn [ent_ok]; auto. Qed.

Lemma PDp_mono : forall (G G' : N -> Prop), (forall r, G r -> G' r) ->
  forall h d q, PDp G h d q -> PDp G' h d q.
Proof.
  intros G G' HG. induction h as [|h IH]; intros d q H; [exact H|]. rewrite PDp_S in *.
  destruct H as (a & Hg & Hb). exists a. split; [exact Hg|]. destruct (ap_body a) as [l|es].
  - destruct Hb as [E Hl]. split; [exact E|]. eapply Forall_impl; [|exact Hl]. intros e. now apply ent_ok_mono.
  - destruct Hb as [E Hl]. split; [exact E|]. eapply Forall_impl; [|exact Hl]. intros e. apply IH.
Qed.

Lemma dbk_mono : forall n d r, dbk n d r -> forall n', n <= n' -> dbk n' d r.
Proof.
  induction n as [|n IH]; intros d r H n' Hle; [destruct H|]. destruct n' as [|n']; [lia|].
  cbn [dbk] in *. destruct H as [h H]. exists h. eapply PDp_mono; [|exact H]. intros r0 Hr0. apply (IH _ _ Hr0). lia.
Qed.

Lemma dbk_Gd : forall n d h r, PDp (dbk n d) h d r -> PDp (Gd d) h d r.
Proof. intros n d h r H. eapply PDp_mono; [|exact H]. intros r0 Hr0. right. eauto. Qed.

Lemma NDp_kind : forall G h d n, NDp G h d n -> is_leaf (n_data n) = (h =? 1).
Proof.
  intros G [|h] d [p np o s [l|es] ks] H; [destruct H | destruct H | |].
  - rewrite NDp_leaf in H. destruct H as [-> _]. reflexivity.
  - rewrite NDp_branch in H. destruct H as [Hh _]. cbn [n_data is_leaf]. symmetry. apply Nat.eqb_neq. lia.
Qed.

Lemma node_of_page_NDp : forall G h d q a sq, dget d q = Some a -> PDp G h d q -> NDp G h d (node_of_page q a sq).
Proof.
  intros G [|h] d q a sq Hg H; [destruct H|]. rewrite PDp_S in H. destruct H as (a' & Hg' & Hb).
  rewrite Hg in Hg'. inversion Hg'; subst a'. unfold node_of_page. destruct (ap_body a) as [l|es].
  - rewrite NDp_leaf. exact Hb.
  - rewrite NDp_branch. destruct Hb as [E Hl]. split; [exact E|]. split; [exact Hl | constructor].
Qed.

Lemma PDp_dget : forall G h d q, PDp G h d q -> exists a, dget d q = Some a.
Proof. intros G [|h] d q H; [destruct H|]. rewrite PDp_S in H. destruct H as (a & Hg & _). eauto. Qed.

Theorem init_db_depth : forall P, db_depth (init_db P).
Proof.
  intros P. exists 1. cbn [dbk init_db d_disk d_root]. exists 1. rewrite PDp_S.
  eexists. split; [reflexivity|]. cbn [ap_body]. split; [reflexivity | constructor].
Qed.

(** * [modify] and the look-ups *)

Definition lop_ok (G : N -> Prop) (o : lop) : Prop := match o with OpIns e => ent_ok G e | OpDel _ => True end.

Lemma apply_lop_Forall : forall (Q : leafent -> Prop) o l, Forall Q l -> (match o with OpIns e => Q e | OpDel _ => True end) ->
  Forall Q (apply_lop o l).
Proof.
  intros Q o l Hl Ho. rewrite Forall_forall in *. intros y Hy. destruct o as [e|k]; cbn [apply_lop] in Hy.
  - unfold leaf_insert in Hy. destruct (Engine.bsearch (map lkey l) (lkey e)) as [[|] i].
    + apply replace_at_In in Hy. destruct Hy as [->|Hy]; auto.
    + apply insert_at_In in Hy. destruct Hy as [->|Hy]; auto.
  - unfold leaf_delete in Hy. destruct (Engine.bsearch (map lkey l) k) as [[|] i]; [apply remove_at_In in Hy|]; auto.
Qed.

Lemma nthN_In : forall {A} (l : list A) i x, nthN l i = Some x -> In x l.
Proof. intros A l i x H. unfold nthN in H. eapply nth_error_In; eauto. Qed.

Theorem modify_NDp : forall fuel G h d n o s n' s', NDp G h d n -> lop_ok G o ->
  modify fuel d n o s = Ok (n', s') -> NDp G h d n'.
Proof.
  induction fuel as [|f IH]; intros G h d n o s n' s' HN Ho H; [discriminate|].
  destruct h as [|h]; [destruct HN|]. destruct n as [p np og sq [l|es] ks].
  - cbn [modify] in H. inversion H; subst. rewrite NDp_leaf in *. destruct HN as [E Hl]. split; [exact E|].
    apply apply_lop_Forall; [exact Hl|]. destruct o; exact Ho.
  - rewrite modify_branch in H. destruct (index_of (Branches es) (lop_key o)) as [i ex].
    destruct (nthN es i) as [[sep q]|] eqn:En; [|discriminate].
    rewrite NDp_branch in HN. destruct HN as (Hh & Hes & Hks).
    pose proof (nthN_In _ _ _ En) as Hin. rewrite Forall_forall in Hes. pose proof (Hes _ Hin) as Hq. cbn [snd] in Hq.
    destruct (find_kid q ks) as [kd|] eqn:Ef.
    + apply bind_ok_inv in H. destruct H as ([kd' s1] & Em & H). inversion H; subst. cbn [fst].
      rewrite NDp_branch. split; [exact Hh|]. split; [apply Forall_forall; exact Hes|].
      apply replace_kid_Forall; [exact Hks|]. eapply IH; [|exact Ho|exact Em].
      rewrite Forall_forall in Hks. apply Hks. eapply find_kid_In; eauto.
    + destruct (dget d q) as [a|] eqn:Eg; [|discriminate].
      apply bind_ok_inv in H. destruct H as ([kd' s1] & Em & H). inversion H; subst. cbn [fst].
      rewrite NDp_branch. split; [exact Hh|]. split; [apply Forall_forall; exact Hes|].
      apply Forall_app. split; [exact Hks|]. repeat constructor. eapply IH; [|exact Ho|exact Em].
      now apply node_of_page_NDp.
Qed.

Lemma lookup_page_ent : forall fuel G h d p k e, PDp G h d p -> lookup_page fuel d p k = Ok (Some e) -> ent_ok G e.
Proof.
  induction fuel as [|f IH]; intros G h d p k e HP H; [discriminate|]. destruct h as [|h]; [destruct HP|].
  rewrite PDp_S in HP. destruct HP as (a & Hg & Hb). cbn [lookup_page] in H. rewrite Hg in H.
  destruct (ap_body a) as [l|es].
  - destruct (index_of (Leaves l) k) as [i [|]]; inversion H as [E]. destruct Hb as [_ Hl].
    rewrite Forall_forall in Hl. apply Hl. eapply nthN_In; eauto.
  - destruct (index_of (Branches es) k) as [i ex]. destruct (nthN es i) as [[sep q]|] eqn:En; [|discriminate].
    destruct Hb as [_ Hes]. rewrite Forall_forall in Hes. eapply IH; [|exact H]. apply (Hes _ (nthN_In _ _ _ En)).
Qed.

Lemma lookup_node_go : forall fuel d k q (ks : list node),
  (fix go (ks : list node) : option (res (option leafent)) :=
     match ks with [] => None | kd :: ks' => if N.eqb (n_page kd) q then Some (lookup_node fuel d kd k) else go ks' end) ks
  = option_map (fun kd => lookup_node fuel d kd k) (find_kid q ks).
Proof.
  intros fuel d k q. induction ks as [|kd ks IH]; [reflexivity|]. unfold find_kid. cbn [find].
  destruct (N.eqb (n_page kd) q); [reflexivity | exact IH].
Qed.

Lemma lookup_node_ent : forall G h fuel d n k e, NDp G h d n -> lookup_node fuel d n k = Ok (Some e) -> ent_ok G e.
Proof.
  intros G. induction h as [|h IH]; intros fuel d n k e HN H; [destruct HN|].
  destruct n as [p np og sq [l|es] ks].
  - cbn [lookup_node] in H. destruct (index_of (Leaves l) k) as [i [|]]; inversion H as [E].
    rewrite NDp_leaf in HN. destruct HN as [_ Hl]. rewrite Forall_forall in Hl. apply Hl. eapply nthN_In; eauto.
  - cbn [lookup_node] in H. destruct (index_of (Branches es) k) as [i ex].
    destruct (nthN es i) as [[sep q]|] eqn:En; [|discriminate]. rewrite lookup_node_go in H.
    rewrite NDp_branch in HN. destruct HN as (_ & Hes & Hks).
    destruct (find_kid q ks) as [kd|] eqn:Ef; cbn [option_map] in H.
    + eapply IH; [|exact H]. rewrite Forall_forall in Hks. apply Hks. eapply find_kid_In; eauto.
    + rewrite Forall_forall in Hes. eapply lookup_page_ent; [|exact H]. apply (Hes _ (nthN_In _ _ _ En)).
Qed.

(** * Buckets; the operations of a transaction keep uniform depth *)

Definition BDpG (G : N -> Prop) (d : disk) (b : bucket) : Prop :=
  exists h, match b_rootn b with Some n => NDp G h d n | None => PDp G h d (b_root_page b) end.
Definition BDp (d : disk) (b : bucket) : Prop := BDpG (Gd d) d b.

(* [b] and every bucket opened below it *)
Fixpoint DDF (f : nat) (d : disk) (b : bucket) : Prop :=
  match f with O => False | S f' => BDp d b /\ Forall (fun x => DDF f' d (snd x)) (b_subs b) end.
Definition DD (d : disk) (b : bucket) : Prop := exists f, DDF f d b.

Lemma DDF_mono : forall f d b, DDF f d b -> forall f', f <= f' -> DDF f' d b.
Proof.
  induction f as [|f IH]; intros d b H f' Hle; [destruct H|]. destruct f' as [|f']; [lia|].
  cbn [DDF] in *. destruct H as [HB HS]. split; [exact HB|]. eapply Forall_impl; [|exact HS].
  intros x Hx. apply (IH _ _ Hx). lia.
Qed.

Lemma DD_intro : forall d b, BDp d b -> Forall (fun x => DD d (snd x)) (b_subs b) -> DD d b.
Proof.
  intros d b HB HS.
  destruct (Forall_exists_fuel (fun f x => DDF f d (snd x)) (fun n m x Hle H => DDF_mono _ _ _ H _ Hle) _ HS) as [f Hf].
  exists (S f). split; assumption.
Qed.

Lemma DD_inv : forall d b, DD d b -> BDp d b /\ Forall (fun x => DD d (snd x)) (b_subs b).
Proof.
  intros d b [[|f] H]; [destruct H|]. destruct H as [HB HS]. split; [exact HB|].
  eapply Forall_impl; [|exact HS]. intros x Hx. exists f. exact Hx.
Qed.

Lemma BDp_tree : forall d b b', b_rootn b' = b_rootn b -> b_root_page b' = b_root_page b -> BDp d b -> BDp d b'.
Proof. intros d b b' E1 E2 [h H]. exists h. rewrite E1, E2. exact H. Qed.

Lemma ensure_root_NDp : forall G d b s n s1 h,
  match b_rootn b with Some n => NDp G h d n | None => PDp G h d (b_root_page b) end ->
  ensure_root d b s = Ok (n, s1) -> NDp G h d n.
Proof.
  intros G d b s n s1 h H E. unfold ensure_root in E. destruct (b_rootn b) as [n0|].
  - inversion E; subst. exact H.
  - destruct (dget d (b_root_page b)) as [a|] eqn:Eg; [|discriminate]. cbn [next_seq] in E. inversion E; subst.
    now apply node_of_page_NDp.
Qed.

Lemma b_modify_BDpG : forall G d b o s b' s', BDpG G d b -> lop_ok G o -> b_modify d b o s = Ok (b', s') ->
  BDpG G d b' /\ b_subs b' = b_subs b.
Proof.
  intros G d b o s b' s' [h HB] Ho H. unfold b_modify in H.
  apply bind_ok_inv in H. destruct H as ([root s0] & Er & H).
  apply bind_ok_inv in H. destruct H as ([n' s1] & Em & H). inversion H; subst b' s'. split; [|reflexivity].
  exists h. cbn [b_rootn]. eapply modify_NDp; [|exact Ho|exact Em]. eapply ensure_root_NDp; eauto.
Qed.

Lemma b_lookup_ent : forall d b k e, BDp d b -> b_lookup d b k = Ok (Some e) -> ent_ok (Gd d) e.
Proof.
  intros d b k e [h HB] H. unfold b_lookup in H. destruct (b_rootn b) as [n|].
  - eapply lookup_node_ent; eauto.
  - eapply lookup_page_ent; eauto.
Qed.

Lemma b_modify_DD : forall d b o s b' s', DD d b -> lop_ok (Gd d) o -> b_modify d b o s = Ok (b', s') -> DD d b'.
Proof.
  intros d b o s b' s' HD Ho H. destruct (DD_inv _ _ HD) as [HB HS].
  destruct (b_modify_BDpG _ _ _ _ _ _ _ HB Ho H) as [HB' Es]. apply DD_intro; [exact HB' | now rewrite Es].
Qed.

Lemma DD_rebuild : forall d b b', DD d b -> b_rootn b' = b_rootn b -> b_root_page b' = b_root_page b ->
  Forall (fun x => DD d (snd x)) (b_subs b') -> DD d b'.
Proof.
  intros d b b' HD E1 E2 HS. destruct (DD_inv _ _ HD) as [HB _]. apply DD_intro; [|exact HS].
  eapply BDp_tree; eauto.
Qed.

Lemma take_sub_incl : forall nm subs sb rest, take_sub nm subs = Some (sb, rest) -> forall x, In x rest -> In x subs.
Proof.
  intros nm. induction subs as [|[n' b'] r IH]; intros sb rest H x Hx; [discriminate|]. cbn [take_sub] in H.
  destruct (beq n' nm).
  - inversion H; subst. now right.
  - destruct (take_sub nm r) as [[b0 r0]|] eqn:Et; [|discriminate]. inversion H; subst.
    destruct Hx as [<-|Hx]; [now left | right; eapply IH; eauto].
Qed.

(* the result of [b_modify], with another counter and another list of opened sub-buckets *)
Lemma DD_modified : forall d b o s b2 s2 nx' subs', DD d b -> b_modify d b o s = Ok (b2, s2) -> lop_ok (Gd d) o ->
  Forall (fun x => DD d (snd x)) subs' -> DD d (Bucket (b_root_page b2) nx' true (b_rootn b2) subs').
Proof.
  intros d b o s b2 s2 nx' subs' HD Hm Ho HF.
  eapply (DD_rebuild d b2); [eapply b_modify_DD; eauto | reflexivity | reflexivity | exact HF].
Qed.

Section Ops.
  Variable d : disk.
  Hypothesis Hz : dget d 0%N = None.

  Lemma sbk_dget : forall n r, sbk n d r -> exists a, dget d r = Some a.
  Proof. intros [|n] r H; [destruct H|]. cbn [sbk] in H. destruct H as (h & l & _ & HP & _). eapply PInv_dget; eauto. Qed.

  Lemma Gd_open : forall r nx, Gd d r -> (exists n, sbk n d r) -> DD d (Bucket r nx false None []).
  Proof.
    intros r nx [-> | [n Hn]] [m Hm].
    - destruct (sbk_dget _ _ Hm) as [a Ha]. congruence.
    - destruct n as [|n]; [destruct Hn|]. cbn [dbk] in Hn. destruct Hn as [h Hh].
      apply DD_intro; [|constructor]. exists h. cbn [b_rootn b_root_page]. eapply dbk_Gd; eauto.
  Qed.

  Lemma opened_DD : forall s b name b0, SDeep d s b -> DD d b -> opened d b name b0 -> DD d b0.
  Proof.
    intros s b name b0 HS HD [sb _ | k r nx Hsf Hl]; [exact HD|]. destruct (DD_inv _ _ HD) as [HB HF].
    eapply (DD_rebuild d b); [exact HD | reflexivity | reflexivity |]. cbn [b_subs].
    apply sub_put_Forall; [exact HF|]. cbn [snd].
    pose proof (b_lookup_ent _ _ _ _ HB Hl) as Hg. cbn [ent_ok] in Hg.
    destruct (SDeep_inv _ _ _ HS) as (h & l & HL & (_ & _ & H3)).
    apply Gd_open; [exact Hg | eapply H3; [eapply BLoc_lookup_LBk; eauto | exact Hsf]].
  Qed.

  Lemma new_bucket_DD : forall sq, DD d (Bucket 0 0 true (Some (Node 0 0 None sq (Leaves []) [])) []).
  Proof. intros sq. apply DD_intro; [|constructor]. exists 1. cbn [b_rootn]. rewrite NDp_leaf. split; [reflexivity | constructor]. Qed.

  Definition dd_pres (f : bucket -> txs -> res (bucket * txs)) : Prop :=
    forall b s b' s', SDeep d s b -> DD d b -> f b s = Ok (b', s') -> DD d b'.

  Theorem b_get_or_create_DD : forall name b s b' s', SDeep d s b -> DD d b ->
    b_get_or_create d b name s = Ok (b', s') -> DD d b'.
  Proof.
    intros name b s b' s' HS HD H.
    destruct (b_get_or_create_ok_inv _ _ _ _ _ _ H) as [[Ho ->] | (_ & _ & b2 & Hm & ->)]; [eapply opened_DD; eauto|].
    eapply DD_modified; [exact HD | exact Hm | cbn; now left |].
    apply sub_put_Forall; [exact (proj2 (DD_inv _ _ HD)) | apply new_bucket_DD].
  Qed.

  Lemma DD_sub : forall b name sb, DD d b -> sub_find name (b_subs b) = Some sb -> DD d sb.
  Proof.
    intros b name sb HD Hsf. destruct (DD_inv _ _ HD) as [_ HF]. rewrite Forall_forall in HF.
    exact (HF _ (sub_find_In _ _ _ Hsf)).
  Qed.

  Theorem at_path_DD : forall f, dd_pres f -> forall path fuel b s b' s', SDeep d s b -> DD d b ->
    at_path fuel d b path f s = Ok (b', s') -> DD d b'.
  Proof.
    intros f Hf path fuel b s b' s' HS HD H. revert HS HD.
    pattern path, b, s, b', s'. apply (at_path_ok_ind d f) with (3 := H).
    - intros b0 s0 b0' s0' H0 HS HD. eapply Hf; eauto.
    - intros nm rest b0 s0 b1 s1 sb sb' s2 Hg Hsub IH HS HD.
      destruct (b_get_or_create_pres d nm b0 s0 b1 s1 HS Hg) as [HS1 _].
      pose proof (b_get_or_create_DD nm b0 s0 b1 s1 HS HD Hg) as HD1.
      pose proof (IH (SDeep_sub _ _ _ _ _ HS1 Hsub) (DD_sub _ _ _ HD1 Hsub)) as HD2.
      eapply (DD_rebuild d b1); [exact HD1 | reflexivity | reflexivity |]. cbn [b_subs].
      apply sub_put_Forall; [exact (proj2 (DD_inv _ _ HD1)) | exact HD2].
  Qed.

  Lemma kvop_dd : forall b o s b' s', DD d b -> kv_done d b o s b' s' -> DD d b'.
  Proof.
    intros b o s b' s' HD [[-> ->] | (cur & b2 & nx' & _ & _ & Hno & Hm & ->)]; [exact HD|].
    eapply DD_modified; [exact HD | exact Hm | | exact (proj2 (DD_inv _ _ HD))].
    destruct o as [[k v|k r nx]|k]; [exact I | exfalso; eapply Hno; eauto | exact I].
  Qed.

  Theorem op_run_dd : forall o, dd_pres (op_run d o).
  Proof.
    intros [p k v|p k|p nm|p] b s b' s' HS HD H; cbn [op_run] in H.
    - exact (kvop_dd _ _ _ _ _ HD (soft_put_inv _ _ _ _ _ _ _ H)).
    - exact (kvop_dd _ _ _ _ _ HD (soft_delete_inv _ _ _ _ _ _ H)).
    - destruct (soft_delete_bucket_inv _ _ _ _ _ _ H) as [[-> ->] | (b0 & sb0 & Ho & _ & H2)]; [exact HD|].
      pose proof (opened_DD _ _ _ _ HS HD Ho) as HD0.
      destruct (delb_phase2_ok_inv _ _ _ _ _ _ H2) as (sb & rest & s1 & e & Ht & _ & _ & _ & Hm).
      eapply b_modify_DD; [| |exact Hm]; [|exact I]. destruct (DD_inv _ _ HD0) as [_ HF0].
      eapply (DD_rebuild d b0); [exact HD0 | reflexivity | reflexivity |]. cbn [b_subs].
      rewrite Forall_forall in *. intros x Hx. apply HF0. eapply take_sub_incl; eauto.
    - inversion H; subst. exact HD.
  Qed.

  Theorem tx_step_DD : forall o rb s rb' s', SDeep d s rb -> DD d rb -> tx_step d (rb, s) o = Ok (rb', s') -> DD d rb'.
  Proof.
    intros o rb s rb' s' HS HD H. destruct (tx_step_ok_inv _ _ _ _ _ _ H) as [[-> ->] | [_ H']]; [exact HD|].
    eapply (at_path_DD _ (op_run_dd o)); eauto.
  Qed.
End Ops.

Theorem tx_fold_DD : forall st ops rb s root' s', dget (d_disk st) 0%N = None ->
  SDeep (d_disk st) s rb -> DD (d_disk st) rb ->
  tx_fold st ops (rb, s) = Ok (root', s') -> DD (d_disk st) root'.
Proof.
  intros st ops rb s root' s' Hz HS HD H.
  apply (tx_fold_inv st (fun rb' s' => SDeep (d_disk st) s' rb' /\ DD (d_disk st) rb')) with (3 := H); [|auto].
  intros o rb1 s1 rb2 s2 [HS1 HD1] Hst. split; [eapply tx_step_SDeep; eauto | eapply tx_step_DD; eauto].
Qed.

Theorem root_bucket_DD : forall st, db_depth st -> DD (d_disk st) (root_bucket st).
Proof.
  intros st [n Hn]. destruct n as [|n]; [destruct Hn|]. cbn [dbk] in Hn. destruct Hn as [h Hh].
  apply DD_intro; [|constructor]. exists h. cbn [root_bucket b_rootn b_root_page]. eapply dbk_Gd; eauto.
Qed.

(* the overlay left by the operations of a transaction has uniform depth *)
Theorem tx_ops_DD : forall st ops root' s', db_strict st -> db_depth st -> dget (d_disk st) 0%N = None ->
  tx_fold st ops (root_bucket st, begin_w st) = Ok (root', s') -> DD (d_disk st) root'.
Proof.
  intros st ops root' s' Hdb Hdd Hz H.
  eapply tx_fold_DD; [exact Hz | apply root_bucket_SDeep; exact Hdb | apply root_bucket_DD; exact Hdd | exact H].
Qed.

Lemma merged_entries_incl : forall es idx md, incl (map snd (merged_entries es idx md)) (map snd es).
Proof.
  intros es idx md.
  assert (H0 : incl (map snd (remove_at es (N.to_nat idx))) (map snd es)).
  { intros x Hx. apply in_map_iff in Hx. destruct Hx as (e & <- & He). apply in_map. eapply remove_at_In; eauto. }
  unfold merged_entries. destruct (remove_at es (N.to_nat idx)) as [|[k0 q0] rest0]; [intros x []|].
  destruct (idx =? 0)%N; [|exact H0]. destruct (first_key md); exact H0.
Qed.

(** * Rebalance keeps uniform depth *)

Lemma Forall_isort : forall {A} (key : A -> bytes) (Q : A -> Prop) l, Forall Q l -> Forall Q (isort_by key l).
Proof.
  intros A key Q l H. rewrite Forall_forall in *. intros x Hx. apply H.
  eapply Permutation_in; [apply isort_by_perm | exact Hx].
Qed.

Lemma merge_data_same_kind : forall G h d a b msg, NDp G h d a -> NDp G h d b ->
  merge_data (n_data a) (n_data b) <> Panic msg.
Proof.
  intros G h d a b msg Ha Hb. pose proof (NDp_kind _ _ _ _ Ha) as Ka. pose proof (NDp_kind _ _ _ _ Hb) as Kb.
  destruct (n_data a) as [l1|e1], (n_data b) as [l2|e2]; cbn [merge_data is_leaf] in *; congruence.
Qed.

Lemma merge_data_NDp : forall G h d a b md p np o sq, NDp G h d a -> NDp G h d b ->
  merge_data (n_data a) (n_data b) = Ok md -> NDp G h d (Node p np o sq md (n_kids a ++ n_kids b)).
Proof.
  intros G [|h] d [pa npa oa sa [l1|e1] ka] [pb npb ob sb [l2|e2] kb] md p np o sq Ha Hb H;
    try (destruct Ha; fail); cbn [n_data n_kids merge_data] in *; try discriminate; inversion H; subst md.
  - rewrite NDp_leaf in *. destruct Ha as [E Fa], Hb as [_ Fb]. split; [exact E|].
    apply Forall_isort. apply Forall_app. split; assumption.
  - rewrite NDp_branch in *. destruct Ha as (E & Fa & Ka), Hb as (_ & Fb & Kb). split; [exact E|].
    split; [apply Forall_isort; apply Forall_app; split; assumption | apply Forall_app; split; assumption].
Qed.

(* the sibling [try_merge] picks is a kid of the parent or the page of one of its entries *)
Lemma sib_of_NDp : forall G h d p np o sq es ks idx e s sib s1 isnew,
  NDp G (S h) d (Node p np o sq (Branches es) ks) -> sib_entry es idx = Some e ->
  sib_of d ks (snd e) s = Ok (sib, s1, isnew) -> NDp G h d sib.
Proof.
  intros G h d p np o sq es ks idx e s sib s1 isnew HN Hse Hso. rewrite NDp_branch in HN. destruct HN as (_ & Fe & Fk).
  rewrite Forall_forall in Fe, Fk.
  assert (Hin : In e es) by (unfold sib_entry in Hse; destruct (idx =? 0)%N; eapply nthN_In; eauto).
  pose proof (sib_of_res d ks (snd e) s) as R. rewrite Hso in R.
  destruct R as [(_ & Hf & _) | (_ & _ & _ & a & Hg & ->)].
  - apply Fk. eapply find_kid_In; eauto.
  - apply node_of_page_NDp; [exact Hg | apply (Fe _ Hin)].
Qed.

Lemma set_kids_NDp : forall G h d n ks, NDp G (S h) d n -> is_leaf (n_data n) = false -> Forall (NDp G h d) ks ->
  NDp G (S h) d (set_kids n ks).
Proof.
  intros G h d [p np o sq [l|es] ks0] ks HN Hl Hk; [discriminate|]. cbn [set_kids]. rewrite NDp_branch in *. tauto.
Qed.

Lemma kids_NDp : forall G h d n, NDp G (S h) d n -> is_leaf (n_data n) = false -> Forall (NDp G h d) (n_kids n).
Proof. intros G h d [p np o sq [l|es] ks] HN Hl; [discriminate|]. rewrite NDp_branch in HN. tauto. Qed.

(* the outcome of a step of rebalance: a given property of the result, never the kind mismatch *)
Definition no_kind_panic {A} (P : A -> Prop) (r : res A) : Prop :=
  rpost P (fun m => m <> kind_panic) (fun _ => True) r.

Theorem try_merge_depth : forall G h d par k s, NDp G (S h) d par -> is_leaf (n_data par) = false -> NDp G h d k ->
  no_kind_panic (fun a => NDp G (S h) d (fst a) /\ is_leaf (n_data (fst a)) = false) (try_merge d par k s).
Proof.
  intros G h d [p np o sq [l|es] ks] k s HP Hl Hk; [discriminate|].
  pose proof (try_merge_cases d (Node p np o sq (Branches es) ks) k s) as C. unfold no_kind_panic.
  pose proof HP as HP0. rewrite NDp_branch in HP. destruct HP as (E & Fe & Fk).
  assert (Hbuild : forall es' ks', incl (map snd es') (map snd es) -> Forall (NDp G h d) ks' ->
            NDp G (S h) d (Node p np o sq (Branches es') ks')).
  { intros es' ks' Hi Hk'. rewrite NDp_branch. split; [exact E|]. split; [|exact Hk']. rewrite Forall_forall in *.
    intros e He. assert (Hq : In (snd e) (map snd es)) by (apply Hi; now apply in_map).
    apply in_map_iff in Hq. destruct Hq as (e0 & E0 & He0). rewrite <- E0. now apply Fe. }
  assert (Hfil : Forall (NDp G h d) (filter (not_seq (n_seq k)) ks)).
  { rewrite Forall_forall in *. intros x Hx. apply filter_In in Hx. apply Fk, Hx. }
  destruct (try_merge d (Node p np o sq (Branches es) ks) k s) as [[par' s']|m|e]; cbn [rpost fst]; [| |exact I].
  - destruct C as [Hpos | es0 ok idx Ed Hz Eo Eb | es0 idx kq q sib s1 isnew md (_ & Ed & _ & _ & Hse) Hso Hmd];
      cbn [set_kids set_data n_kids n_data] in *; (split; [|reflexivity]).
    + apply Hbuild; [apply incl_refl | now apply replace_kid_Forall].
    + inversion Ed; subst es0. apply Hbuild; [|exact Hfil].
      intros x Hx. apply in_map_iff in Hx. destruct Hx as (e & <- & He). apply in_map. eapply remove_at_In; eauto.
    + inversion Ed; subst es0. pose proof (sib_of_NDp G h d p np o sq es ks idx (kq, q) s sib s1 isnew HP0 Hse Hso) as Hs.
      destruct (merged_sib_eq sib k md idx) as [o' ->]. apply Hbuild; [apply merged_entries_incl|].
      pose proof (merge_data_NDp G h d sib k md (n_page sib) (n_np sib) o' (n_seq sib) Hs Hk Hmd) as HM.
      unfold kids_merged. destruct isnew; [apply Forall_app; split; [exact Hfil | repeat constructor; exact HM]|].
      now apply replace_kid_Forall.
  - intros ->. destruct C as [C | (es0 & idx & kq & q & sib & s1 & isnew & (_ & Ed & _ & _ & Hse) & Hso & Hm)].
    + now apply (C (Leaves []) (Branches [])).
    + cbn [n_data n_kids] in *. inversion Ed; subst es0.
      eapply merge_data_same_kind; [exact (sib_of_NDp G h d p np o sq es ks idx (kq, q) s sib s1 isnew HP0 Hse Hso) | exact Hk | exact Hm].
Qed.

Theorem rebalance_kids_depth : forall fuel G h d n s, NDp G h d n -> is_leaf (n_data n) = false ->
  no_kind_panic (fun a => NDp G h d (fst a) /\ is_leaf (n_data (fst a)) = false) (rebalance_kids fuel d n s).
Proof.
  induction fuel as [|f IH]; intros G h d n s HN Hl; [exact I|].
  destruct h as [|h]; [destruct HN|]. rewrite rebalance_kids_S.
  apply (fold_res_rpost (rk_body f d) (fun _ a => NDp G (S h) d (fst a) /\ is_leaf (n_data (fst a)) = false)); [|split; assumption].
  intros x rest [n0 s0] [HN0 Hl0]. cbn [fst rk_body] in *.
  destruct (find (fun k => N.eqb (n_seq k) x) (n_kids n0)) as [k|] eqn:Ef; [|split; assumption].
  apply find_some in Ef. destruct Ef as [Hkin _].
  pose proof (kids_NDp _ _ _ _ HN0 Hl0) as Fk. pose proof Fk as Fk'. rewrite Forall_forall in Fk'.
  pose proof (Fk' _ Hkin) as Hk.
  eapply rpost_bind with (P := fun a => NDp G h d (fst a)).
  - destruct (is_leaf (n_data k)) eqn:Ek; [exact Hk|].
    eapply rpost_impl; [apply (IH G h d k s0 Hk Ek) | intros a Ha; apply Ha | auto | auto].
  - intros [k1 s1] Hk1. cbn [fst] in Hk1. apply try_merge_depth; [|destruct n0; exact Hl0 | exact Hk1].
    apply set_kids_NDp; [exact HN0 | exact Hl0 |]. now apply replace_kid_Forall.
Qed.

Theorem merge_nodes_BDp : forall d b s, BDp d b ->
  no_kind_panic (fun a => BDp d (fst a) /\ b_subs (fst a) = b_subs b) (merge_nodes d b s).
Proof.
  intros d b s [h HB]. rewrite merge_nodes_unfold.
  eapply rpost_bind with (P := fun a => NDp (Gd d) h d (fst a)).
  { pose proof (ensure_root_cases d b s) as Cr.
    destruct (ensure_root d b s) as [[root s0]|m|e] eqn:Er; cbn [rpost fst]; [eapply ensure_root_NDp; eauto | | exact I].
    destruct Cr as (_ & _ & ->). discriminate. }
  intros [root s0] HR. cbn [fst] in HR.
  eapply rpost_bind with (P := fun a => NDp (Gd d) h d (fst a)).
  { destruct (is_leaf (n_data root)) eqn:El; [exact HR|].
    eapply rpost_impl; [apply (rebalance_kids_depth fuel0 (Gd d) h d root s0 HR El) | intros a Ha; apply Ha | auto | auto]. }
  intros [root1 s1] H1. cbn [fst] in H1.
  destruct (mn_tail_total b root1 s1) as (b2 & s2 & -> & T). cbn [rpost fst]. destruct T as [k0 q Ed | Ed | Ed]; (split; [|reflexivity]).
  - destruct root1 as [p1 np1 o1 sq1 dd ks1]. cbn [n_data n_kids] in *. subst dd.
    destruct h as [|h]; [destruct H1|]. rewrite NDp_branch in H1. destruct H1 as (_ & Fe & Fk).
    exists h. cbn [b_rootn b_root_page]. destruct (find_kid q ks1) as [kd|] eqn:Ef.
    + rewrite Forall_forall in Fk. apply Fk. eapply find_kid_In; eauto.
    + inversion Fe; subst. assumption.
  - exists 1. cbn [b_rootn]. destruct root1 as [p1 np1 o1 sq1 dd ks1]. cbn [set_data]. rewrite NDp_leaf.
    split; [reflexivity | constructor].
  - exists h. exact H1.
Qed.

Theorem rebalance_DDF : forall f fd d b s, DDF fd d b -> no_kind_panic (fun a => DDF fd d (fst a)) (rebalance f d b s).
Proof.
  induction f as [|f IH]; intros fd d b s HD; [exact I|].
  rewrite rebalance_S. destruct (negb (is_dirty fuel0 b)); [exact HD|].
  destruct fd as [|fd]; [destruct HD|]. cbn [DDF] in HD. destruct HD as [HB HS].
  eapply rpost_bind.
  - apply (fold_res_rpost (reb_body f d)
             (fun rest a => Forall (fun x => DDF fd d (snd x)) (fst a) /\ Forall (fun x => DDF fd d (snd x)) rest));
      [|split; [constructor | exact HS]].
    intros x rest [l s0] [Hl Hr]. cbn [fst reb_body] in *. inversion Hr as [|? ? Hx Hr']; subst.
    eapply rpost_bind; [apply (IH fd d (snd x) s0 Hx)|]. intros [bx sx] Hbx. cbn [rpost fst] in *.
    split; [|exact Hr']. apply Forall_app. split; [exact Hl|]. repeat constructor. exact Hbx.
  - intros [subs' s1] [HS' _]. cbn [fst] in HS'.
    set (b0 := Bucket (b_root_page b) (b_next b) true (b_rootn b) subs').
    assert (HB0 : BDp d b0) by (eapply BDp_tree; [| |exact HB]; reflexivity).
    eapply rpost_impl; [apply (merge_nodes_BDp d b0 s1 HB0) | | auto | auto].
    intros [b' s'] [HB' Es]. cbn [fst DDF] in *. split; [exact HB'|]. rewrite Es. exact HS'.
Qed.

Corollary rebalance_DD : forall f d b s b' s', DD d b -> rebalance f d b s = Ok (b', s') -> DD d b'.
Proof.
  intros f d b s b' s' [fd HD] H. exists fd. pose proof (rebalance_DDF f fd d b s HD) as R. rewrite H in R. exact R.
Qed.

(* rebalance never panics: the invariant of EngineRebalanceFacts leaves only the kind mismatch, uniform depth
   excludes it *)
Theorem rebalance_no_panic' : forall f fv d s b v msg, Deep fv d s b v -> DD d b -> rebalance f d b s <> Panic msg.
Proof.
  intros f fv d s b v msg HV [fd HD] H. pose proof (rebalance_no_panic f fv d s b v msg HV H) as ->.
  pose proof (rebalance_DDF f fd d b s HD) as R. rewrite H in R. now apply R.
Qed.


(** * Deciding uniform depth on concrete states; examples *)

Definition ent_okb (Gb : N -> bool) (e : leafent) : bool := match e with LBk _ r _ => Gb r | LKv _ _ => true end.

Fixpoint pdpb (Gb : N -> bool) (h : nat) (d : disk) (q : N) : bool :=
  match h with O => false | S h' =>
    match dget d q with None => false | Some a =>
      match ap_body a with
      | Leaves l => Nat.eqb h' 0 && forallb (ent_okb Gb) l
      | Branches es => negb (Nat.eqb h' 0) && forallb (fun e => pdpb Gb h' d (snd e)) es
      end end end.

(* the height along the leftmost path *)
Fixpoint pheight (fuel : nat) (d : disk) (q : N) : nat :=
  match fuel with O => O | S f =>
    match dget d q with None => O | Some a =>
      match ap_body a with
      | Leaves _ => 1
      | Branches [] => 2
      | Branches ((_, c) :: _) => S (pheight f d c)
      end end end.

Fixpoint dbkb (n : nat) (d : disk) (r : N) : bool :=
  match n with O => false | S n' => pdpb (dbkb n' d) (pheight fuel0 d r) d r end.

Definition db_depthb (st : db) : bool := dbkb 16 (d_disk st) (d_root st).

Lemma pdpb_ok : forall (Gb : N -> bool) (G : N -> Prop), (forall r, Gb r = true -> G r) ->
  forall h d q, pdpb Gb h d q = true -> PDp G h d q.
Proof.
  intros Gb G HG. induction h as [|h IH]; intros d q H; [discriminate|]. cbn [pdpb] in H. rewrite PDp_S.
  destruct (dget d q) as [a|]; [|discriminate]. exists a. split; [reflexivity|].
  destruct (ap_body a) as [l|es]; apply andb_true_iff in H; destruct H as [H1 H2].
  - split; [now apply Nat.eqb_eq|]. rewrite forallb_forall in H2. apply Forall_forall. intros e He.
    specialize (H2 e He). destruct e as [k v|k r nx]; cbn [ent_ok ent_okb] in *; auto.
  - split; [apply Nat.eqb_neq; now apply negb_true_iff|]. rewrite forallb_forall in H2. apply Forall_forall.
    intros e He. apply IH. now apply H2.
Qed.

Lemma dbkb_ok : forall n d r, dbkb n d r = true -> dbk n d r.
Proof.
  induction n as [|n IH]; intros d r H; [discriminate|]. cbn [dbkb] in H. cbn [dbk].
  exists (pheight fuel0 d r). eapply pdpb_ok; [|exact H]. intros r0. apply IH.
Qed.

Lemma db_depthb_ok : forall st, db_depthb st = true -> db_depth st.
Proof. intros st H. exists 16. now apply dbkb_ok. Qed.

Example init_db_depth_4096 : db_depth (init_db 4096).
Proof. apply db_depthb_ok. vm_compute. reflexivity. Qed.

(* the committed state of the example of EngineTxInvFacts (a nested bucket whose tree has two levels) *)
Example ex3_db_depth : db_depth Ex3.ex3_db.
Proof. apply db_depthb_ok. vm_compute. reflexivity. Qed.

Print Assumptions init_db_depth.
Print Assumptions tx_ops_DD.
Print Assumptions rebalance_DD.
Print Assumptions rebalance_no_panic'.
Print Assumptions db_depthb_ok.
Print Assumptions ex3_db_depth.
