(* What the two lock protocols (threads of model/Conc.v, processes of model/Proc.v) have in common:
   one entry of the list of agents is replaced at each step, and a lock word names the agent that is
   at a place where it holds the lock. *)
From Coq Require Import List Arith Lia.
From Jamm Require Import Conc.
Import ListNotations.
Local Open Scope list_scope.
Local Open Scope nat_scope.

(* Proc.set_nth has the body of Conc.set_nth: these lemmas apply to both. *)
Lemma set_nth_length {A} (l : list A) i x : length (set_nth l i x) = length l.
Proof. revert i; induction l as [|y l IH]; intros [|i]; simpl; auto. Qed.

Lemma nth_set_eq {A} (l : list A) i x : i < length l -> nth_error (set_nth l i x) i = Some x.
Proof.
  revert i; induction l as [|y l IH]; intros [|i] H; simpl in *; try lia; auto.
  apply IH; lia.
Qed.

Lemma nth_set_neq {A} (l : list A) i j x : j <> i -> nth_error (set_nth l i x) j = nth_error l j.
Proof.
  revert i j; induction l as [|y l IH]; intros [|i] [|j] H; simpl in *; try congruence; auto.
Qed.

Lemma nth_set_same {A} (l : list A) i t x :
  nth_error l i = Some t -> nth_error (set_nth l i x) i = Some x.
Proof. intros H. apply nth_set_eq. apply nth_error_Some. congruence. Qed.

Lemma nth_set_inv {A} (l : list A) i j x y :
  nth_error (set_nth l i x) j = Some y -> (j = i /\ y = x) \/ (j <> i /\ nth_error l j = Some y).
Proof.
  intros H. destruct (Nat.eq_dec j i) as [->|Hne].
  - left. split; auto.
    destruct (Nat.lt_ge_cases i (length l)) as [Hl|Hl].
    + rewrite nth_set_eq in H by exact Hl. congruence.
    + assert (Hn : nth_error (set_nth l i x) i = None)
        by (apply nth_error_None; rewrite set_nth_length; exact Hl).
      congruence.
  - right. split; auto. rewrite nth_set_neq in H by exact Hne. exact H.
Qed.

Lemma In_remove1 x y l : In y (remove1 x l) -> In y l.
Proof.
  induction l as [|z l IH]; simpl; auto.
  destruct (Nat.eqb x z); simpl; tauto.
Qed.

Lemma NoDup_remove1 x l : NoDup l -> NoDup (remove1 x l).
Proof.
  induction 1 as [|z l Hz Hnd IH]; simpl; [constructor|].
  destruct (Nat.eqb x z); auto. constructor; auto.
  intros Hin. apply Hz. eapply In_remove1; eauto.
Qed.

Lemma NoDup_remove1_notin x l : NoDup l -> ~ In x (remove1 x l).
Proof.
  induction 1 as [|z l Hz Hnd IH]; simpl; auto.
  destruct (Nat.eqb x z) eqn:E.
  - apply Nat.eqb_eq in E. subst. exact Hz.
  - apply Nat.eqb_neq in E. simpl. intros [->|H]; [congruence|auto].
Qed.

Lemma forallb_false_nth {A} (f : A -> bool) l :
  forallb f l = false -> exists i x, nth_error l i = Some x /\ f x = false.
Proof.
  induction l as [|a l IH]; simpl; [discriminate|].
  destruct (f a) eqn:E; simpl.
  - intros H. destruct (IH H) as (i & x & Hi & Hx). exists (S i), x. auto.
  - intros _. exists 0, a. auto.
Qed.

Section Lock.
  Context {A : Type} (holds : A -> bool).

  (* an exclusive lock: whoever is at a holding place is the recorded holder ... *)
  Definition holder_locks (lock : option nat) (l : list A) : Prop :=
    forall i a, nth_error l i = Some a -> holds a = true -> lock = Some i.
  (* ... and the recorded holder is at a holding place *)
  Definition lock_held (lock : option nat) (l : list A) : Prop :=
    forall i, lock = Some i -> exists a, nth_error l i = Some a /\ holds a = true.
  Definition lock_holder (lock : option nat) (l : list A) : Prop :=
    forall i, lock = Some i <-> exists a, nth_error l i = Some a /\ holds a = true.

  Lemma lock_holder_split lock l : lock_holder lock l <-> holder_locks lock l /\ lock_held lock l.
  Proof.
    split.
    - intros H. split; [intros i a Hi Ha; apply H; eauto | intros i; apply H].
    - intros [H1 H2] i. split; [apply H2 | intros (a & Hi & Ha); eauto].
  Qed.

  Lemma holder_locks_unique lock l i j a b :
    holder_locks lock l -> nth_error l i = Some a -> nth_error l j = Some b ->
    holds a = true -> holds b = true -> i = j.
  Proof. intros H Hi Hj Ha Hb. pose proof (H _ _ Hi Ha). pose proof (H _ _ Hj Hb). congruence. Qed.

  (* what the step of agent k, from a to a', may do to the lock word: leave it alone without entering
     or leaving the holding places, take the free lock, or give back the lock it holds *)
  Definition lock_move (lock lock' : option nat) (k : nat) (a a' : A) : Prop :=
    (lock' = lock /\ holds a' = holds a) \/
    (lock = None /\ lock' = Some k /\ holds a' = true) \/
    (holds a = true /\ lock' = None /\ holds a' = false).

  Lemma holder_locks_step lock lock' l k a a' :
    nth_error l k = Some a -> lock_move lock lock' k a a' ->
    holder_locks lock l -> holder_locks lock' (set_nth l k a').
  Proof.
    intros Hk Hm H i b Hi Hb. apply nth_set_inv in Hi. destruct Hi as [[-> ->]|[Hne Hi]].
    - destruct Hm as [[-> E]|[(_ & -> & _)|(_ & _ & E)]]; [|reflexivity|congruence].
      apply (H _ _ Hk). congruence.
    - pose proof (H _ _ Hi Hb) as Hl.
      destruct Hm as [[-> _]|[(E & _)|(E & _)]]; [exact Hl|congruence|].
      pose proof (H _ _ Hk E). congruence.
  Qed.

  Lemma lock_held_step lock lock' l k a a' :
    nth_error l k = Some a -> lock_move lock lock' k a a' ->
    lock_held lock l -> lock_held lock' (set_nth l k a').
  Proof.
    intros Hk Hm H i Hi.
    assert (Hat : holds a' = true -> exists b, nth_error (set_nth l k a') k = Some b /\ holds b = true)
      by (intros E; exists a'; split; [exact (nth_set_same _ _ _ _ Hk) | exact E]).
    destruct Hm as [[-> E]|[(_ & -> & E)|(_ & -> & _)]]; [|inversion Hi; subst; auto|discriminate].
    destruct (H _ Hi) as (b & Hb & Hh). destruct (Nat.eq_dec i k) as [->|Hne].
    - apply Hat. congruence.
    - exists b. rewrite nth_set_neq by exact Hne. auto.
  Qed.

  Lemma lock_holder_step lock lock' l k a a' :
    nth_error l k = Some a -> lock_move lock lock' k a a' ->
    lock_holder lock l -> lock_holder lock' (set_nth l k a').
  Proof.
    intros Hk Hm H. apply lock_holder_split in H. apply lock_holder_split.
    split; [eapply holder_locks_step | eapply lock_held_step]; eauto; apply H.
  Qed.

  (* a shared lock: the recorded holders are distinct and each is at a holding place *)
  Definition holders_held (hs : list nat) (l : list A) : Prop :=
    NoDup hs /\ forall i, In i hs -> exists a, nth_error l i = Some a /\ holds a = true.

  Definition holders_move (hs hs' : list nat) (k : nat) (a a' : A) : Prop :=
    (hs' = hs /\ holds a' = holds a) \/
    (holds a = false /\ hs' = k :: hs /\ holds a' = true) \/
    (hs' = remove1 k hs /\ holds a' = false).

  Lemma holders_held_step hs hs' l k a a' :
    nth_error l k = Some a -> holders_move hs hs' k a a' ->
    holders_held hs l -> holders_held hs' (set_nth l k a').
  Proof.
    intros Hk Hm [ND H].
    assert (Hold : forall i, i <> k -> In i hs -> exists b, nth_error (set_nth l k a') i = Some b /\ holds b = true).
    { intros i Hne Hi. destruct (H _ Hi) as (b & Hb & Hh). exists b. rewrite nth_set_neq by exact Hne. auto. }
    assert (Hat : holds a' = true -> exists b, nth_error (set_nth l k a') k = Some b /\ holds b = true)
      by (intros E; exists a'; split; [exact (nth_set_same _ _ _ _ Hk) | exact E]).
    assert (Hin : In k hs -> holds a = true)
      by (intros Hi; destruct (H _ Hi) as (b & Hb & Hh); congruence).
    destruct Hm as [[-> E]|[(Ea & -> & E)|(-> & E)]].
    - split; [exact ND|]. intros i Hi. destruct (Nat.eq_dec i k) as [->|Hne]; [|auto].
      apply Hat. rewrite E. auto.
    - split; [constructor; [intros Hi; apply Hin in Hi; congruence | exact ND]|].
      intros i [<-|Hi]; [auto|]. destruct (Nat.eq_dec i k) as [->|Hne]; auto.
    - split; [apply NoDup_remove1; exact ND|]. intros i Hi. destruct (Nat.eq_dec i k) as [->|Hne].
      + exfalso. exact (NoDup_remove1_notin _ _ ND Hi).
      + apply Hold; [exact Hne | exact (In_remove1 _ _ _ Hi)].
  Qed.
End Lock.
