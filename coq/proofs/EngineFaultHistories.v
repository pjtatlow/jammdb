(* C11 over HISTORIES at the ENGINE level, with contents.
   A process runs a write transaction on the engine state; the k-th call of the commit's I/O sequence FAILS (the failing
   call itself applied, lost or torn: [Crash.fault_image]); commit returns an error; the process does NOT crash and does
   NOT reopen: it goes on with what it has in memory.  The library publishes the transaction's free list iff the new
   header is the one now visible (Consts.publish_on_visible_header), so the process continues from the NEW engine state
   [st'] when the fault image selects the new header and from the OLD engine state [st] (untouched: the writer worked on a
   clone) when it selects the old one.  Successful commits (the whole I/O sequence applied) are interleaved freely.
   [fault_run st cd l survivors stf cdf]: the database means the reference after exactly the VISIBLE commits, in
   order; never a half-applied one. *)
From Coq Require Import List NArith Bool Arith Lia.
From Coq.Strings Require Import Byte.
From Jamm Require Spec Consts.
From Jamm Require Import Bytes BytesFacts Tree Cursor SearchFacts Engine EngineAbs EngineFacts EngineMergeFacts.
From Jamm Require Import EngineModifyFacts EngineSpillFacts EnginePathFacts EngineBridgeFacts EngineRebalanceFacts.
From Jamm Require Import EngineTxInvFacts EngineSpillBucketFacts EngineRefines.
From Jamm Require Import EngineOwnDefs EngineOwnWr EngineOwnOps EngineOwnReb EngineOwnSpill EngineOwnLnk EngineAllocInv.
From Jamm Require Import EngineCow EngineReopen EngineCrashHistories.
From Jamm Require PL Crash CrashFacts CrashCurrent CrashHistories.
Import ListNotations.

(* the images of the commit st -> st' failing at its k-th call / completing *)
Definition fault_img (st st' : db) (w : list (N * (N * ndata))) (cd : Crash.disk) (k : nat) (f : Crash.fate) : Crash.disk :=
  Crash.fault_image (d_tx st') (eng_header st') (negb (Crash.current_slot cd)) cd
    (Crash.commit_io (tx_written st st' w)) k f.
Definition done_img (st st' : db) (w : list (N * (N * ndata))) (cd : Crash.disk) : Crash.disk :=
  Crash.run_prefix (d_tx st') (eng_header st') (negb (Crash.current_slot cd)) cd
    (Crash.commit_io (tx_written st st' w)) (List.length (Crash.commit_io (tx_written st st' w))).

Lemma fault_img_pp : forall st st' w cd, Sim st cd -> is_write_set st st' w -> forall k f,
  CrashFacts.pre_or_post cd (eng_header st) (eng_header st') (d_tx st') (tx_written st st' w) (fault_img st st' w cd k f).
Proof.
  intros st st' w cd [Hsel _] Hw k f.
  exact (CrashFacts.C11_disk_current _ _ _ _ _ (write_set_setting _ _ _ Hw cd Hsel) k f).
Qed.

Lemma done_img_post : forall st st' w cd, Sim st cd -> is_write_set st st' w ->
  Crash.select (done_img st st' w cd) = Some (eng_header st') /\
  Crash.intact (CrashFacts.orig_new cd (d_tx st') (tx_written st st' w)) (done_img st st' w cd) (eng_header st').
Proof.
  intros st st' w cd [Hsel _] Hw.
  exact (CrashFacts.C02_durable_kill _ _ _ _ _ (write_set_setting _ _ _ Hw cd Hsel) _ CrashCurrent.current_has_barrier).
Qed.

(* a commit whose whole I/O sequence was applied *)
Lemma commit_done : forall st cd m ops ord st' w, Good st cd m ->
  Forall (op_ok (d_disk st)) ops -> run_tx st ops ord = Ok st' -> readable st' -> is_write_set st st' w ->
  Good st' (done_img st st' w cd) (sem_tx ops m).
Proof.
  intros st cd m ops ord st' w HG Hops Hrun Hrd Hw. pose proof (done_img_post _ _ _ _ (proj1 HG) Hw) as Hd.
  exact (proj1 (proj2 (commit_outcome _ _ _ _ _ _ _ _ HG Hops Hrun Hrd Hw (or_intror Hd))) (proj1 Hd)).
Qed.

(* what the process keeps in memory after the failed commit (the GENERATED flag decides) agrees with the header the
   image selects: the shared free list is the new one exactly when the continuation is [st'] *)
Theorem fault_memory_follows_image : forall st cd st' w k f, Sim st cd -> is_write_set st st' w ->
  let img := fault_img st st' w cd k f in
  let m := Crash.mem_after Consts.publish_on_visible_header false img (eng_header st') in
  (Crash.select img = Some (eng_header st') -> m = Crash.MemNew) /\
  (Crash.select img = Some (eng_header st) -> m = Crash.MemOld).
Proof.
  intros st cd st' w k f [Hsel _] Hw img m.
  pose proof (write_set_setting _ _ _ Hw cd Hsel) as HS.
  exact (proj2 (CrashCurrent.fault_mem_current _ _ _ _ _ HS CrashCurrent.current_publishes_on_visible k f)).
Qed.

Inductive outcome := Completes | Fails (k : nat) (f : Crash.fate).
Record step := mkStep { s_ops : list op; s_ord : list bytes; s_out : outcome }.

Inductive fault_run : db -> Crash.disk -> list step -> list (list op) -> db -> Crash.disk -> Prop :=
| fr_nil : forall st cd, fault_run st cd [] [] st cd
| fr_done : forall st cd s r surv st' w stf cdf,
    s_out s = Completes ->
    Forall (op_ok (d_disk st)) (s_ops s) ->
    run_tx st (s_ops s) (s_ord s) = Ok st' -> readable st' -> is_write_set st st' w ->
    fault_run st' (done_img st st' w cd) r surv stf cdf ->
    fault_run st cd (s :: r) (s_ops s :: surv) stf cdf
| fr_fail_old : forall st cd s k f r surv st' w stf cdf,
    s_out s = Fails k f ->
    Forall (op_ok (d_disk st)) (s_ops s) ->
    run_tx st (s_ops s) (s_ord s) = Ok st' -> readable st' -> is_write_set st st' w ->
    let img := fault_img st st' w cd k f in
    Crash.select img = Some (eng_header st) ->
    fault_run st img r surv stf cdf ->
    fault_run st cd (s :: r) surv stf cdf
| fr_fail_new : forall st cd s k f r surv st' w stf cdf,
    s_out s = Fails k f ->
    Forall (op_ok (d_disk st)) (s_ops s) ->
    run_tx st (s_ops s) (s_ord s) = Ok st' -> readable st' -> is_write_set st st' w ->
    let img := fault_img st st' w cd k f in
    Crash.select img = Some (eng_header st') ->
    fault_run st' img r surv stf cdf ->
    fault_run st cd (s :: r) (s_ops s :: surv) stf cdf.

Lemma fault_run_good : forall st cd l surv stf cdf, fault_run st cd l surv stf cdf ->
  forall m, Good st cd m -> Good stf cdf (sem_survivors surv m).
Proof.
  induction 1 as [st cd
                 | st cd s r surv st' w stf cdf _ Hops Hrun Hrd Hw _ IH
                 | st cd s k f r surv st' w stf cdf _ Hops Hrun Hrd Hw img Hsel _ IH
                 | st cd s k f r surv st' w stf cdf _ Hops Hrun Hrd Hw img Hsel _ IH]; intros m HG.
  - exact HG.
  - exact (IH _ (commit_done _ _ _ _ _ _ _ HG Hops Hrun Hrd Hw)).
  - destruct (commit_outcome _ _ _ _ _ _ _ img HG Hops Hrun Hrd Hw (fault_img_pp _ _ _ _ (proj1 HG) Hw k f)) as (Hold & _).
    exact (IH _ (Hold Hsel)).
  - destruct (commit_outcome _ _ _ _ _ _ _ img HG Hops Hrun Hrd Hw (fault_img_pp _ _ _ _ (proj1 HG) Hw k f)) as (_ & Hnew & _).
    exact (IH _ (Hnew Hsel)).
Qed.

(* after any such history the database means the reference after exactly the visible commits, in order *)
Theorem engine_fault_history : forall st0 cd0 l surv stf cdf,
  fault_run st0 cd0 l surv stf cdf -> Sim st0 cd0 -> db_inv st0 ->
  Sim stf cdf /\ db_inv stf /\ abs_db stf = sem_survivors surv (abs_db st0).
Proof. intros st0 cd0 l surv stf cdf H HSim Hinv. exact (fault_run_good _ _ _ _ _ _ H _ (Good_intro _ _ HSim Hinv)). Qed.

Print Assumptions engine_fault_history.

(* totality.  The side conditions: the next transaction is admissible and succeeds, with a readable result, on the state the
   process holds -- along BOTH possible continuations of a failing commit, along the one continuation of a completed one *)
Fixpoint steps_okE (st : db) (l : list step) : Prop :=
  match l with
  | [] => True
  | s :: r => Forall (op_ok (d_disk st)) (s_ops s) /\
              exists st', run_tx st (s_ops s) (s_ord s) = Ok st' /\ readable st' /\
                          match s_out s with Completes => True | Fails _ _ => steps_okE st r end /\ steps_okE st' r
  end.

Theorem fault_run_total : forall l st cd, Sim st cd -> db_inv st -> steps_okE st l ->
  exists surv stf cdf, fault_run st cd l surv stf cdf.
Proof.
  induction l as [|s r IH]; intros st cd HSim Hinv Hok.
  - exists [], st, cd. constructor.
  - destruct Hok as (Hops & st' & Hrun & Hrd & HokL & HokD). pose proof (Good_intro _ _ HSim Hinv) as HG.
    destruct (run_tx_has_write_set _ _ _ _ Hinv Hops Hrun Hrd) as (w & Hw).
    destruct (s_out s) as [|k f] eqn:Hout.
    + destruct (commit_done _ _ _ _ _ _ _ HG Hops Hrun Hrd Hw) as (HS & HI & _).
      destruct (IH _ _ HS HI HokD) as (surv & stf & cdf & Hr).
      exists (s_ops s :: surv), stf, cdf. eapply fr_done; eauto.
    + destruct (commit_outcome _ _ _ _ _ _ _ _ HG Hops Hrun Hrd Hw (fault_img_pp _ _ _ _ HSim Hw k f))
        as (Hold & Hnew & [Hsel|Hsel]).
      * destruct (Hold Hsel) as (HS & HI & _). destruct (IH _ _ HS HI HokL) as (surv & stf & cdf & Hr).
        exists surv, stf, cdf. eapply fr_fail_old; eauto.
      * destruct (Hnew Hsel) as (HS & HI & _). destruct (IH _ _ HS HI HokD) as (surv & stf & cdf & Hr).
        exists (s_ops s :: surv), stf, cdf. eapply fr_fail_new; eauto.
Qed.

Corollary engine_fault_history_total : forall l st0 cd0, Sim st0 cd0 -> db_inv st0 -> steps_okE st0 l ->
  exists surv stf cdf, fault_run st0 cd0 l surv stf cdf /\
    Sim stf cdf /\ db_inv stf /\ abs_db stf = sem_survivors surv (abs_db st0).
Proof.
  intros l st0 cd0 HSim Hinv Hok. destruct (fault_run_total l st0 cd0 HSim Hinv Hok) as (surv & stf & cdf & Hr).
  exists surv, stf, cdf. split; [exact Hr | exact (engine_fault_history _ _ _ _ _ _ Hr HSim Hinv)].
Qed.

(* the survivors are a sub-list, in order, of the attempted operation lists; every completed commit is among them *)
Lemma fault_run_survivors : forall st cd l surv stf cdf, fault_run st cd l surv stf cdf ->
  sublist surv (map s_ops l).
Proof.
  intros st cd l surv stf cdf H.
  induction H; cbn [map]; [constructor | now apply sub_keep | now apply sub_skip | now apply sub_keep].
Qed.

Lemma fault_run_completed_survives : forall st cd s r surv stf cdf, fault_run st cd (s :: r) surv stf cdf ->
  s_out s = Completes -> exists surv', surv = s_ops s :: surv'.
Proof.
  intros st cd s r surv stf cdf H Hc.
  inversion H; subst; try congruence; eexists; reflexivity.
Qed.

Print Assumptions fault_run_total.
Print Assumptions engine_fault_history_total.
Print Assumptions fault_memory_follows_image.

(* where the failing call sits decides the outcome.  A failure at a data write or at the sync before the header
   (k <= number of written pages): the slots are untouched, the old header stays selected -- the commit is lost as a whole, whatever happened to the failing write *)
Lemma fault_before_header_slots : forall t newh tgt f ps rest k (d : Crash.disk), (k <= List.length ps)%nat ->
  let img := Crash.fault_image t newh tgt d (map Crash.IoData ps ++ Crash.IoSync :: rest) k f in
  Crash.slot0 img = Crash.slot0 d /\ Crash.slot1 img = Crash.slot1 d.
Proof.
  intros t newh tgt f ps rest. induction ps as [|p ps IH]; intros k d Hk; cbn [List.length] in Hk.
  - assert (k = 0)%nat by lia. subst k. cbn. destruct f; split; reflexivity.
  - destruct k as [|k].
    + cbn. destruct f; split; reflexivity.
    + cbn [map app]. unfold Crash.fault_image. cbn [Crash.run_prefix nth_error].
      specialize (IH k (Crash.apply_io t newh tgt d (Crash.IoData p) Crash.Applied) ltac:(lia)).
      unfold Crash.fault_image in IH. cbv zeta in IH. exact IH.
Qed.

Theorem fault_before_header_is_lost : forall st st' w cd k f,
  (k <= List.length (tx_written st st' w))%nat -> Crash.select (fault_img st st' w cd k f) = Crash.select cd.
Proof.
  intros st st' w cd k f Hk. unfold fault_img. rewrite CrashCurrent.current_io_shape.
  destruct (fault_before_header_slots (d_tx st') (eng_header st') (negb (Crash.current_slot cd)) f
              (tx_written st st' w) [Crash.IoHeader; Crash.IoSync] k cd Hk) as [H0 H1].
  unfold Crash.select. rewrite H0, H1. reflexivity.
Qed.

Corollary fault_before_header_continues_old : forall st st' w cd k f, Sim st cd ->
  (k <= List.length (tx_written st st' w))%nat -> Crash.select (fault_img st st' w cd k f) = Some (eng_header st).
Proof. intros st st' w cd k f [Hsel _] Hk. rewrite fault_before_header_is_lost by exact Hk. exact Hsel. Qed.

Lemma run_prefix_app : forall t newh tgt l r m (d : Crash.disk),
  Crash.run_prefix t newh tgt d (l ++ r) (List.length l + m) =
  Crash.run_prefix t newh tgt (Crash.run_prefix t newh tgt d l (List.length l)) r m.
Proof.
  intros t newh tgt l r m. induction l as [|o l IH]; intro d; [reflexivity|].
  cbn [app List.length Nat.add Crash.run_prefix]. apply IH.
Qed.

Lemma fault_at_last_sync : forall t newh tgt l k f (d : Crash.disk), (List.length l <= k)%nat ->
  Crash.fault_image t newh tgt d (l ++ [Crash.IoSync]) k f =
  Crash.run_prefix t newh tgt d (l ++ [Crash.IoSync]) (List.length (l ++ [Crash.IoSync])).
Proof.
  intros t newh tgt l k f d Hk. unfold Crash.fault_image.
  replace k with (List.length l + (k - List.length l))%nat by lia.
  rewrite app_length, !run_prefix_app. rewrite nth_error_app2 by lia.
  replace (List.length l + (k - List.length l) - List.length l)%nat with (k - List.length l)%nat by lia.
  destruct (k - List.length l)%nat as [|[|j]]; cbn; destruct f; reflexivity.
Qed.

(* a failure of the LAST call (the sync after the header) or "after the end": the image is the one of the completed
   commit, the new header is selected -- commit reported an error but the transaction IS visible *)
Theorem fault_after_header_is_visible : forall st st' w cd k f,
  (List.length (tx_written st st' w) + 2 <= k)%nat -> fault_img st st' w cd k f = done_img st st' w cd.
Proof.
  intros st st' w cd k f Hk. unfold fault_img, done_img. rewrite CrashCurrent.current_io_shape.
  change [Crash.IoSync; Crash.IoHeader; Crash.IoSync] with ([Crash.IoSync; Crash.IoHeader] ++ [Crash.IoSync]).
  rewrite app_assoc. apply fault_at_last_sync. rewrite app_length, map_length. cbn [List.length]. lia.
Qed.

Corollary fault_after_header_continues_new : forall st cd st' w k f, Sim st cd -> is_write_set st st' w ->
  (List.length (tx_written st st' w) + 2 <= k)%nat -> Crash.select (fault_img st st' w cd k f) = Some (eng_header st').
Proof.
  intros st cd st' w k f HSim Hw Hk. rewrite fault_after_header_is_visible by exact Hk.
  exact (proj1 (done_img_post _ _ _ _ HSim Hw)).
Qed.

Print Assumptions fault_before_header_continues_old.
Print Assumptions fault_after_header_continues_new.

(* the premises are satisfiable *)
Module ExFault.
Import Ex3 ExCrash.
Definition run1 := Eval vm_compute in run_tx st0 (fst ExHistory.tx1) (snd ExHistory.tx1).
Definition st1 : db := match run1 with Ok st => st | _ => st0 end.
Example run1_ok : run_tx st0 (fst ExHistory.tx1) (snd ExHistory.tx1) = Ok st1.
Proof. vm_compute. reflexivity. Qed.
Example ops1_ok : Forall (op_ok (d_disk st0)) (fst ExHistory.tx1).
Proof. repeat constructor; cbn; lia. Qed.
Example st1_readable : readable st1.
Proof. apply readableb_ok. vm_compute. reflexivity. Qed.
Example st1_write_set : exists w, is_write_set st0 st1 w.
Proof. exact (run_tx_has_write_set _ _ _ _ inv0 ops1_ok run1_ok st1_readable). Qed.

Definition s_fail (k : nat) (f : Crash.fate) : step := mkStep (fst ExHistory.tx1) (snd ExHistory.tx1) (Fails k f).
Definition s_done : step := mkStep (fst ExHistory.tx1) (snd ExHistory.tx1) Completes.
Definition s2 (o : outcome) : step := mkStep [Put [] ka [x02]] [] o.

(* the very first call fails (whatever became of the write): the commit is lost, the process goes on from st0 *)
Example first_call_fails : forall f, exists cdf, fault_run st0 cd0 [s_fail 0 f] [] st0 cdf /\ Sim st0 cdf.
Proof.
  intro f. destruct st1_write_set as (w & Hw).
  pose proof (fault_before_header_continues_old st0 st1 w cd0 0 f sim0 ltac:(lia)) as Hsel.
  assert (Hr : fault_run st0 cd0 [s_fail 0 f] [] st0 (fault_img st0 st1 w cd0 0 f)).
  { apply (fr_fail_old st0 cd0 (s_fail 0 f) 0 f [] [] st1 w st0 _ eq_refl ops1_ok run1_ok st1_readable Hw Hsel). constructor. }
  eexists. split; [exact Hr | exact (proj1 (engine_fault_history _ _ _ _ _ _ Hr sim0 inv0))].
Qed.

(* the same transaction fails at its first call, is retried and completes: exactly one copy of it is applied *)
Example fail_then_retry : forall f, exists cdf, fault_run st0 cd0 [s_fail 0 f; s_done] [fst ExHistory.tx1] st1 cdf /\
  Sim st1 cdf /\ abs_db st1 = sem_tx (fst ExHistory.tx1) (abs_db st0).
Proof.
  intro f. destruct st1_write_set as (w & Hw).
  pose proof (fault_before_header_continues_old st0 st1 w cd0 0 f sim0 ltac:(lia)) as Hsel.
  assert (Hr : fault_run st0 cd0 [s_fail 0 f; s_done] [fst ExHistory.tx1] st1 (done_img st0 st1 w (fault_img st0 st1 w cd0 0 f))).
  { apply (fr_fail_old st0 cd0 (s_fail 0 f) 0 f [s_done] _ st1 w st1 _ eq_refl ops1_ok run1_ok st1_readable Hw Hsel).
    apply (fr_done st0 _ s_done [] [] st1 w st1 _ eq_refl ops1_ok run1_ok st1_readable Hw). constructor. }
  destruct (engine_fault_history _ _ _ _ _ _ Hr sim0 inv0) as (HS & _ & HA).
  eexists. split; [exact Hr | split; [exact HS | exact HA]].
Qed.

(* the final sync fails: commit returns an error, yet the transaction is visible and the process goes on from st1 *)
Example last_sync_fails : forall f, exists k cdf, fault_run st0 cd0 [s_fail k f] [fst ExHistory.tx1] st1 cdf /\ Sim st1 cdf.
Proof.
  intro f. destruct st1_write_set as (w & Hw).
  set (k := (List.length (tx_written st0 st1 w) + 2)%nat).
  pose proof (fault_after_header_continues_new st0 cd0 st1 w k f sim0 Hw (le_n _)) as Hsel.
  assert (Hr : fault_run st0 cd0 [s_fail k f] [fst ExHistory.tx1] st1 (fault_img st0 st1 w cd0 k f)).
  { apply (fr_fail_new st0 cd0 (s_fail k f) k f [] [] st1 w st1 _ eq_refl ops1_ok run1_ok st1_readable Hw Hsel). constructor. }
  exists k. eexists. split; [exact Hr | exact (proj1 (engine_fault_history _ _ _ _ _ _ Hr sim0 inv0))].
Qed.

(* two transactions, every position and fate of the two failures: a run exists and ends in the simulation *)
Example steps_ok0 : forall o1 o2, steps_okE st0 [mkStep (fst ExHistory.tx1) (snd ExHistory.tx1) o1; s2 o2].
Proof.
  intros o1 o2. cbn [steps_okE s2 s_ops s_ord s_out]. tx_ok.
  split; [destruct o1; [exact I|]|]; tx_ok; (split; [destruct o2|]; exact I).
Qed.

Example two_faults : forall o1 o2, exists surv stf cdf,
  fault_run st0 cd0 [mkStep (fst ExHistory.tx1) (snd ExHistory.tx1) o1; s2 o2] surv stf cdf /\
  Sim stf cdf /\ db_inv stf /\ abs_db stf = sem_survivors surv (abs_db st0).
Proof. intros o1 o2. exact (engine_fault_history_total _ _ _ sim0 inv0 (steps_ok0 o1 o2)). Qed.
End ExFault.
Print Assumptions ExFault.first_call_fails.
Print Assumptions ExFault.fail_then_retry.
Print Assumptions ExFault.last_sync_fails.
Print Assumptions ExFault.two_faults.
