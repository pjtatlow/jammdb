(* Rebalance preserves what the transaction sees.

   Vocabulary: [PageView] / [NodeView] / [wf_node] / [bucket_wf] / [bucket_view] of EngineModifyFacts.
   New here:
     [Inv h d z lo hi n]   the REBALANCE INVARIANT of an overlay node: a B+tree invariant with explicit key
                           bounds [lo, hi) (separators included), the LINK between a branch node and its
                           materialised kids (every kid is resolved by exactly one entry, whose key is the kid's
                           [n_orig]; kid pages pairwise distinct), and the STRICTNESS of the committed pages
                           below ([PInv]: the separator stored in a parent equals the first key of the child page).
     [npages h d n]        all page ids named by entries below [n]   (no page has two parents: [NoDup])
     [seqs n]              all sequence numbers below [n]            (globally distinct, below [seqc s])
   [Inv] with these two side conditions is bundled as [RInv] (roots), [BInv] (buckets), [Deep] (bucket trees).
   Two counterexamples ([Cex]) show why the bounds and the empty-branch case are part of the statements. *)
From Coq Require Import List NArith Bool Arith Lia ZifyN ZifyNat ZifyBool Permutation.
From Coq.Strings Require Import Byte.
From Jamm Require Import ListFacts Bytes Tree Cursor SearchFacts Engine EngineFacts EngineMergeFacts EngineModifyFacts.
From Jamm Require PL EngineAllocFacts.
Import ListNotations.
Import Coq.Strings.String.StringSyntax. Delimit Scope string_scope with string.
Local Open Scope list_scope. Local Open Scope nat_scope.

Lemma Forall2_app_inv_l' : forall {A B} (R : A -> B -> Prop) a1 a2 bs,
  Forall2 R (a1 ++ a2) bs -> exists b1 b2, bs = b1 ++ b2 /\ Forall2 R a1 b1 /\ Forall2 R a2 b2.
Proof.
  intros A B R a1 a2 bs H. apply Forall2_app_inv_l in H. destruct H as (b1 & b2 & H1 & H2 & ->). eauto.
Qed.

Lemma Forall2_cons_inv_l : forall {A B} (R : A -> B -> Prop) a a2 bs,
  Forall2 R (a :: a2) bs -> exists b b2, bs = b :: b2 /\ R a b /\ Forall2 R a2 b2.
Proof. intros A B R a a2 bs H. inversion H; subst. eauto. Qed.

Lemma Forall2_app_inv_len : forall {A B} (R : A -> B -> Prop) a1 a2 b1 b2, length b1 = length a1 ->
  Forall2 R (a1 ++ a2) (b1 ++ b2) -> Forall2 R a1 b1 /\ Forall2 R a2 b2.
Proof.
  intros A B R a1. induction a1 as [|x a1 IH]; intros a2 [|y b1] b2 Hl H; try discriminate.
  - split; [constructor | exact H].
  - cbn [app] in H. inversion H; subst. injection Hl as Hl. destruct (IH _ _ _ Hl H5). split; [constructor|]; assumption.
Qed.

Lemma Forall2_weaken_r : forall {A B} (P P' : A -> B -> Prop) (Q : B -> B -> Prop) xs bs bs',
  (forall x b b', In x xs -> P x b -> Q b b' -> P' x b') ->
  Forall2 P xs bs -> Forall2 Q bs bs' -> Forall2 P' xs bs'.
Proof.
  intros A B P P' Q xs bs bs' Himp HP. revert bs'.
  induction HP as [|x b xs bs Hx HP IH]; intros bs' HQ; inversion HQ; subst; constructor.
  - eapply Himp; eauto. now left.
  - apply IH; [|assumption]. intros x0 b0 b0' Hin. apply Himp. now right.
Qed.

Lemma Forall2_refl_in : forall {A} (Q : A -> A -> Prop) l, (forall x, In x l -> Q x x) -> Forall2 Q l l.
Proof.
  intros A Q l H. induction l as [|x l IH]; constructor.
  - apply H. now left.
  - apply IH. intros y Hy. apply H. now right.
Qed.

Lemma in_split_nth : forall {A} (l : list A) i x, nth_error l i = Some x ->
  exists a b, l = a ++ x :: b /\ length a = i.
Proof. intros A l i x H. destruct (nth_error_split l i H) as (a & b & -> & Hl). eauto. Qed.

Lemma remove_at_mid : forall {A} (a : list A) x b, remove_at (a ++ x :: b) (length a) = a ++ b.
Proof.
  intros A a x b. replace (length a) with (length a + 0) by lia. rewrite remove_at_app. reflexivity.
Qed.

(** * Key bounds *)

Definition le_lo (lo : option bytes) (k : bytes) : Prop :=
  match lo with Some b => bcmp b k <> Gt | None => True end.
Definition lt_hi (k : bytes) (hi : option bytes) : Prop :=
  match hi with Some b => bcmp k b = Lt | None => True end.
(* k lies in [lo, hi) *)
Definition inb (lo hi : option bytes) (k : bytes) : Prop := le_lo lo k /\ lt_hi k hi.

(* order on lower / upper bounds ([None] = unbounded) *)
Definition lo_le (lo lo' : option bytes) : Prop :=
  match lo, lo' with None, _ => True | Some a, Some b => bcmp a b <> Gt | Some _, None => False end.
Definition hi_le (hi hi' : option bytes) : Prop :=
  match hi, hi' with _, None => True | Some a, Some b => bcmp a b <> Gt | None, Some _ => False end.

Lemma bcmp_le_refl : forall a, bcmp a a <> Gt.
Proof. intros a. rewrite OrderFacts.bcmp_refl. discriminate. Qed.
Lemma bcmp_lt_le : forall a b, bcmp a b = Lt -> bcmp a b <> Gt.
Proof. intros a b H. rewrite H. discriminate. Qed.

Lemma lo_le_refl : forall lo, lo_le lo lo.
Proof. intros [b|]; cbn; [apply bcmp_le_refl | exact I]. Qed.
Lemma hi_le_refl : forall hi, hi_le hi hi.
Proof. intros [b|]; cbn; [apply bcmp_le_refl | exact I]. Qed.
Lemma lo_le_trans : forall a b c, lo_le a b -> lo_le b c -> lo_le a c.
Proof. intros [a|] [b|] [c|]; cbn; try tauto. apply bcmp_le_trans. Qed.
Lemma hi_le_trans : forall a b c, hi_le a b -> hi_le b c -> hi_le a c.
Proof. intros [a|] [b|] [c|]; cbn; try tauto. apply bcmp_le_trans. Qed.

Lemma le_lo_weaken : forall lo lo' k, lo_le lo' lo -> le_lo lo k -> le_lo lo' k.
Proof. intros [a|] [b|] k; cbn; try tauto. intros H1 H2. eapply bcmp_le_trans; eauto. Qed.
Lemma lt_hi_weaken : forall hi hi' k, hi_le hi hi' -> lt_hi k hi -> lt_hi k hi'.
Proof. intros [a|] [b|] k; cbn; try tauto. intros H1 H2. eapply bcmp_lt_le_trans; eauto. Qed.
Lemma inb_weaken : forall lo hi lo' hi' k, lo_le lo' lo -> hi_le hi hi' -> inb lo hi k -> inb lo' hi' k.
Proof. intros lo hi lo' hi' k H1 H2 [H3 H4]. split; [eapply le_lo_weaken | eapply lt_hi_weaken]; eauto. Qed.
Lemma le_lo_lo_le : forall lo k, le_lo lo k -> lo_le lo (Some k).
Proof. intros [a|] k; cbn; tauto. Qed.
Lemma lt_hi_hi_le : forall hi k, lt_hi k hi -> hi_le (Some k) hi.
Proof. intros [a|] k; cbn; [apply bcmp_lt_le | tauto]. Qed.

(* the upper bound of an entry followed by the separators [rest] *)
Definition nxt (rest : list bytes) (hi : option bytes) : option bytes :=
  match rest with [] => hi | s :: _ => Some s end.
(* bounds of the children of a branch with separators [seps] and upper bound [hi]; [f] gives the lower bound
   of the FIRST child *)
Fixpoint cbs (f : bytes -> option bytes) (seps : list bytes) (hi : option bytes)
  : list (option bytes * option bytes) :=
  match seps with [] => [] | s :: rest => (f s, nxt rest hi) :: cbs Some rest hi end.
(* child 0 of a node without lower bound has none either; otherwise it is bounded by its separator *)
Definition lo0 (lo : option bytes) : bytes -> option bytes :=
  fun s => match lo with None => None | Some _ => Some s end.
Definition cbounds (lo : option bytes) (seps : list bytes) (hi : option bytes) := cbs (lo0 lo) seps hi.

Definition fst_fun (f : bytes -> option bytes) (a : list bytes) : bytes -> option bytes :=
  match a with [] => f | _ => Some end.

Lemma cbs_length : forall seps f hi, length (cbs f seps hi) = length seps.
Proof. induction seps as [|s r IH]; intros f hi; cbn [cbs length]; [reflexivity | now rewrite IH]. Qed.

Lemma cbs_app : forall a f s b hi,
  cbs f (a ++ s :: b) hi = cbs f a (Some s) ++ cbs (fst_fun f a) (s :: b) hi.
Proof.
  induction a as [|x a IH]; intros f s b hi; [reflexivity|].
  cbn [app cbs fst_fun]. rewrite IH. f_equal.
  - f_equal. destruct a; reflexivity.
  - f_equal. destruct a; reflexivity.
Qed.

Lemma cbs_app_nil : forall a f hi, cbs f (a ++ []) hi = cbs f a hi.
Proof. intros. now rewrite app_nil_r. Qed.

(* pointwise comparison of bound pairs: the second is weaker *)
Definition brel (b b' : option bytes * option bytes) : Prop := lo_le (fst b') (fst b) /\ hi_le (snd b) (snd b').

Lemma brel_refl : forall b, brel b b.
Proof. intros b. split; [apply lo_le_refl | apply hi_le_refl]. Qed.

Lemma cbs_rel : forall seps f f' hi hi', (forall s, lo_le (f' s) (f s)) -> hi_le hi hi' ->
  Forall2 brel (cbs f seps hi) (cbs f' seps hi').
Proof.
  induction seps as [|s r IH]; intros f f' hi hi' Hf Hh; cbn [cbs]; constructor.
  - split; cbn [fst snd]; [apply Hf|]. destruct r; cbn [nxt]; [exact Hh | apply hi_le_refl].
  - apply IH; [intros; apply lo_le_refl | exact Hh].
Qed.

Lemma lo0_le_some : forall lo s, lo_le (lo0 lo s) (Some s).
Proof. intros [b|] s; cbn; [apply bcmp_le_refl | exact I]. Qed.
Lemma fst_fun_le_some : forall lo a s, lo_le (fst_fun (lo0 lo) a s) (Some s).
Proof. intros lo [|x a] s; cbn [fst_fun]; [apply lo0_le_some | apply bcmp_le_refl]. Qed.

(* every child's interval lies inside the node's interval *)
Lemma cbs_inside : forall seps f lo hi, sorted_keys seps = true -> Forall (inb lo hi) seps ->
  (forall s, le_lo lo s -> lo_le lo (f s)) ->
  Forall (fun b => lo_le lo (fst b) /\ hi_le (snd b) hi) (cbs f seps hi).
Proof.
  induction seps as [|s r IH]; intros f lo hi Hs Hb Hf; cbn [cbs]; constructor.
  - inversion Hb as [|? ? [Hlo Hhi] Hb']; subst. cbn [fst snd]. split; [now apply Hf|].
    destruct r as [|s' r']; cbn [nxt]; [apply hi_le_refl|].
    inversion Hb' as [|? ? [_ Hhi'] _]; subst. now apply lt_hi_hi_le.
  - inversion Hb; subst. apply IH; [eapply sorted_keys_tl; eauto | assumption |].
    intros s0 H0. now apply le_lo_lo_le.
Qed.

Lemma lo0_inside : forall lo s, le_lo lo s -> lo_le lo (lo0 lo s).
Proof. intros [b|] s; cbn; tauto. Qed.

(** * The invariant *)

Definition okey_ok (ok : option bytes) (b : ndata) : Prop :=
  match ok with Some k => first_key b = Ok k | None => True end.

(* [PInv h d lo hi ok q]: the committed tree below page q has height <= h, is a search tree with all keys and
   separators in [lo, hi), and is STRICT: the separator of every entry is the first key of the page it points
   to (hence non-root pages are not empty); [ok] is the separator under which q itself is filed, if any *)
Fixpoint PInv (h : nat) (d : disk) (lo hi : option bytes) (ok : option bytes) (q : N) : Prop :=
  match h with O => False | S h' =>
    exists a, dget d q = Some a /\ okey_ok ok (ap_body a) /\
      match ap_body a with
      | Leaves l => sorted_keys (map lkey l) = true /\ Forall (inb lo hi) (map lkey l)
      | Branches es =>
          es <> [] /\ sorted_keys (map fst es) = true /\ NoDup (map snd es) /\
          Forall (inb lo hi) (map fst es) /\
          Forall2 (fun e b => PInv h' d (fst b) (snd b) (Some (fst e)) (snd e)) es (cbounds lo (map fst es) hi)
      end end.

(* the LINK between a branch node's entries and its materialised kids *)
Definition kids_linked (es : list (bytes * N)) (ks : list node) : Prop :=
  NoDup (map n_page ks) /\
  Forall (fun kd => exists key, In (key, n_page kd) es /\ n_orig kd = Some key) ks.

(* [Inv h d z lo hi n]; z = true tolerates an EMPTY branch node at the top (the transient state of a node all
   of whose children have just been merged away) *)
Fixpoint Inv (h : nat) (d : disk) (z : bool) (lo hi : option bytes) (n : node) : Prop :=
  match h with O => False | S h' =>
    match n with
    | Node _ _ _ _ (Leaves l) _ => sorted_keys (map lkey l) = true /\ Forall (inb lo hi) (map lkey l)
    | Node _ _ _ _ (Branches es) ks =>
        (z = false -> es <> []) /\ sorted_keys (map fst es) = true /\ NoDup (map snd es) /\
        Forall (inb lo hi) (map fst es) /\
        kids_linked es ks /\
        Forall2 (fun e b => match find_kid (snd e) ks with
                            | Some kd => Inv h' d false (fst b) (snd b) kd
                            | None => PInv h' d (fst b) (snd b) (Some (fst e)) (snd e) end)
                es (cbounds lo (map fst es) hi)
    end end.

(* the child named by entry e under kid list ks, with bounds b *)
Definition CInv (h : nat) (d : disk) (ks : list node) (e : bytes * N) (b : option bytes * option bytes) : Prop :=
  match find_kid (snd e) ks with
  | Some kd => Inv h d false (fst b) (snd b) kd
  | None => PInv h d (fst b) (snd b) (Some (fst e)) (snd e) end.

(* all page ids named by branch entries at or below a page / a node *)
Fixpoint ppages (h : nat) (d : disk) (q : N) : list N :=
  match h with O => [] | S h' =>
    match dget d q with None => [] | Some a =>
      match ap_body a with
      | Leaves _ => []
      | Branches es => map snd es ++ flat_map (fun e => ppages h' d (snd e)) es end end end.
Fixpoint npages (h : nat) (d : disk) (n : node) : list N :=
  match h with O => [] | S h' =>
    match n with
    | Node _ _ _ _ (Leaves _) _ => []
    | Node _ _ _ _ (Branches es) ks =>
        map snd es ++ flat_map (fun e => match find_kid (snd e) ks with
                                         | Some kd => npages h' d kd | None => ppages h' d (snd e) end) es
    end end.
Definition cpages (h : nat) (d : disk) (ks : list node) (q : N) : list N :=
  match find_kid q ks with Some kd => npages h d kd | None => ppages h d q end.

(* all sequence numbers at or below a node *)
Fixpoint seqs (n : node) : list N :=
  match n with Node _ _ _ sq _ ks => sq :: flat_map seqs ks end.

Lemma seqs_eq : forall n, seqs n = n_seq n :: flat_map seqs (n_kids n).
Proof. intros [p np o s dd ks]. reflexivity. Qed.

Lemma Inv_leaf_eq : forall h d z lo hi p np o s l ks,
  Inv (S h) d z lo hi (Node p np o s (Leaves l) ks) =
  (sorted_keys (map lkey l) = true /\ Forall (inb lo hi) (map lkey l)).
Proof. reflexivity. Qed.

Lemma Inv_branch_eq : forall h d z lo hi p np o s es ks,
  Inv (S h) d z lo hi (Node p np o s (Branches es) ks) =
  ((z = false -> es <> []) /\ sorted_keys (map fst es) = true /\ NoDup (map snd es) /\
   Forall (inb lo hi) (map fst es) /\ kids_linked es ks /\
   Forall2 (CInv h d ks) es (cbounds lo (map fst es) hi)).
Proof. reflexivity. Qed.

Lemma npages_branch_eq : forall h d p np o s es ks,
  npages (S h) d (Node p np o s (Branches es) ks) = map snd es ++ flat_map (fun e => cpages h d ks (snd e)) es.
Proof. reflexivity. Qed.

Lemma Forall_inb_weaken : forall lo hi lo' hi' l, lo_le lo' lo -> hi_le hi hi' ->
  Forall (inb lo hi) l -> Forall (inb lo' hi') l.
Proof. intros. eapply Forall_impl; [|eassumption]. intros k Hk. eapply inb_weaken; eauto. Qed.

Lemma cbounds_rel : forall lo hi lo' hi' seps, lo_le lo' lo -> hi_le hi hi' ->
  Forall2 brel (cbounds lo seps hi) (cbounds lo' seps hi').
Proof.
  intros lo hi lo' hi' seps Hl Hh. apply cbs_rel; [|exact Hh].
  intros s. destruct lo' as [a|], lo as [b|]; cbn in *; try tauto. apply bcmp_le_refl.
Qed.

Lemma PInv_weaken : forall h d lo hi lo' hi' ok q, lo_le lo' lo -> hi_le hi hi' ->
  PInv h d lo hi ok q -> PInv h d lo' hi' ok q.
Proof.
  induction h as [|h IH]; intros d lo hi lo' hi' ok q Hl Hh H; [exact H|].
  cbn [PInv] in *. destruct H as (a & Hg & Hok & Hb). exists a. split; [exact Hg|]. split; [exact Hok|].
  destruct (ap_body a) as [l|es].
  - destruct Hb as [Hs Hf]. split; [exact Hs|]. eapply Forall_inb_weaken; eauto.
  - destruct Hb as (Hne & Hs & Hnd & Hf & HC).
    split; [exact Hne|]. split; [exact Hs|]. split; [exact Hnd|].
    split; [eapply Forall_inb_weaken; eauto|].
    eapply Forall2_weaken_r; [|exact HC|apply cbounds_rel; eassumption].
    cbn beta. intros e b b' _ HP [Hb1 Hb2]. eapply IH; eauto.
Qed.

Lemma CInv_weaken_gen : forall h d ks,
  (forall z lo hi lo' hi' n, lo_le lo' lo -> hi_le hi hi' -> Inv h d z lo hi n -> Inv h d z lo' hi' n) ->
  forall e b b', CInv h d ks e b -> brel b b' -> CInv h d ks e b'.
Proof.
  intros h d ks IH e b b' H [H1 H2]. unfold CInv in *. destruct (find_kid (snd e) ks).
  - eapply IH; eauto.
  - eapply PInv_weaken; eauto.
Qed.

Lemma Inv_weaken : forall h d z lo hi lo' hi' n, lo_le lo' lo -> hi_le hi hi' ->
  Inv h d z lo hi n -> Inv h d z lo' hi' n.
Proof.
  induction h as [|h IH]; intros d z lo hi lo' hi' n Hl Hh H; [exact H|].
  destruct n as [p np o s [l|es] ks].
  - rewrite Inv_leaf_eq in *. destruct H as [Hs Hf]. split; [exact Hs|]. eapply Forall_inb_weaken; eauto.
  - rewrite Inv_branch_eq in *. destruct H as (Hne & Hs & Hnd & Hf & Hk & HC).
    split; [exact Hne|]. split; [exact Hs|]. split; [exact Hnd|].
    split; [eapply Forall_inb_weaken; eauto|]. split; [exact Hk|].
    eapply Forall2_weaken_r; [|exact HC|apply cbounds_rel; eassumption].
    intros e b b' _ HP Hb. eapply CInv_weaken_gen; eauto.
Qed.

Lemma CInv_weaken : forall h d ks e b b', CInv h d ks e b -> brel b b' -> CInv h d ks e b'.
Proof. intros h d ks. apply CInv_weaken_gen. intros. eapply Inv_weaken; eauto. Qed.

Lemma PInv_okey_none : forall h d lo hi ok q, PInv h d lo hi ok q -> PInv h d lo hi None q.
Proof.
  destruct h as [|h]; intros d lo hi ok q H; [exact H|]. cbn [PInv] in *.
  destruct H as (a & Hg & _ & Hb). exists a. split; [exact Hg|]. split; [exact I | exact Hb].
Qed.

Lemma Inv_z_true : forall h d z lo hi n, Inv h d z lo hi n -> Inv h d true lo hi n.
Proof.
  destruct h as [|h]; intros d z lo hi n H; [exact H|]. destruct n as [p np o s [l|es] ks]; [exact H|].
  rewrite Inv_branch_eq in *. destruct H as (_ & H). split; [discriminate | exact H].
Qed.

Lemma Inv_z_false : forall h d z lo hi n, Inv h d z lo hi n -> n_data n <> Branches [] -> Inv h d false lo hi n.
Proof.
  destruct h as [|h]; intros d z lo hi n H Hne; [exact H|]. destruct n as [p np o s [l|es] ks]; [exact H|].
  rewrite Inv_branch_eq in *. destruct H as (_ & H). split; [|exact H]. intros _ E. apply Hne. now subst.
Qed.

Lemma node_of_page_Inv : forall h d lo hi ok q a sq, dget d q = Some a ->
  PInv h d lo hi ok q -> Inv h d false lo hi (node_of_page q a sq).
Proof.
  destruct h as [|h]; intros d lo hi ok q a sq Hg H; [exact H|]. cbn [PInv] in H.
  destruct H as (a' & Hg' & _ & Hb). rewrite Hg in Hg'. inversion Hg'; subst a'.
  unfold node_of_page. destruct (ap_body a) as [l|es].
  - rewrite Inv_leaf_eq. exact Hb.
  - rewrite Inv_branch_eq. destruct Hb as (Hne & Hs & Hnd & Hf & HC).
    split; [intros _; exact Hne|]. split; [exact Hs|]. split; [exact Hnd|]. split; [exact Hf|].
    split; [split; constructor|].
    eapply Forall2_impl; [|exact HC]. intros e b HP. unfold CInv. rewrite find_kid_nil. exact HP.
Qed.

Lemma node_of_page_orig : forall h d lo hi key q a sq, dget d q = Some a ->
  PInv h d lo hi (Some key) q -> n_orig (node_of_page q a sq) = Some key.
Proof.
  destruct h as [|h]; intros d lo hi key q a sq Hg H; [destruct H|]. cbn [PInv] in H.
  destruct H as (a' & Hg' & Hok & _). rewrite Hg in Hg'. inversion Hg'; subst a'.
  cbn [okey_ok] in Hok. unfold node_of_page. cbn [n_orig]. now rewrite Hok.
Qed.

Lemma node_of_page_npages : forall h d q a sq, dget d q = Some a ->
  npages h d (node_of_page q a sq) = ppages h d q.
Proof.
  destruct h as [|h]; intros d q a sq Hg; [reflexivity|]. unfold node_of_page. cbn [ppages]. rewrite Hg.
  destruct (ap_body a) as [l|es]; [reflexivity|]. rewrite npages_branch_eq. f_equal.
Qed.

(** * The view lies within the bounds; the invariant implies [wf_page] / [wf_node] *)

Lemma Forall2_pair_Forall : forall {A B C} (P : A -> B -> Prop) (V : A -> C -> Prop) (Q : C -> Prop) xs bs ls,
  Forall2 P xs bs -> Forall2 V xs ls ->
  (forall x b l, In b bs -> P x b -> V x l -> Q l) -> Forall Q ls.
Proof.
  intros A B C P V Q xs bs ls HP. revert ls.
  induction HP as [|x b xs bs Hx HP IH]; intros ls HV Himp; inversion HV; subst; constructor.
  - eapply Himp; eauto. now left.
  - apply IH; [assumption|]. intros x0 b0 l0 Hin. apply Himp. now right.
Qed.

Lemma Forall_concat_intro : forall {A} (Q : A -> Prop) ls, Forall (Forall Q) ls -> Forall Q (concat ls).
Proof.
  intros A Q ls H. induction H as [|l ls Hl H IH]; cbn [concat]; [constructor|].
  apply Forall_app. split; assumption.
Qed.

Lemma Forall_map_iff : forall {A B} (f : A -> B) (Q : B -> Prop) l, Forall Q (map f l) <-> Forall (fun x => Q (f x)) l.
Proof. intros. apply Forall_map. Qed.

Lemma cbounds_inside : forall lo hi seps, sorted_keys seps = true -> Forall (inb lo hi) seps ->
  Forall (fun b => lo_le lo (fst b) /\ hi_le (snd b) hi) (cbounds lo seps hi).
Proof. intros lo hi seps Hs Hf. apply cbs_inside; [exact Hs | exact Hf | apply lo0_inside]. Qed.

Lemma PInv_view_bounds : forall h d lo hi ok q h' l, PInv h d lo hi ok q -> PageView d h' q l ->
  Forall (inb lo hi) (map lkey l).
Proof.
  induction h as [|h IH]; intros d lo hi ok q h' l H Hv; [destruct H|]. cbn [PInv] in H.
  destruct H as (a & Hg & _ & Hb).
  inversion Hv as [? ? a' l0 Hg' Hb' | ? ? a' es ls Hg' Hb' HF]; subst;
    rewrite Hg in Hg'; inversion Hg'; subst a'; rewrite Hb' in Hb.
  - apply Hb.
  - destruct Hb as (Hne & Hs & Hnd & Hf & HC). apply Forall_map_iff. apply Forall_concat_intro.
    pose proof (cbounds_inside lo hi _ Hs Hf) as Hin. rewrite Forall_forall in Hin.
    eapply Forall2_pair_Forall; [exact HC | exact HF |]. cbn beta. intros e b l1 Hb1 HP HV.
    apply Forall_map_iff. destruct (Hin b Hb1) as [H1 H2].
    eapply Forall_inb_weaken; [exact H1 | exact H2 |]. eapply IH; eauto.
Qed.

Lemma Inv_view_bounds : forall h d z lo hi n h' l, Inv h d z lo hi n -> NodeView d h' n l ->
  Forall (inb lo hi) (map lkey l).
Proof.
  induction h as [|h IH]; intros d z lo hi n h' l H Hv; [destruct H|].
  destruct n as [p np o s [l0|es] ks].
  - apply NodeView_leaf_inv in Hv. destruct Hv as [-> _]. apply H.
  - rewrite Inv_branch_eq in H. destruct H as (Hne & Hs & Hnd & Hf & Hk & HC).
    apply NodeView_branch_inv in Hv. destruct Hv as (h0 & ls & -> & -> & HF).
    apply Forall_map_iff. apply Forall_concat_intro.
    pose proof (cbounds_inside lo hi _ Hs Hf) as Hin. rewrite Forall_forall in Hin.
    eapply Forall2_pair_Forall; [exact HC | exact HF |]. cbn beta. intros e b l1 Hb1 HP HV.
    apply Forall_map_iff. destruct (Hin b Hb1) as [H1 H2].
    eapply Forall_inb_weaken; [exact H1 | exact H2 |].
    unfold CInv, ChildView in *. destruct (find_kid (snd e) ks).
    + eapply IH; eauto.
    + eapply PInv_view_bounds; eauto.
Qed.

Lemma cbs_nth : forall seps f hi j b, nth_error (cbs f seps hi) j = Some b ->
  (1 <= j -> fst b = Some (nth j seps [])) /\ (S j < length seps -> snd b = Some (nth (S j) seps [])).
Proof.
  induction seps as [|s r IH]; intros f hi j b H; [destruct j; discriminate|].
  destruct j as [|j]; cbn [cbs nth_error] in H.
  - inversion H; subst b. cbn [fst snd]. split; [lia|]. intros Hl. cbn [length] in Hl.
    destruct r as [|s' r']; [cbn in Hl; lia | reflexivity].
  - destruct (IH Some hi j b H) as [H1 H2]. split.
    + intros _. destruct j as [|j].
      * destruct r as [|s' r']; cbn [cbs nth_error] in H; [discriminate|]. inversion H; subst b. reflexivity.
      * cbn [nth]. apply H1. lia.
    + intros Hl. cbn [length] in Hl. cbn [nth]. apply H2. lia.
Qed.

Lemma bounds_in_range : forall seps f hi j b l, nth_error (cbs f seps hi) j = Some b ->
  Forall (inb (fst b) (snd b)) (map lkey l) -> in_range seps j l.
Proof.
  intros seps f hi j b l Hb Hl. destruct (cbs_nth _ _ _ _ _ Hb) as [H1 H2]. apply (Forall_map_iff lkey) in Hl. split.
  - intros Hj. eapply Forall_impl; [|exact Hl]. cbn beta. intros e [He _]. rewrite (H1 Hj) in He. exact He.
  - intros Hj. eapply Forall_impl; [|exact Hl]. cbn beta. intros e [_ He]. rewrite (H2 Hj) in He. exact He.
Qed.

Lemma PInv_wf_page : forall h d lo hi ok q, PInv h d lo hi ok q -> wf_page d q.
Proof.
  induction h as [|h IH]; intros d lo hi ok q H; [destruct H|]. cbn [PInv] in H.
  destruct H as (a & Hg & _ & Hb). destruct (ap_body a) as [l|es] eqn:Eb.
  - eapply wfp_leaf; eauto. apply Hb.
  - destruct Hb as (Hne & Hs & Hnd & Hf & HC). eapply wfp_branch; eauto.
    + repeat split; assumption.
    + apply Forall_forall. intros e He. destruct (In_nth_error _ _ He) as [j Hj].
      destruct (Forall2_nth_error_l _ _ _ _ _ HC Hj) as (b & Hb & HP). eapply IH; eauto.
    + intros j e l Hj [h' Hv]. destruct (Forall2_nth_error_l _ _ _ _ _ HC Hj) as (b & Hb & HP).
      eapply bounds_in_range; [exact Hb|]. eapply PInv_view_bounds; eauto.
Qed.

Theorem Inv_wf_node : forall h d lo hi n, Inv h d false lo hi n -> wf_node d n.
Proof.
  induction h as [|h IH]; intros d lo hi n H; [destruct H|].
  destruct n as [p np o s [l|es] ks].
  - apply wfn_leaf. apply H.
  - rewrite Inv_branch_eq in H. destruct H as (Hne & Hs & Hnd & Hf & Hk & HC).
    apply wf_node_branch_intro.
    + split; [now apply Hne|]. split; assumption.
    + apply Forall_forall. intros e He. destruct (In_nth_error _ _ He) as [j Hj].
      destruct (Forall2_nth_error_l _ _ _ _ _ HC Hj) as (b & Hb & HP).
      unfold CInv, ChildWf in *. destruct (find_kid (snd e) ks).
      * eapply IH; eauto.
      * eapply PInv_wf_page; eauto.
    + intros j e l Hj [h' Hv]. destruct (Forall2_nth_error_l _ _ _ _ _ HC Hj) as (b & Hb & HP).
      eapply bounds_in_range; [exact Hb|].
      unfold CInv, ChildView in *. destruct (find_kid (snd e) ks).
      * eapply Inv_view_bounds; eauto.
      * eapply PInv_view_bounds; eauto.
Qed.

Lemma sorted_app_cross : forall a b x y, sorted_keys (a ++ b) = true -> In x a -> In y b -> bcmp x y = Lt.
Proof.
  induction a as [|z a IH]; intros b x y Hs Hx Hy; [destruct Hx|].
  cbn [app] in Hs. destruct (sorted_keys_cons _ _ Hs) as [Hall Hs'].
  destruct Hx as [-> | Hx]; [|eapply IH; eauto].
  rewrite Forall_forall in Hall. apply Hall. apply in_or_app. now right.
Qed.

Lemma sorted_remove : forall a x b, sorted_keys (a ++ x :: b) = true -> sorted_keys (a ++ b) = true.
Proof.
  intros a x b Hs. destruct (sorted_keys_app _ _ Hs) as [Ha Hxb].
  apply sorted_app_intro; [exact Ha | eapply sorted_keys_tl; eauto |].
  intros u v Hu Hv. eapply sorted_app_cross; [exact Hs | exact Hu | now right].
Qed.

Lemma entry_by_key : forall (es : list (bytes * N)) k q q', sorted_keys (map fst es) = true ->
  In (k, q) es -> In (k, q') es -> q = q'.
Proof.
  intros es k q q' Hs H1 H2. apply sorted_NoDup in Hs.
  pose proof (NoDup_map_inj fst es (k, q) (k, q') Hs H1 H2 eq_refl) as E. now inversion E.
Qed.
Lemma entry_by_page : forall (es : list (bytes * N)) k k' q, NoDup (map snd es) ->
  In (k, q) es -> In (k', q) es -> k = k'.
Proof.
  intros es k k' q Hs H1 H2.
  pose proof (NoDup_map_inj snd es (k, q) (k', q) Hs H1 H2 eq_refl) as E. now inversion E.
Qed.

Lemma replace_kid_id : forall ks k, find_kid (n_page k) ks = Some k -> replace_kid ks k = ks.
Proof.
  intros ks k H. destruct (find_kid_split _ _ _ H) as (a & b & -> & _ & Ha).
  apply replace_kid_hit; [reflexivity | exact Ha].
Qed.

Lemma filter_seq_split : forall a k b, NoDup (map n_seq (a ++ k :: b)) ->
  filter (not_seq (n_seq k)) (a ++ k :: b) = a ++ b.
Proof.
  intros a k b Hnd. rewrite filter_app. cbn [filter]. unfold not_seq at 2. rewrite N.eqb_refl. cbn [negb].
  rewrite map_app in Hnd. cbn [map] in Hnd.
  pose proof (NoDup_remove_2 _ _ _ Hnd) as Hk.
  rewrite !filter_not_seq_id; [reflexivity | |]; intros Hin; apply Hk; apply in_or_app; tauto.
Qed.

Lemma seqs_kids_NoDup : forall ks, NoDup (flat_map seqs ks) -> NoDup (map n_seq ks).
Proof.
  induction ks as [|x ks IH]; intros H; [constructor|]. cbn [flat_map map] in *. rewrite seqs_eq in H.
  cbn [app] in H. inversion H as [|? ? Hx Hnd]; subst. constructor.
  - intros Hin. apply Hx. apply in_or_app. right. apply in_map_iff in Hin. destruct Hin as (y & Hy & Hin).
    apply in_flat_map. exists y. split; [exact Hin|]. rewrite seqs_eq, <- Hy. now left.
  - apply IH. eapply NoDup_app_r; eauto.
Qed.

Lemma filter_seq_spec : forall ks k, NoDup (map n_seq ks) -> NoDup (map n_page ks) -> In k ks ->
  let ks0 := filter (not_seq (n_seq k)) ks in
  (forall q', q' <> n_page k -> find_kid q' ks0 = find_kid q' ks) /\
  (forall x, In x ks0 <-> In x ks /\ x <> k) /\
  NoDup (map n_page ks0) /\
  Permutation (flat_map seqs ks) (seqs k ++ flat_map seqs ks0).
Proof.
  intros ks k Hs Hp Hin ks0. destruct (in_split _ _ Hin) as (a & b & E). subst ks.
  assert (E0 : ks0 = a ++ b) by (subst ks0; now apply filter_seq_split). rewrite E0. clear E0 ks0.
  rewrite map_app in Hp. cbn [map] in Hp. pose proof (NoDup_remove_2 _ _ _ Hp) as Hk.
  split; [|split; [|split]].
  - intros q' Hq'. unfold find_kid. rewrite !find_app. cbn [find].
    assert (Ek : N.eqb (n_page k) q' = false) by lia. now rewrite Ek.
  - intros x. rewrite !in_app_iff. cbn [In]. split.
    + intros Hx. split; [tauto|]. intros ->. apply Hk. rewrite <- map_app. apply in_map. now apply in_or_app.
    + intros [[Hx | [Hx | Hx]] Hne]; [tauto | congruence | tauto].
  - rewrite map_app. eapply NoDup_remove_1; eauto.
  - rewrite !flat_map_app. cbn [flat_map]. rewrite app_assoc.
    rewrite (Permutation_app_comm (flat_map seqs a) (seqs k)). now rewrite <- app_assoc.
Qed.

(** * Joining two adjacent nodes *)

(* kid lists that resolve the pages of the entries E alike show the same children and name the same pages *)
Lemma ChildView_ext : forall d h ks ks' (E : list (bytes * N)) L,
  (forall e, In e E -> find_kid (snd e) ks' = find_kid (snd e) ks) ->
  Forall2 (fun e l => ChildView d h ks (snd e) l) E L -> Forall2 (fun e l => ChildView d h ks' (snd e) l) E L.
Proof. intros d h ks ks' E L H HF. eapply Forall2_impl_in; [|exact HF]. intros e l He HV. unfold ChildView in *. now rewrite H. Qed.

Lemma cpages_ext : forall h d ks ks' (E : list (bytes * N)),
  (forall e, In e E -> find_kid (snd e) ks' = find_kid (snd e) ks) ->
  flat_map (fun e => cpages h d ks' (snd e)) E = flat_map (fun e => cpages h d ks (snd e)) E.
Proof. intros h d ks ks' E H. apply flat_map_ext_in. intros e He. unfold cpages. now rewrite H. Qed.

Definition djoin (a b : ndata) : ndata :=
  match a, b with
  | Leaves l1, Leaves l2 => Leaves (l1 ++ l2)
  | Branches e1, Branches e2 => Branches (e1 ++ e2)
  | _, _ => a end.

Lemma Inv_dkeys : forall h d z lo hi n, Inv h d z lo hi n ->
  sorted_keys (dkeys (n_data n)) = true /\ Forall (inb lo hi) (dkeys (n_data n)).
Proof.
  destruct h as [|h]; intros d z lo hi n H; [destruct H|]. destruct n as [p np o s [l|es] ks].
  - exact H.
  - rewrite Inv_branch_eq in H. cbn [n_data dkeys]. tauto.
Qed.

Lemma adjacent_lt : forall la m hb x y, inb la (Some m) x -> inb (Some m) hb y -> bcmp x y = Lt.
Proof. intros la m hb x y [_ H1] [H2 _]. cbn in H1, H2. eapply bcmp_lt_le_trans; eauto. Qed.

Lemma merge_data_lr : forall a b md la m hb,
  sorted_keys (dkeys a) = true -> Forall (inb la (Some m)) (dkeys a) ->
  sorted_keys (dkeys b) = true -> Forall (inb (Some m) hb) (dkeys b) ->
  merge_data a b = Ok md -> md = djoin a b.
Proof.
  intros a b md la m hb Sa Fa Sb Fb H. rewrite Forall_forall in Fa, Fb.
  destruct a as [l1|e1], b as [l2|e2]; cbn [dkeys djoin] in *; try discriminate.
  - rewrite merge_data_leaves_lr in H; [now inversion H | exact Sa | exact Sb |].
    intros x y Hx Hy. eapply adjacent_lt; [apply Fa | apply Fb]; now apply in_map.
  - rewrite merge_data_branches_lr in H; [now inversion H | exact Sa | exact Sb |].
    intros x y Hx Hy. eapply adjacent_lt; [apply Fa | apply Fb]; now apply in_map.
Qed.

Lemma merge_data_rl : forall a b md la m hb,
  sorted_keys (dkeys a) = true -> Forall (inb la (Some m)) (dkeys a) ->
  sorted_keys (dkeys b) = true -> Forall (inb (Some m) hb) (dkeys b) ->
  merge_data b a = Ok md -> md = djoin a b.
Proof.
  intros a b md la m hb Sa Fa Sb Fb H. rewrite Forall_forall in Fa, Fb.
  destruct a as [l1|e1], b as [l2|e2]; cbn [dkeys djoin] in *; try discriminate.
  - rewrite merge_data_leaves_rl in H; [now inversion H | exact Sb | exact Sa |].
    intros x y Hx Hy. eapply adjacent_lt; [apply Fa | apply Fb]; now apply in_map.
  - rewrite merge_data_branches_rl in H; [now inversion H | exact Sb | exact Sa |].
    intros x y Hx Hy. eapply adjacent_lt; [apply Fa | apply Fb]; now apply in_map.
Qed.

Lemma merge_data_kind : forall a b md, merge_data a b = Ok md -> is_leaf a = is_leaf b.
Proof. intros a b md H. apply merge_data_ok_iff. eauto. Qed.

(* the kid list [kk] of the joined node resolves the pages of a's entries as ka does, those of b's as kb does *)
Definition kids_join (da db : ndata) (ka kb kk : list node) : Prop :=
  match da with Leaves _ => True | Branches _ =>
  (forall q, In q (dpages da) -> find_kid q kk = find_kid q ka) /\
  (forall q, In q (dpages db) -> find_kid q kk = find_kid q kb) /\
  NoDup (map n_page kk) /\ (forall x, In x kk -> In x ka \/ In x kb) end.

Lemma kids_linked_find : forall es ks k, kids_linked es ks -> In k ks -> find_kid (n_page k) ks = Some k.
Proof. intros es ks k Hlk Hkin. apply find_kid_NoDup; [apply Hlk | exact Hkin]. Qed.

Lemma kids_linked_pages : forall es ks x, kids_linked es ks -> In x ks -> In (n_page x) (map snd es).
Proof.
  intros es ks x [_ HF] Hx. rewrite Forall_forall in HF. destruct (HF x Hx) as (key & Hin & _).
  apply in_map_iff. exists (key, n_page x). split; [reflexivity | exact Hin].
Qed.

Lemma kids_join_app : forall e1 e2 ka kb, kids_linked e1 ka -> kids_linked e2 kb ->
  (forall q, In q (map snd e1) -> In q (map snd e2) -> False) ->
  kids_join (Branches e1) (Branches e2) ka kb (ka ++ kb) /\ kids_join (Branches e1) (Branches e2) ka kb (kb ++ ka).
Proof.
  intros e1 e2 ka kb La Lb Hd. cbn [dpages kids_join].
  assert (Hnd : NoDup (map n_page (ka ++ kb))).
  { rewrite map_app. apply NoDup_app_intro; [apply La | apply Lb |].
    intros q H1 H2. apply in_map_iff in H1, H2. destruct H1 as (x & <- & Hx), H2 as (y & Hy & Hy').
    apply (Hd (n_page x)); [eapply kids_linked_pages; eauto | rewrite <- Hy; eapply kids_linked_pages; eauto]. }
  split; (split; [|split; [|split]]).
  - intros q Hq. apply find_kid_app_l. intros x Hx E. apply (Hd q Hq). rewrite <- E. eapply kids_linked_pages; eauto.
  - intros q Hq. apply find_kid_app_r. intros x Hx E. apply (Hd q); [|exact Hq]. rewrite <- E. eapply kids_linked_pages; eauto.
  - exact Hnd.
  - intros x Hx. apply in_app_or in Hx. tauto.
  - intros q Hq. apply find_kid_app_r. intros x Hx E. apply (Hd q Hq). rewrite <- E. eapply kids_linked_pages; eauto.
  - intros q Hq. apply find_kid_app_l. intros x Hx E. apply (Hd q); [|exact Hq]. rewrite <- E. eapply kids_linked_pages; eauto.
  - eapply Permutation_NoDup; [|exact Hnd]. rewrite !map_app. apply Permutation_app_comm.
  - intros x Hx. apply in_app_or in Hx. tauto.
Qed.

Lemma lo0_idem : forall lo x, lo0 (lo0 lo x) = lo0 lo.
Proof. intros [b|] x; reflexivity. Qed.

Lemma CInv_transfer : forall h d ks ks' es bs bs',
  Forall2 (CInv h d ks) es bs -> Forall2 brel bs bs' ->
  (forall e, In e es -> find_kid (snd e) ks' = find_kid (snd e) ks) ->
  Forall2 (CInv h d ks') es bs'.
Proof.
  intros h d ks ks' es bs bs' HC Hb Hf. eapply Forall2_weaken_r; [|exact HC|exact Hb].
  intros e b b' He HP Hr. pose proof (CInv_weaken _ _ _ _ _ _ HP Hr) as H. unfold CInv in *.
  now rewrite (Hf e He).
Qed.

Lemma inb_lo_first : forall a hi fk rest, sorted_keys (fk :: rest) = true ->
  Forall (inb (Some a) hi) (fk :: rest) -> Forall (inb (Some fk) hi) (fk :: rest).
Proof.
  intros a hi fk rest Hs Hf. destruct (sorted_keys_cons _ _ Hs) as [Hall _]. inversion Hf as [|? ? [_ H1] Hf']; subst. constructor.
  - split; [cbn; apply bcmp_le_refl | exact H1].
  - rewrite Forall_forall in *. intros x Hx. destruct (Hf' x Hx) as [_ H2]. split; [|exact H2].
    cbn. apply bcmp_lt_le. now apply Hall.
Qed.

Lemma Inv_lo_first : forall h d z a hi n fk, Inv h d z (Some a) hi n -> first_key (n_data n) = Ok fk ->
  Inv h d z (Some fk) hi n.
Proof.
  destruct h as [|h]; intros d z a hi n fk H Hfk; [destruct H|]. destruct n as [p np o s [l|es] ks]; cbn [n_data] in Hfk.
  - rewrite Inv_leaf_eq in *. destruct H as [Hs Hf]. split; [exact Hs|].
    destruct l as [|e l]; [constructor|]. cbn in Hfk. inversion Hfk; subst fk. eapply inb_lo_first; eauto.
  - rewrite Inv_branch_eq in *. destruct H as (Hne & Hs & Hnd & Hf & Hk & HC).
    split; [exact Hne|]. split; [exact Hs|]. split; [exact Hnd|]. split; [|split; [exact Hk | exact HC]].
    destruct es as [|e es]; [constructor|]. cbn in Hfk. inversion Hfk; subst fk. eapply inb_lo_first; eauto.
Qed.

Lemma Inv_height : forall h d z lo hi n, Inv h d z lo hi n -> exists h0, h = S h0.
Proof. destruct h; intros d z lo hi n H; [destruct H | eauto]. Qed.

Lemma join_Inv : forall h d la m hb A B za zb p np o s kk,
  Inv h d za la (Some m) A -> Inv h d zb (Some m) hb B ->
  n_data A <> Branches [] -> n_data B <> Branches [] ->
  lo_le la (Some m) -> hi_le (Some m) hb ->
  is_leaf (n_data A) = is_leaf (n_data B) ->
  kids_join (n_data A) (n_data B) (n_kids A) (n_kids B) kk ->
  (forall q, In q (dpages (n_data A)) -> In q (dpages (n_data B)) -> False) ->
  Inv h d false la hb (Node p np o s (djoin (n_data A) (n_data B)) kk).
Proof.
  intros h d la m hb A B za zb p np o s kk HA HB NA NB Hlm Hmh Hk HJ Hd.
  destruct (Inv_height _ _ _ _ _ _ HA) as [h0 ->].
  destruct (Inv_dkeys _ _ _ _ _ _ HA) as [SA FA]. destruct (Inv_dkeys _ _ _ _ _ _ HB) as [SB FB].
  assert (Hcross : forall x y, In x (dkeys (n_data A)) -> In y (dkeys (n_data B)) -> bcmp x y = Lt).
  { rewrite Forall_forall in FA, FB. intros x y Hx Hy. eapply adjacent_lt; [apply FA | apply FB]; assumption. }
  assert (FA' : Forall (inb la hb) (dkeys (n_data A))).
  { eapply Forall_inb_weaken; [apply lo_le_refl | exact Hmh | exact FA]. }
  assert (FB' : Forall (inb la hb) (dkeys (n_data B))).
  { eapply Forall_inb_weaken; [exact Hlm | apply hi_le_refl | exact FB]. }
  destruct A as [pa npa oa sa [lA|eA] kA], B as [pb npb ob sb [lB|eB] kB]; cbn [n_data n_kids is_leaf dkeys djoin dpages kids_join] in *;
    try discriminate.
  - rewrite Inv_leaf_eq. rewrite map_app. split.
    + apply sorted_app_intro; assumption.
    + apply Forall_app. split; assumption.
  - rewrite Inv_branch_eq in HA, HB. destruct HA as (_ & _ & NdA & _ & LA & CA). destruct HB as (_ & _ & NdB & _ & LB & CB).
    destruct HJ as (J1 & J2 & J3 & J4). rewrite Inv_branch_eq.
    split; [intros _ E; apply app_eq_nil in E; destruct E as [-> _]; now apply NA|].
    split; [rewrite map_app; apply sorted_app_intro; assumption|].
    split; [rewrite map_app; apply NoDup_app_intro; assumption|].
    split; [rewrite map_app; apply Forall_app; split; assumption|].
    split.
    { split; [exact J3|]. apply Forall_forall. intros x Hx. destruct LA as [_ LA], LB as [_ LB].
      rewrite Forall_forall in LA, LB. destruct (J4 x Hx) as [Hx' | Hx'].
      - destruct (LA x Hx') as (key & Hin & Ho). exists key. split; [apply in_or_app; now left | exact Ho].
      - destruct (LB x Hx') as (key & Hin & Ho). exists key. split; [apply in_or_app; now right | exact Ho]. }
    destruct eB as [|[b0 q0] eB']; [congruence|]. rewrite map_app. cbn [map fst].
    unfold cbounds. rewrite cbs_app. apply Forall2_app.
    + eapply CInv_transfer; [exact CA | |].
      * apply cbs_rel; [intros; apply lo_le_refl|]. cbn. inversion FB as [|? ? [H1 _] _]; subst. exact H1.
      * intros e He. apply J1. now apply in_map.
    + eapply CInv_transfer; [exact CB | |].
      * unfold cbounds. cbn [map fst]. apply cbs_rel; [|apply hi_le_refl]. intros s0. cbn [lo0]. apply fst_fun_le_some.
      * intros e He. apply J2. now apply in_map.
Qed.

Lemma join_view : forall d h A B lA lB p np o s kk,
  NodeView d h A lA -> NodeView d h B lB -> is_leaf (n_data A) = is_leaf (n_data B) ->
  kids_join (n_data A) (n_data B) (n_kids A) (n_kids B) kk ->
  NodeView d h (Node p np o s (djoin (n_data A) (n_data B)) kk) (lA ++ lB).
Proof.
  intros d h A B lA lB p np o s kk VA VB Hk HJ.
  destruct A as [pa npa oa sa [l1|eA] kA], B as [pb npb ob sb [l2|eB] kB]; cbn [n_data n_kids is_leaf djoin dpages kids_join] in *;
    try discriminate; [|destruct HJ as (J1 & J2 & _ & _)].
  - apply NodeView_leaf_inv in VA, VB. destruct VA as [-> [h0 ->]], VB as [-> _]. apply NV_leaf.
  - apply NodeView_branch_inv in VA, VB. destruct VA as (h0 & ls1 & -> & -> & F1), VB as (h0' & ls2 & E & -> & F2).
    inversion E; subst h0'. rewrite <- concat_app. apply NodeView_branch_intro. apply Forall2_app.
    + eapply ChildView_ext; [|exact F1]. intros e He. apply J1. now apply in_map.
    + eapply ChildView_ext; [|exact F2]. intros e He. apply J2. now apply in_map.
Qed.

Lemma npages_leaf : forall h d n, is_leaf (n_data n) = true -> npages h d n = [].
Proof. intros [|h] d [p np o s [l|es] ks] H; try reflexivity. discriminate. Qed.

Lemma join_npages : forall d h A B p np o s kk,
  is_leaf (n_data A) = is_leaf (n_data B) ->
  kids_join (n_data A) (n_data B) (n_kids A) (n_kids B) kk ->
  Permutation (npages h d (Node p np o s (djoin (n_data A) (n_data B)) kk)) (npages h d A ++ npages h d B).
Proof.
  intros d h A B p np o s kk Hk HJ. destruct h as [|h]; [constructor|].
  destruct A as [pa npa oa sa [l1|eA] kA], B as [pb npb ob sb [l2|eB] kB]; cbn [n_data n_kids is_leaf djoin dpages kids_join] in *;
    try discriminate; [|destruct HJ as (J1 & J2 & _ & _)].
  - constructor.
  - rewrite !npages_branch_eq. rewrite map_app, flat_map_app.
    rewrite (cpages_ext h d kA kk eA), (cpages_ext h d kB kk eB);
      [|intros e He; apply J2; now apply in_map | intros e He; apply J1; now apply in_map]. rewrite <- !app_assoc. apply Permutation_app_head.
    rewrite !app_assoc. apply Permutation_app_tail. apply Permutation_app_comm.
Qed.

Lemma npages_dpages : forall h d n, incl (dpages (n_data n)) (npages (S h) d n).
Proof.
  intros h d [p np o s [l|es] ks]; cbn [n_data dpages]; [intros x []|].
  rewrite npages_branch_eq. intros x Hx. apply in_or_app. now left.
Qed.

(** * The transaction state *)

(* everything but [pending] and [seqc] is untouched, [seqc] only grows *)
Definition tx_frame (s s' : txs) : Prop :=
  free s' = free s /\ txid s' = txid s /\ np s' = np s /\ psz s' = psz s /\ wr s' = wr s /\ flw s' = flw s /\
  (seqc s <= seqc s')%N.

Lemma tx_frame_refl : forall s, tx_frame s s.
Proof. intros s. unfold tx_frame. repeat split; lia. Qed.
Lemma tx_frame_trans : forall s1 s2 s3, tx_frame s1 s2 -> tx_frame s2 s3 -> tx_frame s1 s3.
Proof.
  intros s1 s2 s3 (A1 & A2 & A3 & A4 & A5 & A6 & A7) (B1 & B2 & B3 & B4 & B5 & B6 & B7).
  unfold tx_frame. repeat split; try congruence. lia.
Qed.

Definition bump (s : txs) : txs := snd (next_seq s).
Lemma tx_frame_bump : forall s, tx_frame s (bump s).
Proof. intros s. unfold tx_frame, bump, next_seq. cbn. repeat split; lia. Qed.
Lemma seqc_bump : forall s, seqc (bump s) = (seqc s + 1)%N.
Proof. reflexivity. Qed.

Lemma free_run_frame : forall n s p,
  free (free_run s p n) = free s /\ txid (free_run s p n) = txid s /\ np (free_run s p n) = np s /\
  psz (free_run s p n) = psz s /\ wr (free_run s p n) = wr s /\ flw (free_run s p n) = flw s /\
  seqc (free_run s p n) = seqc s.
Proof.
  induction n as [|n IH]; intros s p; cbn [free_run]; [repeat split|].
  destruct (freed_in_tx s p); [apply IH|].
  destruct (IH (upd_pending s (pend_add (txid s) p (pending s))) (p + 1)%N) as (A1 & A2 & A3 & A4 & A5 & A6 & A7).
  rewrite A1, A2, A3, A4, A5, A6, A7. repeat split.
Qed.

Lemma free_node_page_frame : forall s k, tx_frame s (free_node_page s k) /\ seqc (free_node_page s k) = seqc s.
Proof.
  intros s k. unfold free_node_page. destruct (n_page k =? 0)%N; [split; [apply tx_frame_refl | reflexivity]|].
  unfold free_pages. destruct (free_run_frame (N.to_nat (n_np k)) s (n_page k)) as (A1 & A2 & A3 & A4 & A5 & A6 & A7).
  unfold tx_frame. rewrite A1, A2, A3, A4, A5, A6, A7. repeat split. lia.
Qed.

(* the pages handed back do not depend on the sequence counter *)
Lemma free_run_pending_ext : forall n s1 s2 p, pending s1 = pending s2 -> txid s1 = txid s2 ->
  pending (free_run s1 p n) = pending (free_run s2 p n).
Proof.
  induction n as [|n IH]; intros s1 s2 p Hp Ht; cbn [free_run]; [exact Hp|].
  assert (E : freed_in_tx s1 p = freed_in_tx s2 p) by (unfold freed_in_tx; now rewrite Hp, Ht).
  rewrite E. destruct (freed_in_tx s2 p); [now apply IH|]. apply IH; cbn; [now rewrite Hp, Ht | exact Ht].
Qed.

Lemma free_node_page_bump : forall s k, pending (free_node_page (bump s) k) = pending (free_node_page s k).
Proof.
  intros s k. unfold free_node_page. destruct (n_page k =? 0)%N; [reflexivity|].
  unfold free_pages. apply free_run_pending_ext; reflexivity.
Qed.

(* the outcome of [try_merge] on the transaction state: nothing, or the page run of k is handed back
   (after a sibling was read in: with the sequence counter advanced by one) *)
Definition merge_tx (s : txs) (k : node) (s' : txs) : Prop :=
  s' = s \/ s' = free_node_page s k \/ s' = free_node_page (bump s) k.

Lemma merge_tx_frame : forall s k s', merge_tx s k s' ->
  tx_frame s s' /\ (seqc s' <= seqc s + 1)%N /\
  (pending s' = pending s \/ pending s' = pending (free_node_page s k)).
Proof.
  intros s k s' [-> | [-> | ->]].
  - split; [apply tx_frame_refl|]. split; [lia | now left].
  - destruct (free_node_page_frame s k) as [H1 H2]. split; [exact H1|]. split; [lia | now right].
  - destruct (free_node_page_frame (bump s) k) as [H1 H2]. split; [|split].
    + eapply tx_frame_trans; [apply tx_frame_bump | exact H1].
    + rewrite H2, seqc_bump. lia.
    + right. apply free_node_page_bump.
Qed.

(* [try_merge_left] / [try_merge_right] of EngineMergeFacts when the sibling is read in from its page *)
Theorem try_merge_left_new : forall d par k s es ok idx kq q a md,
  needs_merging s k = true ->
  n_data par = Branches es ->
  (0 < dlen (n_data k))%N ->
  n_orig k = Some ok ->
  bsearch (map fst es) ok = (true, idx) ->
  (0 < idx)%N ->
  nthN es (idx - 1) = Some (kq, q) ->
  find_kid q (n_kids par) = None -> dget d q = Some a ->
  merge_data (n_data (node_of_page q a (seqc s))) (n_data k) = Ok md ->
  try_merge d par k s =
    Ok (set_kids (set_data par (Branches (remove_at es (N.to_nat idx))))
          (filter (not_seq (n_seq k)) (n_kids par) ++
           [set_kids (set_data (node_of_page q a (seqc s)) md) (n_kids (node_of_page q a (seqc s)) ++ n_kids k)]),
        free_node_page (bump s) k).
Proof.
  intros d par k s es ok idx kq q a md Hn Hd Hk Ho Hb Hi Hsp Hf Hg Hm. assert (E3 : (idx =? 0)%N = false) by lia.
  rewrite (try_merge_at d par k s es idx kq q); [unfold sib_of; rewrite Hf, Hg; cbn [bind next_seq]; rewrite Hm|].
  - cbn [bind]. destruct (merged_left es idx md (node_of_page q a (seqc s)) k E3) as [-> ->]. reflexivity.
  - unfold tm_at, sib_entry. rewrite E3. eauto 10.
Qed.

Theorem try_merge_right_new : forall d par k s e0 kq q rest ok a md fk,
  needs_merging s k = true ->
  n_data par = Branches (e0 :: (kq, q) :: rest) ->
  (0 < dlen (n_data k))%N ->
  n_orig k = Some ok ->
  bsearch (map fst (e0 :: (kq, q) :: rest)) ok = (true, 0%N) ->
  find_kid q (n_kids par) = None -> dget d q = Some a ->
  merge_data (n_data (node_of_page q a (seqc s))) (n_data k) = Ok md ->
  first_key md = Ok fk ->
  try_merge d par k s =
    Ok (set_kids (set_data par (Branches ((fk, q) :: rest)))
          (filter (not_seq (n_seq k)) (n_kids par) ++
           [set_orig (set_kids (set_data (node_of_page q a (seqc s)) md)
                               (n_kids (node_of_page q a (seqc s)) ++ n_kids k)) (Some fk)]),
        free_node_page (bump s) k).
Proof.
  intros d par k s e0 kq q rest ok a md fk Hn Hd Hk Ho Hb Hf Hg Hm Hfk.
  rewrite (try_merge_at d par k s (e0 :: (kq, q) :: rest) 0%N kq q); [unfold sib_of; rewrite Hf, Hg; cbn [bind next_seq]; rewrite Hm|].
  - cbn [bind]. destruct (merged_right e0 kq q rest md fk (node_of_page q a (seqc s)) k Hfk) as [-> ->]. reflexivity.
  - unfold tm_at, sib_entry. change (0 =? 0)%N with true. cbv iota. eauto 10.
Qed.

(* [ks1]: the kid list of the parent after k (page pk) was merged into the sibling for page q, now [sib'];
   [extra] is the fresh sequence number if the sibling was read in *)
Definition kids_after (ks : list node) (k : node) (q : N) (sib' : node) (extra : list N) (ks1 : list node) : Prop :=
  find_kid q ks1 = Some sib' /\
  (forall q', q' <> q -> q' <> n_page k -> find_kid q' ks1 = find_kid q' ks) /\
  NoDup (map n_page ks1) /\
  (forall x, In x ks1 -> x = sib' \/ (In x ks /\ x <> k)) /\
  Permutation (n_seq k :: flat_map seqs ks1) (extra ++ flat_map seqs ks).

Lemma replace_kid_perm : forall {A} (f : node -> list A) ks0 q sb sb', find_kid q ks0 = Some sb -> n_page sb' = q ->
  Permutation (f sb ++ flat_map f (replace_kid ks0 sb')) (f sb' ++ flat_map f ks0).
Proof.
  intros A f ks0 q sb sb' Hf Hp. destruct (find_kid_split _ _ _ Hf) as (a & b & -> & Hq & Ha).
  rewrite replace_kid_hit; [|congruence|intros y Hy; rewrite Hp; now apply Ha].
  rewrite !flat_map_app. cbn [flat_map]. rewrite !app_assoc.
  apply Permutation_app_tail. rewrite <- !app_assoc.
  etransitivity; [apply Permutation_app_comm|]. rewrite <- app_assoc. apply Permutation_app_swap_app.
Qed.

Lemma replace_kid_pages : forall ks0 q sb sb', find_kid q ks0 = Some sb -> n_page sb' = q ->
  map n_page (replace_kid ks0 sb') = map n_page ks0.
Proof.
  intros ks0 q sb sb' Hf Hp. destruct (find_kid_split _ _ _ Hf) as (a & b & -> & Hq & Ha).
  rewrite replace_kid_hit; [|congruence|intros y Hy; rewrite Hp; now apply Ha].
  rewrite !map_app. cbn [map]. congruence.
Qed.

Lemma replace_kid_In : forall ks0 sb' x, In x (replace_kid ks0 sb') -> x = sb' \/ In x ks0.
Proof.
  induction ks0 as [|y ks0 IH]; intros sb' x H; cbn [replace_kid] in H.
  - destruct H as [<- | []]. now left.
  - destruct (N.eqb (n_page y) (n_page sb')).
    + destruct H as [<- | H]; [now left | right; now right].
    + destruct H as [<- | H]; [right; now left|]. destruct (IH _ _ H); [now left | right; now right].
Qed.

Lemma kids_after_found : forall ks k q sib sib',
  NoDup (map n_seq ks) -> NoDup (map n_page ks) -> In k ks ->
  find_kid q ks = Some sib -> q <> n_page k ->
  n_page sib' = q -> n_seq sib' = n_seq sib -> n_kids sib' = n_kids sib ++ n_kids k ->
  kids_after ks k q sib' [] (replace_kid (filter (not_seq (n_seq k)) ks) sib').
Proof.
  intros ks k q sib sib' Hs Hp Hin Hf Hqk Hps Hss Hks.
  destruct (filter_seq_spec ks k Hs Hp Hin) as (F1 & F2 & F3 & F4). cbv zeta in *.
  set (ks0 := filter (not_seq (n_seq k)) ks) in *.
  assert (Hf0 : find_kid q ks0 = Some sib) by (rewrite F1; assumption).
  split; [|split; [|split; [|split]]].
  - rewrite <- Hps. apply find_kid_replace_same.
  - intros q' H1 H2. rewrite find_kid_replace_other by congruence. now apply F1.
  - now rewrite (replace_kid_pages _ _ _ _ Hf0 Hps).
  - intros x Hx. apply replace_kid_In in Hx. destruct Hx as [-> | Hx]; [now left | right; now apply F2].
  - cbn [app]. rewrite F4.
    pose proof (replace_kid_perm seqs ks0 q sib sib' Hf0 Hps) as HP.
    rewrite (seqs_eq sib), (seqs_eq sib'), Hss, Hks, flat_map_app in HP. cbn [app] in HP.
    apply Permutation_cons_inv in HP. rewrite <- app_assoc in HP. apply Permutation_app_inv_l in HP.
    rewrite (seqs_eq k). cbn [app]. apply perm_skip. exact HP.
Qed.

Lemma kids_after_new : forall ks k q sib' sq',
  NoDup (map n_seq ks) -> NoDup (map n_page ks) -> In k ks ->
  find_kid q ks = None -> q <> n_page k ->
  n_page sib' = q -> n_seq sib' = sq' -> n_kids sib' = [] ++ n_kids k ->
  kids_after ks k q sib' [sq'] (filter (not_seq (n_seq k)) ks ++ [sib']).
Proof.
  intros ks k q sib' sq' Hs Hp Hin Hf Hqk Hps Hss Hks.
  destruct (filter_seq_spec ks k Hs Hp Hin) as (F1 & F2 & F3 & F4). cbv zeta in *.
  set (ks0 := filter (not_seq (n_seq k)) ks) in *.
  assert (Hf0 : find_kid q ks0 = None) by (rewrite F1; assumption).
  split; [|split; [|split; [|split]]].
  - unfold find_kid in *. rewrite find_app, Hf0. cbn [find]. now rewrite Hps, N.eqb_refl.
  - intros q' H1 H2. rewrite <- (F1 q' H2). unfold find_kid. rewrite find_app.
    destruct (find (fun k0 => N.eqb (n_page k0) q') ks0); [reflexivity|]. cbn [find].
    assert (E : N.eqb (n_page sib') q' = false) by lia. now rewrite E.
  - rewrite map_app. cbn [map]. apply NoDup_app_intro; [exact F3 | repeat constructor; intros [] |].
    intros x Hx [<- | []]. apply in_map_iff in Hx. destruct Hx as (y & Hy & Hy').
    apply (find_kid_None _ _ Hf0 y Hy'). congruence.
  - intros x Hx. apply in_app_or in Hx. destruct Hx as [Hx | [<- | []]]; [right; now apply F2 | now left].
  - rewrite flat_map_app. cbn [flat_map]. rewrite app_nil_r. rewrite (seqs_eq sib'), Hss, Hks. cbn [app].
    rewrite F4, (seqs_eq k). cbn [app].
    etransitivity; [apply perm_skip; apply Permutation_app_comm|]. cbn [app].
    apply perm_swap.
Qed.

(** * The parent's side of a merge *)

(* like [CInv], but the kid standing for page pk may be an empty branch node *)
Definition CInv1 (h : nat) (d : disk) (ks : list node) (pk : N) (e : bytes * N) (b : option bytes * option bytes) : Prop :=
  match find_kid (snd e) ks with
  | Some kd => Inv h d (N.eqb (snd e) pk) (fst b) (snd b) kd
  | None => PInv h d (fst b) (snd b) (Some (fst e)) (snd e) end.

(* the invariant of a branch node with entries es and kids ks, bounds [lo, hi), height <= S h, except that the
   kid for page pk may be empty *)
Definition Pre1 (h : nat) (d : disk) (lo hi : option bytes) (es : list (bytes * N)) (ks : list node) (pk : N) : Prop :=
  sorted_keys (map fst es) = true /\ NoDup (map snd es) /\ Forall (inb lo hi) (map fst es) /\
  kids_linked es ks /\ Forall2 (CInv1 h d ks pk) es (cbounds lo (map fst es) hi).

Lemma CInv1_other : forall h d ks pk e b, snd e <> pk -> CInv1 h d ks pk e b -> CInv h d ks e b.
Proof. intros h d ks pk e b Hne H. unfold CInv1, CInv in *. assert (E : N.eqb (snd e) pk = false) by lia. now rewrite E in H. Qed.

Lemma CInv_CInv1 : forall h d ks pk e b, CInv h d ks e b -> CInv1 h d ks pk e b.
Proof.
  intros h d ks pk e b H. unfold CInv1, CInv in *. destruct (find_kid (snd e) ks); [|exact H].
  destruct (N.eqb (snd e) pk); [eapply Inv_z_true; eauto | exact H].
Qed.

Lemma Inv_Pre1 : forall h d z lo hi p np o s es ks pk,
  Inv (S h) d z lo hi (Node p np o s (Branches es) ks) -> Pre1 h d lo hi es ks pk.
Proof.
  intros h d z lo hi p np o s es ks pk H. rewrite Inv_branch_eq in H. destruct H as (_ & H1 & H2 & H3 & H4 & H5).
  unfold Pre1. repeat (split; [assumption|]). eapply Forall2_impl; [|exact H5]. intros e b. apply CInv_CInv1.
Qed.

Lemma Forall2_CInv1_other : forall h d ks pk E B, ~ In pk (map snd E) ->
  Forall2 (CInv1 h d ks pk) E B -> Forall2 (CInv h d ks) E B.
Proof.
  intros h d ks pk E B Hn H. eapply Forall2_impl_in; [|exact H]. intros e b He. apply CInv1_other.
  intros Eq. apply Hn. rewrite <- Eq. now apply in_map.
Qed.

Lemma kids_join_nodes : forall h d za zb la ha lb hb A B,
  Inv h d za la ha A -> Inv h d zb lb hb B -> is_leaf (n_data A) = is_leaf (n_data B) ->
  (forall q, In q (dpages (n_data A)) -> In q (dpages (n_data B)) -> False) ->
  kids_join (n_data A) (n_data B) (n_kids A) (n_kids B) (n_kids A ++ n_kids B) /\
  kids_join (n_data A) (n_data B) (n_kids A) (n_kids B) (n_kids B ++ n_kids A).
Proof.
  intros h d za zb la ha lb hb A B HA HB Hk Hd. destruct (Inv_height _ _ _ _ _ _ HA) as [h0 ->].
  destruct A as [pa npa oa sa [lA|eA] kA], B as [pb npb ob sb [lB|eB] kB]; cbn [n_data n_kids is_leaf dpages] in *;
    try discriminate; [split; exact I|].
  rewrite Inv_branch_eq in HA, HB. apply kids_join_app; tauto.
Qed.

Lemma sorted_mid_lt : forall (a : list bytes) x y b, sorted_keys (a ++ x :: y :: b) = true -> bcmp x y = Lt.
Proof.
  intros a x y b H. apply sorted_keys_app in H. destruct H as [_ H].
  destruct (sorted_keys_cons _ _ H) as [Hall _]. now inversion Hall.
Qed.

Lemma nxt_above : forall (a : list bytes) x b lo hi, sorted_keys (a ++ x :: b) = true ->
  Forall (inb lo hi) (a ++ x :: b) -> lt_hi x (nxt b hi).
Proof.
  intros a x b lo hi Hs Hf. destruct b as [|y b]; cbn [nxt].
  - rewrite Forall_forall in Hf. apply (Hf x). apply in_or_app. right. now left.
  - cbn. eapply sorted_mid_lt; eauto.
Qed.
Section Reassemble.
  (* the parent: entries E1 ++ (ka,qa) :: (kb,qb) :: E2; one of the two adjacent children is k (page pk), the
     other the sibling (page q); afterwards a single entry (km, q) stands for the joined node M *)
  Variables (h : nat) (d : disk) (lo hi : option bytes) (p np : N) (og : option bytes) (sq : N).
  Variables (E1 E2 : list (bytes * N)) (ka kb km : bytes) (qa qb q : N) (ks ks1 : list node) (k M : node) (extra : list N).
  Let es := E1 ++ (ka, qa) :: (kb, qb) :: E2.
  Let es' := E1 ++ (km, q) :: E2.
  Let g := fst_fun (lo0 lo) (map fst E1).
  Let hk := nxt (map fst E2) hi.
  Hypothesis Hsorted : sorted_keys (map fst es) = true.
  Hypothesis Hnd : NoDup (map snd es).
  Hypothesis Hinb : Forall (inb lo hi) (map fst es).
  Hypothesis Hlinked : kids_linked es ks.
  Hypothesis Hkin : In k ks.
  Hypothesis Hq : (q = qa /\ n_page k = qb) \/ (q = qb /\ n_page k = qa).
  Hypothesis Hkm1 : bcmp ka km <> Gt \/ (E1 = [] /\ le_lo lo km).
  Hypothesis Hkm2 : bcmp km kb = Lt.
  Hypothesis HC1 : Forall2 (CInv h d ks) E1 (cbs (lo0 lo) (map fst E1) (Some ka)).
  Hypothesis HC2 : Forall2 (CInv h d ks) E2 (cbs Some (map fst E2) hi).
  Hypothesis HM : Inv h d false (g km) hk M.
  Hypothesis HMp : n_page M = q.
  Hypothesis HMo : n_orig M = Some km.
  Hypothesis Hafter : kids_after ks k q M extra ks1.

  Lemma ra_es_map : map fst es = map fst E1 ++ ka :: kb :: map fst E2.
  Proof. unfold es. rewrite map_app. reflexivity. Qed.
  Lemma ra_es'_map : map fst es' = map fst E1 ++ km :: map fst E2.
  Proof. unfold es'. rewrite map_app. reflexivity. Qed.

  Lemma ra_below : forall x, In x (map fst E1) -> bcmp x km = Lt.
  Proof.
    intros x Hx. destruct Hkm1 as [Hk1 | [HE _]]; [|rewrite HE in Hx; destruct Hx].
    eapply bcmp_lt_le_trans; [|exact Hk1].
    rewrite ra_es_map in Hsorted. eapply sorted_app_cross; [exact Hsorted | exact Hx | now left].
  Qed.
  Lemma ra_above : forall x, In x (map fst E2) -> bcmp km x = Lt.
  Proof.
    intros x Hx. eapply bcmp_lt_trans; [exact Hkm2|].
    rewrite ra_es_map in Hsorted. apply sorted_keys_app in Hsorted. destruct Hsorted as [_ H].
    apply sorted_keys_tl in H. destruct (sorted_keys_cons _ _ H) as [Hall _]. rewrite Forall_forall in Hall. now apply Hall.
  Qed.

  Lemma ra_sorted : sorted_keys (map fst es') = true.
  Proof.
    rewrite ra_es'_map. pose proof Hsorted as Hs. rewrite ra_es_map in Hs.
    destruct (sorted_keys_app _ _ Hs) as [Ha Hb].
    apply sorted_app_intro; [exact Ha | |].
    - apply sorted_keys_cons_intro; [apply Forall_forall; exact ra_above|].
      apply sorted_keys_tl in Hb. now apply sorted_keys_tl in Hb.
    - intros x y Hx [<- | Hy]; [now apply ra_below|].
      eapply sorted_app_cross; [exact Hs | exact Hx | right; now right].
  Qed.

  Lemma ra_pages : q <> n_page k /\ ~ In q (map snd E1) /\ ~ In q (map snd E2) /\
                   ~ In (n_page k) (map snd E1) /\ ~ In (n_page k) (map snd E2) /\ NoDup (map snd E1 ++ map snd E2).
  Proof.
    unfold es in Hnd. rewrite map_app in Hnd. cbn [map snd] in Hnd.
    pose proof (NoDup_remove_2 _ _ _ Hnd) as H1. pose proof (NoDup_remove_1 _ _ _ Hnd) as H2.
    pose proof (NoDup_remove_2 _ _ _ H2) as H3. pose proof (NoDup_remove_1 _ _ _ H2) as H4.
    assert (Hab : qa <> qb). { intros E. apply H1. apply in_or_app. right. left. now symmetry. }
    assert (A1 : ~ In qa (map snd E1)). { intros Hi. apply H1. apply in_or_app. now left. }
    assert (A2 : ~ In qa (map snd E2)). { intros Hi. apply H1. apply in_or_app. right. now right. }
    assert (B1 : ~ In qb (map snd E1)). { intros Hi. apply H3. apply in_or_app. now left. }
    assert (B2 : ~ In qb (map snd E2)). { intros Hi. apply H3. apply in_or_app. now right. }
    destruct Hq as [[-> ->] | [-> ->]]; repeat (split; [solve [auto]|]); exact H4.
  Qed.

  Lemma ra_nd : NoDup (map snd es').
  Proof.
    destruct ra_pages as (_ & P1 & P2 & _ & _ & P5). unfold es'. rewrite map_app. cbn [map snd].
    apply NoDup_app_intro.
    - eapply NoDup_app_l; eauto.
    - constructor; [exact P2 | eapply NoDup_app_r; eauto].
    - intros x Hx [<- | Hy]; [now apply P1 | eapply NoDup_app_disj; eauto].
  Qed.

  Lemma ra_km_inb : inb lo hi km.
  Proof.
    pose proof Hinb as Hi. rewrite ra_es_map in Hi. apply Forall_app in Hi. destruct Hi as [_ H].
    apply Forall_cons_iff in H. destruct H as [[Ha _] H']. apply Forall_cons_iff in H'. destruct H' as [[_ Hb] _]. split.
    - destruct Hkm1 as [Hk1 | [_ Hk1]]; [|exact Hk1].
      destruct lo as [b|]; cbn in *; [|exact I]. eapply bcmp_le_trans; eauto.
    - destruct hi as [b|]; cbn in *; [|exact I]. eapply bcmp_lt_trans; eauto.
  Qed.

  Lemma ra_inb : Forall (inb lo hi) (map fst es').
  Proof.
    rewrite ra_es'_map. pose proof Hinb as Hi. rewrite ra_es_map in Hi. apply Forall_app in Hi. destruct Hi as [H1 H2].
    apply Forall_app. split; [exact H1|]. constructor; [exact ra_km_inb|].
    apply Forall_cons_iff in H2. destruct H2 as [_ H2]. apply Forall_cons_iff in H2. apply H2.
  Qed.

  Lemma ra_pk : find_kid (n_page k) ks = Some k.
  Proof. eapply kids_linked_find; eauto. Qed.

  Lemma ra_linked : kids_linked es' ks1.
  Proof.
    destruct Hafter as (A1 & A2 & A3 & A4 & _). destruct ra_pages as (P0 & _). split; [exact A3|].
    apply Forall_forall. intros x Hx.
    destruct (N.eq_dec (n_page x) q) as [Exq | Nxq].
    { assert (x = M).
      { destruct (find_kid_In _ _ _ A1) as [HMin _].
        eapply (NoDup_map_inj n_page); [exact A3 | exact Hx | exact HMin | congruence]. }
      subst x. exists km. split; [|exact HMo]. unfold es'. apply in_or_app. right. left. now rewrite HMp. }
    destruct (A4 x Hx) as [-> | [Hin Hne]]; [congruence|].
    destruct Hlinked as [Lnd LF]. rewrite Forall_forall in LF. destruct (LF x Hin) as (key & Hk & Ho).
    exists key. split; [|exact Ho].
    assert (Npk : n_page x <> n_page k).
    { intros E. apply Hne. eapply (NoDup_map_inj n_page); eauto. }
    unfold es in Hk. unfold es'. apply in_app_or in Hk. apply in_or_app.
    destruct Hk as [Hk | [Hk | [Hk | Hk]]]; [now left | | | right; now right]; inversion Hk; subst;
      destruct Hq as [[? ?] | [? ?]]; congruence.
  Qed.

  Lemma ra_find_other : (forall e, In e E1 -> find_kid (snd e) ks1 = find_kid (snd e) ks) /\
                        (forall e, In e E2 -> find_kid (snd e) ks1 = find_kid (snd e) ks).
  Proof.
    destruct Hafter as (_ & A2 & _). destruct ra_pages as (_ & P1 & P2 & P3 & P4 & _).
    split; intros e He; apply (in_map snd) in He; apply A2; intros E; rewrite E in He; contradiction.
  Qed.

  Lemma ra_children : Forall2 (CInv h d ks1) es' (cbounds lo (map fst es') hi).
  Proof.
    rewrite ra_es'_map. unfold cbounds. rewrite cbs_app. unfold es'. apply Forall2_app.
    - destruct Hkm1 as [Hk1 | [HE _]]; [|rewrite HE; constructor].
      eapply CInv_transfer; [exact HC1 | |].
      + apply cbs_rel; [intros; apply lo_le_refl | exact Hk1].
      + exact (proj1 ra_find_other).
    - cbn [cbs]. constructor.
      + unfold CInv. cbn [snd fst]. destruct Hafter as (A1 & _). rewrite A1. exact HM.
      + eapply CInv_transfer; [exact HC2 | apply Forall2_refl_in; intros; apply brel_refl | exact (proj2 ra_find_other)].
  Qed.

  Lemma ra_Inv : Inv (S h) d true lo hi (Node p np og sq (Branches es') ks1).
  Proof.
    rewrite Inv_branch_eq. split; [discriminate|]. split; [exact ra_sorted|]. split; [exact ra_nd|].
    split; [exact ra_inb|]. split; [exact ra_linked | exact ra_children].
  Qed.

  Lemma ra_view : forall L1 la lb L2,
    Forall2 (fun e l => ChildView d h ks (snd e) l) E1 L1 ->
    Forall2 (fun e l => ChildView d h ks (snd e) l) E2 L2 ->
    NodeView d h M (la ++ lb) ->
    NodeView d (S h) (Node p np og sq (Branches es') ks1) (concat (L1 ++ la :: lb :: L2)).
  Proof.
    intros L1 la lb L2 F1 F2 VM.
    replace (concat (L1 ++ la :: lb :: L2)) with (concat (L1 ++ (la ++ lb) :: L2))
      by (rewrite !concat_app; cbn [concat]; now rewrite <- app_assoc).
    apply NodeView_branch_intro. unfold es'. apply Forall2_app; [|constructor].
    - eapply ChildView_ext; [exact (proj1 ra_find_other) | exact F1].
    - unfold ChildView. cbn [snd]. destruct Hafter as (A1 & _). now rewrite A1.
    - eapply ChildView_ext; [exact (proj2 ra_find_other) | exact F2].
  Qed.

  Lemma ra_npages : Permutation (npages h d M) (cpages h d ks qa ++ cpages h d ks qb) ->
    Permutation (n_page k :: npages (S h) d (Node p np og sq (Branches es') ks1))
                (npages (S h) d (Node p np og sq (Branches es) ks)).
  Proof.
    intros HP. rewrite !npages_branch_eq. unfold es, es'. rewrite !map_app, !flat_map_app. cbn [map snd flat_map].
    rewrite (cpages_ext h d ks ks1 E1 (proj1 ra_find_other)), (cpages_ext h d ks ks1 E2 (proj2 ra_find_other)).
    unfold cpages at 2. destruct Hafter as (A1 & _). rewrite A1.
    rewrite app_comm_cons. apply Permutation_app.
    - destruct Hq as [[-> ->] | [-> ->]].
      + etransitivity; [apply Permutation_middle|]. apply Permutation_app_head. apply perm_swap.
      + apply Permutation_middle.
    - apply Permutation_app_head. rewrite app_assoc. apply Permutation_app_tail. exact HP.
  Qed.

  Lemma ra_seqs : Permutation (n_seq k :: seqs (Node p np og sq (Branches es') ks1))
                              (extra ++ seqs (Node p np og sq (Branches es) ks)).
  Proof.
    destruct Hafter as (_ & _ & _ & _ & A5). cbn [seqs].
    etransitivity; [apply perm_swap|]. etransitivity; [apply perm_skip; exact A5|].
    apply Permutation_middle.
  Qed.
End Reassemble.
Lemma first_key_dkeys : forall dd fk, first_key dd = Ok fk -> exists rest, dkeys dd = fk :: rest.
Proof.
  intros [[|e l]|[|e es]] fk H; cbn in H; try discriminate; inversion H; subst; cbn [dkeys map]; eauto.
Qed.

Lemma first_key_djoin : forall a b, (0 < dlen a)%N -> is_leaf a = is_leaf b -> first_key (djoin a b) = first_key a.
Proof.
  intros [[|e l]|[|e es]] [l2|e2] Hl Hk; cbn in *; try discriminate; try lia; reflexivity.
Qed.

Lemma dlen_pos_nonempty : forall dd, (0 < dlen dd)%N -> dd <> Branches [].
Proof. intros dd H E. subst dd. cbn in H. lia. Qed.

Lemma perm_nodup_incl : forall {A} (x : A) l l', NoDup l -> Permutation (x :: l') l -> NoDup l' /\ incl l' l.
Proof.
  intros A x l l' Hnd HP. split.
  - apply Permutation_sym in HP. pose proof (Permutation_NoDup HP Hnd) as H. now inversion H.
  - intros y Hy. eapply Permutation_in; [exact HP | now right].
Qed.

Lemma seqs_after : forall {A} (x : A) l l' extra, NoDup l -> NoDup extra -> (forall y, In y extra -> ~ In y l) ->
  Permutation (x :: l') (extra ++ l) -> NoDup l' /\ (forall y, In y l' -> In y l \/ In y extra).
Proof.
  intros A x l l' extra Hl He Hd HP.
  assert (Hnd : NoDup (extra ++ l)).
  { apply NoDup_app_intro; [exact He | exact Hl |]. intros y H1 H2. exact (Hd y H1 H2). }
  destruct (perm_nodup_incl x _ l' Hnd HP) as [H1 H2]. split; [exact H1|].
  intros y Hy. apply H2 in Hy. apply in_app_or in Hy. tauto.
Qed.

(* The parent after k was joined with its neighbour. A, B: the two adjacent children in key order (pages qa,
   qb); M: the joined node, filed under page q (the sibling's) and key km. *)
Lemma merge_assemble : forall h d lo hi p np og sq E1 ka qa kb qb E2 ks k l q km A B za zb npM sM kk ks1 extra,
  sorted_keys (map fst (E1 ++ (ka, qa) :: (kb, qb) :: E2)) = true ->
  NoDup (map snd (E1 ++ (ka, qa) :: (kb, qb) :: E2)) ->
  Forall (inb lo hi) (map fst (E1 ++ (ka, qa) :: (kb, qb) :: E2)) ->
  kids_linked (E1 ++ (ka, qa) :: (kb, qb) :: E2) ks -> In k ks ->
  ((q = qa /\ n_page k = qb) \/ (q = qb /\ n_page k = qa)) ->
  Forall2 (CInv h d ks) E1 (cbs (lo0 lo) (map fst E1) (Some ka)) ->
  Forall2 (CInv h d ks) E2 (cbs Some (map fst E2) hi) ->
  Inv h d za (fst_fun (lo0 lo) (map fst E1) ka) (Some kb) A ->
  Inv h d zb (Some kb) (nxt (map fst E2) hi) B ->
  n_data A <> Branches [] -> n_data B <> Branches [] -> is_leaf (n_data A) = is_leaf (n_data B) ->
  (kk = n_kids A ++ n_kids B \/ kk = n_kids B ++ n_kids A) ->
  (km = ka \/ (E1 = [] /\ (0 < dlen (n_data A))%N /\ first_key (djoin (n_data A) (n_data B)) = Ok km)) ->
  NodeView d (S h) (Node p np og sq (Branches (E1 ++ (ka, qa) :: (kb, qb) :: E2)) ks) l ->
  (forall la, ChildView d h ks qa la -> NodeView d h A la) ->
  (forall lb, ChildView d h ks qb lb -> NodeView d h B lb) ->
  npages h d A = cpages h d ks qa -> npages h d B = cpages h d ks qb ->
  NoDup (npages (S h) d (Node p np og sq (Branches (E1 ++ (ka, qa) :: (kb, qb) :: E2)) ks)) ->
  kids_after ks k q (Node q npM (Some km) sM (djoin (n_data A) (n_data B)) kk) extra ks1 ->
  Inv (S h) d true lo hi (Node p np og sq (Branches (E1 ++ (km, q) :: E2)) ks1) /\
  NodeView d (S h) (Node p np og sq (Branches (E1 ++ (km, q) :: E2)) ks1) l /\
  Permutation (n_page k :: npages (S h) d (Node p np og sq (Branches (E1 ++ (km, q) :: E2)) ks1))
              (npages (S h) d (Node p np og sq (Branches (E1 ++ (ka, qa) :: (kb, qb) :: E2)) ks)) /\
  Permutation (n_seq k :: seqs (Node p np og sq (Branches (E1 ++ (km, q) :: E2)) ks1))
              (extra ++ seqs (Node p np og sq (Branches (E1 ++ (ka, qa) :: (kb, qb) :: E2)) ks)).
Proof.
  intros h d lo hi p np og sq E1 ka qa kb qb E2 ks k l q km A B za zb npM sM kk ks1 extra
    Hs Hnd Hinb Hlk Hkin Hq HC1 HC2 HA HB NA NB Hkind Hkk Hkm Hv VA VB PA PB Hnp Haft.
  set (M := Node q npM (Some km) sM (djoin (n_data A) (n_data B)) kk) in *.
  pose proof Hs as Hs'. rewrite map_app in Hs'. cbn [map fst] in Hs'.
  pose proof Hinb as Hinb'. rewrite map_app in Hinb'. cbn [map fst] in Hinb'.
  assert (Hab : bcmp ka kb = Lt) by (eapply sorted_mid_lt; eauto).
  (* the page lists of the two children are disjoint *)
  destruct (Inv_height _ _ _ _ _ _ HA) as [h0 Eh].
  assert (Hdisj : forall x, In x (dpages (n_data A)) -> In x (dpages (n_data B)) -> False).
  { intros x H1 H2. rewrite npages_branch_eq in Hnp. apply NoDup_app_r in Hnp.
    rewrite flat_map_app in Hnp. apply NoDup_app_r in Hnp. cbn [flat_map snd] in Hnp.
    rewrite <- PA, <- PB in Hnp. rewrite app_assoc in Hnp. apply NoDup_app_l in Hnp.
    subst h. eapply NoDup_app_disj; [exact Hnp | |]; eapply npages_dpages; eauto. }
  destruct (kids_join_nodes _ _ _ _ _ _ _ _ _ _ HA HB Hkind Hdisj) as [KJ1 KJ2].
  assert (KJ : kids_join (n_data A) (n_data B) (n_kids A) (n_kids B) kk) by (destruct Hkk as [-> | ->]; assumption).
  (* bounds around the pair *)
  assert (Hlo : lo_le (fst_fun (lo0 lo) (map fst E1) ka) (Some kb)).
  { eapply lo_le_trans; [apply fst_fun_le_some|]. cbn. now apply bcmp_lt_le. }
  assert (Hhi : hi_le (Some kb) (nxt (map fst E2) hi)).
  { apply lt_hi_hi_le. apply (nxt_above (map fst E1 ++ [ka]) kb (map fst E2) lo hi); rewrite <- app_assoc; assumption. }
  pose proof (join_Inv h d _ kb _ A B za zb q npM (Some km) sM kk HA HB NA NB Hlo Hhi Hkind KJ Hdisj) as HM0.
  fold M in HM0.
  (* key of the joined node *)
  assert (HM : Inv h d false (fst_fun (lo0 lo) (map fst E1) km) (nxt (map fst E2) hi) M /\
               (bcmp ka km <> Gt \/ (E1 = [] /\ le_lo lo km)) /\ bcmp km kb = Lt).
  { destruct Hkm as [-> | (HE & HlA & Hfk)].
    - split; [exact HM0|]. split; [left; apply bcmp_le_refl | exact Hab].
    - subst E1. cbn [map fst_fun app] in *.
      assert (Hin : inb (lo0 lo ka) (Some kb) km).
      { destruct (Inv_dkeys _ _ _ _ _ _ HA) as [_ FA]. rewrite first_key_djoin in Hfk by assumption.
        destruct (first_key_dkeys _ _ Hfk) as [rest Er]. rewrite Er in FA. now inversion FA. }
      destruct Hin as [Hin1 Hin2]. split; [|split; [right; split; [reflexivity|] | exact Hin2]].
      + destruct lo as [b|]; cbn [lo0] in *; [|exact HM0]. eapply Inv_lo_first; [exact HM0 | exact Hfk].
      + destruct lo as [b|]; cbn [lo0 le_lo] in *; [|exact I].
        inversion Hinb' as [|? ? [Hb _] _]; subst. cbn in Hb. eapply bcmp_le_trans; eauto. }
  destruct HM as (HM & Hkm1 & Hkm2).
  assert (HMp : n_page M = q) by reflexivity.
  assert (HMo : n_orig M = Some km) by reflexivity.
  (* the view *)
  apply NodeView_branch_inv in Hv. destruct Hv as (h1 & ls & Eh1 & -> & HF). inversion Eh1; subst h1.
  apply Forall2_app_inv_l' in HF. destruct HF as (L1 & Lr & -> & F1 & Fr).
  apply Forall2_cons_inv_l in Fr. destruct Fr as (la & Lr' & -> & Va & Fr).
  apply Forall2_cons_inv_l in Fr. destruct Fr as (lb & L2 & -> & Vb & F2). cbn [snd] in Va, Vb.
  split; [|split; [|split]].
  - eapply ra_Inv; eauto.
  - eapply ra_view; eauto. unfold M. apply join_view; auto.
  - eapply ra_npages; eauto. unfold M. rewrite <- PA, <- PB. now apply join_npages.
  - eapply ra_seqs; eauto.
Qed.

Lemma sib_of_spec : forall h d s es ks k kq q b sib s1 isnew,
  kids_linked es ks -> NoDup (map snd es) -> NoDup (map n_seq ks) -> In k ks -> In (kq, q) es -> q <> n_page k ->
  CInv h d ks (kq, q) b ->
  sib_of d ks q s = Ok (sib, s1, isnew) ->
  Inv h d false (fst b) (snd b) sib /\
  (forall la, ChildView d h ks q la -> NodeView d h sib la) /\
  npages h d sib = cpages h d ks q /\
  n_orig sib = Some kq /\ n_page sib = q /\
  (forall sib', n_page sib' = q -> n_seq sib' = n_seq sib -> n_kids sib' = n_kids sib ++ n_kids k ->
     kids_after ks k q sib' (if isnew then [seqc s] else []) (kids_merged ks k sib' isnew)) /\
  s1 = (if isnew then bump s else s).
Proof.
  intros h d s es ks k kq q b sib s1 isnew Hlk Hnd Hsq Hkin Hin Hqk HC Hso.
  unfold sib_of in Hso. unfold CInv, ChildView, cpages in *. cbn [fst snd] in HC.
  destruct (find_kid q ks) as [sb|] eqn:Ef.
  - inversion Hso; subst sib s1 isnew. destruct (find_kid_In _ _ _ Ef) as [Hsbin Hsbp].
    split; [exact HC|]. split; [auto|]. split; [reflexivity|]. split; [|split; [exact Hsbp|split; [|reflexivity]]].
    + destruct Hlk as [_ LF]. rewrite Forall_forall in LF. destruct (LF sb Hsbin) as (key & Hk & Ho).
      rewrite Hsbp in Hk. rewrite Ho. f_equal. eapply entry_by_page; eauto.
    + intros sib' H1 H2 H3. unfold kids_merged. eapply kids_after_found; eauto. apply Hlk.
  - destruct (dget d q) as [a|] eqn:Eg; [|discriminate]. inversion Hso; subst sib s1 isnew.
    split; [eapply node_of_page_Inv; eauto|]. split; [intros la Hla; now apply node_of_page_view|].
    split; [now apply node_of_page_npages|]. split; [eapply node_of_page_orig; eauto|].
    split; [reflexivity|]. split; [|reflexivity].
    intros sib' H1 H2 H3. unfold kids_merged. eapply kids_after_new; eauto. apply Hlk.
Qed.

Lemma cbs_remove : forall lo S1 x S2 hi, sorted_keys (S1 ++ x :: S2) = true -> lt_hi x (nxt S2 hi) ->
  Forall2 brel (cbs (lo0 lo) S1 (Some x) ++ cbs Some S2 hi) (cbs (lo0 lo) (S1 ++ S2) hi).
Proof.
  intros lo S1 x S2 hi Hs Hx. destruct S2 as [|y S2'].
  - rewrite app_nil_r. cbn [cbs]. rewrite app_nil_r. apply cbs_rel; [intros; apply lo_le_refl|].
    cbn [nxt] in Hx. now apply lt_hi_hi_le.
  - rewrite cbs_app. apply Forall2_app.
    + apply cbs_rel; [intros; apply lo_le_refl|]. cbn. apply bcmp_lt_le. eapply sorted_mid_lt; eauto.
    + apply cbs_rel; [intros; apply fst_fun_le_some | apply hi_le_refl].
Qed.

Lemma empty_view : forall d h k l, NodeView d h k l -> dlen (n_data k) = 0%N -> l = [].
Proof.
  intros d h [p np o s [l0|es] ks] l Hv Hd; cbn [n_data dlen] in Hd.
  - apply NodeView_leaf_inv in Hv. destruct Hv as [-> _]. destruct l0; [reflexivity | unfold llen in Hd; cbn in Hd; lia].
  - destruct es; [|unfold llen in Hd; cbn in Hd; lia]. apply NodeView_branch_inv in Hv.
    destruct Hv as (h0 & ls & _ & -> & HF). inversion HF. reflexivity.
Qed.

Lemma empty_npages : forall h d k, dlen (n_data k) = 0%N -> npages h d k = [].
Proof.
  intros [|h] d [p np o s [l0|es] ks] Hd; try reflexivity. cbn [n_data dlen] in Hd.
  destruct es; [reflexivity | unfold llen in Hd; cbn in Hd; lia].
Qed.

Lemma empty_assemble : forall h d lo hi p np og sq E1 ko E2 ks k l,
  sorted_keys (map fst (E1 ++ (ko, n_page k) :: E2)) = true ->
  NoDup (map snd (E1 ++ (ko, n_page k) :: E2)) ->
  Forall (inb lo hi) (map fst (E1 ++ (ko, n_page k) :: E2)) ->
  kids_linked (E1 ++ (ko, n_page k) :: E2) ks -> In k ks -> NoDup (map n_seq ks) ->
  Forall2 (CInv h d ks) E1 (cbs (lo0 lo) (map fst E1) (Some ko)) ->
  Forall2 (CInv h d ks) E2 (cbs Some (map fst E2) hi) ->
  dlen (n_data k) = 0%N ->
  NodeView d (S h) (Node p np og sq (Branches (E1 ++ (ko, n_page k) :: E2)) ks) l ->
  let ks0 := filter (not_seq (n_seq k)) ks in
  Inv (S h) d true lo hi (Node p np og sq (Branches (E1 ++ E2)) ks0) /\
  NodeView d (S h) (Node p np og sq (Branches (E1 ++ E2)) ks0) l /\
  Permutation (n_page k :: npages (S h) d (Node p np og sq (Branches (E1 ++ E2)) ks0))
              (npages (S h) d (Node p np og sq (Branches (E1 ++ (ko, n_page k) :: E2)) ks)) /\
  Permutation (seqs k ++ seqs (Node p np og sq (Branches (E1 ++ E2)) ks0))
              (seqs (Node p np og sq (Branches (E1 ++ (ko, n_page k) :: E2)) ks)).
Proof.
  intros h d lo hi p np og sq E1 ko E2 ks k l Hs Hnd Hinb Hlk Hkin Hsq HC1 HC2 Hd Hv ks0.
  destruct (filter_seq_spec ks k Hsq (proj1 Hlk) Hkin) as (F1 & F2 & F3 & F4). fold ks0 in F1, F2, F3, F4.
  pose proof Hs as Hs'. rewrite map_app in Hs'. cbn [map fst] in Hs'.
  pose proof Hinb as Hinb'. rewrite map_app in Hinb'. cbn [map fst] in Hinb'.
  pose proof Hnd as Hnd'. rewrite map_app in Hnd'. cbn [map snd] in Hnd'.
  pose proof (NoDup_remove_2 _ _ _ Hnd') as Hpk.
  assert (Hother : forall e, In e (E1 ++ E2) -> find_kid (snd e) ks0 = find_kid (snd e) ks).
  { intros e He. apply F1. intros E. apply Hpk. rewrite <- E, <- map_app. now apply in_map. }
  assert (Hother1 : forall e, In e E1 -> find_kid (snd e) ks0 = find_kid (snd e) ks) by (intros; apply Hother, in_or_app; now left).
  assert (Hother2 : forall e, In e E2 -> find_kid (snd e) ks0 = find_kid (snd e) ks) by (intros; apply Hother, in_or_app; now right).
  assert (Hfk : find_kid (n_page k) ks = Some k) by (eapply kids_linked_find; eauto).
  split; [|split; [|split]].
  - rewrite Inv_branch_eq. split; [discriminate|].
    split; [rewrite map_app; eapply sorted_remove; eauto|].
    split; [rewrite map_app; eapply NoDup_remove_1; eauto|].
    split; [rewrite map_app; apply Forall_app in Hinb'; destruct Hinb' as [H1 H2]; apply Forall_app; split;
            [exact H1 | now inversion H2]|].
    split.
    + split; [exact F3|]. apply Forall_forall. intros x Hx. apply F2 in Hx. destruct Hx as [Hx Hne].
      destruct Hlk as [Lnd LF]. rewrite Forall_forall in LF. destruct (LF x Hx) as (key & Hk & Ho).
      exists key. split; [|exact Ho]. apply in_app_or in Hk. apply in_or_app.
      destruct Hk as [Hk | [Hk | Hk]]; [now left | | now right].
      exfalso. inversion Hk as [[Ek Ep]]. apply Hne. eapply (NoDup_map_inj n_page); [exact Lnd | exact Hx | exact Hkin | now symmetry].
    + rewrite map_app. unfold cbounds.
      assert (HC : Forall2 (CInv h d ks) (E1 ++ E2) (cbs (lo0 lo) (map fst E1) (Some ko) ++ cbs Some (map fst E2) hi))
        by (apply Forall2_app; assumption).
      eapply CInv_transfer; [exact HC | | exact Hother].
      apply cbs_remove; [exact Hs'|]. apply (nxt_above (map fst E1) ko (map fst E2) lo hi); assumption.
  - apply NodeView_branch_inv in Hv. destruct Hv as (h1 & ls & Eh1 & -> & HF). inversion Eh1; subst h1.
    apply Forall2_app_inv_l' in HF. destruct HF as (L1 & Lr & -> & V1 & Vr).
    apply Forall2_cons_inv_l in Vr. destruct Vr as (lk & L2 & -> & Vk & V2).
    unfold ChildView in Vk. cbn [snd] in Vk. rewrite Hfk in Vk. rewrite (empty_view _ _ _ _ Vk Hd).
    replace (concat (L1 ++ [] :: L2)) with (concat (L1 ++ L2)) by (rewrite !concat_app; reflexivity).
    apply NodeView_branch_intro. apply Forall2_app.
    + eapply ChildView_ext; [exact Hother1 | exact V1].
    + eapply ChildView_ext; [exact Hother2 | exact V2].
  - rewrite !npages_branch_eq. rewrite !map_app, !flat_map_app. cbn [map snd flat_map].
    assert (Ek : cpages h d ks (n_page k) = []) by (unfold cpages; rewrite Hfk; now apply empty_npages).
    rewrite Ek. cbn [app].
    rewrite (cpages_ext h d ks ks0 E1 Hother1), (cpages_ext h d ks ks0 E2 Hother2). rewrite app_comm_cons. apply Permutation_app_tail. apply Permutation_middle.
  - cbn [seqs]. etransitivity; [symmetry; apply Permutation_middle|]. apply perm_skip. symmetry. exact F4.
Qed.

(** * [try_merge] preserves the invariant and the view *)

Definition Post (h : nat) (d : disk) (s : txs) (lo hi : option bytes) (par : node) (l : list leafent)
  (k par' : node) (s' : txs) : Prop :=
  Inv (S h) d true lo hi par' /\ NodeView d (S h) par' l /\
  n_page par' = n_page par /\ n_np par' = n_np par /\ n_orig par' = n_orig par /\ n_seq par' = n_seq par /\
  NoDup (npages (S h) d par') /\ incl (npages (S h) d par') (npages (S h) d par) /\
  NoDup (seqs par') /\ (forall x, In x (seqs par') -> In x (seqs par) \/ (seqc s <= x < seqc s')%N) /\
  merge_tx s k s' /\
  ((par' = par /\ s' = s) \/ Permutation (n_page k :: npages (S h) d par') (npages (S h) d par)).

Lemma list_rev_case : forall {A} (l : list A), l = [] \/ exists l' x, l = l' ++ [x].
Proof. intros A l. induction l as [|x l' _] using rev_ind; [now left | right; eauto]. Qed.

Lemma fst_fun_app_cons : forall f a x b, fst_fun f (a ++ x :: b) = Some.
Proof. intros f [|y a] x b; reflexivity. Qed.

Lemma bsearch_entry : forall (es : list (bytes * N)) E1 ko pk E2, es = E1 ++ (ko, pk) :: E2 ->
  sorted_keys (map fst es) = true -> bsearch (map fst es) ko = (true, N.of_nat (length E1)).
Proof.
  intros es E1 ko pk E2 -> Hs.
  assert (Hin : In ko (map fst (E1 ++ (ko, pk) :: E2))).
  { rewrite map_app. apply in_or_app. right. now left. }
  destruct (ebsearch_complete _ _ Hs Hin) as [i Hi]. rewrite Hi. f_equal.
  pose proof (ebsearch_found _ _ _ Hs Hi) as Hnth.
  assert (Hnth' : nth_error (map fst (E1 ++ (ko, pk) :: E2)) (length E1) = Some ko).
  { rewrite map_app, nth_error_app2; rewrite map_length; [|lia]. now rewrite Nat.sub_diag. }
  apply sorted_NoDup in Hs. rewrite NoDup_nth_error in Hs.
  assert (N.to_nat i = length E1); [|lia]. apply Hs; [|congruence].
  apply nth_error_Some. congruence.
Qed.

Lemma Pre1_split : forall h d lo hi es ks k, Pre1 h d lo hi es ks (n_page k) -> In k ks ->
  exists E1 ko E2, es = E1 ++ (ko, n_page k) :: E2 /\ n_orig k = Some ko /\
    bsearch (map fst es) ko = (true, N.of_nat (length E1)) /\
    Forall2 (CInv h d ks) E1 (cbs (lo0 lo) (map fst E1) (Some ko)) /\
    Inv h d true (fst_fun (lo0 lo) (map fst E1) ko) (nxt (map fst E2) hi) k /\
    Forall2 (CInv h d ks) E2 (cbs Some (map fst E2) hi) /\
    find_kid (n_page k) ks = Some k.
Proof.
  intros h d lo hi es ks k (Hs & Hnd & Hinb & Hlk & HC) Hkin.
  assert (Hfk : find_kid (n_page k) ks = Some k) by (eapply kids_linked_find; eauto).
  destruct Hlk as [Lnd LF]. rewrite Forall_forall in LF. destruct (LF k Hkin) as (ko & Hin & Ho).
  destruct (in_split _ _ Hin) as (E1 & E2 & ->). exists E1, ko, E2.
  split; [reflexivity|]. split; [exact Ho|]. split; [eapply bsearch_entry; eauto|].
  rewrite map_app in HC. cbn [map fst] in HC. unfold cbounds in HC. rewrite cbs_app in HC. cbn [cbs] in HC.
  apply Forall2_app_inv_len in HC; [|now rewrite cbs_length, map_length]. destruct HC as [H1 Hr].
  inversion Hr as [|? ? ? ? Hk H2]; subst.
  rewrite map_app in Hnd. cbn [map snd] in Hnd. pose proof (NoDup_remove_2 _ _ _ Hnd) as Hpk.
  split; [|split; [|split; [|exact Hfk]]].
  - eapply Forall2_CInv1_other; [|exact H1]. intros Hi. apply Hpk. apply in_or_app. now left.
  - unfold CInv1 in Hk. cbn [fst snd] in Hk. rewrite Hfk, N.eqb_refl in Hk. exact Hk.
  - eapply Forall2_CInv1_other; [|exact H2]. intros Hi. apply Hpk. apply in_or_app. now right.
Qed.

(* The child k (key ko) and its sibling (kq, q) are the adjacent entries (ka, qa), (kb, qb) that follow E1, with k at
   index idx: the sibling is the left neighbour, or the right one when k is the first child. *)
Definition sib_side (h : nat) (d : disk) (lo hi : option bytes) (ks : list node) (E1 : list (bytes * N))
  (ka : bytes) (qa : N) (kb : bytes) (qb : N) (E2 : list (bytes * N)) (k : node) (ko kq : bytes) (q idx : N) : Prop :=
  (ka = kq /\ qa = q /\ kb = ko /\ qb = n_page k /\ idx = N.of_nat (S (length E1)) /\
   CInv h d ks (kq, q) (fst_fun (lo0 lo) (map fst E1) kq, Some ko) /\ Inv h d true (Some ko) (nxt (map fst E2) hi) k) \/
  (ka = ko /\ qa = n_page k /\ kb = kq /\ qb = q /\ E1 = [] /\ idx = 0%N /\
   Inv h d true (lo0 lo ko) (Some kq) k /\ CInv h d ks (kq, q) (Some kq, nxt (map fst E2) hi)).

(* a child that is not the only one has a sibling next to it, which [sib_entry] finds *)
Lemma Pre1_sibling : forall h d lo hi es ks k, Pre1 h d lo hi es ks (n_page k) -> In k ks -> (llen es =? 1)%N = false ->
  exists E1 ka qa kb qb E2 ko kq q idx, es = E1 ++ (ka, qa) :: (kb, qb) :: E2 /\
    n_orig k = Some ko /\ bsearch (map fst es) ko = (true, idx) /\ sib_entry es idx = Some (kq, q) /\
    Forall2 (CInv h d ks) E1 (cbs (lo0 lo) (map fst E1) (Some ka)) /\
    Forall2 (CInv h d ks) E2 (cbs Some (map fst E2) hi) /\
    sib_side h d lo hi ks E1 ka qa kb qb E2 k ko kq q idx.
Proof.
  intros h d lo hi es ks k HP Hkin Hone.
  destruct (Pre1_split _ _ _ _ _ _ _ HP Hkin) as (E1 & ko & E2 & Ees & Ho & Hb & HC1 & Hk & HC2 & _).
  destruct (list_rev_case E1) as [-> | (E1' & [kq q] & ->)].
  - destruct E2 as [|[kq q] rest]; [subst es; discriminate|].
    cbn [app] in Ees. cbn [map fst fst_fun nxt length cbs] in Hk, Hb, HC2. inversion HC2 as [|? ? ? ? Cs HC2']; subst.
    exists [], ko, (n_page k), kq, q, rest, ko, kq, q, 0%N.
    repeat (split; [assumption || reflexivity || constructor|]). right. repeat (split; [assumption || reflexivity|]). assumption.
  - rewrite <- app_assoc in Ees. cbn [app] in Ees.
    rewrite map_app in Hk, HC1. cbn [map fst] in Hk, HC1. rewrite fst_fun_app_cons in Hk.
    rewrite cbs_app in HC1. cbn [cbs nxt] in HC1.
    apply Forall2_app_inv_len in HC1; [|now rewrite cbs_length, map_length]. destruct HC1 as [HC1 Hr].
    inversion Hr as [|? ? ? ? Cs _]; subst.
    rewrite app_length, Nat.add_1_r in Hb.
    exists E1', kq, q, ko, (n_page k), E2, ko, kq, q, (N.of_nat (S (length E1'))).
    split; [reflexivity|]. split; [exact Ho|]. split; [exact Hb|]. split.
    { unfold sib_entry, nthN. assert ((N.of_nat (S (length E1')) =? 0)%N = false) as -> by lia.
      replace (N.to_nat (N.of_nat (S (length E1')) - 1)) with (length E1' + 0) by lia.
      rewrite nth_error_app2 by lia. replace (length E1' + 0 - length E1') with 0 by lia. reflexivity. }
    split; [exact HC1|]. split; [exact HC2|]. left. repeat (split; [assumption || reflexivity|]). assumption.
Qed.

Lemma Pre1_Inv : forall h d lo hi p np o s es ks k, Pre1 h d lo hi es ks (n_page k) -> In k ks ->
  n_data k <> Branches [] -> Inv (S h) d true lo hi (Node p np o s (Branches es) ks).
Proof.
  intros h d lo hi p np o s es ks k HP Hkin Hne. pose proof HP as (Hs & Hnd & Hinb & Hlk & HC).
  assert (Hfk : find_kid (n_page k) ks = Some k) by (eapply kids_linked_find; eauto).
  rewrite Inv_branch_eq. split; [discriminate|]. repeat (split; [assumption|]).
  eapply Forall2_impl; [|exact HC]. intros e b H. unfold CInv1, CInv in *.
  destruct (find_kid (snd e) ks) as [kd|] eqn:Ef; [|exact H].
  destruct (N.eqb (snd e) (n_page k)) eqn:E; [|exact H]. apply N.eqb_eq in E. rewrite E, Hfk in Ef.
  inversion Ef; subst kd. eapply Inv_z_false; eauto.
Qed.

Lemma post_noop : forall h d s lo hi par l k, Inv (S h) d true lo hi par -> NodeView d (S h) par l ->
  NoDup (npages (S h) d par) -> NoDup (seqs par) -> Post h d s lo hi par l k par s.
Proof.
  intros. unfold Post. repeat (split; [solve [auto | reflexivity | apply incl_refl | now left]|]). now left.
Qed.

(* the parent after a merge; the sibling had to be read in ([isnew]) or not *)
Lemma post_build : forall h d s lo hi par l k par' s1 (isnew : bool),
  Inv (S h) d true lo hi par' -> NodeView d (S h) par' l ->
  n_page par' = n_page par -> n_np par' = n_np par -> n_orig par' = n_orig par -> n_seq par' = n_seq par ->
  NoDup (npages (S h) d par) -> Permutation (n_page k :: npages (S h) d par') (npages (S h) d par) ->
  NoDup (seqs par) -> Forall (fun x => (x < seqc s)%N) (seqs par) ->
  Permutation (n_seq k :: seqs par') ((if isnew then [seqc s] else []) ++ seqs par) ->
  s1 = (if isnew then bump s else s) ->
  Post h d s lo hi par l k par' (free_node_page s1 k).
Proof.
  intros h d s lo hi par l k par' s1 isnew HI HV E1 E2 E3 E4 Hnp Hpp Hsq Hlt Hps ->.
  destruct (perm_nodup_incl _ _ _ Hnp Hpp) as [P1 P2].
  assert (Hex : NoDup (if isnew then [seqc s] else [])) by (destruct isnew; repeat constructor; intros []).
  assert (Hfr : forall x, In x (if isnew then [seqc s] else []) ->
                          (seqc s <= x < seqc (free_node_page (if isnew then bump s else s) k))%N).
  { destruct isnew; intros x Hx; [|destruct Hx]. destruct Hx as [<- | []].
    destruct (free_node_page_frame (bump s) k) as [_ E]. rewrite E, seqc_bump. lia. }
  destruct (seqs_after (n_seq k) (seqs par) (seqs par') _ Hsq Hex) as [S1 S2]; [|exact Hps|].
  { intros y Hy Hin. rewrite Forall_forall in Hlt. specialize (Hlt y Hin). specialize (Hfr y Hy). lia. }
  unfold Post. repeat (split; [assumption|]). split; [|split; [|now right]].
  - intros x Hx. destruct (S2 x Hx) as [H | H]; [now left | right; now apply Hfr].
  - destruct isnew; unfold merge_tx; tauto.
Qed.
Lemma set_merged_eq : forall sib md kk, set_kids (set_data sib md) kk = Node (n_page sib) (n_np sib) (n_orig sib) (n_seq sib) md kk.
Proof. intros [p np o s dd ks] md kk. reflexivity. Qed.
Lemma set_merged_orig_eq : forall sib md kk o, set_orig (set_kids (set_data sib md) kk) o = Node (n_page sib) (n_np sib) o (n_seq sib) md kk.
Proof. intros [p np o s dd ks] md kk o'. reflexivity. Qed.

Lemma Inv_false_nonempty : forall h d lo hi n, Inv h d false lo hi n -> n_data n <> Branches [].
Proof.
  destruct h as [|h]; intros d lo hi n H; [destruct H|]. destruct n as [p np o s [l|es] ks]; cbn [n_data]; [discriminate|].
  rewrite Inv_branch_eq in H. destruct H as (Hne & _). intros E. inversion E. now apply Hne.
Qed.

Lemma remove_at_second : forall {A} (a : list A) x y b, remove_at (a ++ x :: y :: b) (S (length a)) = a ++ x :: b.
Proof. intros A a x y b. induction a as [|z a IH]; [reflexivity|]. cbn [app length remove_at]. now rewrite IH. Qed.

Lemma first_key_pos : forall dd, (0 < dlen dd)%N -> exists fk, first_key dd = Ok fk.
Proof. intros [[|e l]|[|e es]] H; cbn in *; try lia; eauto. Qed.

(* the merge of k into its sibling, on either side *)
Lemma step_merge : forall h d s lo hi p np og sq E1 ka qa kb qb E2 ks k l ko kq q idx par' s',
  sorted_keys (map fst (E1 ++ (ka, qa) :: (kb, qb) :: E2)) = true ->
  NoDup (map snd (E1 ++ (ka, qa) :: (kb, qb) :: E2)) ->
  Forall (inb lo hi) (map fst (E1 ++ (ka, qa) :: (kb, qb) :: E2)) ->
  kids_linked (E1 ++ (ka, qa) :: (kb, qb) :: E2) ks -> In k ks ->
  Forall2 (CInv h d ks) E1 (cbs (lo0 lo) (map fst E1) (Some ka)) ->
  Forall2 (CInv h d ks) E2 (cbs Some (map fst E2) hi) ->
  sib_side h d lo hi ks E1 ka qa kb qb E2 k ko kq q idx ->
  NodeView d (S h) (Node p np og sq (Branches (E1 ++ (ka, qa) :: (kb, qb) :: E2)) ks) l ->
  NoDup (npages (S h) d (Node p np og sq (Branches (E1 ++ (ka, qa) :: (kb, qb) :: E2)) ks)) ->
  NoDup (seqs (Node p np og sq (Branches (E1 ++ (ka, qa) :: (kb, qb) :: E2)) ks)) ->
  Forall (fun x => (x < seqc s)%N) (seqs (Node p np og sq (Branches (E1 ++ (ka, qa) :: (kb, qb) :: E2)) ks)) ->
  needs_merging s k = true -> (0 < dlen (n_data k))%N -> n_orig k = Some ko ->
  bsearch (map fst (E1 ++ (ka, qa) :: (kb, qb) :: E2)) ko = (true, idx) ->
  sib_entry (E1 ++ (ka, qa) :: (kb, qb) :: E2) idx = Some (kq, q) ->
  try_merge d (Node p np og sq (Branches (E1 ++ (ka, qa) :: (kb, qb) :: E2)) ks) k s = Ok (par', s') ->
  Post h d s lo hi (Node p np og sq (Branches (E1 ++ (ka, qa) :: (kb, qb) :: E2)) ks) l k par' s'.
Proof.
  intros h d s lo hi p np og sq E1 ka qa kb qb E2 ks k l ko kq q idx par' s' Hs Hnd Hinb Hlk Hkin HC1 HC2 Hside
    Hv Hnp Hsq Hlt Hn Hdl Ho Hb Hse H.
  set (es := E1 ++ (ka, qa) :: (kb, qb) :: E2) in *.
  assert (Hat : tm_at (Node p np og sq (Branches es) ks) k s es idx kq q).
  { unfold tm_at. repeat (split; [assumption || reflexivity|]). split; [eauto | exact Hse]. }
  rewrite (try_merge_at d _ k s es _ kq q Hat) in H. cbn [n_kids] in H.
  apply bind_ok_inv in H. destruct H as ([[sib s1] isnew] & Eso & H).
  apply bind_ok_inv in H. destruct H as (md & Emd & H).
  pose proof (seqs_kids_NoDup ks ltac:(cbn [seqs] in Hsq; now inversion Hsq)) as Hsk.
  assert (Hfk : find_kid (n_page k) ks = Some k) by (eapply kids_linked_find; eauto).
  assert (Vk : forall lk, ChildView d h ks (n_page k) lk -> NodeView d h k lk) by (unfold ChildView; now rewrite Hfk).
  assert (Pk : npages h d k = cpages h d ks (n_page k)) by (unfold cpages; now rewrite Hfk).
  assert (Hab : qa <> qb).
  { unfold es in Hnd. rewrite map_app in Hnd. cbn [map snd] in Hnd. apply NoDup_app_r in Hnd.
    inversion Hnd as [|? ? Hx _]; subst. intros E. apply Hx. left. now symmetry. }
  destruct Hside as [(-> & -> & -> & -> & -> & Cs & Hk) | (-> & -> & -> & -> & -> & -> & Hk & Cs)].
  - (* the sibling is on the left *)
    assert (E3 : (N.of_nat (S (length E1)) =? 0)%N = false) by lia.
    destruct (merged_left es _ md sib k E3) as [Ees Esib]. rewrite Ees, Esib, Nat2N.id in H. clear Ees Esib.
    unfold es in H. rewrite remove_at_second in H. inversion H; subst par' s'. clear H.
    assert (Hq_in : In (kq, q) es) by (unfold es; apply in_or_app; right; now left).
    destruct (sib_of_spec h d s es ks k kq q _ sib s1 isnew Hlk Hnd Hsk Hkin Hq_in Hab Cs Eso)
      as (Isib & Vsib & Psib & Osib & Pgsib & Kaft & Es1). cbn [fst snd] in Isib.
    destruct (Inv_dkeys _ _ _ _ _ _ Isib) as [SA FA]. destruct (Inv_dkeys _ _ _ _ _ _ Hk) as [SB FB].
    pose proof (merge_data_lr _ _ _ _ _ _ SA FA SB FB Emd) as Emd'. subst md.
    rewrite set_merged_eq, Osib, Pgsib.
    destruct (merge_assemble h d lo hi p np og sq E1 kq q ko (n_page k) E2 ks k l q kq sib k false true
                (n_np sib) (n_seq sib) (n_kids sib ++ n_kids k)
                (kids_merged ks k (Node q (n_np sib) (Some kq) (n_seq sib) (djoin (n_data sib) (n_data k)) (n_kids sib ++ n_kids k)) isnew)
                (if isnew then [seqc s] else [])
                Hs Hnd Hinb Hlk Hkin (or_introl (conj eq_refl eq_refl)) HC1 HC2 Isib Hk
                (Inv_false_nonempty _ _ _ _ _ Isib) (dlen_pos_nonempty _ Hdl) (merge_data_kind _ _ _ Emd)
                (or_introl eq_refl) (or_introl eq_refl) Hv Vsib Vk Psib Pk Hnp
                (Kaft (Node q (n_np sib) (Some kq) (n_seq sib) (djoin (n_data sib) (n_data k)) (n_kids sib ++ n_kids k))
                      eq_refl eq_refl eq_refl)) as (R1 & R2 & R3 & R4).
    eapply (post_build h d s lo hi _ l k _ s1 isnew); try eassumption; reflexivity.
  - (* k is the first child, the sibling is on its right; the merged node takes k's first key *)
    cbn [app] in es.
    assert (Hq_in : In (kq, q) es) by (right; now left).
    destruct (sib_of_spec h d s es ks k kq q _ sib s1 isnew Hlk Hnd Hsk Hkin Hq_in (not_eq_sym Hab) Cs Eso)
      as (Isib & Vsib & Psib & Osib & Pgsib & Kaft & Es1). cbn [fst snd] in Isib.
    destruct (Inv_dkeys _ _ _ _ _ _ Hk) as [SA FA]. destruct (Inv_dkeys _ _ _ _ _ _ Isib) as [SB FB].
    pose proof (merge_data_rl _ _ _ _ _ _ SA FA SB FB Emd) as Emd'. subst md.
    pose proof (merge_data_kind _ _ _ Emd) as Hkind. symmetry in Hkind.
    destruct (first_key_pos _ Hdl) as [fk Hfk0].
    assert (Hfkj : first_key (djoin (n_data k) (n_data sib)) = Ok fk) by (rewrite first_key_djoin; assumption).
    destruct (merged_right (ko, n_page k) kq q E2 _ fk sib k Hfkj) as [Ees Esib]. fold es in Ees.
    rewrite Ees, Esib in H. clear Ees Esib. inversion H; subst par' s'. clear H.
    rewrite set_merged_orig_eq, Pgsib.
    destruct (merge_assemble h d lo hi p np og sq [] ko (n_page k) kq q E2 ks k l q fk k sib true false
                (n_np sib) (n_seq sib) (n_kids sib ++ n_kids k)
                (kids_merged ks k (Node q (n_np sib) (Some fk) (n_seq sib) (djoin (n_data k) (n_data sib)) (n_kids sib ++ n_kids k)) isnew)
                (if isnew then [seqc s] else [])
                Hs Hnd Hinb Hlk Hkin (or_intror (conj eq_refl eq_refl)) HC1 HC2 Hk Isib
                (dlen_pos_nonempty _ Hdl) (Inv_false_nonempty _ _ _ _ _ Isib) Hkind
                (or_intror eq_refl) (or_intror (conj eq_refl (conj Hdl Hfkj))) Hv Vk Vsib Pk Psib Hnp
                (Kaft (Node q (n_np sib) (Some fk) (n_seq sib) (djoin (n_data k) (n_data sib)) (n_kids sib ++ n_kids k))
                      eq_refl eq_refl eq_refl)) as (R1 & R2 & R3 & R4).
    cbn [app] in *.
    eapply (post_build h d s lo hi _ l k _ s1 isnew); try eassumption; reflexivity.
Qed.

Lemma post_drop : forall h d s lo hi par l k par' s',
  Inv (S h) d true lo hi par' -> NodeView d (S h) par' l ->
  n_page par' = n_page par -> n_np par' = n_np par -> n_orig par' = n_orig par -> n_seq par' = n_seq par ->
  NoDup (npages (S h) d par) -> Permutation (n_page k :: npages (S h) d par') (npages (S h) d par) ->
  NoDup (seqs par) -> Permutation (seqs k ++ seqs par') (seqs par) ->
  merge_tx s k s' ->
  Post h d s lo hi par l k par' s'.
Proof.
  intros h d s lo hi par l k par' s' HI HV E1 E2 E3 E4 Hnp Hpp Hsq Hps Htx.
  destruct (perm_nodup_incl _ _ _ Hnp Hpp) as [P1 P2].
  pose proof (NoDup_app_r _ _ (Permutation_NoDup (Permutation_sym Hps) Hsq)) as S1.
  unfold Post. repeat (split; [assumption|]). split; [|split; [exact Htx | now right]].
  intros x Hx. left. eapply Permutation_in; [exact Hps | apply in_or_app; now right].
Qed.

(* The parent satisfies the invariant except that the kid k may be an empty branch node (as left by
   [rebalance_kids] when all of k's children were merged away). *)
Theorem try_merge_step : forall h d s lo hi p np og sq es ks k l par' s',
  Pre1 h d lo hi es ks (n_page k) -> In k ks ->
  NodeView d (S h) (Node p np og sq (Branches es) ks) l ->
  NoDup (npages (S h) d (Node p np og sq (Branches es) ks)) ->
  NoDup (seqs (Node p np og sq (Branches es) ks)) ->
  Forall (fun x => (x < seqc s)%N) (seqs (Node p np og sq (Branches es) ks)) ->
  try_merge d (Node p np og sq (Branches es) ks) k s = Ok (par', s') ->
  Post h d s lo hi (Node p np og sq (Branches es) ks) l k par' s'.
Proof.
  intros h d s lo hi p np og sq es ks k l par' s' HP Hkin Hv Hnp Hsq Hlt H.
  destruct (Pre1_split _ _ _ _ _ _ _ HP Hkin) as (E1 & ko & E2 & Ees & Ho & Hb & HC1 & Hk & HC2 & Hfk).
  pose proof HP as (Hs & Hnd & Hinb & Hlk & _).
  assert (Hnoop : n_data k <> Branches [] ->
                  try_merge d (Node p np og sq (Branches es) ks) k s = Ok (Node p np og sq (Branches es) ks, s) ->
                  Post h d s lo hi (Node p np og sq (Branches es) ks) l k par' s').
  { intros Hne E. rewrite E in H. inversion H; subst par' s'. apply post_noop; try assumption.
    eapply Pre1_Inv; eauto. }
  destruct (needs_merging s k) eqn:Hn.
  2:{ apply Hnoop.
      - unfold needs_merging in Hn. apply orb_false_iff in Hn. destruct Hn as [Hn _]. intros E. rewrite E in Hn.
        cbn in Hn. discriminate.
      - rewrite try_merge_noop by exact Hn. cbn [n_kids set_kids]. now rewrite replace_kid_id. }
  destruct (0 <? dlen (n_data k))%N eqn:Hdl.
  2:{ (* empty child *)
      assert (Hd0 : dlen (n_data k) = 0%N) by lia.
      rewrite (try_merge_empty d (Node p np og sq (Branches es) ks) k s es ko _ Hd0 eq_refl Ho Hb) in H. inversion H; subst par' s'. clear H.
      cbn [set_data set_kids n_kids]. rewrite Nat2N.id. subst es. rewrite remove_at_mid.
      pose proof (seqs_kids_NoDup ks ltac:(cbn [seqs] in Hsq; now inversion Hsq)) as Hsk.
      destruct (empty_assemble h d lo hi p np og sq E1 ko E2 ks k l Hs Hnd Hinb Hlk Hkin Hsk HC1 HC2 Hd0 Hv)
        as (R1 & R2 & R3 & R4).
      eapply (post_drop h d s lo hi _ l k _ _); try eassumption; try reflexivity. right. now left. }
  assert (Hdl' : (0 < dlen (n_data k))%N) by lia.
  destruct (llen es =? 1)%N eqn:Hone.
  { apply Hnoop; [now apply dlen_pos_nonempty|].
    rewrite (try_merge_only_child d (Node p np og sq (Branches es) ks) k s es eq_refl ltac:(lia) Hdl').
    cbn [n_kids set_kids]. now rewrite replace_kid_id. }
  destruct (Pre1_sibling _ _ _ _ _ _ _ HP Hkin Hone)
    as (E1' & ka & qa & kb & qb & E2' & ko' & kq & q & idx & -> & Ho' & Hb' & Hse & C1 & C2 & Hside).
  eapply step_merge; eauto.
Qed.
(* when the parent satisfies the invariant with k in place *)
Theorem try_merge_view : forall h d s z lo hi par es k l par' s',
  Inv (S h) d z lo hi par -> n_data par = Branches es -> In k (n_kids par) ->
  NodeView d (S h) par l ->
  NoDup (npages (S h) d par) -> NoDup (seqs par) -> Forall (fun x => (x < seqc s)%N) (seqs par) ->
  try_merge d par k s = Ok (par', s') ->
  Post h d s lo hi par l k par' s'.
Proof.
  intros h d s z lo hi [p np og sq dd ks] es k l par' s' HI Hd Hkin Hv Hnp Hsq Hlt H.
  cbn [n_data n_kids] in *. subst dd. eapply try_merge_step; eauto. eapply Inv_Pre1; eauto.
Qed.

(* what [Post] gives in the vocabulary of EngineModifyFacts / of the transaction state *)
Theorem Post_facts : forall h d s lo hi par l k par' s', Post h d s lo hi par l k par' s' ->
  NodeView d (S h) par' l /\
  (n_data par' <> Branches [] -> wf_node d par') /\
  free s' = free s /\ np s' = np s /\ wr s' = wr s /\ txid s' = txid s /\ psz s' = psz s /\ flw s' = flw s /\
  (pending s' = pending s \/ pending s' = pending (free_node_page s k)) /\
  (seqc s <= seqc s' <= seqc s + 1)%N.
Proof.
  intros h d s lo hi par l k par' s' (HI & HV & _ & _ & _ & _ & _ & _ & _ & _ & Htx & _).
  split; [exact HV|]. split.
  - intros Hne. eapply Inv_wf_node. eapply Inv_z_false; eauto.
  - destruct (merge_tx_frame _ _ _ Htx) as ((F1 & F2 & F3 & F4 & F5 & F6 & F7) & Hle & Hp).
    repeat (split; [assumption|]). lia.
Qed.

Lemma NoDup_replace_mid : forall {T} (A X X' B : list T) (fresh : T -> Prop),
  NoDup (A ++ X ++ B) -> NoDup X' -> (forall x, In x X' -> In x X \/ fresh x) ->
  (forall y, In y (A ++ X ++ B) -> ~ fresh y) -> NoDup (A ++ X' ++ B).
Proof.
  intros T A X X' B fresh H HX' Hin Hfr.
  pose proof (NoDup_app_l _ _ H) as HA. pose proof (NoDup_app_r _ _ H) as HXB.
  pose proof (NoDup_app_r _ _ HXB) as HB.
  apply NoDup_app_intro; [exact HA | |].
  - apply NoDup_app_intro; [exact HX' | exact HB |]. intros y Hy1 Hy2. destruct (Hin y Hy1) as [Hy | Hy].
    + eapply (NoDup_app_disj X B y); eauto.
    + apply (Hfr y); [|exact Hy]. apply in_or_app. right. apply in_or_app. now right.
  - intros y Hy1 Hy2. apply in_app_or in Hy2. destruct Hy2 as [Hy2 | Hy2].
    + destruct (Hin y Hy2) as [Hy | Hy].
      * eapply (NoDup_app_disj A (X ++ B) y); eauto. apply in_or_app. now left.
      * apply (Hfr y); [|exact Hy]. apply in_or_app. now left.
    + eapply (NoDup_app_disj A (X ++ B) y); eauto. apply in_or_app. now right.
Qed.

(* a kid in the middle of the kid list is replaced by one of the same page and key *)
Lemma kids_linked_replace : forall es a k k1 b, kids_linked es (a ++ k :: b) ->
  n_page k1 = n_page k -> n_orig k1 = n_orig k -> kids_linked es (a ++ k1 :: b).
Proof.
  intros es a k k1 b [Lnd LF] Ep Eo. split.
  - rewrite map_app in *. cbn [map] in *. now rewrite Ep.
  - apply Forall_app in LF. destruct LF as [LA LB]. inversion LB as [|? ? Hk LB']; subst.
    apply Forall_app. split; [exact LA|]. constructor; [|exact LB']. now rewrite Ep, Eo.
Qed.

(* its sequence numbers are the old ones or [fresh] ones *)
Lemma seqs_replace_mid : forall sq a k k1 b (fresh : N -> Prop),
  NoDup (sq :: flat_map seqs (a ++ k :: b)) -> NoDup (seqs k1) ->
  (forall x, In x (seqs k1) -> In x (seqs k) \/ fresh x) ->
  (forall y, In y (sq :: flat_map seqs (a ++ k :: b)) -> ~ fresh y) ->
  NoDup (sq :: flat_map seqs (a ++ k1 :: b)) /\
  (forall x, In x (sq :: flat_map seqs (a ++ k1 :: b)) -> In x (sq :: flat_map seqs (a ++ k :: b)) \/ fresh x).
Proof.
  intros sq a k k1 b fresh Hsq Ns1 Is1 Hfr. rewrite !flat_map_app in *. cbn [flat_map] in *.
  rewrite app_comm_cons in Hsq, Hfr |- *. split; [eapply NoDup_replace_mid; eauto|].
  intros x Hx. rewrite app_comm_cons, !in_app_iff in *. destruct Hx as [Hx | [Hx | Hx]]; [tauto | | tauto].
  destruct (Is1 x Hx); tauto.
Qed.

(* the pages named under a branch node: those of the kid k sit between two lists that do not depend on k *)
Lemma npages_kid_replaced : forall h d p np og sq es ks k k1,
  NoDup (map snd es) -> kids_linked es ks -> In k ks -> n_page k1 = n_page k ->
  exists A B, npages (S h) d (Node p np og sq (Branches es) ks) = A ++ npages h d k ++ B /\
              npages (S h) d (Node p np og sq (Branches es) (replace_kid ks k1)) = A ++ npages h d k1 ++ B.
Proof.
  intros h d p np og sq es ks k k1 Hnd Hlk Hkin Ep.
  assert (Hfk : find_kid (n_page k) ks = Some k) by (eapply kids_linked_find; eauto).
  destruct (replace_kid_upd ks (n_page k) k1 Ep) as [U1 U2].
  pose proof (proj2 Hlk) as LF. rewrite Forall_forall in LF. destruct (LF k Hkin) as (ko & Hko & _).
  destruct (in_split _ _ Hko) as (E1 & E2 & ->).
  rewrite map_app in Hnd. cbn [map snd] in Hnd. pose proof (NoDup_remove_2 _ _ _ Hnd) as Hx.
  assert (G : forall E : list (bytes * N), (forall e, In e E -> In (snd e) (map snd E1 ++ map snd E2)) ->
              flat_map (fun e => cpages h d (replace_kid ks k1) (snd e)) E = flat_map (fun e => cpages h d ks (snd e)) E).
  { intros E HE. apply cpages_ext. intros e He. apply U2. intros Eq. apply Hx. rewrite <- Eq. now apply HE. }
  assert (Ek1 : cpages h d (replace_kid ks k1) (n_page k) = npages h d k1) by (unfold cpages; now rewrite U1).
  assert (Ek : cpages h d ks (n_page k) = npages h d k) by (unfold cpages; now rewrite Hfk).
  exists (map snd (E1 ++ (ko, n_page k) :: E2) ++ flat_map (fun e => cpages h d ks (snd e)) E1),
         (flat_map (fun e => cpages h d ks (snd e)) E2).
  rewrite !npages_branch_eq, !flat_map_app. cbn [flat_map snd]. rewrite (G E1), (G E2), Ek1, Ek.
  - now rewrite <- !app_assoc.
  - intros e He. apply in_or_app. right. now apply in_map.
  - intros e He. apply in_or_app. left. now apply in_map.
Qed.

(* [k1] can stand in for the kid [k]: same identity, the views of k, a subset of its pages, its sequence numbers or
   [fresh] ones; the invariant is kept except that k1 may have become an empty branch node *)
Definition KidNext (h : nat) (d : disk) (fresh : N -> Prop) (k k1 : node) : Prop :=
  n_page k1 = n_page k /\ n_orig k1 = n_orig k /\ n_seq k1 = n_seq k /\
  (forall lo hi, Inv h d false lo hi k -> Inv h d true lo hi k1) /\
  (forall lk, NodeView d h k lk -> NodeView d h k1 lk) /\
  NoDup (npages h d k1) /\ incl (npages h d k1) (npages h d k) /\
  NoDup (seqs k1) /\ (forall x, In x (seqs k1) -> In x (seqs k) \/ fresh x).

Lemma KidNext_refl : forall h d fresh k, NoDup (npages h d k) -> NoDup (seqs k) -> KidNext h d fresh k k.
Proof.
  intros h d fresh k Np Ns. unfold KidNext. repeat (split; [reflexivity|]).
  split; [intros; eapply Inv_z_true; eauto|]. split; [auto|]. split; [exact Np|].
  split; [apply incl_refl|]. split; [exact Ns | intros; now left].
Qed.

Lemma kid_replaced : forall h d lo hi p np og sq es ks k k1 l (fresh : N -> Prop),
  Inv (S h) d true lo hi (Node p np og sq (Branches es) ks) -> In k ks ->
  NodeView d (S h) (Node p np og sq (Branches es) ks) l ->
  NoDup (npages (S h) d (Node p np og sq (Branches es) ks)) ->
  NoDup (seqs (Node p np og sq (Branches es) ks)) ->
  KidNext h d fresh k k1 ->
  (forall y, In y (seqs (Node p np og sq (Branches es) ks)) -> ~ fresh y) ->
  let ks' := replace_kid ks k1 in
  Pre1 h d lo hi es ks' (n_page k1) /\ In k1 ks' /\
  NodeView d (S h) (Node p np og sq (Branches es) ks') l /\
  NoDup (npages (S h) d (Node p np og sq (Branches es) ks')) /\
  incl (npages (S h) d (Node p np og sq (Branches es) ks')) (npages (S h) d (Node p np og sq (Branches es) ks)) /\
  NoDup (seqs (Node p np og sq (Branches es) ks')) /\
  (forall x, In x (seqs (Node p np og sq (Branches es) ks')) -> In x (seqs (Node p np og sq (Branches es) ks)) \/ fresh x).
Proof.
  intros h d lo hi p np og sq es ks k k1 l fresh HI Hkin Hv Hnp Hsq (Ep & Eo & Es & TI & TV & Np1 & Ip1 & Ns1 & Is1) Hfr ks'.
  rewrite Inv_branch_eq in HI. destruct HI as (_ & Hs & Hnd & Hinb & Hlk & HC).
  assert (Hfk : find_kid (n_page k) ks = Some k) by (eapply kids_linked_find; eauto).
  destruct (find_kid_split _ _ _ Hfk) as (a & b & Eks & _ & Ha).
  assert (Eks' : ks' = a ++ k1 :: b).
  { unfold ks'. rewrite Eks. apply replace_kid_hit; [now symmetry|]. intros y Hy. rewrite Ep. now apply Ha. }
  destruct (replace_kid_upd ks (n_page k) k1 Ep) as [U1 U2]. fold ks' in U1, U2.
  assert (Hin1 : In k1 ks') by (rewrite Eks'; apply in_or_app; right; now left).
  destruct (npages_kid_replaced h d p np og sq es ks k k1 Hnd Hlk Hkin Ep) as (A & B & EA & EA'). fold ks' in EA'.
  split; [|split; [exact Hin1|split; [|split; [|split]]]].
  - (* Pre1 *)
    unfold Pre1. split; [exact Hs|]. split; [exact Hnd|]. split; [exact Hinb|]. split.
    + rewrite Eks'. rewrite Eks in Hlk. eapply kids_linked_replace; eauto.
    + eapply Forall2_impl; [|exact HC]. intros e bb H. unfold CInv, CInv1 in *. rewrite Ep.
      destruct (N.eq_dec (snd e) (n_page k)) as [E | NE].
      * rewrite E, U1, N.eqb_refl. rewrite E, Hfk in H. now apply TI.
      * rewrite (U2 _ NE). assert (E0 : N.eqb (snd e) (n_page k) = false) by lia. rewrite E0. exact H.
  - (* view *)
    apply NodeView_branch_inv in Hv. destruct Hv as (h1 & ls & Eh1 & -> & HF). inversion Eh1; subst h1.
    apply NodeView_branch_intro. eapply Forall2_impl; [|exact HF]. intros e le H. unfold ChildView in *.
    destruct (N.eq_dec (snd e) (n_page k)) as [E | NE].
    + rewrite E, U1. rewrite E, Hfk in H. now apply TV.
    + now rewrite (U2 _ NE).
  - (* npages: NoDup *)
    rewrite EA in Hnp. rewrite EA'. eapply (NoDup_replace_mid _ _ _ _ (fun _ => False)); eauto.
  - (* npages: incl *)
    rewrite EA, EA'. intros x Hx. rewrite !in_app_iff in *. destruct Hx as [Hx | [Hx | Hx]]; auto.
  - (* seqs *)
    cbn [seqs] in *. rewrite Eks'. rewrite Eks in Hsq, Hfr |- *. now apply seqs_replace_mid.
Qed.

(** * [rebalance_kids] *)

Definition RKPost (h : nat) (d : disk) (s : txs) (lo hi : option bytes) (n : node) (l : list leafent)
  (n' : node) (s' : txs) : Prop :=
  Inv h d true lo hi n' /\ NodeView d h n' l /\
  n_page n' = n_page n /\ n_np n' = n_np n /\ n_orig n' = n_orig n /\ n_seq n' = n_seq n /\
  NoDup (npages h d n') /\ incl (npages h d n') (npages h d n) /\
  NoDup (seqs n') /\ (forall x, In x (seqs n') -> In x (seqs n) \/ (seqc s <= x < seqc s')%N) /\
  tx_frame s s'.

Lemma kid_facts : forall h d lo hi p np og sq es ks k l,
  Inv (S h) d true lo hi (Node p np og sq (Branches es) ks) -> In k ks ->
  NodeView d (S h) (Node p np og sq (Branches es) ks) l ->
  NoDup (npages (S h) d (Node p np og sq (Branches es) ks)) ->
  NoDup (seqs (Node p np og sq (Branches es) ks)) ->
  (exists lk, NodeView d h k lk) /\ NoDup (npages h d k) /\ NoDup (seqs k) /\
  incl (seqs k) (seqs (Node p np og sq (Branches es) ks)) /\
  (exists lo' hi', Inv h d true lo' hi' k).
Proof.
  intros h d lo hi p np og sq es ks k l HI Hkin Hv Hnp Hsq.
  pose proof (Inv_Pre1 _ _ _ _ _ _ _ _ _ _ _ (n_page k) HI) as HP.
  destruct (Pre1_split _ _ _ _ _ _ _ HP Hkin) as (E1 & ko & E2 & Ees & Ho & Hb & HC1 & Hk & HC2 & Hfk).
  split; [|split; [|split; [|split]]].
  - apply NodeView_branch_inv in Hv. destruct Hv as (h1 & ls & Eh1 & -> & HF). inversion Eh1; subst h1.
    rewrite Ees in HF. apply Forall2_app_inv_l in HF. destruct HF as (L1 & Lr & _ & Hr & _).
    apply Forall2_cons_inv_l in Hr. destruct Hr as (lk & L2 & _ & Vk & _).
    unfold ChildView in Vk. cbn [snd] in Vk. rewrite Hfk in Vk. eauto.
  - rewrite npages_branch_eq, Ees, flat_map_app in Hnp. cbn [flat_map snd] in Hnp. unfold cpages at 2 in Hnp.
    rewrite Hfk in Hnp. apply NoDup_app_r in Hnp. apply NoDup_app_r in Hnp. eapply NoDup_app_l; eauto.
  - cbn [seqs] in Hsq. apply NoDup_cons_iff in Hsq. destruct Hsq as [_ Hsq].
    destruct (in_split _ _ Hkin) as (a & b & ->). rewrite flat_map_app in Hsq. cbn [flat_map] in Hsq.
    apply NoDup_app_r in Hsq. eapply NoDup_app_l; eauto.
  - cbn [seqs]. intros x Hx. right. apply in_flat_map. eauto.
  - eauto.
Qed.

Lemma try_merge_branch : forall d par k s par' s', try_merge d par k s = Ok (par', s') ->
  is_leaf (n_data par) = false -> is_leaf (n_data par') = false.
Proof.
  intros d par k s par' s' H Hl. pose proof (try_merge_cases d par k s) as C. rewrite H in C.
  destruct C; destruct par; try reflexivity. exact Hl.
Qed.

Definition RK_IH (f : nat) : Prop :=
  forall h d s z lo hi n l n' s',
    Inv h d z lo hi n -> is_leaf (n_data n) = false -> NodeView d h n l ->
    NoDup (npages h d n) -> NoDup (seqs n) -> Forall (fun x => (x < seqc s)%N) (seqs n) ->
    rebalance_kids f d n s = Ok (n', s') -> RKPost h d s lo hi n l n' s'.

Lemma tx_frame_le : forall s s', tx_frame s s' -> (seqc s <= seqc s')%N.
Proof. intros s s' (_ & _ & _ & _ & _ & _ & H). exact H. Qed.

(* sequence numbers stay below the counter: old ones, or ones drawn since *)
Lemma seqs_lt_next : forall (L L' : list N) a b c, Forall (fun y => (y < a)%N) L ->
  (forall x, In x L' -> In x L \/ (b <= x < c)%N) -> (a <= c)%N -> Forall (fun x => (x < c)%N) L'.
Proof.
  intros L L' a b c HL H Hle. rewrite Forall_forall in *. intros x Hx.
  destruct (H x Hx) as [Hin | Hr]; [specialize (HL x Hin)|]; lia.
Qed.

Lemma RKPost_refl : forall h d s z lo hi n l, Inv h d z lo hi n -> NodeView d h n l ->
  NoDup (npages h d n) -> NoDup (seqs n) -> RKPost h d s lo hi n l n s.
Proof.
  intros h d s z lo hi n l HI HV Np Ns. unfold RKPost.
  split; [eapply Inv_z_true; eauto|]. split; [exact HV|]. repeat (split; [reflexivity|]).
  split; [exact Np|]. split; [apply incl_refl|]. split; [exact Ns|].
  split; [intros; now left | apply tx_frame_refl].
Qed.

(* what [rebalance_kids] establishes of a node holds whatever the bounds and the view it is looked at with *)
Lemma RK_IH_KidNext : forall f h d s z lo hi k lk k1 s1, RK_IH f ->
  Inv h d z lo hi k -> is_leaf (n_data k) = false -> NodeView d h k lk ->
  NoDup (npages h d k) -> NoDup (seqs k) -> Forall (fun x => (x < seqc s)%N) (seqs k) ->
  rebalance_kids f d k s = Ok (k1, s1) ->
  KidNext h d (fun x => (seqc s <= x < seqc s1)%N) k k1 /\ tx_frame s s1.
Proof.
  intros f h d s z lo hi k lk k1 s1 IH Ik Elf Vk Npk Nsk Hltk Hk1.
  pose proof (IH h d s z lo hi k lk k1 s1 Ik Elf Vk Npk Nsk Hltk Hk1) as (_ & V1 & Q1 & Q2 & Q3 & Q4 & Q5 & Q6 & Q7 & Q8 & Q9).
  split; [|exact Q9]. unfold KidNext. repeat (split; [assumption|]).
  split; [|split; [|repeat (split; [assumption|]); assumption]].
  - intros lo2 hi2 I2. apply (IH h d s false lo2 hi2 k lk k1 s1 I2 Elf Vk Npk Nsk Hltk Hk1).
  - intros lk2 V2. now rewrite <- (NodeView_det _ _ _ _ Vk _ _ V2).
Qed.

(* One round of [rebalance_kids], up to the call of [try_merge]: the kid k of the current node is ready for a
   recursive call; its result k1 stands in for it; the node with k1 in place is ready for [try_merge]. *)
Lemma rk_prep : forall f h0 d s lo hi n l p0 np0 og0 sq0 es0 ks0 s0 k k1 s1,
  RK_IH f ->
  Forall (fun x => (x < seqc s)%N) (seqs n) ->
  RKPost (S h0) d s lo hi n l (Node p0 np0 og0 sq0 (Branches es0) ks0) s0 ->
  In k ks0 ->
  (if is_leaf (n_data k) then Ok (k, s0) else rebalance_kids f d k s0) = Ok (k1, s1) ->
  let par0 := Node p0 np0 og0 sq0 (Branches es0) ks0 in
  let par1 := Node p0 np0 og0 sq0 (Branches es0) (replace_kid ks0 k1) in
  (exists lo' hi' lk, Inv h0 d true lo' hi' k /\ NodeView d h0 k lk /\ NoDup (npages h0 d k) /\ NoDup (seqs k) /\
     Forall (fun x => (x < seqc s0)%N) (seqs k)) /\
  KidNext h0 d (fun x => (seqc s0 <= x < seqc s1)%N) k k1 /\ tx_frame s0 s1 /\
  Pre1 h0 d lo hi es0 (replace_kid ks0 k1) (n_page k1) /\ In k1 (replace_kid ks0 k1) /\
  NodeView d (S h0) par1 l /\ NoDup (npages (S h0) d par1) /\
  incl (npages (S h0) d par1) (npages (S h0) d par0) /\ NoDup (seqs par1) /\
  (forall x, In x (seqs par1) -> In x (seqs par0) \/ (seqc s0 <= x < seqc s1)%N) /\
  Forall (fun x => (x < seqc s1)%N) (seqs par1).
Proof.
  intros f h0 d s lo hi n l p0 np0 og0 sq0 es0 ks0 s0 k k1 s1 IH Hlt (HI & HV & _ & _ & _ & _ & Np & _ & Ns & Is & Tx) Hkin Hk1
    par0 par1.
  destruct (kid_facts _ _ _ _ _ _ _ _ _ _ _ _ HI Hkin HV Np Ns) as ((lk & Vk) & Npk & Nsk & Isk & (lo' & hi' & Ik)).
  pose proof (seqs_lt_next _ _ _ _ _ Hlt Is (tx_frame_le _ _ Tx)) as Hlt0.
  assert (Hltk : Forall (fun x => (x < seqc s0)%N) (seqs k)).
  { rewrite Forall_forall in *. intros y Hy. apply Hlt0. now apply Isk. }
  assert (Hk : KidNext h0 d (fun x => (seqc s0 <= x < seqc s1)%N) k k1 /\ tx_frame s0 s1).
  { destruct (is_leaf (n_data k)) eqn:Elf.
    - inversion Hk1; subst k1 s1. split; [now apply KidNext_refl | apply tx_frame_refl].
    - eapply RK_IH_KidNext; eauto. }
  destruct Hk as [HK Tx1].
  destruct (kid_replaced h0 d lo hi p0 np0 og0 sq0 es0 ks0 k k1 l _ HI Hkin HV Np Ns HK) as (R1 & R2 & R3 & R4 & R5 & R6 & R7).
  { intros y Hy Hf. rewrite Forall_forall in Hlt0. specialize (Hlt0 y Hy). lia. }
  split; [exists lo', hi', lk; auto|]. repeat (split; [assumption|]).
  exact (seqs_lt_next _ _ _ _ _ Hlt0 R7 (tx_frame_le _ _ Tx1)).
Qed.

Lemma rk_step : forall f h0 d s lo hi n l n0 s0 k k1 s1 n1 s1',
  RK_IH f ->
  Forall (fun x => (x < seqc s)%N) (seqs n) ->
  RKPost (S h0) d s lo hi n l n0 s0 -> is_leaf (n_data n0) = false ->
  In k (n_kids n0) ->
  (if is_leaf (n_data k) then Ok (k, s0) else rebalance_kids f d k s0) = Ok (k1, s1) ->
  try_merge d (set_kids n0 (replace_kid (n_kids n0) k1)) k1 s1 = Ok (n1, s1') ->
  RKPost (S h0) d s lo hi n l n1 s1' /\ is_leaf (n_data n1) = false.
Proof.
  intros f h0 d s lo hi n l n0 s0 k k1 s1 n1 s1' IH Hlt HP0 Hlf Hkin Hk1 Hm.
  split; [|eapply try_merge_branch; [exact Hm|]; destruct n0; exact Hlf].
  destruct n0 as [p0 np0 og0 sq0 [l0|es0] ks0]; [discriminate|]. cbn [n_kids set_kids] in *.
  destruct (rk_prep f h0 d s lo hi n l p0 np0 og0 sq0 es0 ks0 s0 k k1 s1 IH Hlt HP0 Hkin Hk1)
    as (_ & _ & Tx1 & R1 & R2 & R3 & R4 & R5 & R6 & R7 & Hlt1).
  destruct HP0 as (_ & _ & P1 & P2 & P3 & P4 & _ & Ip & _ & Is & Tx).
  pose proof (try_merge_step h0 d s1 lo hi p0 np0 og0 sq0 es0 _ k1 l n1 s1' R1 R2 R3 R4 R6 Hlt1 Hm)
    as (T1 & T2 & T3 & T4 & T5 & T6 & T7 & T8 & T9 & T10 & T11 & _).
  destruct (merge_tx_frame _ _ _ T11) as (Tx2 & _ & _).
  cbn [n_page n_np n_orig n_seq] in *.
  unfold RKPost. split; [exact T1|]. split; [exact T2|].
  split; [congruence|]. split; [congruence|]. split; [congruence|]. split; [congruence|].
  split; [exact T7|]. split; [eapply incl_tran; [exact T8|]; eapply incl_tran; [exact R5 | exact Ip]|].
  split; [exact T9|]. split; [|eapply tx_frame_trans; [exact Tx|]; eapply tx_frame_trans; eauto].
  intros x Hx. pose proof (tx_frame_le _ _ Tx) as L0. pose proof (tx_frame_le _ _ Tx1) as L1.
  pose proof (tx_frame_le _ _ Tx2) as L2.
  destruct (T10 x Hx) as [H | H]; [|right; lia].
  destruct (R7 x H) as [H' | H']; [|right; lia].
  destruct (Is x H') as [H'' | H'']; [now left | right; lia].
Qed.

(* The loop of [rebalance_kids (S f)] over the snapshot of sequence numbers, once for all layers: [RKPost] holds of
   every state of the loop; a layer adds its own invariant [X rest n0 s0] (rest: the sequence numbers still to be
   visited), kept when a number names no kid any more and by a full round. *)
Section RkLoop.
  Variables (f h0 : nat) (d : disk) (s : txs) (lo hi : option bytes) (n : node) (l : list leafent).
  Variable X : list N -> node -> txs -> Prop.
  Hypothesis IHf : RK_IH f.
  Hypothesis Hlt : Forall (fun x => (x < seqc s)%N) (seqs n).
  Hypothesis Xskip : forall x rest n0 s0, X (x :: rest) n0 s0 ->
    find (fun k => N.eqb (n_seq k) x) (n_kids n0) = None -> X rest n0 s0.
  Hypothesis Xstep : forall rest n0 s0 k k1 s1 n1 s1',
    RKPost (S h0) d s lo hi n l n0 s0 -> is_leaf (n_data n0) = false -> In k (n_kids n0) ->
    X (n_seq k :: rest) n0 s0 ->
    (if is_leaf (n_data k) then Ok (k, s0) else rebalance_kids f d k s0) = Ok (k1, s1) ->
    try_merge d (set_kids n0 (replace_kid (n_kids n0) k1)) k1 s1 = Ok (n1, s1') ->
    X rest n1 s1'.

  Lemma rk_loop : forall z n' s',
    Inv (S h0) d z lo hi n -> is_leaf (n_data n) = false -> NodeView d (S h0) n l ->
    NoDup (npages (S h0) d n) -> NoDup (seqs n) -> X (map n_seq (n_kids n)) n s ->
    rebalance_kids (S f) d n s = Ok (n', s') ->
    RKPost (S h0) d s lo hi n l n' s' /\ is_leaf (n_data n') = false /\ X [] n' s'.
  Proof.
    intros z n' s' HI Hlf HV Np Ns HX H. rewrite rebalance_kids_S in H.
    apply (fold_res_inv (rk_body f d)
             (fun rest a => RKPost (S h0) d s lo hi n l (fst a) (snd a) /\ is_leaf (n_data (fst a)) = false /\
                            X rest (fst a) (snd a))) in H.
    - exact H.
    - intros x rest [n0 s0] [n1 s1] (HP0 & Hlf0 & HX0) E. cbn [fst snd rk_body] in *.
      destruct (find (fun k => N.eqb (n_seq k) x) (n_kids n0)) as [k|] eqn:Ef.
      + apply find_some in Ef. destruct Ef as [Hkin Hkx]. apply N.eqb_eq in Hkx. subst x.
        apply bind_ok_inv in E. destruct E as ([k1 s1k] & Ek & E).
        destruct (rk_step f h0 d s lo hi n l n0 s0 k k1 s1k n1 s1 IHf Hlt HP0 Hlf0 Hkin Ek E) as [HP1 Hlf1].
        split; [exact HP1|]. split; [exact Hlf1 | exact (Xstep rest n0 s0 k k1 s1k n1 s1 HP0 Hlf0 Hkin HX0 Ek E)].
      + inversion E; subst n1 s1. split; [exact HP0|]. split; [exact Hlf0 | exact (Xskip x rest n0 s0 HX0 Ef)].
    - cbn [fst snd]. split; [eapply RKPost_refl; eauto|]. split; [exact Hlf | exact HX].
  Qed.
End RkLoop.

Theorem rebalance_kids_view : forall fuel, RK_IH fuel.
Proof.
  induction fuel as [|f IH]; intros h d s z lo hi n l n' s' HI Hlf HV Np Ns Hlt H; [discriminate|].
  destruct (Inv_height _ _ _ _ _ _ HI) as [h0 ->].
  apply (rk_loop f h0 d s lo hi n l (fun _ _ _ => True) IH Hlt) with (z := z) (n' := n') (s' := s'); auto.
Qed.

(** * [merge_nodes] *)

(* the child of a node with a single entry spans the bounds of the node *)
Lemma Inv_single_child : forall h d z lo hi p np o s k0 q ks,
  Inv (S h) d z lo hi (Node p np o s (Branches [(k0, q)]) ks) ->
  match find_kid q ks with
  | Some kd => Inv h d false (lo0 lo k0) hi kd
  | None => PInv h d (lo0 lo k0) hi (Some k0) q end.
Proof.
  intros h d z lo hi p np o s k0 q ks HI. rewrite Inv_branch_eq in HI. destruct HI as (_ & _ & _ & _ & _ & HC).
  inversion HC as [|? ? ? ? Cq _]; subst. exact Cq.
Qed.

(* the invariant of an overlay root with its global side conditions *)
Definition RInv (h : nat) (d : disk) (s : txs) (z : bool) (n : node) : Prop :=
  Inv h d z None None n /\ NoDup (npages h d n) /\ NoDup (seqs n) /\ Forall (fun x => (x < seqc s)%N) (seqs n).

Definition BInv (h : nat) (d : disk) (s : txs) (b : bucket) : Prop :=
  match b_rootn b with
  | Some n => RInv h d s false n
  | None => PInv h d None None None (b_root_page b) /\ NoDup (ppages h d (b_root_page b))
  end.

Lemma BInv_wf : forall h d s b, BInv h d s b -> bucket_wf d b.
Proof.
  intros h d s b H. unfold BInv, bucket_wf in *. destruct (b_rootn b).
  - eapply Inv_wf_node. apply H.
  - eapply PInv_wf_page. apply H.
Qed.

Lemma PInv_dget : forall h d lo hi ok q, PInv h d lo hi ok q -> exists a, dget d q = Some a.
Proof. destruct h; intros d lo hi ok q H; [destruct H|]. cbn [PInv] in H. destruct H as (a & Hg & _). eauto. Qed.

Lemma ensure_root_RInv : forall h d s b l root s0, BInv h d s b -> BucketView d h b l ->
  ensure_root d b s = Ok (root, s0) ->
  RInv h d s0 false root /\ NodeView d h root l /\ tx_frame s s0.
Proof.
  intros h d s b l root s0 HB HV H. pose proof (ensure_root_cases d b s) as C. rewrite H in C.
  unfold BInv, BucketView in *. destruct C as [[En ->] | (En & -> & a & Ha & ->)]; rewrite En in HB, HV.
  - split; [exact HB|]. split; [exact HV | apply tx_frame_refl].
  - destruct HB as [HP Hnp]. split; [|split; [now apply node_of_page_view | apply (tx_frame_bump s)]].
    unfold RInv. split; [eapply node_of_page_Inv; eauto|]. split; [now rewrite node_of_page_npages|].
    unfold node_of_page. cbn [seqs flat_map]. split; [repeat constructor; intros []|].
    repeat constructor. cbn. lia.
Qed.

Lemma Forall_lt_weaken : forall (l : list N) a b, (a <= b)%N -> Forall (fun x => (x < a)%N) l -> Forall (fun x => (x < b)%N) l.
Proof. intros l a b Hab H. eapply Forall_impl; [|exact H]. cbn. intros; lia. Qed.

(* the root after its children were rebalanced *)
Lemma root1_RInv : forall h d s0 root l root1 s1, RInv h d s0 false root -> NodeView d h root l ->
  (if is_leaf (n_data root) then Ok (root, s0) else rebalance_kids fuel0 d root s0) = Ok (root1, s1) ->
  RInv h d s1 true root1 /\ NodeView d h root1 l /\ tx_frame s0 s1.
Proof.
  intros h d s0 root l root1 s1 (HI & Hnp & Hsq & Hlt) HV H. destruct (is_leaf (n_data root)) eqn:Elf.
  - inversion H; subst. split; [|split; [exact HV | apply tx_frame_refl]].
    unfold RInv. split; [eapply Inv_z_true; eauto|]. auto.
  - pose proof (rebalance_kids_view fuel0 h d s0 false None None root l root1 s1 HI Elf HV Hnp Hsq Hlt H)
      as (R1 & R2 & _ & _ & _ & _ & R7 & _ & R9 & R10 & R11).
    split; [|split; assumption]. unfold RInv. repeat (split; [assumption|]).
    exact (seqs_lt_next _ _ _ _ _ Hlt R10 (tx_frame_le _ _ R11)).
Qed.

Theorem merge_nodes_view : forall h d s b l b' s',
  BInv h d s b -> BucketView d h b l -> merge_nodes d b s = Ok (b', s') ->
  (exists h', h' <= h /\ BInv h' d s' b' /\ BucketView d h' b' l) /\
  bucket_wf d b' /\ b_next b' = b_next b /\ b_subs b' = b_subs b /\ b_dirty b' = b_dirty b /\ tx_frame s s'.
Proof.
  intros h d s b l b' s' HB HV H. destruct (merge_nodes_ok_inv _ _ _ _ _ H) as (root & s0 & root1 & s1 & Er & E1 & T).
  destruct (ensure_root_RInv _ _ _ _ _ _ _ HB HV Er) as (HR & HVr & Tx0).
  destruct (root1_RInv _ _ _ _ _ _ _ HR HVr E1) as ((HI & Hnp & Hsq & Hlt) & HV1 & Tx1).
  pose proof (tx_frame_trans _ _ _ Tx0 Tx1) as Tx.
  assert (Hwf : forall hh ss bb, BInv hh d ss bb -> b_next bb = b_next b -> b_subs bb = b_subs b -> b_dirty bb = b_dirty b ->
                  tx_frame s ss -> hh <= h -> BucketView d hh bb l ->
                  (exists h', h' <= h /\ BInv h' d ss bb /\ BucketView d h' bb l) /\
                  bucket_wf d bb /\ b_next bb = b_next b /\ b_subs bb = b_subs b /\ b_dirty bb = b_dirty b /\ tx_frame s ss).
  { intros hh ss bb Hbb A1 A2 A3 A4 A5 A6. split; [exists hh; auto|]. split; [eapply BInv_wf; eauto|]. auto. }
  destruct (Inv_height _ _ _ _ _ _ HI) as [h0 Eh]. subst h.
  destruct T as [k0 q Ed | Ed | Ed].
  - (* the root has a single child: the child becomes the root *)
    destruct root1 as [p1 np1 og1 sq1 dd ks1]. cbn [n_data n_kids] in *. subst dd.
    pose proof (Inv_single_child _ _ _ _ _ _ _ _ _ _ _ _ HI) as Cq. cbn [lo0] in Cq.
    destruct (free_node_page_frame s1 (Node p1 np1 og1 sq1 (Branches [(k0, q)]) ks1)) as [Tx2 Esq].
    apply NodeView_branch_inv in HV1. destruct HV1 as (h1 & ls & Eh1 & -> & HF). inversion Eh1; subst h1.
    inversion HF as [|? l0 ? ? Vq HF']; subst. inversion HF'; subst. unfold ChildView in Vq. cbn [snd] in Vq.
    rewrite npages_branch_eq in Hnp. cbn [map flat_map snd app] in Hnp. rewrite app_nil_r in Hnp.
    apply NoDup_cons_iff in Hnp. destruct Hnp as [_ Hnp]. unfold cpages in Hnp.
    apply (Hwf h0); try reflexivity; try (eapply tx_frame_trans; eassumption); try lia.
    + unfold BInv, RInv. cbn [b_rootn b_root_page]. destruct (find_kid q ks1) as [kd|] eqn:Ef.
      * destruct (find_kid_In _ _ _ Ef) as [Hkdin _]. split; [exact Cq|]. split; [exact Hnp|].
        cbn [seqs] in Hsq, Hlt. apply NoDup_cons_iff in Hsq. destruct Hsq as [_ Hsq].
        destruct (in_split _ _ Hkdin) as (a & b0 & ->). rewrite flat_map_app in Hsq, Hlt. cbn [flat_map] in Hsq, Hlt.
        split; [eapply NoDup_app_l; eapply NoDup_app_r; exact Hsq|].
        rewrite Esq. inversion Hlt as [|? ? _ Hlt']; subst. apply Forall_app in Hlt'. destruct Hlt' as [_ Hlt'].
        apply Forall_app in Hlt'. apply Hlt'.
      * split; [eapply PInv_okey_none; exact Cq | exact Hnp].
    + unfold BucketView. cbn [b_rootn b_root_page concat]. rewrite ?app_nil_r. exact Vq.
  - (* every child was removed: an empty leaf *)
    destruct root1 as [p1 np1 og1 sq1 dd ks1]. cbn [n_data] in Ed. subst dd.
    rewrite Inv_branch_eq in HI. destruct HI as (_ & _ & _ & _ & [_ LF] & _).
    assert (ks1 = []) by (destruct ks1 as [|x ks1]; [reflexivity | inversion LF as [|? ? (key & [] & _) _]]).
    subst ks1. apply NodeView_branch_inv in HV1. destruct HV1 as (h1 & ls & _ & -> & HF). inversion HF; subst.
    apply (Hwf (S h0)); try reflexivity; try assumption; try lia.
    + unfold BInv, RInv. cbn [b_rootn set_data]. split; [rewrite Inv_leaf_eq; split; [reflexivity | constructor]|].
      split; [constructor|]. split; assumption.
    + unfold BucketView. cbn [b_rootn set_data concat]. apply NV_leaf.
  - apply (Hwf (S h0)); try reflexivity; try assumption; try lia.
    unfold BInv, RInv. cbn [b_rootn]. split; [eapply Inv_z_false; eauto | auto].
Qed.
Corollary merge_nodes_bucket_view : forall h d s b l b' s',
  BInv h d s b -> BucketView d h b l -> h <= fuel0 -> merge_nodes d b s = Ok (b', s') ->
  bucket_view d b' l /\ bucket_wf d b' /\ b_next b' = b_next b /\ b_subs b' = b_subs b /\
  free s' = free s /\ np s' = np s /\ wr s' = wr s.
Proof.
  intros h d s b l b' s' HB HV Hh H.
  destruct (merge_nodes_view _ _ _ _ _ _ _ HB HV H) as ((h' & Hle & _ & HV') & Hwf & E1 & E2 & _ & (F1 & _ & F3 & _ & F5 & _)).
  split; [exists h'; split; [lia | exact HV']|]. repeat (split; [assumption|]). assumption.
Qed.

(** * Example: the hypotheses are satisfiable and a merge really happens *)

Module Example.
Local Open Scope N_scope.
Definition kB : bytes := ["b"%byte]. Definition kC : bytes := ["c"%byte]. Definition kD : bytes := ["d"%byte].
Definition kE : bytes := ["e"%byte]. Definition kF : bytes := ["f"%byte]. Definition kG : bytes := ["g"%byte].
Definition ex_es : list (bytes * N) := [(kB, 11); (kD, 12); (kF, 13)].
(* a committed two-level tree: every separator is the first key of its child page *)
Definition ex_disk : disk :=
  [ (10, {| ap_over := 0; ap_body := Branches ex_es |});
    (11, {| ap_over := 0; ap_body := Leaves [LKv kB [x01]; LKv kC [x02]] |});
    (12, {| ap_over := 0; ap_body := Leaves [LKv kD [x03]; LKv kE [x04]] |});
    (13, {| ap_over := 0; ap_body := Leaves [LKv kF [x05]; LKv kG [x06]] |}) ].
(* the overlay after "e" was deleted: leaf 12 is materialised and holds a single entry *)
Definition ex_kid : node := Node 12 1 (Some kD) 2 (Leaves [LKv kD [x03]]) [].
Definition ex_root : node := Node 10 1 (Some kB) 1 (Branches ex_es) [ex_kid].
Definition ex_view : list leafent := [LKv kB [x01]; LKv kC [x02]; LKv kD [x03]; LKv kF [x05]; LKv kG [x06]].
Definition ex_s : txs :=
  {| free := []; pending := []; txid := 5; np := 20; psz := 4096; wr := []; flw := None; seqc := 3 |}.

Ltac solve_inb := cbn [map fst lkey]; repeat match goal with
  | |- Forall _ [] => constructor
  | |- Forall _ (_ :: _) => constructor
  | |- inb _ _ _ => split; cbn; try exact I; try discriminate; try reflexivity
  end.
Ltac solve_nodup := repeat constructor; cbn; intuition (try discriminate; try lia).

Example ex_Inv : Inv 2 ex_disk false None None ex_root.
Proof.
  unfold ex_root, ex_es. rewrite Inv_branch_eq. split; [discriminate|]. split; [reflexivity|].
  split; [solve_nodup|]. split; [solve_inb|]. split.
  - split; [solve_nodup|]. repeat constructor. exists kD. split; [cbn; tauto | reflexivity].
  - cbn [map fst cbounds cbs nxt lo0].
    apply Forall2_cons; [|apply Forall2_cons; [|apply Forall2_cons; [|apply Forall2_nil]]];
      unfold CInv; cbn [snd fst find_kid find n_page ex_kid].
    + change (12 =? 11) with false. cbn [PInv]. eexists. split; [reflexivity|]. split; [reflexivity|]. cbn [ap_body].
      split; [reflexivity | solve_inb].
    + change (12 =? 12) with true. unfold ex_kid. cbn [Inv]. split; [reflexivity | solve_inb].
    + change (12 =? 13) with false. cbn [PInv]. eexists. split; [reflexivity|]. split; [reflexivity|]. cbn [ap_body].
      split; [reflexivity | solve_inb].
Qed.

Example ex_NodeView : NodeView ex_disk 2 ex_root ex_view.
Proof.
  change ex_view with (concat [[LKv kB [x01]; LKv kC [x02]]; [LKv kD [x03]]; [LKv kF [x05]; LKv kG [x06]]]).
  unfold ex_root, ex_es. apply NodeView_branch_intro.
  apply Forall2_cons; [|apply Forall2_cons; [|apply Forall2_cons; [|apply Forall2_nil]]];
    unfold ChildView; cbn [snd find_kid find n_page ex_kid].
  - change (12 =? 11) with false. cbv iota. eapply PV_leaf; reflexivity.
  - change (12 =? 12) with true. cbv iota. apply NV_leaf.
  - change (12 =? 13) with false. cbv iota. eapply PV_leaf; reflexivity.
Qed.

Example ex_side : NoDup (npages 2 ex_disk ex_root) /\ NoDup (seqs ex_root) /\
                  Forall (fun x => (x < seqc ex_s)%N) (seqs ex_root).
Proof.
  split; [vm_compute; solve_nodup|]. split; [vm_compute; solve_nodup|].
  vm_compute. repeat constructor.
Qed.

(* the single-entry leaf 12 is merged into its left sibling, which is read in from page 11 (fresh sequence
   number 3); the entry for 12 disappears, page 12 is handed back *)
Definition ex_root' : node :=
  Node 10 1 (Some kB) 1 (Branches [(kB, 11); (kF, 13)])
       [Node 11 1 (Some kB) 3 (Leaves [LKv kB [x01]; LKv kC [x02]; LKv kD [x03]]) []].
Definition ex_s' : txs :=
  {| free := []; pending := [(5, [12])]; txid := 5; np := 20; psz := 4096; wr := []; flw := None; seqc := 4 |}.

Example ex_try_merge : try_merge ex_disk ex_root ex_kid ex_s = Ok (ex_root', ex_s').
Proof. vm_compute. reflexivity. Qed.

Example ex_try_merge_view : NodeView ex_disk 2 ex_root' ex_view /\ wf_node ex_disk ex_root'.
Proof.
  destruct ex_side as (H1 & H2 & H3).
  pose proof (try_merge_view 1 ex_disk ex_s false None None ex_root ex_es ex_kid ex_view ex_root' ex_s'
                ex_Inv eq_refl (or_introl eq_refl) ex_NodeView H1 H2 H3 ex_try_merge) as HP.
  destruct (Post_facts _ _ _ _ _ _ _ _ _ _ HP) as (V & W & _). split; [exact V|]. apply W. discriminate.
Qed.

Definition ex_bucket : bucket := Bucket 10 7 true (Some ex_root) [].
Example ex_merge_nodes : merge_nodes ex_disk ex_bucket ex_s = Ok (Bucket 10 7 true (Some ex_root') [], ex_s').
Proof. vm_compute. reflexivity. Qed.

Example ex_merge_nodes_view : bucket_view ex_disk (Bucket 10 7 true (Some ex_root') []) ex_view.
Proof.
  destruct ex_side as (H1 & H2 & H3).
  eapply (merge_nodes_bucket_view 2 ex_disk ex_s ex_bucket ex_view); [| |unfold fuel0; lia|exact ex_merge_nodes].
  - unfold BInv, RInv. cbn [b_rootn ex_bucket]. split; [exact ex_Inv|]. split; [exact H1|]. split; [exact H2 | exact H3].
  - exact ex_NodeView.
Qed.
End Example.

(** * [modify] preserves the invariant (in its EXACT form: before any merge) *)

(* Before rebalance, a non-leftmost overlay branch node still starts with the separator it is filed under
   (its entries are those of its page). [modify] needs this to route a key >= lo correctly into child 0; it is
   the one ingredient that [try_merge] does not preserve (after child 0 was dropped), and does not need. *)
Fixpoint Exact (h : nat) (lo : option bytes) (n : node) : Prop :=
  match h with O => True | S h' =>
    match n with
    | Node _ _ _ _ (Leaves _) _ => True
    | Node _ _ _ _ (Branches es) ks =>
        (forall b, lo = Some b -> exists e rest, es = e :: rest /\ fst e = b) /\
        Forall2 (fun e b => match find_kid (snd e) ks with Some kd => Exact h' (fst b) kd | None => True end)
                es (cbounds lo (map fst es) None)
    end end.

Lemma Exact_branch_eq : forall h lo p np o s es ks,
  Exact (S h) lo (Node p np o s (Branches es) ks) =
  ((forall b, lo = Some b -> exists e rest, es = e :: rest /\ fst e = b) /\
   Forall2 (fun e b => match find_kid (snd e) ks with Some kd => Exact h (fst b) kd | None => True end)
           es (cbounds lo (map fst es) None)).
Proof. reflexivity. Qed.

Lemma cbs_fst_hi : forall seps f hi hi', map fst (cbs f seps hi) = map fst (cbs f seps hi').
Proof. induction seps as [|s r IH]; intros f hi hi'; cbn [cbs map fst]; [reflexivity|]. f_equal. apply IH. Qed.

Lemma cbs_nth_first : forall seps f hi b, nth_error (cbs f seps hi) 0 = Some b -> fst b = f (nth 0 seps []).
Proof. intros [|s r] f hi b H; cbn in H; [discriminate|]. inversion H; subst. reflexivity. Qed.

Lemma cbs_nth_last : forall seps f hi j b, nth_error (cbs f seps hi) j = Some b -> S j = length seps -> snd b = hi.
Proof.
  induction seps as [|s r IH]; intros f hi j b H Hl; [destruct j; discriminate|].
  destruct j as [|j]; cbn [cbs nth_error] in H.
  - inversion H; subst b. cbn [length] in Hl. destruct r; [reflexivity | cbn in Hl; lia].
  - cbn [length] in Hl. eapply IH; eauto.
Qed.

Lemma node_of_page_Exact : forall h d lo hi ok q a sq, dget d q = Some a -> PInv h d lo hi ok q ->
  (forall b, lo = Some b -> ok = Some b) -> Exact h lo (node_of_page q a sq).
Proof.
  destruct h as [|h]; intros d lo hi ok q a sq Hg HP Hlo; [exact I|]. cbn [PInv] in HP.
  destruct HP as (a' & Hg' & Hok & Hb). rewrite Hg in Hg'. inversion Hg'; subst a'.
  unfold node_of_page. destruct (ap_body a) as [l|es]; [exact I|]. rewrite Exact_branch_eq. split.
  - intros b Eb. rewrite (Hlo b Eb) in Hok. cbn [okey_ok] in Hok.
    destruct es as [|e es]; cbn in Hok; [discriminate|]. inversion Hok. eauto.
  - apply Forall2_of_nth_error; [unfold cbounds; now rewrite cbs_length, map_length|].
    intros j x y _ _. rewrite find_kid_nil. exact I.
Qed.

Lemma Forall2_impl_nth : forall {A B} (P P' : A -> B -> Prop) xs ys, Forall2 P xs ys ->
  (forall j x y, nth_error xs j = Some x -> nth_error ys j = Some y -> P x y -> P' x y) -> Forall2 P' xs ys.
Proof.
  intros A B P P' xs ys HF H. apply Forall2_of_nth_error; [eapply Forall2_length; eauto|].
  intros j x y Hx Hy. apply (H j x y Hx Hy). eapply Forall2_nth_error; eauto.
Qed.

(* the key is routed into a child whose interval contains it *)
Lemma route_inb : forall lo hi es key i ex b,
  sorted_keys (map fst es) = true -> es <> [] -> NoDup (map snd es) -> inb lo hi key ->
  (forall b0, lo = Some b0 -> exists e rest, es = e :: rest /\ fst e = b0) ->
  index_of (Branches es) key = (i, ex) ->
  nth_error (cbounds lo (map fst es) hi) (N.to_nat i) = Some b ->
  inb (fst b) (snd b) key.
Proof.
  intros lo hi es key i ex b Hs Hne Hnd [Hlo Hhi] Hex Hi Hb.
  destruct (index_of_branch es key i ex (conj Hne (conj Hs Hnd)) Hi) as (Hlen & Hbelow & Habove).
  destruct (cbs_nth _ _ _ _ _ Hb) as [B1 B2]. split.
  - destruct (N.to_nat i) as [|j] eqn:Ej.
    + rewrite (cbs_nth_first _ _ _ _ Hb). destruct lo as [b0|]; cbn [lo0 le_lo]; [|exact I].
      destruct (Hex b0 eq_refl) as (e & rest & -> & Ee). cbn [map nth]. rewrite Ee. exact Hlo.
    + rewrite B1 by lia. cbn [le_lo]. apply Hbelow; lia.
  - destruct (Nat.eq_dec (S (N.to_nat i)) (length es)) as [El | Nl].
    + rewrite (cbs_nth_last _ _ _ _ _ Hb); [exact Hhi | now rewrite map_length].
    + rewrite B2 by (rewrite map_length; lia). cbn [lt_hi]. apply OrderFacts.bcmp_lt_gt. apply Habove; lia.
Qed.

Lemma children_upd : forall h d es bs ks ks' q kd' i sep b,
  Forall2 (CInv h d ks) es bs -> kids_upd ks ks' q kd' -> NoDup (map snd es) ->
  nth_error es i = Some (sep, q) -> nth_error bs i = Some b -> Inv h d false (fst b) (snd b) kd' ->
  Forall2 (CInv h d ks') es bs.
Proof.
  intros h d es bs ks ks' q kd' i sep b HC [U1 U2] Hnd Hi Hb HI.
  eapply Forall2_impl_nth; [exact HC|]. intros j e bb Hj Hbj H. unfold CInv in *.
  destruct (N.eq_dec (snd e) q) as [E | NE].
  - assert (j = i) by (eapply (NoDup_map_nth_error snd); eauto). subst j.
    rewrite Hb in Hbj. inversion Hbj; subst bb. rewrite E, U1. exact HI.
  - now rewrite (U2 _ NE).
Qed.

Lemma exact_upd : forall h (es : list (bytes * N)) (bs : list (option bytes * option bytes)) ks ks' q kd' i sep b,
  Forall2 (fun e b => match find_kid (snd e) ks with Some kd => Exact h (fst b) kd | None => True end) es bs ->
  kids_upd ks ks' q kd' -> NoDup (map snd es) ->
  nth_error es i = Some (sep, q) -> nth_error bs i = Some b -> Exact h (fst b) kd' ->
  Forall2 (fun e b => match find_kid (snd e) ks' with Some kd => Exact h (fst b) kd | None => True end) es bs.
Proof.
  intros h es bs ks ks' q kd' i sep b HC [U1 U2] Hnd Hi Hb HI.
  eapply Forall2_impl_nth; [exact HC|]. cbn beta. intros j e bb Hj Hbj H.
  destruct (N.eq_dec (snd e) q) as [E | NE].
  - assert (j = i) by (eapply (NoDup_map_nth_error snd); eauto). subst j.
    rewrite Hb in Hbj. inversion Hbj; subst bb. rewrite E, U1. exact HI.
  - now rewrite (U2 _ NE).
Qed.

Lemma npages_upd : forall h d p np o s es ks ks',
  (forall e, In e es -> cpages h d ks' (snd e) = cpages h d ks (snd e)) ->
  npages (S h) d (Node p np o s (Branches es) ks') = npages (S h) d (Node p np o s (Branches es) ks).
Proof. intros. rewrite !npages_branch_eq. f_equal. now apply flat_map_ext_in. Qed.

Definition ModPost (h : nat) (d : disk) (s : txs) (z : bool) (lo hi : option bytes) (n n' : node) (s' : txs) : Prop :=
  Inv h d z lo hi n' /\ Exact h lo n' /\
  n_page n' = n_page n /\ n_np n' = n_np n /\ n_orig n' = n_orig n /\ n_seq n' = n_seq n /\
  npages h d n' = npages h d n /\
  NoDup (seqs n') /\ (forall x, In x (seqs n') -> In x (seqs n) \/ (seqc s <= x < seqc s')%N) /\
  same_but_seqc s s'.

Lemma cbounds_fst_nth : forall lo seps hi hi' j b b', nth_error (cbounds lo seps hi) j = Some b ->
  nth_error (cbounds lo seps hi') j = Some b' -> fst b' = fst b.
Proof.
  intros lo seps hi hi' j b b' H H'. unfold cbounds in *.
  pose proof (cbs_fst_hi seps (lo0 lo) hi hi') as E.
  apply (map_nth_error fst) in H, H'. rewrite E in H. congruence.
Qed.

Theorem modify_Inv : forall fuel h d s z lo hi n o n' s',
  Inv h d z lo hi n -> Exact h lo n -> inb lo hi (lop_key o) ->
  NoDup (seqs n) -> Forall (fun x => (x < seqc s)%N) (seqs n) ->
  modify fuel d n o s = Ok (n', s') -> ModPost h d s z lo hi n n' s'.
Proof.
  induction fuel as [|f IH]; intros h d s z lo hi n o n' s' HI HX Hk Hsq Hlt H; [discriminate|].
  destruct (Inv_height _ _ _ _ _ _ HI) as [h0 ->].
  destruct n as [p np og sq [l|es] ks].
  - (* leaf *)
    cbn [modify] in H. inversion H; subst n' s'. rewrite Inv_leaf_eq in HI. destruct HI as [Hs Hf].
    unfold ModPost. split.
    { rewrite Inv_leaf_eq. split; [now apply apply_lop_sorted|]. apply Forall_forall. intros x Hx.
      apply in_map_iff in Hx. destruct Hx as (y & <- & Hy). apply apply_lop_In in Hy. destruct Hy as [Hy | Hy].
      - rewrite Forall_forall in Hf. apply Hf. now apply in_map.
      - now rewrite Hy. }
    split; [exact I|]. repeat (split; [reflexivity|]). split; [exact Hsq|].
    split; [intros; now left | apply same_but_seqc_refl].
  - (* branch *)
    rewrite modify_branch in H. destruct (index_of (Branches es) (lop_key o)) as [i ex] eqn:Ei.
    destruct (nthN es i) as [[sep q]|] eqn:En; [|discriminate]. unfold nthN in En.
    rewrite Inv_branch_eq in HI. destruct HI as (Hne & Hs & Hnd & Hinb & Hlk & HC). pose proof Hlk as [Lnd LF].
    rewrite Exact_branch_eq in HX. destruct HX as (X1 & XC).
    assert (Hne' : es <> []) by (intros ->; destruct (N.to_nat i); discriminate).
    destruct (Forall2_nth_error_l _ _ _ _ _ HC En) as (b & Hb & Cb).
    destruct (Forall2_nth_error_l _ _ _ _ _ XC En) as (bx & Hbx & Xb).
    pose proof (cbounds_fst_nth _ _ _ _ _ _ _ Hb Hbx) as Ebx.
    pose proof (route_inb lo hi es (lop_key o) i ex b Hs Hne' Hnd Hk X1 Ei Hb) as Hkb.
    unfold CInv in Cb. cbn [snd fst] in Cb, Xb.
    assert (Hin_e : In (sep, q) es) by (eapply nth_error_In; eauto).
    cbn [seqs] in Hsq, Hlt. apply NoDup_cons_iff in Hsq. destruct Hsq as [Hsq0 Hsq]. inversion Hlt as [|? ? Hlt0 Hlt']; subst.
    destruct (find_kid q ks) as [kd|] eqn:Ef.
    + (* the child is already materialised *)
      destruct (modify f d kd o s) as [[kd' s1]| |] eqn:Em; cbn [bind fst snd] in H; try discriminate.
      inversion H; subst n' s'. clear H.
      destruct (find_kid_split _ _ _ Ef) as (a & b0 & Eks & Epq & Ha).
      assert (Hsqk : NoDup (seqs kd)).
      { rewrite Eks, flat_map_app in Hsq. cbn [flat_map] in Hsq. eapply NoDup_app_l. eapply NoDup_app_r. exact Hsq. }
      assert (Hltk : Forall (fun x => (x < seqc s)%N) (seqs kd)).
      { rewrite Eks, flat_map_app in Hlt'. cbn [flat_map] in Hlt'. apply Forall_app in Hlt'. destruct Hlt' as [_ Hlt'].
        apply Forall_app in Hlt'. apply Hlt'. }
      rewrite Ebx in Xb.
      destruct (IH h0 d s false (fst b) (snd b) kd o kd' s1 Cb Xb Hkb Hsqk Hltk Em)
        as (I1 & X1' & P1 & P2 & P3 & P4 & P5 & P6 & P7 & P8).
      pose proof (replace_kid_upd ks q kd' ltac:(congruence)) as HU.
      assert (Eks' : replace_kid ks kd' = a ++ kd' :: b0).
      { rewrite Eks. apply replace_kid_hit; [congruence|]. intros y Hy. rewrite P1, Epq. now apply Ha. }
      destruct (seqs_replace_mid sq a kd kd' b0 (fun x => (seqc s <= x < seqc s1)%N)) as [S1 S2];
        [rewrite <- Eks; constructor; assumption | exact P6 | exact P7 | |].
      { rewrite <- Eks. intros y Hy [Hfr _]. apply N.le_ngt in Hfr. apply Hfr. destruct Hy as [<- | Hy]; [exact Hlt0|].
        rewrite Forall_forall in Hlt'. exact (Hlt' y Hy). }
      unfold ModPost. cbn [n_page n_np n_orig n_seq].
      split; [|split; [|repeat (split; [reflexivity|]); split; [|split; [|split; [|exact P8]]]]].
      * rewrite Inv_branch_eq. repeat (split; [assumption|]). split; [|exact (children_upd _ _ _ _ _ _ _ _ _ _ _ HC HU Hnd En Hb I1)].
        rewrite Eks'. rewrite Eks in Hlk. eapply kids_linked_replace; eauto.
      * rewrite Exact_branch_eq. split; [exact X1|]. refine (exact_upd _ _ _ _ _ _ _ _ _ _ XC HU Hnd En Hbx _). now rewrite Ebx.
      * apply npages_upd. intros e He. unfold cpages. destruct HU as [U1 U2].
        destruct (N.eq_dec (snd e) q) as [E | NE]; [rewrite E, U1, Ef; exact P5 | now rewrite (U2 _ NE)].
      * cbn [seqs]. rewrite Eks'. exact S1.
      * cbn [seqs]. rewrite Eks', Eks. exact S2.
    + (* the child is read in from its page *)
      destruct (dget d q) as [a|] eqn:Eg; [|discriminate].
      destruct (modify f d (node_of_page q a (seqc s)) o (snd (next_seq s))) as [[kd' s1]| |] eqn:Em;
        cbn [bind fst snd] in H; try discriminate.
      inversion H; subst n' s'. clear H. fold (bump s) in Em.
      assert (Hlob : forall b0, fst b = Some b0 -> Some sep = Some b0).
      { intros b0 E0. destruct (N.to_nat i) as [|j] eqn:Ej.
        - rewrite (cbs_nth_first _ _ _ _ Hb) in E0. destruct es as [|e0 es0]; [discriminate|]. cbn [nth_error] in En.
          inversion En; subst e0. cbn [map fst nth] in E0. destruct lo; cbn [lo0] in E0; congruence.
        - destruct (cbs_nth _ _ _ _ _ Hb) as [B1 _]. rewrite B1 in E0 by lia. inversion E0 as [E0'].
          pose proof (map_nth_error fst _ _ En) as En'. cbn [fst] in En'. f_equal. try rewrite <- E0'. symmetry. exact (nth_error_nth _ _ [] En'). }
      pose proof (node_of_page_Inv _ _ _ _ _ _ _ (seqc s) Eg Cb) as I0.
      pose proof (node_of_page_Exact _ _ _ _ _ _ _ (seqc s) Eg Cb Hlob) as X0.
      assert (Hsq0' : NoDup (seqs (node_of_page q a (seqc s)))) by (unfold node_of_page; cbn; repeat constructor; intros []).
      assert (Hlt0' : Forall (fun x => (x < seqc (bump s))%N) (seqs (node_of_page q a (seqc s)))).
      { unfold node_of_page. cbn [seqs flat_map]. repeat constructor. rewrite seqc_bump. lia. }
      destruct (IH h0 d (bump s) false (fst b) (snd b) _ o kd' s1 I0 X0 Hkb Hsq0' Hlt0' Em)
        as (I1 & X1' & P1 & P2 & P3 & P4 & P5 & P6 & P7 & P8).
      rewrite (node_of_page_orig _ _ _ _ _ _ _ (seqc s) Eg Cb) in P3. cbn [n_page node_of_page] in P1.
      pose proof (app_kid_upd ks q kd' Ef P1) as HU.
      assert (Hs1 : (seqc s + 1 <= seqc s1)%N) by (destruct P8 as (_ & _ & _ & _ & _ & _ & _ & Hle); rewrite seqc_bump in Hle; exact Hle).
      assert (Hfresh : forall x, In x (seqs kd') -> (seqc s <= x < seqc s1)%N).
      { intros x Hx. destruct (P7 x Hx) as [Hx' | Hx'].
        - unfold node_of_page in Hx'. cbn [seqs flat_map] in Hx'. destruct Hx' as [<- | []]. clear - Hs1. lia.
        - rewrite seqc_bump in Hx'. clear - Hx'. lia. }
      unfold ModPost. cbn [n_page n_np n_orig n_seq].
      split; [|split; [|repeat (split; [reflexivity|]); split; [|split; [|split]]]].
      * rewrite Inv_branch_eq. repeat (split; [assumption|]). split; [|exact (children_upd _ _ _ _ _ _ _ _ _ _ _ HC HU Hnd En Hb I1)].
        split.
        -- rewrite map_app. cbn [map]. apply NoDup_app_intro; [exact Lnd | repeat constructor; intros [] |].
           intros x Hx [<- | []]. apply in_map_iff in Hx. destruct Hx as (y & Hy & Hy').
           apply (find_kid_None _ _ Ef y Hy'). congruence.
        -- apply Forall_app. split; [exact LF|]. repeat constructor. exists sep. rewrite P1. split; [exact Hin_e|].
           exact P3.
      * rewrite Exact_branch_eq. split; [exact X1|]. refine (exact_upd _ _ _ _ _ _ _ _ _ _ XC HU Hnd En Hbx _). now rewrite Ebx.
      * apply npages_upd. intros e He. unfold cpages. destruct HU as [U1 U2].
        destruct (N.eq_dec (snd e) q) as [E | NE]; [|now rewrite (U2 _ NE)].
        rewrite E, U1, Ef, P5. now apply node_of_page_npages.
      * cbn [seqs]. rewrite flat_map_app. cbn [flat_map]. rewrite app_nil_r. rewrite app_comm_cons.
        apply NoDup_app_intro; [constructor; assumption | exact P6 |].
        intros x Hx Hx'. specialize (Hfresh x Hx'). destruct Hx as [<- | Hx]; [clear - Hfresh Hlt0; lia|].
        rewrite Forall_forall in Hlt'. specialize (Hlt' x Hx). clear - Hfresh Hlt'. lia.
      * cbn [seqs]. rewrite flat_map_app. cbn [flat_map]. rewrite app_nil_r.
        intros x [Hx | Hx]; [left; now left|]. apply in_app_or in Hx. destruct Hx as [Hx | Hx]; [left; now right|].
        right. apply Hfresh. exact Hx.
      * apply (same_but_seqc_trans s (bump s) s1); [apply same_but_seqc_next | exact P8].
Qed.

(* buckets: [b_modify] (hence [b_put] / [b_delete]) keeps the invariant, in its exact form *)
Definition BExact (h : nat) (b : bucket) : Prop :=
  match b_rootn b with Some n => Exact h None n | None => True end.

Lemma ensure_root_exact : forall h d s b root s0,
  BInv h d s b -> BExact h b -> ensure_root d b s = Ok (root, s0) ->
  RInv h d s0 false root /\ Exact h None root /\ same_but_seqc s s0.
Proof.
  intros h d s b root s0 HB HX Er.
  pose proof (ensure_root_cases d b s) as C. rewrite Er in C.
  unfold BInv, BExact in *. destruct C as [[En ->] | (En & -> & a & Ha & ->)]; rewrite En in HB, HX.
  - split; [exact HB|]. split; [exact HX | apply same_but_seqc_refl].
  - destruct HB as [HP Hnp]. split; [|split; [|apply (same_but_seqc_next s)]].
    + unfold RInv. split; [eapply node_of_page_Inv; eauto|]. split; [now rewrite node_of_page_npages|].
      unfold node_of_page. cbn [seqs flat_map]. split; [repeat constructor; intros []|]. repeat constructor.
      cbn. lia.
    + apply (node_of_page_Exact h d None None None _ a (seqc s) Ha HP). intros; discriminate.
Qed.

Theorem b_modify_BInv : forall h d s b o b' s',
  BInv h d s b -> BExact h b -> b_modify d b o s = Ok (b', s') ->
  BInv h d s' b' /\ BExact h b' /\ same_but_seqc s s'.
Proof.
  intros h d s b o b' s' HB HX H. unfold b_modify in H.
  apply bind_ok_inv in H. destruct H as ([root s0] & Er & H).
  apply bind_ok_inv in H. destruct H as ([n' s1] & Em & H).
  inversion H; subst b' s'. clear H.
  destruct (ensure_root_exact _ _ _ _ _ _ HB HX Er) as ((HI & Hnp & Hsq & Hlt) & HXr & S0).
  destruct (modify_Inv fuel0 h d s0 false None None root o n' s1 HI HXr (conj I I) Hsq Hlt Em)
    as (I1 & X1 & _ & _ & _ & _ & P5 & P6 & P7 & P8).
  unfold BInv, BExact, RInv. cbn [b_rootn]. split; [|split; [exact X1 | eapply same_but_seqc_trans; eauto]].
  split; [exact I1|]. split; [now rewrite P5|]. split; [exact P6|].
  destruct P8 as (_ & _ & _ & _ & _ & _ & _ & Hle). exact (seqs_lt_next _ _ _ _ _ Hlt P7 Hle).
Qed.

(** * [rebalance]: the whole bucket tree *)

Definition BGood (d : disk) (s : txs) (b : bucket) (l : list leafent) : Prop :=
  exists h, h <= fuel0 /\ BInv h d s b /\ BucketView d h b l.

(* what a transaction sees of a bucket tree: the entries of the bucket, and the same for every OPENED sub-bucket *)
Inductive bview := BV (l : list leafent) (subs : list (bytes * bview)).

Fixpoint Deep (f : nat) (d : disk) (s : txs) (b : bucket) (v : bview) : Prop :=
  match f with O => False | S f' =>
    match v with BV l vs =>
      BGood d s b l /\ Forall2 (fun x y => fst x = fst y /\ Deep f' d s (snd x) (snd y)) (b_subs b) vs
    end end.

Lemma BInv_seqc_mono : forall h d s s' b, (seqc s <= seqc s')%N -> BInv h d s b -> BInv h d s' b.
Proof.
  intros h d s s' b Hle H. unfold BInv, RInv in *. destruct (b_rootn b); [|exact H].
  destruct H as (H1 & H2 & H3 & H4). repeat (split; [assumption|]). eapply Forall_lt_weaken; eauto.
Qed.

Lemma BGood_seqc_mono : forall d s s' b l, (seqc s <= seqc s')%N -> BGood d s b l -> BGood d s' b l.
Proof. intros d s s' b l Hle (h & H1 & H2 & H3). exists h. split; [exact H1|]. split; [eapply BInv_seqc_mono; eauto | exact H3]. Qed.

Lemma Deep_seqc_mono : forall f d s s' b v, (seqc s <= seqc s')%N -> Deep f d s b v -> Deep f d s' b v.
Proof.
  induction f as [|f IH]; intros d s s' b v Hle H; [exact H|]. destruct v as [l vs]. cbn [Deep] in *.
  destruct H as [H1 H2]. split; [eapply BGood_seqc_mono; eauto|].
  eapply Forall2_impl; [|exact H2]. cbn beta. intros x y [E Hd]. split; [exact E | eapply IH; eauto].
Qed.

Lemma BGood_same_root : forall d s b b' l, b_rootn b' = b_rootn b -> b_root_page b' = b_root_page b ->
  BGood d s b l -> BGood d s b' l.
Proof.
  intros d s b b' l E1 E2 (h & H1 & H2 & H3). exists h. split; [exact H1|].
  unfold BInv, BucketView in *. rewrite E1, E2. split; assumption.
Qed.

Definition sub_rel (f : nat) (d : disk) (s : txs) (x : bytes * bucket) (y : bytes * bview) : Prop :=
  fst x = fst y /\ Deep f d s (snd x) (snd y).

Lemma sub_rel_mono : forall f d s s' x y, (seqc s <= seqc s')%N -> sub_rel f d s x y -> sub_rel f d s' x y.
Proof. intros f d s s' x y Hle [E Hd]. split; [exact E | eapply Deep_seqc_mono; eauto]. Qed.

Lemma subs_mono : forall f d s s' xs ys, (seqc s <= seqc s')%N ->
  Forall2 (sub_rel f d s) xs ys -> Forall2 (sub_rel f d s') xs ys.
Proof. intros f d s s' xs ys Hle H. eapply Forall2_impl; [|exact H]. intros x y. now apply sub_rel_mono. Qed.

Definition RB_IH (f : nat) : Prop :=
  forall fv d s b v b' s', Deep fv d s b v -> rebalance f d b s = Ok (b', s') ->
    Deep fv d s' b' v /\ tx_frame s s' /\ b_next b' = b_next b.

(* the fold of [rebalance] over the opened sub-buckets keeps [K done todo s] *)
Lemma reb_fold_inv : forall f d (K : list (bytes * bucket) -> list (bytes * bucket) -> txs -> Prop),
  (forall acc x rest s0 bx sx, K acc (x :: rest) s0 -> rebalance f d (snd x) s0 = Ok (bx, sx) ->
     K (acc ++ [(fst x, bx)]) rest sx) ->
  forall subs acc s0 subs' s1, K acc subs s0 ->
    fold_res (reb_body f d) subs (acc, s0) = Ok (subs', s1) -> K subs' [] s1.
Proof.
  intros f d K Hstep subs acc s0 subs' s1 H0 H.
  apply (fold_res_inv (reb_body f d) (fun rest a => K (fst a) rest (snd a))) in H; [exact H | | exact H0].
  intros x rest [l s2] [l1 s3] HK E. cbn [fst snd reb_body] in *.
  apply bind_ok_inv in E. destruct E as ([bx sx] & Ex & E). inversion E; subst l1 s3. eapply Hstep; eauto.
Qed.

(* ... for sub-buckets related one by one to a list [vs]: [Rin s x y] is what is known before the call on x,
   [Rout s x' y] what holds of its result, both monotone in the sequence counter *)
Lemma reb_fold_F2 : forall f d {V} (Rin Rout : txs -> bytes * bucket -> V -> Prop),
  (forall s s' x y, (seqc s <= seqc s')%N -> Rin s x y -> Rin s' x y) ->
  (forall s s' x y, (seqc s <= seqc s')%N -> Rout s x y -> Rout s' x y) ->
  (forall s x y bx sx, Rin s x y -> rebalance f d (snd x) s = Ok (bx, sx) -> tx_frame s sx /\ Rout sx (fst x, bx) y) ->
  forall subs vs s subs' s1, Forall2 (Rin s) subs vs ->
    fold_res (reb_body f d) subs ([], s) = Ok (subs', s1) -> Forall2 (Rout s1) subs' vs /\ tx_frame s s1.
Proof.
  intros f d V Rin Rout Min Mout Hstep subs vs s subs' s1 HS H.
  pose (K := fun acc rest s0 => exists va vr, vs = va ++ vr /\ Forall2 (Rout s0) acc va /\ Forall2 (Rin s0) rest vr /\ tx_frame s s0).
  destruct (reb_fold_inv f d K) with (subs := subs) (acc := @nil (bytes * bucket)) (s0 := s) (subs' := subs') (s1 := s1)
    as (va & vr & -> & Ha & Hr & Tx); [| |exact H|].
  - intros acc x rest s0 bx sx (va & vr & -> & Ha & Hr & Tx) Ex.
    inversion Hr as [|? y ? vr' Hxy Hr']; subst. destruct (Hstep _ _ _ _ _ Hxy Ex) as [Tx1 Hy].
    pose proof (tx_frame_le _ _ Tx1) as Hle. exists (va ++ [y]), vr'. rewrite <- app_assoc.
    split; [reflexivity|]. split; [|split; [|eapply tx_frame_trans; eauto]].
    + apply Forall2_app; [|constructor; [exact Hy | constructor]]. eapply Forall2_impl; [|exact Ha]. intros a b0. now apply Mout.
    + eapply Forall2_impl; [|exact Hr']. intros a b0. now apply Min.
  - exists [], vs. split; [reflexivity|]. split; [constructor|]. split; [exact HS | apply tx_frame_refl].
  - inversion Hr; subst. rewrite app_nil_r. split; assumption.
Qed.

(* ... when every result is related to its own sub-bucket only: [J s x] is what is known of x in state s, [P x x']
   what a call establishes *)
Lemma reb_fold_each : forall f d (J : txs -> bytes * bucket -> Prop) (P : bytes * bucket -> bytes * bucket -> Prop),
  (forall s s' x, (seqc s <= seqc s')%N -> J s x -> J s' x) ->
  (forall s x b' s', J s x -> rebalance f d (snd x) s = Ok (b', s') -> (seqc s <= seqc s')%N /\ P x (fst x, b')) ->
  forall subs s0 subs' s1, Forall (J s0) subs ->
    fold_res (reb_body f d) subs ([], s0) = Ok (subs', s1) -> Forall2 P subs subs' /\ (seqc s0 <= seqc s1)%N.
Proof.
  intros f d J P Jmono Hstep subs s0 subs' s1 HJ H.
  pose (K := fun acc rest s => exists done, subs = done ++ rest /\ Forall2 P done acc /\ Forall (J s) rest /\ (seqc s0 <= seqc s)%N).
  destruct (reb_fold_inv f d K) with (subs := subs) (acc := @nil (bytes * bucket)) (s0 := s0) (subs' := subs') (s1 := s1)
    as (done & E & HP & _ & Hle); [| |exact H|].
  - intros acc x rest s bx sx (done & E & HP & Hr & Hle) Ex. inversion Hr as [|? ? Hx Hr']; subst.
    destruct (Hstep _ _ _ _ Hx Ex) as [Hle1 Px]. exists (done ++ [x]). rewrite <- app_assoc.
    split; [reflexivity|]. split; [apply Forall2_app; [exact HP | constructor; [exact Px | constructor]]|].
    split; [|lia]. eapply Forall_impl; [|exact Hr']. intros y. now apply Jmono.
  - exists []. split; [reflexivity|]. split; [constructor|]. split; [exact HJ | lia].
  - rewrite app_nil_r in E. subst done. split; assumption.
Qed.

Lemma rebalance_subs : forall f fv d subs vs s subs' s1, RB_IH f -> Forall2 (sub_rel fv d s) subs vs ->
  fold_res (reb_body f d) subs ([], s) = Ok (subs', s1) -> Forall2 (sub_rel fv d s1) subs' vs /\ tx_frame s s1.
Proof.
  intros f fv d subs vs s subs' s1 IH HS Ef.
  apply (reb_fold_F2 f d (sub_rel fv d) (sub_rel fv d)) with (subs := subs); try assumption;
    [intros; eapply sub_rel_mono; eauto | intros; eapply sub_rel_mono; eauto |].
  intros s0 x y bx sx [Exy Hxy] Ex. destruct (IH fv d s0 (snd x) (snd y) bx sx Hxy Ex) as (Dx & Tx & _).
  split; [exact Tx | split; [exact Exy | exact Dx]].
Qed.

Theorem rebalance_view : forall f, RB_IH f.
Proof.
  induction f as [|f IH]; intros fv d s b v b' s' HD H; [discriminate|].
  destruct fv as [|fv]; [destruct HD|]. destruct v as [l vs]. cbn [Deep] in HD. destruct HD as [HG HS].
  rewrite rebalance_S in H. destruct (negb (is_dirty fuel0 b)).
  { inversion H; subst. split; [cbn [Deep]; split; assumption|]. split; [apply tx_frame_refl | reflexivity]. }
  apply bind_ok_inv in H. destruct H as ([subs' s1] & Ef & H).
  destruct (rebalance_subs f fv d (b_subs b) vs s subs' s1 IH HS Ef) as [R1 R2].
  pose proof (tx_frame_le _ _ R2) as Hle1.
  assert (HG1 : BGood d s1 (Bucket (b_root_page b) (b_next b) true (b_rootn b) subs') l).
  { eapply BGood_same_root; [reflexivity | reflexivity |]. eapply BGood_seqc_mono; eauto. }
  destruct HG1 as (h & Hh & HB & HV).
  destruct (merge_nodes_view h d s1 _ l b' s' HB HV H) as ((h' & Hle & HB' & HV') & _ & En & Es & _ & Tx).
  pose proof (tx_frame_le _ _ Tx) as Hle2. cbn [b_next b_subs] in En, Es.
  split; [|split; [eapply tx_frame_trans; eauto | exact En]].
  cbn [Deep]. split; [exists h'; split; [lia|]; split; assumption|].
  rewrite Es. eapply subs_mono; eauto.
Qed.
(* the bucket's own view, in the vocabulary of EngineModifyFacts *)
Corollary rebalance_bucket_view : forall f fv d s b l vs b' s',
  Deep fv d s b (BV l vs) -> rebalance f d b s = Ok (b', s') ->
  bucket_view d b' l /\ bucket_wf d b' /\ b_next b' = b_next b /\
  map fst (b_subs b') = map fst vs /\
  free s' = free s /\ np s' = np s /\ wr s' = wr s /\ txid s' = txid s.
Proof.
  intros f fv d s b l vs b' s' HD H. destruct (rebalance_view f fv d s b (BV l vs) b' s' HD H) as (HD' & Tx & En).
  destruct fv as [|fv]; [destruct HD'|]. cbn [Deep] in HD'. destruct HD' as [(h & Hh & HB & HV) HS].
  split; [exists h; split; assumption|]. split; [eapply BInv_wf; eauto|]. split; [exact En|].
  destruct Tx as (F1 & F2 & F3 & _ & F5 & _). split; [|auto].
  clear -HS. induction HS as [|x y xs ys [E _] _ IH]; [reflexivity|]. cbn [map]. now rewrite E, IH.
Qed.

Module Example2.
Import Example.
Example ex_Deep : Deep 1 ex_disk ex_s ex_bucket (BV ex_view []).
Proof.
  cbn [Deep]. split; [|constructor]. exists 2. split; [unfold fuel0; lia|]. destruct ex_side as (H1 & H2 & H3). split.
  - unfold BInv, RInv. cbn [b_rootn ex_bucket]. split; [exact ex_Inv|]. split; [exact H1|]. split; [exact H2 | exact H3].
  - exact ex_NodeView.
Qed.

Example ex_rebalance : rebalance fuel0 ex_disk ex_bucket ex_s = Ok (Bucket 10 7 true (Some ex_root') [], ex_s').
Proof. vm_compute. reflexivity. Qed.

Example ex_rebalance_view : bucket_view ex_disk (Bucket 10 7 true (Some ex_root') []) ex_view.
Proof. exact (proj1 (rebalance_bucket_view _ _ _ _ _ _ _ _ _ ex_Deep ex_rebalance)). Qed.
End Example2.

(** * Why the bounds are part of the invariant *)

(* [wf_node] and the link alone do not suffice for branch kids.  A parent that is [wf_node], whose kids are linked to their entries ([n_orig] = the entry's key, distinct pages
   and sequence numbers, every kid resolved), but whose kid K (child 0) starts with a separator ("x") that is
   NOT the first key below it: [wf_node] does not constrain the first separator of a node. Merging K into its
   right sibling re-sorts the entries and the transaction sees the entries in a DIFFERENT order. *)
Module Cex.
Local Open Scope N_scope.
Definition ka : bytes := ["a"%byte]. Definition kb : bytes := ["b"%byte]. Definition kd : bytes := ["d"%byte].
Definition ke : bytes := ["e"%byte]. Definition kf : bytes := ["f"%byte]. Definition kg : bytes := ["g"%byte].
Definition kx : bytes := ["x"%byte].
Definition cdisk : disk :=
  [ (11, {| ap_over := 0; ap_body := Leaves [LKv ka [x01]] |});
    (21, {| ap_over := 0; ap_body := Leaves [LKv kd [x02]] |});
    (22, {| ap_over := 0; ap_body := Leaves [LKv ke [x03]] |});
    (3,  {| ap_over := 0; ap_body := Leaves [LKv kf [x04]; LKv kg [x05]] |}) ].
Definition cK : node := Node 1 1 (Some kb) 2 (Branches [(kx, 11)]) [].
Definition cS : node := Node 2 1 (Some kd) 3 (Branches [(kd, 21); (ke, 22)]) [].
Definition cpar : node := Node 10 1 (Some kb) 1 (Branches [(kb, 1); (kd, 2); (kf, 3)]) [cK; cS].
Definition cs : txs := {| free := []; pending := []; txid := 5; np := 30; psz := 4096; wr := []; flw := None; seqc := 4 |}.
Definition cpar' : node :=
  Node 10 1 (Some kb) 1 (Branches [(kd, 2); (kf, 3)])
       [Node 2 1 (Some kd) 3 (Branches [(kd, 21); (ke, 22); (kx, 11)]) []].

Example cex_try_merge : exists s', try_merge cdisk cpar cK cs = Ok (cpar', s').
Proof. eexists. vm_compute. reflexivity. Qed.

(* what the transaction sees before and after (the executable view of EngineMergeFacts) *)
Example cex_views :
  view_leaves 3 cdisk cpar  = [LKv ka [x01]; LKv kd [x02]; LKv ke [x03]; LKv kf [x04]; LKv kg [x05]] /\
  view_leaves 3 cdisk cpar' = [LKv kd [x02]; LKv ke [x03]; LKv ka [x01]; LKv kf [x04]; LKv kg [x05]].
Proof. split; vm_compute; reflexivity. Qed.

Ltac leafpv := eapply PV_leaf; reflexivity.
Lemma cK_view : NodeView cdisk 2 cK [LKv ka [x01]].
Proof.
  change [LKv ka [x01]] with (concat [[LKv ka [x01]]]). apply NodeView_branch_intro.
  apply Forall2_cons; [|apply Forall2_nil]. unfold ChildView. cbn [snd find_kid find]. leafpv.
Qed.
Lemma cS_view : NodeView cdisk 2 cS [LKv kd [x02]; LKv ke [x03]].
Proof.
  change [LKv kd [x02]; LKv ke [x03]] with (concat [[LKv kd [x02]]; [LKv ke [x03]]]). apply NodeView_branch_intro.
  apply Forall2_cons; [|apply Forall2_cons; [|apply Forall2_nil]]; unfold ChildView; cbn [snd find_kid find]; leafpv.
Qed.
Lemma cex_view_before : NodeView cdisk 3 cpar [LKv ka [x01]; LKv kd [x02]; LKv ke [x03]; LKv kf [x04]; LKv kg [x05]].
Proof.
  change [LKv ka [x01]; LKv kd [x02]; LKv ke [x03]; LKv kf [x04]; LKv kg [x05]]
    with (concat [[LKv ka [x01]]; [LKv kd [x02]; LKv ke [x03]]; [LKv kf [x04]; LKv kg [x05]]]).
  apply NodeView_branch_intro.
  apply Forall2_cons; [|apply Forall2_cons; [|apply Forall2_cons; [|apply Forall2_nil]]]; unfold ChildView; cbn [snd].
  - change (find_kid 1 [cK; cS]) with (Some cK). exact cK_view.
  - change (find_kid 2 [cK; cS]) with (Some cS). exact cS_view.
  - change (find_kid 3 [cK; cS]) with (@None node). leafpv.
Qed.
Lemma cex_view_after : NodeView cdisk 3 cpar' [LKv kd [x02]; LKv ke [x03]; LKv ka [x01]; LKv kf [x04]; LKv kg [x05]].
Proof.
  change [LKv kd [x02]; LKv ke [x03]; LKv ka [x01]; LKv kf [x04]; LKv kg [x05]]
    with (concat [concat [[LKv kd [x02]]; [LKv ke [x03]]; [LKv ka [x01]]]; [LKv kf [x04]; LKv kg [x05]]]).
  apply NodeView_branch_intro.
  apply Forall2_cons; [|apply Forall2_cons; [|apply Forall2_nil]]; unfold ChildView; cbn [snd find_kid find n_page];
    [change (2 =? 2) with true | change (2 =? 3) with false]; cbv iota.
  - apply NodeView_branch_intro.
    apply Forall2_cons; [|apply Forall2_cons; [|apply Forall2_cons; [|apply Forall2_nil]]]; unfold ChildView;
      cbn [snd find_kid find]; leafpv.
  - leafpv.
Qed.

(* the parent IS well formed in the sense of EngineModifyFacts *)
Ltac nodup_tac := repeat (constructor; [cbn; intuition (try discriminate; try lia)|]); constructor.
Ltac seps_ok_tac := split; [discriminate | split; [reflexivity | cbn [map snd]; nodup_tac]].
Ltac in_range_tac :=
  split; intros Hrng; vm_compute in Hrng; try lia;
    repeat constructor; vm_compute; (reflexivity || discriminate).
Lemma cK_wf : wf_node cdisk cK.
Proof.
  apply wf_node_branch_intro; [seps_ok_tac | |].
  - repeat constructor. unfold ChildWf. cbn [snd find_kid find]. eapply wfp_leaf; reflexivity.
  - intros j e l Hj _. destruct j as [|j]; [|destruct j; discriminate]. split; intros Hr; cbn in Hr; lia.
Qed.
Lemma cS_wf : wf_node cdisk cS.
Proof.
  apply wf_node_branch_intro; [seps_ok_tac | |].
  - repeat constructor; unfold ChildWf; cbn [snd find_kid find]; eapply wfp_leaf; reflexivity.
  - intros j e l Hj [h Hv]. unfold ChildView in Hv.
    destruct j as [|[|j]]; cbn [nth_error] in Hj; try (destruct j; discriminate); inversion Hj; subst e;
      cbn [snd find_kid find] in Hv.
    + assert (PV : PageView cdisk 1 21 [LKv kd [x02]]) by leafpv.
      rewrite (PageView_det _ _ _ _ Hv _ _ PV). in_range_tac.
    + assert (PV : PageView cdisk 1 22 [LKv ke [x03]]) by leafpv.
      rewrite (PageView_det _ _ _ _ Hv _ _ PV). in_range_tac.
Qed.
Example cex_wf : wf_node cdisk cpar.
Proof.
  apply wf_node_branch_intro; [seps_ok_tac | |].
  - apply Forall_cons; [|apply Forall_cons; [|apply Forall_cons; [|apply Forall_nil]]]; unfold ChildWf; cbn [snd].
    + change (find_kid 1 [cK; cS]) with (Some cK). exact cK_wf.
    + change (find_kid 2 [cK; cS]) with (Some cS). exact cS_wf.
    + change (find_kid 3 [cK; cS]) with (@None node). eapply wfp_leaf; reflexivity.
  - intros j e l Hj [h Hv]. unfold ChildView in Hv.
    destruct j as [|[|[|j]]]; cbn [nth_error] in Hj; try (destruct j; discriminate); inversion Hj; subst e; cbn [snd] in Hv.
    + change (find_kid 1 [cK; cS]) with (Some cK) in Hv. rewrite (NodeView_det _ _ _ _ Hv _ _ cK_view). in_range_tac.
    + change (find_kid 2 [cK; cS]) with (Some cS) in Hv. rewrite (NodeView_det _ _ _ _ Hv _ _ cS_view). in_range_tac.
    + change (find_kid 3 [cK; cS]) with (@None node) in Hv.
      assert (PV : PageView cdisk 1 3 [LKv kf [x04]; LKv kg [x05]]) by leafpv.
      rewrite (PageView_det _ _ _ _ Hv _ _ PV). in_range_tac.
Qed.
(* ... and linked: orig = entry key, pages and sequence numbers distinct, every kid resolved *)
Example cex_linked : kids_linked [(kb, 1); (kd, 2); (kf, 3)] [cK; cS] /\ NoDup (seqs cpar).
Proof.
  split; [split|].
  - cbn. nodup_tac.
  - repeat constructor; [exists kb | exists kd]; cbn; tauto.
  - vm_compute. nodup_tac.
Qed.
(* so the conclusion of [try_merge_view] fails here: the two views differ *)
Example cex_conclusion : forall l, NodeView cdisk 3 cpar l -> ~ NodeView cdisk 3 cpar' l.
Proof.
  intros l H H'. pose proof (NodeView_det _ _ _ _ H _ _ cex_view_before) as E.
  pose proof (NodeView_det _ _ _ _ H' _ _ cex_view_after) as E'. rewrite E in E'. discriminate.
Qed.

(* "wf_node d par'" fails when the only child is empty and dropped -- the parent is left as
   an empty branch node (to be dropped in turn by ITS parent, or turned into an empty leaf by merge_nodes);
   hence [Inv _ _ true] in [Post] and the side condition in [Post_facts] *)
Definition eK : node := Node 1 1 (Some kb) 2 (Leaves []) [].
Definition epar : node := Node 10 1 (Some kb) 1 (Branches [(kb, 1)]) [eK].
Example cex_empty : exists s', try_merge cdisk epar eK cs = Ok (Node 10 1 (Some kb) 1 (Branches []) [], s') /\
  ~ wf_node cdisk (Node 10 1 (Some kb) 1 (Branches []) []).
Proof.
  eexists. split; [vm_compute; reflexivity|]. intros H. apply wf_node_branch_inv in H. destruct H as ((Hne & _) & _).
  now apply Hne.
Qed.
End Cex.

(** * Panics *)

(* under the invariant the only panic left is a merge of a leaf with a branch (excluded in trees of uniform depth,
   which the invariant does not record) *)

Definition kind_panic : String.string := "incompatible data types"%string.

Lemma merge_data_res : forall a b, (exists md, merge_data a b = Ok md) \/ merge_data a b = Panic kind_panic.
Proof. intros [l1|e1] [l2|e2]; cbn [merge_data]; eauto. Qed.

Lemma sib_of_ok : forall h d s ks kq q b, CInv h d ks (kq, q) b -> exists r, sib_of d ks q s = Ok r.
Proof.
  intros h d s ks kq q b HC. unfold sib_of, CInv in *. cbn [snd fst] in HC. destruct (find_kid q ks); [eauto|].
  destruct (PInv_dget _ _ _ _ _ _ HC) as [a Ha]. rewrite Ha. cbn [next_seq]. eauto.
Qed.

Lemma try_merge_at_no_panic : forall h d par k s es idx kq q b,
  tm_at par k s es idx kq q -> CInv h d (n_kids par) (kq, q) b ->
  (exists r, try_merge d par k s = Ok r) \/ try_merge d par k s = Panic kind_panic.
Proof.
  intros h d par k s es idx kq q b Hat Cs. rewrite (try_merge_at d _ k s es idx kq q Hat).
  destruct (sib_of_ok h d s (n_kids par) kq q _ Cs) as [[[sib s1] isnew] ->]. cbn [bind].
  destruct (merge_data_res (n_data sib) (n_data k)) as [[md ->] | ->]; cbn [bind]; [left; eauto | now right].
Qed.

Theorem try_merge_no_panic : forall h d s lo hi p np og sq es ks k,
  Pre1 h d lo hi es ks (n_page k) -> In k ks ->
  (exists r, try_merge d (Node p np og sq (Branches es) ks) k s = Ok r) \/
  try_merge d (Node p np og sq (Branches es) ks) k s = Panic kind_panic.
Proof.
  intros h d s lo hi p np og sq es ks k HP Hkin.
  destruct (Pre1_split _ _ _ _ _ _ _ HP Hkin) as (E1 & ko & E2 & Ees & Ho & Hb & HC1 & Hk & HC2 & Hfk).
  destruct (needs_merging s k) eqn:Hn; [|left; rewrite try_merge_noop by exact Hn; eauto].
  destruct (0 <? dlen (n_data k))%N eqn:Hdl.
  2:{ left. assert (Hd0 : dlen (n_data k) = 0%N) by lia.
      rewrite (try_merge_empty d (Node p np og sq (Branches es) ks) k s es ko _ Hd0 eq_refl Ho Hb). eauto. }
  assert (Hdl' : (0 < dlen (n_data k))%N) by lia.
  destruct (llen es =? 1)%N eqn:Hone.
  { left. rewrite (try_merge_only_child d (Node p np og sq (Branches es) ks) k s es eq_refl ltac:(lia) Hdl'). eauto. }
  destruct (Pre1_sibling _ _ _ _ _ _ _ HP Hkin Hone)
    as (E1' & ka & qa & kb & qb & E2' & ko' & kq & q & idx & _ & Ho' & Hb' & Hse & _ & _ & Hside).
  assert (Cs : exists b, CInv h d ks (kq, q) b)
    by (destruct Hside as [(_ & _ & _ & _ & _ & Cs & _) | (_ & _ & _ & _ & _ & _ & _ & Cs)]; eauto).
  destruct Cs as [b Cs]. eapply try_merge_at_no_panic; [|exact Cs].
  exact (conj Hn (conj eq_refl (conj Hdl' (conj (ex_intro _ ko' (conj Ho' Hb')) Hse)))).
Qed.

Theorem rebalance_kids_no_panic : forall fuel h d s z lo hi n l msg,
  Inv h d z lo hi n -> is_leaf (n_data n) = false -> NodeView d h n l ->
  NoDup (npages h d n) -> NoDup (seqs n) -> Forall (fun x => (x < seqc s)%N) (seqs n) ->
  rebalance_kids fuel d n s = Panic msg -> msg = kind_panic.
Proof.
  induction fuel as [|f IH]; intros h d s z lo hi n l msg HI Hlf HV Np Ns Hlt H; [discriminate|].
  rewrite rebalance_kids_S in H. destruct (Inv_height _ _ _ _ _ _ HI) as [h0 ->].
  pose proof (fold_res_rpost (rk_body f d)
                (fun _ a => RKPost (S h0) d s lo hi n l (fst a) (snd a) /\ is_leaf (n_data (fst a)) = false)
                (fun m => m = kind_panic) (fun _ => True)) as R.
  specialize (R) with (xs := map n_seq (n_kids n)) (a := (n, s)). rewrite H in R. apply R; clear R H.
  - intros x rest [n0 s0] [HP0 Hlf0]. cbn [fst snd rk_body] in *.
    destruct (find (fun k => N.eqb (n_seq k) x) (n_kids n0)) as [k|] eqn:Ef; [|split; assumption].
    apply find_some in Ef. destruct Ef as [Hkin _].
    destruct (if is_leaf (n_data k) then Ok (k, s0) else rebalance_kids f d k s0) as [[k1 s1k]|m|e] eqn:Ek; cbn [bind rpost].
    + destruct n0 as [p0 np0 og0 sq0 [l0|es0] ks0]; [discriminate|]. cbn [n_kids set_kids] in *.
      destruct (rk_prep f h0 d s lo hi n l p0 np0 og0 sq0 es0 ks0 s0 k k1 s1k (rebalance_kids_view f) Hlt HP0 Hkin Ek)
        as (_ & _ & _ & R1 & R2 & _).
      destruct (try_merge_no_panic h0 d s1k lo hi p0 np0 og0 sq0 es0 _ k1 R1 R2) as [[[n1 s1] Hr] | Hr];
        rewrite Hr in *; [|reflexivity].
      eapply (rk_step f h0 d s lo hi n l (Node p0 np0 og0 sq0 (Branches es0) ks0)); eauto. apply rebalance_kids_view.
    + destruct (is_leaf (n_data k)) eqn:Elf; [discriminate|].
      destruct HP0 as (HI0 & HV0 & _ & _ & _ & _ & Np0 & _ & Ns0 & Is0 & Tx0).
      destruct n0 as [p0 np0 og0 sq0 [l0|es0] ks0]; [discriminate|]. cbn [n_kids] in Hkin.
      destruct (kid_facts _ _ _ _ _ _ _ _ _ _ _ _ HI0 Hkin HV0 Np0 Ns0) as ((lk & Vk) & Npk & Nsk & Isk & (lo' & hi' & Ik)).
      eapply (IH h0 d s0 true lo' hi' k lk m Ik Elf Vk Npk Nsk); [|exact Ek].
      apply (seqs_lt_next (seqs n) (seqs k) _ (seqc s) _ Hlt); [intros y Hy; apply Is0, Isk, Hy | apply (tx_frame_le _ _ Tx0)].
    + exact I.
  - cbn [fst snd]. split; [eapply RKPost_refl; eauto | exact Hlf].
Qed.

Theorem merge_nodes_no_panic : forall h d s b l msg,
  BInv h d s b -> BucketView d h b l -> merge_nodes d b s = Panic msg -> msg = kind_panic.
Proof.
  intros h d s b l msg HB HV H. rewrite merge_nodes_unfold in H.
  pose proof (ensure_root_cases d b s) as Cr.
  destruct (ensure_root d b s) as [[root s0]|m|e] eqn:Er; cbn [bind] in H; [|exfalso|destruct Cr].
  2:{ destruct Cr as (En & Hg & _). unfold BInv in HB. rewrite En in HB. destruct HB as [HP _].
      destruct (PInv_dget _ _ _ _ _ _ HP) as [a Ha]. congruence. }
  destruct (ensure_root_RInv _ _ _ _ _ _ _ HB HV Er) as (HR & HVr & Tx0).
  destruct (if is_leaf (n_data root) then Ok (root, s0) else rebalance_kids fuel0 d root s0) as [[root1 s1]|m|e] eqn:E1;
    cbn [bind] in H.
  - destruct (mn_tail_total b root1 s1) as (b2 & s2 & E & _). rewrite E in H. discriminate.
  - inversion H; subst m. destruct (is_leaf (n_data root)) eqn:Elf; [discriminate|].
    destruct HR as (HI & Hnp & Hsq & Hlt). eapply rebalance_kids_no_panic; eauto.
  - discriminate.
Qed.

Definition RBP_IH (f : nat) : Prop :=
  forall fv d s b v msg, Deep fv d s b v -> rebalance f d b s = Panic msg -> msg = kind_panic.

Theorem rebalance_no_panic : forall f, RBP_IH f.
Proof.
  induction f as [|f IH]; intros fv d s b v msg HD H; [discriminate|].
  destruct fv as [|fv]; [destruct HD|]. destruct v as [l vs]. cbn [Deep] in HD. destruct HD as [HG HS].
  rewrite rebalance_S in H. destruct (negb (is_dirty fuel0 b)); [discriminate|].
  destruct (fold_res (reb_body f d) (b_subs b) ([], s)) as [[subs' s1]|m|e] eqn:Ef; cbn [bind] in H.
  - destruct (rebalance_subs f fv d (b_subs b) vs s subs' s1 (rebalance_view f) HS Ef) as [R1 R2].
    assert (HG1 : BGood d s1 (Bucket (b_root_page b) (b_next b) true (b_rootn b) subs') l).
    { eapply BGood_same_root; [reflexivity | reflexivity |]. eapply BGood_seqc_mono; [apply (tx_frame_le _ _ R2) | exact HG]. }
    destruct HG1 as (h & Hh & HB & HV). eapply merge_nodes_no_panic; eauto.
  - inversion H; subst m.
    pose proof (fold_res_rpost (reb_body f d) (fun rest a => exists vr, Forall2 (sub_rel fv d (snd a)) rest vr)
                  (fun m => m = kind_panic) (fun _ => True)) as R.
    specialize (R) with (xs := b_subs b) (a := (@nil (bytes * bucket), s)). rewrite Ef in R. apply R; [|eauto].
    intros x rest [acc s0] [vr Hr]. cbn [snd reb_body] in *. inversion Hr as [|? y ? vr' [Exy Hxy] Hr']; subst.
    destruct (rebalance f d (snd x) s0) as [[bx sx]|m|e] eqn:Ex; cbn [bind rpost]; [|eapply IH; eauto | exact I].
    destruct (rebalance_view f fv d s0 (snd x) (snd y) bx sx Hxy Ex) as (_ & Tx & _).
    exists vr'. eapply subs_mono; [apply (tx_frame_le _ _ Tx) | exact Hr'].
  - discriminate.
Qed.

(* the pending pages after [try_merge], in the terms of EngineAllocFacts: nothing is lost, and what is added lies
   in the page run of k *)
Lemma merge_tx_pending : forall s k s', merge_tx s k s' -> forall x,
  (In x (PL.pend_all (pending s)) -> In x (PL.pend_all (pending s'))) /\
  (In x (PL.pend_all (pending s')) -> In x (PL.pend_all (pending s)) \/ (n_page k <= x < n_page k + n_np k)%N).
Proof.
  intros s k s' Htx x.
  assert (Hf : forall s0, pending s0 = pending s ->
    (In x (PL.pend_all (pending s)) -> In x (PL.pend_all (pending (free_node_page s0 k)))) /\
    (In x (PL.pend_all (pending (free_node_page s0 k))) -> In x (PL.pend_all (pending s)) \/ (n_page k <= x < n_page k + n_np k)%N)).
  { intros s0 E. unfold free_node_page. destruct (n_page k =? 0)%N; [rewrite E; tauto|].
    pose proof (EngineAllocFacts.engine_free_pend_all s0 (n_page k) (n_np k) x) as H. rewrite E in H. tauto. }
  destruct Htx as [-> | [-> | ->]]; [tauto | apply Hf; reflexivity | apply Hf; reflexivity].
Qed.

Print Assumptions Inv_wf_node.
Print Assumptions node_of_page_Inv.
Print Assumptions modify_Inv.
Print Assumptions b_modify_BInv.
Print Assumptions try_merge_step.
Print Assumptions try_merge_view.
Print Assumptions Post_facts.
Print Assumptions merge_tx_pending.
Print Assumptions rebalance_kids_view.
Print Assumptions merge_nodes_view.
Print Assumptions merge_nodes_bucket_view.
Print Assumptions rebalance_view.
Print Assumptions rebalance_bucket_view.
Print Assumptions Example.ex_try_merge_view.
Print Assumptions Example.ex_merge_nodes_view.
Print Assumptions Example2.ex_rebalance_view.
Print Assumptions Cex.cex_conclusion.
Print Assumptions Cex.cex_empty.
Print Assumptions try_merge_no_panic.
Print Assumptions rebalance_kids_no_panic.
Print Assumptions merge_nodes_no_panic.
Print Assumptions rebalance_no_panic.
