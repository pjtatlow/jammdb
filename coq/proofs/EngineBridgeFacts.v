(* Two vocabularies say what a transaction sees below an overlay node: EngineModifyFacts has the relational,
   height-indexed [PageView] / [NodeView] with [wf_page] / [wf_node]; EngineSpillFacts, EngineMergeFacts and EngineAbs
   have the functional [page_ents] / [view_leaves] and the range-indexed well-formedness [swf] of a node that is about
   to be spilled.  This file passes from the first to the second.  [spill_ready] is what the second needs and the
   first does not give; [seps_range_needed] shows that its separator-range clause does not follow from [wf_node]. *)
From Coq Require Import List NArith Bool Arith Lia ZifyN ZifyNat ZifyBool.
From Coq.Strings Require Import Byte.
From Jamm Require Import ListFacts Bytes Tree SearchFacts Engine EngineAbs EngineFacts EngineMergeFacts.
From Jamm Require Import EngineSpillFacts EngineModifyFacts.
Import ListNotations.
Import Coq.Strings.String.StringSyntax. Delimit Scope string_scope with string.
Local Open Scope list_scope. Local Open Scope nat_scope.

(* both developments define an [in_range]: always qualified here *)
Notation m_in_range := EngineModifyFacts.in_range.
Notation s_in_range := EngineSpillFacts.in_range.

Lemma flat_map_Forall2 {A B} (g : A -> list B) : forall la lb,
  Forall2 (fun a b => g a = b) la lb -> flat_map g la = concat lb.
Proof. induction 1 as [|a b la lb E _ IH]; cbn [flat_map concat]; [reflexivity|]. now rewrite E, IH. Qed.

Lemma Forall2_flat_map {A B} (g : A -> list B) (R : A -> list B -> Prop) : forall la,
  (forall a, In a la -> R a (g a)) -> Forall2 R la (map g la).
Proof.
  induction la as [|a la IH]; intros H; cbn [map]; constructor.
  - apply H. now left.
  - apply IH. intros a' Ha. apply H. now right.
Qed.

Lemma page_ents_leaves : forall fuel d p, page_ents fuel d p = page_leaves fuel d p.
Proof. reflexivity. Qed.

(** * [PageView] is the graph of [page_ents], for enough fuel *)

Theorem PageView_page_ents : forall d h p l, PageView d h p l -> forall F, h <= F -> page_ents F d p = l.
Proof.
  intros d. induction h as [|h IH]; intros p l H F HF; [inversion H|].
  destruct F as [|F]; [lia|].
  inversion H as [? ? a l0 Hg Hb | ? ? a es ls Hg Hb HFa]; subst.
  - eapply page_ents_leaf; eauto.
  - rewrite (page_ents_branch _ _ _ _ _ Hg Hb). apply flat_map_Forall2.
    eapply ListFacts.Forall2_impl; [|exact HFa]. cbn beta. intros e y Hy. apply (IH _ _ Hy). lia.
Qed.

(* [PageView_inv] keyed on the stored page *)
Lemma PageView_at : forall d h p l a, PageView d h p l -> dget d p = Some a ->
  match ap_body a with
  | Leaves l0 => l = l0
  | Branches es => exists h0 ls, h = S h0 /\ l = concat ls /\ Forall2 (fun e l => PageView d h0 (snd e) l) es ls
  end.
Proof.
  intros d h p l a H Hg. destruct (PageView_inv _ _ _ _ H) as (h0 & a' & -> & Hg' & Hv).
  rewrite Hg in Hg'. inversion Hg'; subst a'. destruct (ap_body a); [exact Hv|]. destruct Hv as (ls & -> & HF). eauto.
Qed.

Lemma PageView_kid : forall d h p l a es e, PageView d (S h) p l ->
  dget d p = Some a -> ap_body a = Branches es -> In e es -> exists le, PageView d h (snd e) le.
Proof.
  intros d h p l a es e H Hg Hb He. pose proof (PageView_at _ _ _ _ _ H Hg) as Hv. rewrite Hb in Hv.
  destruct Hv as (h0 & ls & E & _ & HF). inversion E; subst h0.
  destruct (Forall2_In_l _ _ _ _ HF He) as (le & _ & Hle). eauto.
Qed.

(* The converse. [page_ents] answers [] for a missing page and when the fuel runs out, so
   [page_ents F d p = l] alone does not give a view (see [page_ents_no_view] below); what is needed is that
   the fuelled reading never falls off the disk nor runs out of fuel. [wf_page] is one way to know this, but
   [wf_page] by itself carries no height, so the fuel must be related to the tree separately: *)
Fixpoint pages_present (fuel : nat) (d : disk) (p : N) : Prop :=
  match fuel with
  | O => False
  | S f => match dget d p with
           | None => False
           | Some a => match ap_body a with
                       | Leaves _ => True
                       | Branches es => forall e, In e es -> pages_present f d (snd e) end end
  end.

Theorem page_ents_PageView : forall F d p, pages_present F d p -> PageView d F p (page_ents F d p).
Proof.
  induction F as [|F IH]; intros d p H; [destruct H|]. cbn [pages_present] in H. cbn [page_ents].
  destruct (dget d p) as [a|] eqn:Hg; [|destruct H]. destruct (ap_body a) as [l|es] eqn:Hb.
  - eapply PV_leaf; eauto.
  - rewrite flat_map_concat_map. eapply PV_branch; eauto.
    apply Forall2_flat_map. intros e He. apply IH, H, He.
Qed.

Lemma PageView_present : forall d h p l, PageView d h p l -> pages_present h d p.
Proof.
  intros d. induction h as [|h IH]; intros p l H; [inversion H|]. cbn [pages_present].
  destruct (PageView_inv _ _ _ _ H) as (_ & a & _ & Hg & _). rewrite Hg.
  destruct (ap_body a) as [l0|es] eqn:Hb; [exact I|].
  intros e He. destruct (PageView_kid _ _ _ _ _ _ _ H Hg Hb He) as [le Hle]. eapply IH; eauto.
Qed.

Corollary PageView_iff : forall d h p l,
  PageView d h p l <-> pages_present h d p /\ page_ents h d p = l.
Proof.
  intros d h p l. split.
  - intros H. split; [eapply PageView_present; eauto | eapply PageView_page_ents; eauto].
  - intros [H <-]. now apply page_ents_PageView.
Qed.

(* a well-formed page has SOME view (the derivation of [wf_page] is finite), and every fuel that covers it
   reads that view *)
Theorem wf_page_views : forall d p, wf_page d p -> exists h l, PageView d h p l.
Proof.
  intros d. fix IH 2. intros p H. destruct H as [p a l Hg Hb Hs | p a es Hg Hb Hs HF Hr].
  - exists 1, l. eapply PV_leaf; eauto.
  - assert (Hch : exists h ls, Forall2 (fun e l => PageView d h (snd e) l) es ls).
    { clear - HF IH. revert es HF. fix IHF 2. intros es HF. destruct HF as [|e es He HF].
      - exists 0, []. constructor.
      - destruct (IH _ He) as (h1 & l1 & H1). destruct (IHF _ HF) as (h2 & ls & H2).
        exists (Nat.max h1 h2), (l1 :: ls). constructor.
        + apply (PageView_mono _ _ _ _ H1). lia.
        + eapply ListFacts.Forall2_impl; [|exact H2]. cbn beta. intros e' y Hy.
          apply (PageView_mono _ _ _ _ Hy). lia. }
    destruct Hch as (h & ls & Hch). exists (S h), (concat ls). eapply PV_branch; eauto.
Qed.

Corollary wf_page_page_ents : forall d p, wf_page d p ->
  exists h, forall F, h <= F -> PageView d F p (page_ents F d p).
Proof.
  intros d p H. destruct (wf_page_views d p H) as (h & l & Hv). exists h. intros F HF.
  rewrite (PageView_page_ents _ _ _ _ Hv F HF). apply (PageView_mono _ _ _ _ Hv F HF).
Qed.

(* without the presence condition the converse fails: [page_ents] of a missing page is [] *)
Example page_ents_no_view : page_ents 5 [] 7%N = [] /\ forall h l, ~ PageView [] h 7%N l.
Proof. split; [reflexivity|]. intros h l H. inversion H as [? ? a ? Hg|? ? a ? ? Hg]; discriminate. Qed.

(** * [NodeView] is the graph of [view_leaves], for enough fuel *)

(* a kid is resolved in [view_leaves] as in [NodeView]: the first kid with that page ([find_kid]) *)
Lemma ChildView_child_view : forall d h ks q l fuel,
  (forall kd l', find_kid q ks = Some kd -> NodeView d h kd l' -> view_leaves fuel d kd = l') ->
  h <= fuel -> ChildView d h ks q l -> child_view fuel d ks q = l.
Proof.
  intros d h ks q l fuel IH Hle H. unfold ChildView in H. unfold child_view.
  destruct (find_kid q ks) as [kd|].
  - now apply IH.
  - rewrite <- page_ents_leaves. eapply PageView_page_ents; eauto.
Qed.

Theorem NodeView_view_leaves : forall d h n l, NodeView d h n l ->
  forall fuel, h <= fuel -> view_leaves fuel d n = l.
Proof.
  intros d. induction h as [|h IH]; intros n l H fuel Hle; [inversion H|].
  destruct n as [p np og sq [l0|es] ks].
  - apply NodeView_leaf_inv in H. destruct H as [-> _]. reflexivity.
  - apply NodeView_branch_inv in H. destruct H as (h0 & ls & E & -> & HF). inversion E; subst h0.
    rewrite view_leaves_eq. cbn [n_data n_kids]. apply flat_map_Forall2.
    eapply ListFacts.Forall2_impl; [|exact HF]. cbn beta. intros e y Hy.
    eapply ChildView_child_view; [|shelve|exact Hy].
    intros kd l' _ Hv. apply (IH _ _ Hv). lia.
    Unshelve. lia.
Qed.

Corollary Views_view_leaves : forall d n l, Views d n l -> exists h, forall fuel, h <= fuel -> view_leaves fuel d n = l.
Proof. intros d n l [h H]. exists h. intros fuel Hle. eapply NodeView_view_leaves; eauto. Qed.

(** * The pages below a page; a viewed subtree inside [keep] is [stable] *)

(* [in_subtree d q x]: page x is q or lies below q on disk d *)
Inductive in_subtree (d : disk) : N -> N -> Prop :=
| ist_self : forall q, in_subtree d q q
| ist_kid : forall q a es e x,
    dget d q = Some a -> ap_body a = Branches es -> In e es -> in_subtree d (snd e) x -> in_subtree d q x.

(* the same as a fuelled function (pre-order) *)
Fixpoint subtree_pages (fuel : nat) (d : disk) (q : N) : list N :=
  match fuel with
  | O => []
  | S f => q :: match dget d q with
                | None => []
                | Some a => match ap_body a with
                            | Leaves _ => []
                            | Branches es => flat_map (fun e => subtree_pages f d (snd e)) es end end
  end.

Lemma subtree_pages_sound : forall fuel d q x, In x (subtree_pages fuel d q) -> in_subtree d q x.
Proof.
  induction fuel as [|f IH]; intros d q x H; [destruct H|]. cbn [subtree_pages] in H.
  destruct H as [<-|H]; [apply ist_self|].
  destruct (dget d q) as [a|] eqn:Hg; [|destruct H]. destruct (ap_body a) as [l|es] eqn:Hb; [destruct H|].
  apply in_flat_map in H. destruct H as (e & He & Hx). eapply ist_kid; eauto.
Qed.

Lemma subtree_pages_complete : forall d h q l, PageView d h q l ->
  forall x, in_subtree d q x -> In x (subtree_pages h d q).
Proof.
  intros d. induction h as [|h IH]; intros q l H x Hx; [inversion H|]. cbn [subtree_pages].
  destruct Hx as [q|q a es e x Hg Hb He Hx]; [now left|]. right.
  rewrite Hg, Hb. apply in_flat_map. exists e. split; [exact He|].
  destruct (PageView_kid _ _ _ _ _ _ _ H Hg Hb He) as [le Hle]. eapply IH; eauto.
Qed.

(* a subtree that has a view of height h and whose pages are all in [keep] is [stable] for every fuel >= h;
   [wf_page] is not needed for this *)
Theorem PageView_stable : forall d keep h q l, PageView d h q l ->
  (forall x, in_subtree d q x -> In x keep) ->
  forall fuel, h <= fuel -> stable fuel d keep q.
Proof.
  intros d keep. induction h as [|h IH]; intros q l H Hk fuel Hle; [inversion H|].
  destruct fuel as [|fuel]; [lia|]. cbn [stable]. split; [apply Hk, ist_self|].
  destruct (PageView_inv _ _ _ _ H) as (_ & a & _ & Hg & _). rewrite Hg.
  destruct (ap_body a) as [l0|es] eqn:Hb; [exact I|].
  intros e He. destruct (PageView_kid _ _ _ _ _ _ _ H Hg Hb He) as [le Hv].
  apply (IH _ _ Hv); [|lia]. intros x Hx. apply Hk. eapply ist_kid; eauto.
Qed.

(* with the pages given by the fuelled function; the [wf_page] hypothesis is not used *)
Corollary wf_page_stable : forall d keep h q l fuel, wf_page d q -> PageView d h q l ->
  (forall x, In x (subtree_pages h d q) -> In x keep) -> h <= fuel -> stable fuel d keep q.
Proof.
  intros d keep h q l fuel _ Hv Hk Hle. apply (PageView_stable d keep h q l Hv); [|exact Hle].
  intros x Hx. apply Hk. eapply subtree_pages_complete; eauto.
Qed.

(** * From [wf_node] + [NodeView] to [swf] *)

(* What [swf] asks and [wf_node] + [NodeView] do not give, recursively over the materialised part of the
   overlay. Like [swf] it is indexed by the key range [lo, hi) the node is responsible for: the SEPARATORS of a
   materialised branch must lie in the range ([wf_node] relates separators only to the keys of the children
   right of child 0, so this does not follow -- [seps_range_needed] below). At the root the range is
   (None, None) and the condition is void.
   - every materialised leaf is non-empty and has no kids; every branch is non-empty;
   - every kid is named by an entry of its parent and carries that entry's key as [n_orig]
     (the entry is unique because [wf_node] makes the child pages distinct);
   - the kids' pages are pairwise distinct;
   - every page below an un-materialised child is in [keep]. *)
Inductive spill_ready (d : disk) (keep : list N) : option bytes -> option bytes -> node -> Prop :=
| sr_leaf lo hi pg npg o sq l :
    l <> [] -> spill_ready d keep lo hi (Node pg npg o sq (Leaves l) [])
| sr_branch lo hi pg npg o sq es kids :
    es <> [] ->
    (forall k, In k (map fst es) -> s_in_range lo hi k) ->
    NoDup (map n_page kids) ->
    (forall kd, In kd kids -> exists k, n_orig kd = Some k /\ In (k, n_page kd) es) ->
    (forall l h e kd, In (l, h, e) (chb lo hi es) -> find_kid (snd e) kids = Some kd ->
       spill_ready d keep l h kd) ->
    (forall e x, In e es -> find_kid (snd e) kids = None -> in_subtree d (snd e) x -> In x keep) ->
    spill_ready d keep lo hi (Node pg npg o sq (Branches es) kids).

(* the bounds [chb] gives entry j: child 0 inherits the lower bound, child j > 0 starts at its separator;
   every child ends at the next separator, the last one at the upper bound *)
Lemma chb_nth : forall es lo hi l h e, In (l, h, e) (chb lo hi es) ->
  exists j, nth_error es j = Some e /\
    l = match j with O => lo | S _ => Some (fst e) end /\
    h = match nth_error es (S j) with Some e' => Some (fst e') | None => hi end.
Proof.
  induction es as [|e0 es IH]; intros lo hi l h e H; [destruct H|]. cbn [chb] in H. destruct H as [H|H].
  - inversion H; subst. exists 0. split; [reflexivity|]. split; [reflexivity|].
    cbn [nth_error]. destruct es; reflexivity.
  - destruct (IH _ _ _ _ _ H) as (j & Hj & Hl & Hh). exists (S j). split; [exact Hj|]. split; [|exact Hh].
    destruct j as [|j]; [|exact Hl]. subst l. destruct es as [|e1 es]; [discriminate|].
    cbn [nth_error] in Hj. inversion Hj. reflexivity.
Qed.

(* the keys of child j of a well-formed branch lie in the [chb] range of entry j, provided the keys of the
   whole view lie in the range of the node: child 0 gets its lower bound, and the last child its upper bound,
   from the node's own range, every other bound is a separator ([EngineModifyFacts.in_range]) *)
Lemma child_range : forall (es : list (bytes * N)) (ls : list (list leafent)) lo hi j e lj,
  nth_error es j = Some e -> nth_error ls j = Some lj ->
  m_in_range (map fst es) j lj ->
  (forall x, In x (concat ls) -> s_in_range lo hi (lkey x)) ->
  forall x, In x lj ->
    s_in_range (match j with O => lo | S _ => Some (fst e) end)
               (match nth_error es (S j) with Some e' => Some (fst e') | None => hi end) (lkey x).
Proof.
  intros es ls lo hi j e lj He Hl [Hdn Hup] Hout x Hx.
  destruct (Hout x) as [Olo Ohi]; [apply in_concat; eauto using nth_error_In|]. split.
  - destruct j as [|j]; [exact Olo|]. specialize (Hdn ltac:(lia)). rewrite Forall_forall in Hdn.
    specialize (Hdn x Hx). rewrite (nth_error_nth_map fst _ _ _ He) in Hdn. exact Hdn.
  - destruct (nth_error es (S j)) as [e'|] eqn:He'; [|exact Ohi].
    assert (Hlen : S j < length (map fst es)).
    { rewrite map_length. apply nth_error_Some. congruence. }
    specialize (Hup Hlen). rewrite Forall_forall in Hup. specialize (Hup x Hx).
    rewrite (nth_error_nth_map fst _ _ _ He') in Hup. exact Hup.
Qed.

Theorem wf_node_swf : forall d keep h n l lo hi fuel,
  wf_node d n -> NodeView d h n l -> spill_ready d keep lo hi n ->
  (forall x, In x l -> s_in_range lo hi (lkey x)) -> h <= fuel ->
  swf fuel d keep lo hi n.
Proof.
  intros d keep. induction h as [|h IH]; intros n l lo hi fuel Hw Hv Hr Hrange Hle; [inversion Hv|].
  destruct n as [p np og sq [l0|es] ks].
  - apply NodeView_leaf_inv in Hv. destruct Hv as [-> _].
    inversion Hr as [? ? ? ? ? ? ? Hne|]; subst. inversion Hw as [? ? ? ? ? ? Hs|]; subst.
    apply swf_leaf. split; [|split; [exact Hs|]].
    + destruct l0; [congruence|discriminate].
    + intros k Hk. apply in_map_iff in Hk. destruct Hk as (x & <- & Hx). apply Hrange, Hx.
  - apply NodeView_branch_inv in Hv. destruct Hv as (h0 & ls & E & -> & HF). inversion E; subst h0.
    apply wf_node_branch_inv in Hw. destruct Hw as (Hok & Hch & Hin).
    inversion Hr as [|? ? ? ? ? ? ? ? Hne Hseps Hndk Horig Hkids Hkeep]; subst.
    destruct Hok as (_ & Hsorted & Hnd).
    apply swf_branch.
    + split; [destruct es; [congruence|discriminate]|]. split; [exact Hsorted|exact Hseps].
    + exact Hnd.
    + exact Hndk.
    + exact Horig.
    + intros b1 b2 e kd Hb Hfk. destruct (chb_nth _ _ _ _ _ _ Hb) as (j & He & -> & ->).
      destruct (Forall2_nth_error_l _ _ _ _ _ HF He) as (lj & Hlj & Hcv).
      rewrite Forall_forall in Hch. pose proof (Hch e (nth_error_In _ _ He)) as Hcw.
      unfold ChildView in Hcv. unfold ChildWf in Hcw. rewrite Hfk in Hcv, Hcw.
      apply (IH kd lj); [exact Hcw|exact Hcv| | |lia].
      * apply (Hkids _ _ e kd Hb Hfk).
      * apply (child_range es ls lo hi j e lj He Hlj); [|exact Hrange].
        apply (Hin j e lj He). exists h. unfold ChildView. rewrite Hfk. exact Hcv.
    + intros e He Hfk. destruct (Forall2_In_l _ _ _ _ HF He) as (lj & _ & Hcv).
      unfold ChildView in Hcv. rewrite Hfk in Hcv.
      apply (PageView_stable d keep h (snd e) lj Hcv); [|lia].
      intros x Hx. apply (Hkeep e x He Hfk Hx).
Qed.

(* at a bucket's root the range is unbounded *)
Corollary wf_node_swf_root : forall d keep h n l fuel,
  wf_node d n -> NodeView d h n l -> spill_ready d keep None None n -> h <= fuel ->
  swf fuel d keep None None n.
Proof.
  intros d keep h n l fuel Hw Hv Hr Hle. apply (wf_node_swf d keep h n l None None fuel Hw Hv Hr); [|exact Hle].
  intros x _. split; exact I.
Qed.

(** * [spill_root] in the vocabulary of EngineModifyFacts *)

(* a root that is an empty leaf is spilled as well (an empty bucket); otherwise the root must be ready *)
Definition root_ready (d : disk) (keep : list N) (n : node) : Prop :=
  n_data n = Leaves [] \/ spill_ready d keep None None n.

Lemma root_ready_swf : forall d keep h n l, wf_node d n -> NodeView d h n l -> root_ready d keep n ->
  n_data n = Leaves [] \/ swf h d keep None None n.
Proof.
  intros d keep h n l Hw Hv [E|Hr]; [left; exact E|right].
  apply (wf_node_swf_root d keep h n l h Hw Hv Hr). lia.
Qed.

(* The root page [p] that [spill_root] returns reads, in every later write set [w'] that agrees with the
   transaction's on the pages [good] written here and does not touch [keep], exactly the entries [l] the
   transaction saw below [n]; plus the allocator facts of [spill_root_spec]. *)
Theorem spill_root_view : forall d keep live h n l f s p s',
  wf_node d n -> NodeView d h n l -> root_ready d keep n ->
  fresh_inv live s ->
  spill_root f n s = Ok (p, s') ->
  exists alloc dead good lv,
    frame live s s' alloc dead /\ (forall q, In q good -> In q alloc) /\ In p good /\ lv <= f /\
    (forall x, old_run n x -> In x dead) /\
    (forall L, (forall x, In x L -> In x live) -> old_in L n ->
       forall x, In x dead -> (In x L \/ In x alloc) /\ ~ In x good) /\
    forall w' P, wr_agree good (wr s') w' -> (forall x, In x keep -> wr_get w' x = None) ->
      forall F, lv + ndepth n + h <= F -> page_ents F (apply_wr w' P d) p = l.
Proof.
  intros d keep live h n l f s p s' Hw Hv Hr Hfi Hsp.
  pose proof (root_ready_swf d keep h n l Hw Hv Hr) as Hswf.
  destruct (spill_root_spec h d keep live f n s p s' Hfi Hswf Hsp)
    as (alloc & dead & good & lv & A1 & A2 & A3 & A4 & A5 & A6 & A7).
  exists alloc, dead, good, lv. repeat (split; [assumption|]).
  intros w' P Hag Hk F HF. rewrite (A7 w' P Hag Hk F HF).
  apply (NodeView_view_leaves d h n l Hv). lia.
Qed.

(* the same at commit time: [s''] is any later state of the same transaction (a frame over s'), its write
   set applied to the committed disk *)
Theorem spill_root_view_committed : forall d keep live h n l f s p s' s'' a2 d2,
  wf_node d n -> NodeView d h n l -> root_ready d keep n ->
  fresh_inv live s ->
  (forall x, In x keep -> In x live) -> (forall x, In x keep -> wr_get (wr s) x = None) ->
  spill_root f n s = Ok (p, s') ->
  exists alloc dead lv,
    frame live s s' alloc dead /\ In p alloc /\ ~ In p live /\ lv <= f /\
    (forall x, old_run n x -> freed_in_tx s' x = true) /\
    (frame (alloc ++ live) s' s'' a2 d2 ->
     forall P F, lv + ndepth n + h <= F -> page_ents F (apply_wr (wr s'') P d) p = l) /\
    (old_in live n -> ~ In p dead /\
       (pend_ok live s -> forall live', (forall x, In x live' -> (In x live \/ In x alloc) /\ ~ In x dead) ->
          pend_ok live' s')).
Proof.
  intros d keep live h n l f s p s' s'' a2 d2 Hw Hv Hr Hfi Hk Hk0 Hsp.
  pose proof (root_ready_swf d keep h n l Hw Hv Hr) as Hswf.
  destruct (spill_root_committed h d keep live f n s p s' s'' a2 d2 Hfi Hswf Hk Hk0 Hsp)
    as (alloc & dead & lv & A1 & A2 & A3 & A4 & A5 & A6 & A7).
  exists alloc, dead, lv. repeat (split; [assumption|]). split; [|exact A7].
  intros Hfr P F HF. rewrite (A6 Hfr P F HF). apply (NodeView_view_leaves d h n l Hv). lia.
Qed.

(* read straight after the spill, before anything else is written *)
Corollary spill_root_view_now : forall d keep live h n l f s p s',
  wf_node d n -> NodeView d h n l -> root_ready d keep n ->
  fresh_inv live s ->
  (forall x, In x keep -> In x live) -> (forall x, In x keep -> wr_get (wr s) x = None) ->
  spill_root f n s = Ok (p, s') ->
  forall P F, f + ndepth n + h <= F -> page_ents F (apply_wr (wr s') P d) p = l.
Proof.
  intros d keep live h n l f s p s' Hw Hv Hr Hfi Hk Hk0 Hsp P F HF.
  destruct (spill_root_view_committed d keep live h n l f s p s' s' [] [] Hw Hv Hr Hfi Hk Hk0 Hsp)
    as (alloc & dead & lv & Hfr & _ & _ & Hlv & _ & Hfin & _).
  apply Hfin; [apply frame_refl, (fr_fresh _ _ _ _ _ Hfr) | lia].
Qed.

Lemma fresh_inv_no_free : forall live s, free s = [] -> (0 < psz s)%N -> (2 <= np s)%N ->
  (forall x, In x live -> (x < np s)%N) -> fresh_inv live s.
Proof.
  intros live s E Hp Hn Hl. constructor; rewrite ?E; [exact Hp | exact Hn | constructor | constructor | intros x [] |].
  intros x Hx. split; [auto | intros []].
Qed.

(* for a bucket whose root node is loaded, in the bucket vocabulary of EngineModifyFacts *)
Corollary spill_bucket_root_view : forall d keep live h b n l f s p s' s'' a2 d2,
  b_rootn b = Some n -> bucket_wf d b -> BucketView d h b l -> root_ready d keep n ->
  fresh_inv live s ->
  (forall x, In x keep -> In x live) -> (forall x, In x keep -> wr_get (wr s) x = None) ->
  spill_root f n s = Ok (p, s') ->
  exists alloc dead lv,
    frame live s s' alloc dead /\ In p alloc /\ ~ In p live /\ lv <= f /\
    (frame (alloc ++ live) s' s'' a2 d2 ->
     forall P F, lv + ndepth n + h <= F -> page_ents F (apply_wr (wr s'') P d) p = l).
Proof.
  intros d keep live h b n l f s p s' s'' a2 d2 Hb Hw Hv Hr Hfi Hk Hk0 Hsp.
  unfold bucket_wf in Hw. unfold BucketView in Hv. rewrite Hb in Hw, Hv.
  destruct (spill_root_view_committed d keep live h n l f s p s' s'' a2 d2 Hw Hv Hr Hfi Hk Hk0 Hsp)
    as (alloc & dead & lv & A1 & A2 & A3 & A4 & _ & A6 & _).
  exists alloc, dead, lv. repeat (split; [assumption|]). exact A6.
Qed.

(** * Examples *)

(* the example overlay of EngineModifyFacts ([ex_root]): root 10 over leaf 11 (on disk), leaf 12 (materialised, one
   entry deleted) and branch 13 (on disk, over leaves 14 and 15) *)
Definition ex_keep : list N := [11; 13; 14; 15]%N.

Ltac in_keep_tac Hx pv :=
  apply (subtree_pages_complete _ _ _ _ pv) in Hx; vm_compute in Hx; vm_compute; tauto.

Example ex_root_ready : spill_ready ex_disk ex_keep None None ex_root.
Proof.
  apply sr_branch.
  - discriminate.
  - intros k _. split; exact I.
  - cbn [map n_page ex_kid12]. nodup_tac.
  - intros kd [<-|[]]. exists EngineFacts.kD. split; [reflexivity|right; left; reflexivity].
  - intros b1 b2 e kd Hb Hf. cbn [chb ex_es fst] in Hb.
    destruct Hb as [Hb|[Hb|[Hb|[]]]]; inversion Hb; subst b1 b2 e; clear Hb; vm_compute in Hf; try discriminate.
    inversion Hf; subst kd. apply sr_leaf. discriminate.
  - intros e x He Hf Hx. cbn [ex_es In] in He. destruct He as [<-|[<-|[<-|[]]]]; cbn [snd] in Hf, Hx.
    + in_keep_tac Hx (ex_pv11 0).
    + vm_compute in Hf. discriminate.
    + in_keep_tac Hx ex_pv13.
Qed.

(* the bridge applied: [swf] for every fuel >= 3, and the functional view is the relational one *)
Example ex_root_swf : forall fuel, 3 <= fuel -> swf fuel ex_disk ex_keep None None ex_root.
Proof. intros fuel H. exact (wf_node_swf_root _ _ _ _ _ fuel ex_root_wf ex_root_view ex_root_ready H). Qed.

Example ex_root_leaves : forall fuel, 3 <= fuel -> view_leaves fuel ex_disk ex_root = ex_view.
Proof. intros fuel H. exact (NodeView_view_leaves _ _ _ _ ex_root_view fuel H). Qed.

Example ex_page13_ents : forall F, 2 <= F -> page_ents F ex_disk 13%N = [LBk kG 7 0].
Proof. intros F H. exact (PageView_page_ents _ _ _ _ ex_pv13 F H). Qed.

Example ex_page13_stable : forall fuel, 2 <= fuel -> stable fuel ex_disk ex_keep 13%N.
Proof.
  intros fuel H. apply (PageView_stable _ _ _ _ _ ex_pv13); [|exact H].
  intros x Hx. in_keep_tac Hx ex_pv13.
Qed.

(* [spill_root_view_now] applied: spilling this root in a transaction that may hand out pages from 20 on *)
Definition ex_live2 : list N := [10; 11; 12; 13; 14; 15]%N.
Example ex_st_fresh : fresh_inv ex_live2 ex_st.
Proof. apply fresh_inv_no_free; cbn; [reflexivity | lia | lia | intros x Hx; lia]. Qed.

Example ex_spill_root_view :
  match spill_root 3 ex_root ex_st with
  | Ok (p, s') => forall F, 8 <= F -> page_ents F (apply_wr (wr s') 4096 ex_disk) p = ex_view
  | _ => False end.
Proof.
  destruct (spill_root 3 ex_root ex_st) as [[p s']| |] eqn:E; try (vm_compute in E; discriminate).
  intros F HF. apply (spill_root_view_now ex_disk ex_keep ex_live2 3 ex_root ex_view 3 ex_st p s'
              ex_root_wf ex_root_view (or_intror ex_root_ready) ex_st_fresh); [| |exact E|exact HF].
  - intros x Hx. vm_compute in Hx. vm_compute. tauto.
  - reflexivity.
Qed.

(* a materialised BRANCH kid, and why [spill_ready] asks for its separators to be in range.
   Root 10 = [b -> 11; d -> 12; h -> 13], pages 11 and 13 are leaves on disk, 12 is materialised as a branch
   with the single entry (k, 20) over leaf 20 = [d; e]. For EVERY k this overlay is [wf_node] and has the
   view [a; d; e; h]: [wf_node] never compares the separator of child 0 with anything. *)
Definition kb (c : byte) : bytes := [c].
Definition bd : disk :=
  [ (11%N, {| ap_over := 0; ap_body := Leaves [LKv (kb "a") [x01]] |});
    (20%N, {| ap_over := 0; ap_body := Leaves [LKv (kb "d") [x04]; LKv (kb "e") [x05]] |});
    (13%N, {| ap_over := 0; ap_body := Leaves [LKv (kb "h") [x08]] |}) ].
Definition mk_kid (k : bytes) : node := Node 12 1 (Some (kb "d")) 2 (Branches [(k, 20%N)]) [].
Definition b_es : list (bytes * N) := [(kb "b", 11%N); (kb "d", 12%N); (kb "h", 13%N)].
Definition mk_root (k : bytes) : node := Node 10 1 (Some (kb "b")) 1 (Branches b_es) [mk_kid k].
Definition b_view : list leafent :=
  [LKv (kb "a") [x01]; LKv (kb "d") [x04]; LKv (kb "e") [x05]; LKv (kb "h") [x08]].
Definition b_keep : list N := [11; 13; 20]%N.
Definition bst : txs :=
  {| free := []; pending := []; txid := 1; np := 30; psz := 4096; wr := []; flw := None; seqc := 3 |}.

Lemma b_pv11 : forall h, PageView bd (S h) 11 [LKv (kb "a") [x01]].
Proof. intros h. eapply PV_leaf; reflexivity. Qed.
Lemma b_pv13 : forall h, PageView bd (S h) 13 [LKv (kb "h") [x08]].
Proof. intros h. eapply PV_leaf; reflexivity. Qed.
Lemma b_pv20 : forall h, PageView bd (S h) 20 [LKv (kb "d") [x04]; LKv (kb "e") [x05]].
Proof. intros h. eapply PV_leaf; reflexivity. Qed.

Lemma b_kid_view : forall k, NodeView bd 2 (mk_kid k) [LKv (kb "d") [x04]; LKv (kb "e") [x05]].
Proof.
  intros k. change [LKv (kb "d") [x04]; LKv (kb "e") [x05]] with (concat [[LKv (kb "d") [x04]; LKv (kb "e") [x05]]]).
  apply NodeView_branch_intro. repeat constructor. unfold ChildView. cbn [snd find_kid find]. exact (b_pv20 0).
Qed.

Lemma b_kid_wf : forall k, wf_node bd (mk_kid k).
Proof.
  intros k. apply wf_node_branch_intro.
  - split; [discriminate|]. split; [reflexivity|]. cbn [map snd]. nodup_tac.
  - repeat constructor. unfold ChildWf. cbn [snd find_kid find]. eapply wfp_leaf; reflexivity.
  - intros j e l Hj _. destruct j as [|j]; [|destruct j; discriminate].
    split; intros Hrng; cbn [map length] in Hrng; lia.
Qed.

Lemma b_find11 : forall k, find_kid 11%N [mk_kid k] = None. Proof. reflexivity. Qed.
Lemma b_find12 : forall k, find_kid 12%N [mk_kid k] = Some (mk_kid k). Proof. reflexivity. Qed.
Lemma b_find13 : forall k, find_kid 13%N [mk_kid k] = None. Proof. reflexivity. Qed.

Lemma b_root_view : forall k, NodeView bd 3 (mk_root k) b_view.
Proof.
  intros k.
  change b_view with (concat [[LKv (kb "a") [x01]]; [LKv (kb "d") [x04]; LKv (kb "e") [x05]]; [LKv (kb "h") [x08]]]).
  apply NodeView_branch_intro.
  apply Forall2_cons; [|apply Forall2_cons; [|apply Forall2_cons; [|apply Forall2_nil]]];
    unfold ChildView; cbn [snd].
  - rewrite b_find11. exact (b_pv11 1).
  - rewrite b_find12. apply b_kid_view.
  - rewrite b_find13. exact (b_pv13 1).
Qed.

Lemma b_root_wf : forall k, wf_node bd (mk_root k).
Proof.
  intros k. apply wf_node_branch_intro; [seps_ok_tac | |].
  - apply Forall_cons; [|apply Forall_cons; [|apply Forall_cons; [|apply Forall_nil]]];
      unfold ChildWf; cbn [snd].
    + rewrite b_find11. eapply wfp_leaf; reflexivity.
    + rewrite b_find12. apply b_kid_wf.
    + rewrite b_find13. eapply wfp_leaf; reflexivity.
  - intros j e l Hj [h Hv]. unfold ChildView in Hv.
    destruct j as [|[|[|j]]]; cbn [nth_error b_es] in Hj; try (destruct j; discriminate);
      inversion Hj; subst e; cbn [snd] in Hv.
    + rewrite b_find11 in Hv. rewrite (PageView_det _ _ _ _ Hv _ _ (b_pv11 0)). in_range_tac.
    + rewrite b_find12 in Hv. rewrite (NodeView_det _ _ _ _ Hv _ _ (b_kid_view k)). in_range_tac.
    + rewrite b_find13 in Hv. rewrite (PageView_det _ _ _ _ Hv _ _ (b_pv13 0)). in_range_tac.
Qed.

(* every clause of [spill_ready] but the separator range holds for every k: the kid is ready exactly when
   its separator is in the range it is given, the root exactly when k is in [d, h) *)
Lemma b_kid_ready : forall k lo hi, spill_ready bd b_keep lo hi (mk_kid k) <-> s_in_range lo hi k.
Proof.
  intros k lo hi. split.
  - intros H. inversion H as [|? ? ? ? ? ? ? ? Hne Hs Hnd Ho Hkids Hkp]; subst. apply Hs. left. reflexivity.
  - intros Hk. apply sr_branch.
    + discriminate.
    + intros k' [<-|[]]. exact Hk.
    + constructor.
    + intros kd [].
    + intros b1 b2 e kd _ Hf. destruct (find_kid_In _ _ _ Hf) as [[] _].
    + intros e x [<-|[]] _ Hx. cbn [snd] in Hx. in_keep_tac Hx (b_pv20 0).
Qed.

Lemma b_root_ready : forall k,
  spill_ready bd b_keep None None (mk_root k) <-> s_in_range (Some (kb "d")) (Some (kb "h")) k.
Proof.
  intros k. split.
  - intros H. inversion H as [|? ? ? ? ? ? ? ? Hne Hs Hnd Ho Hkids Hkp]; subst.
    apply b_kid_ready. apply (Hkids _ _ (kb "d", 12%N) (mk_kid k)); [|apply b_find12].
    cbn [chb b_es fst]. right. left. reflexivity.
  - intros Hk. apply sr_branch.
    + discriminate.
    + intros k' _. split; exact I.
    + cbn [map n_page mk_kid]. nodup_tac.
    + intros kd [<-|[]]. exists (kb "d"). split; [reflexivity|right; left; reflexivity].
    + intros b1 b2 e kd Hb Hf. cbn [chb b_es fst] in Hb.
      destruct Hb as [Hb|[Hb|[Hb|[]]]]; inversion Hb; subst b1 b2 e; clear Hb; cbn [snd] in Hf.
      * rewrite b_find11 in Hf. discriminate.
      * rewrite b_find12 in Hf. inversion Hf; subst kd. apply b_kid_ready, Hk.
      * rewrite b_find13 in Hf. discriminate.
    + intros e x He Hf Hx. cbn [b_es In] in He. destruct He as [<-|[<-|[<-|[]]]]; cbn [snd] in Hf, Hx.
      * in_keep_tac Hx (b_pv11 0).
      * rewrite b_find12 in Hf. discriminate.
      * in_keep_tac Hx (b_pv13 0).
Qed.

(* k = "d": ready; the bridge gives [swf] with the non-trivial range [d, h) for the kid *)
Example b_good_ready : spill_ready bd b_keep None None (mk_root (kb "d")).
Proof. apply b_root_ready. split; vm_compute; [discriminate|reflexivity]. Qed.

Example b_good_swf : forall fuel, 3 <= fuel -> swf fuel bd b_keep None None (mk_root (kb "d")).
Proof.
  intros fuel H. exact (wf_node_swf_root _ _ _ _ _ fuel (b_root_wf _) (b_root_view _) b_good_ready H).
Qed.

Definition b_live : list N := [10; 11; 12; 13; 20]%N.
Example bst_fresh : fresh_inv b_live bst.
Proof. apply fresh_inv_no_free; cbn; [reflexivity | lia | lia | intros x Hx; lia]. Qed.

Example b_good_spill :
  match spill_root 3 (mk_root (kb "d")) bst with
  | Ok (p, s') =>
      (forall F, 8 <= F -> page_ents F (apply_wr (wr s') 4096 bd) p = b_view) /\
      lookup_page 3 (apply_wr (wr s') 4096 bd) p (kb "d") = Ok (Some (LKv (kb "d") [x04])) /\
      lookup_page 3 (apply_wr (wr s') 4096 bd) p (kb "h") = Ok (Some (LKv (kb "h") [x08]))
  | _ => False end.
Proof.
  destruct (spill_root 3 (mk_root (kb "d")) bst) as [[p s']| |] eqn:E; try (vm_compute in E; discriminate).
  split.
  - intros F HF. apply (spill_root_view_now bd b_keep b_live 3 _ b_view 3 bst p s'
                (b_root_wf _) (b_root_view _) (or_intror b_good_ready) bst_fresh); [| |exact E|exact HF].
    + intros x Hx. vm_compute in Hx. vm_compute. tauto.
    + reflexivity.
  - vm_compute in E. inversion E; subst p s'. split; vm_compute; reflexivity.
Qed.

(* k = "z", outside [d, h): still [wf_node] with the same view ([b_root_wf], [b_root_view]), every other clause
   of [spill_ready] holds ([b_kid_ready] at range (None, None)), but [swf] fails for every fuel -- and for a
   reason: [spill_root] succeeds and the new root still LISTS the view, but the kid's first separator "z"
   replaces the entry "d" of the root, whose separators are then [b; z; h]: the keys "d" and "h", which the
   transaction could look up, cannot be found in the committed tree. *)
Theorem seps_range_needed :
  let n := mk_root (kb "z") in
  wf_node bd n /\ NodeView bd 3 n b_view /\ spill_ready bd b_keep None None (mk_kid (kb "z")) /\
  ~ spill_ready bd b_keep None None n /\ (forall fuel, ~ swf fuel bd b_keep None None n) /\
  lookup_node 3 bd n (kb "d") = Ok (Some (LKv (kb "d") [x04])) /\
  match spill_root 3 n bst with
  | Ok (p, s') =>
      let d' := apply_wr (wr s') 4096 bd in
      page_ents 3 d' p = b_view /\
      option_map (fun a => dkeys (ap_body a)) (dget d' p) = Some [kb "b"; kb "z"; kb "h"] /\
      lookup_page 3 d' p (kb "d") = Ok None /\ lookup_page 3 d' p (kb "h") = Ok None
  | _ => False end.
Proof.
  cbv zeta. split; [apply b_root_wf|]. split; [apply b_root_view|].
  split; [apply b_kid_ready; split; exact I|].
  assert (Hz : ~ s_in_range (Some (kb "d")) (Some (kb "h")) (kb "z")) by (intros [_ H]; vm_compute in H; discriminate).
  split; [intros H; apply Hz, b_root_ready, H|].
  split.
  - intros fuel H. inversion H as [|? ? ? ? ? ? ? ? Hko Hnd1 Hnd2 Ho Hkids Hst]; subst.
    specialize (Hkids (Some (kb "d")) (Some (kb "h")) (kb "d", 12%N) (mk_kid (kb "z"))).
    assert (Hs : swf fuel bd b_keep (Some (kb "d")) (Some (kb "h")) (mk_kid (kb "z"))).
    { apply Hkids; [|reflexivity]. cbn [chb b_es fst]. right. left. reflexivity. }
    inversion Hs as [|? ? ? ? ? ? ? ? Hko' Hnd1' Hnd2' Ho' Hkids' Hst']; subst. destruct Hko' as (_ & _ & Hr). apply Hz, Hr. left. reflexivity.
  - vm_compute. repeat split.
Qed.

Print Assumptions PageView_page_ents.
Print Assumptions page_ents_PageView.
Print Assumptions PageView_iff.
Print Assumptions wf_page_views.
Print Assumptions wf_page_page_ents.
Print Assumptions NodeView_view_leaves.
Print Assumptions subtree_pages_sound.
Print Assumptions subtree_pages_complete.
Print Assumptions PageView_stable.
Print Assumptions wf_page_stable.
Print Assumptions wf_node_swf.
Print Assumptions wf_node_swf_root.
Print Assumptions spill_root_view.
Print Assumptions spill_root_view_committed.
Print Assumptions spill_bucket_root_view.
Print Assumptions ex_root_swf.
Print Assumptions ex_spill_root_view.
Print Assumptions b_good_spill.
Print Assumptions seps_range_needed.
