(* The lock protocol of model/Conc.v for any number of threads and any schedule, by invariants of
   [reachable]: writers exclude each other, a writer commits on the header it read, every active reader's
   snapshot is intact under the repaired begin (refuted, by a computed schedule, for the legacy one), and some
   thread can always move.  The invariants on the three lock words are the generic ones of LockFacts, through
   [step_lock_moves]; the others go by cases on the pc of the moving thread, on what [step_spec] says of the
   successor state. *)
From Coq Require Import List NArith Bool Arith Lia.
From Jamm Require Import Conc LockFacts.
Import ListNotations.
Local Open Scope list_scope.
Local Open Scope nat_scope.

Lemma fold_min_le d l : fold_left Nat.min l d <= d.
Proof.
  revert d; induction l as [|x l IH]; intros d; simpl; auto.
  etransitivity; [apply IH|]. apply Nat.le_min_l.
Qed.

Lemma minl_le_d d l : minl d l <= d.
Proof. apply fold_min_le. Qed.

Lemma minl_le_In d l x : In x l -> minl d l <= x.
Proof.
  unfold minl. revert d; induction l as [|y l IH]; intros d; simpl; [tauto|].
  intros [->|H].
  - etransitivity; [apply fold_min_le|]. apply Nat.le_min_r.
  - apply IH; exact H.
Qed.

(* thread j of the successor state: either the moved thread or an untouched one *)
Ltac split_thread Hj Hne :=
  apply nth_set_inv in Hj; destruct Hj as [[-> ->] | [Hne Hj]]; simpl in *.

Lemma reachable_run ab s0 sched : forall s, reachable ab s0 s -> reachable ab s0 (run ab s sched).
Proof.
  induction sched as [|i r IH]; intros s Hs; simpl; auto.
  destruct (step ab s i) as [s'|] eqn:E; auto.
  apply IH. eapply reach_step; eauto.
Qed.

(* invariant principle; K is an invariant already established, which the step case may use *)
Lemma reachable_ind_inv (ab : bool) (K P : cstate -> Prop) s0 :
  (forall s, reachable ab s0 s -> K s) -> P s0 ->
  (forall s i s', K s -> P s -> step ab s i = Some s' -> P s') ->
  forall s, reachable ab s0 s -> P s.
Proof. intros HK H0 Hstep s Hr. induction Hr; eauto. Qed.

(* pcs at which a writer holds the mmap write lock, a reader the mmap read lock *)
Definition wr_pc (p : pc) : bool := match p with CGrow2 | CGrow3 => true | _ => false end.
Definition rd_pc (p : pc) : bool :=
  match p with RLocked | RFl | RHdr | RReg | RMid | REnd => true | _ => false end.

(* the moving thread after its step *)
Definition next (ab : bool) (s : cstate) (t : thread) : thread :=
  match t_pc t with
  | RStart => with_pc t RLocked
  | RLocked => with_pc t RFl
  | RFl => mkThread (if ab then RReg else RHdr) false false (cur s) 0
  | RHdr => with_pc t RReg
  | RReg => with_pc t RMid
  | RMid => with_pc t REnd
  | REnd => with_pc t RDone
  | WStart => with_pc t WLocked
  | WLocked => mkThread WFl true (t_grows t) 0 (rel s)
  | WFl => if ab then mkThread WReg true (t_grows t) (cur s) (Nat.max (t_wrel t) (minl (S (cur s)) (readers s)))
           else mkThread WHdr true (t_grows t) (cur s) (t_wrel t)
  | WHdr => mkThread WReg true (t_grows t) (t_hdr t) (Nat.max (t_wrel t) (minl (S (t_hdr t)) (readers s)))
  | WReg => with_pc t (if t_grows t then CGrow1 else CData)
  | CGrow1 => with_pc t CGrow2
  | CGrow2 => with_pc t CGrow3
  | CGrow3 => with_pc t CData
  | CData => with_pc t CHeaderNext
  | CHeaderNext => with_pc t CSyncNext
  | CSyncNext => with_pc t CPublishNext
  | CPublishNext => with_pc t CPublished
  | CPublished => with_pc t WDone
  | RDone | WDone => t
  end.

(* What a step of thread i does: the thread, not a finished one, becomes [next]; cur, rel and cl each change at one
   pc, readers at three; the three lock words move in the terms of LockFacts. *)
Lemma step_spec ab s i s' :
  step ab s i = Some s' ->
  exists t, nth_error (threads s) i = Some t /\ finished (t_pc t) = false /\
    threads s' = set_nth (threads s) i (next ab s t) /\
    cur s' = (match t_pc t with CHeaderNext => S (t_hdr t) | _ => cur s end) /\
    rel s' = (match t_pc t with CPublishNext => t_wrel t | _ => rel s end) /\
    cl s' = (match t_pc t with CData => Nat.max (cl s) (pred (t_wrel t)) | _ => cl s end) /\
    readers s' = (match t_pc t with
                  | RFl => if ab then cur s :: readers s else readers s
                  | RHdr => t_hdr t :: readers s
                  | REnd => remove1 (t_hdr t) (readers s)
                  | _ => readers s
                  end) /\
    lock_move (fun t => in_writer_section (t_pc t)) (fileM s) (fileM s') i t (next ab s t) /\
    lock_move (fun t => wr_pc (t_pc t)) (wr s) (wr s') i t (next ab s t) /\
    holders_move (fun t => rd_pc (t_pc t)) (rd s) (rd s') i t (next ab s t).
Proof.
  intros H. unfold step in H.
  destruct (nth_error (threads s) i) as [t|] eqn:Hi; [|discriminate H].
  exists t. split; [reflexivity|]. unfold next, lock_move, holders_move.
  destruct (t_pc t); cbv iota beta zeta in H;
    repeat match type of H with context [match ?x with _ => _ end] => destruct x eqn:?; cbv iota in H end;
    try discriminate H; injection H as <-; cbn; repeat split; auto 6.
Qed.

(* the lock part alone *)
Corollary step_lock_moves ab s i s' :
  step ab s i = Some s' ->
  exists t t', nth_error (threads s) i = Some t /\ threads s' = set_nth (threads s) i t' /\
    lock_move (fun t => in_writer_section (t_pc t)) (fileM s) (fileM s') i t t' /\
    lock_move (fun t => wr_pc (t_pc t)) (wr s) (wr s') i t t' /\
    holders_move (fun t => rd_pc (t_pc t)) (rd s) (rd s') i t t'.
Proof.
  intros H. destruct (step_spec _ _ _ _ H) as (t & Hi & _ & Hth & _ & _ & _ & _ & Hm).
  exists t, (next ab s t). auto.
Qed.

(* the schedule that breaks the legacy begin: the reader reads header 3 and stops before registering; writer 1
   commits tx 4; writer 2, seeing no reader, releases everything below 5 and writes its data; then the reader
   registers snapshot 3, which is below cl = 4 *)
Definition ex_s0 : cstate := init 3 [reader0; writer0 false; writer0 false].
Definition ex_sched : list nat := [0;0;0] ++ repeat 1 12 ++ repeat 2 6 ++ [0;0].

Lemma ex_initial : initial_threads [reader0; writer0 false; writer0 false].
Proof. unfold initial_threads, reader0, writer0. repeat (apply Forall_cons || apply Forall_nil); simpl; auto. Qed.

Lemma snapshots_okb_spec s : snapshots_okb s = true <-> snapshots_ok s.
Proof.
  unfold snapshots_okb, snapshots_ok. rewrite forallb_forall. split.
  - intros H i t Hi Ha. apply nth_error_In in Hi. specialize (H _ Hi).
    rewrite Ha in H. simpl in H. apply Nat.leb_le. exact H.
  - intros H t Hin. apply In_nth_error in Hin. destruct Hin as [i Hi].
    destruct (reader_active (t_pc t)) eqn:Ha; simpl; auto.
    apply Nat.leb_le. eapply H; eauto.
Qed.

Lemma ex_legacy_bad : snapshots_okb (run false ex_s0 ex_sched) = false.
Proof. vm_compute. reflexivity. Qed.

Lemma ex_legacy_reachable : reachable false ex_s0 (run false ex_s0 ex_sched).
Proof. apply reachable_run. constructor. Qed.

Theorem C04_legacy_refuted :
  initial_threads [reader0; writer0 false; writer0 false] /\
  reachable false ex_s0 (run false ex_s0 ex_sched) /\
  snapshots_okb (run false ex_s0 ex_sched) = false /\
  ~ (forall s, reachable false ex_s0 s -> snapshots_ok s).
Proof.
  split; [exact ex_initial|]. split; [exact ex_legacy_reachable|]. split; [exact ex_legacy_bad|].
  intros H. specialize (H _ ex_legacy_reachable). apply snapshots_okb_spec in H.
  rewrite ex_legacy_bad in H. discriminate H.
Qed.

(* the statement of C04_snapshots (further down) with ab = false *)
Corollary C04_legacy_refuted' :
  ~ (forall c0 ts s, initial_threads ts -> reachable false (init c0 ts) s -> snapshots_ok s).
Proof.
  intros H. destruct C04_legacy_refuted as (Hi & Hr & Hb & _).
  specialize (H _ _ _ Hi Hr). apply snapshots_okb_spec in H. rewrite Hb in H. discriminate H.
Qed.

(* non-vacuity: the same schedule is harmless under the repaired begin, and complete runs exist *)

Example ex_repaired_ok : snapshots_okb (run true ex_s0 ex_sched) = true.
Proof. vm_compute. reflexivity. Qed.

Definition ex_sched_all : list nat := repeat 0 8 ++ repeat 1 12 ++ repeat 2 12.

Example ex_all_done_true : all_done (run true ex_s0 ex_sched_all) = true.
Proof. vm_compute. reflexivity. Qed.
Example ex_all_done_false : all_done (run false ex_s0 ex_sched_all) = true.
Proof. vm_compute. reflexivity. Qed.
Example ex_all_done_reachable ab : reachable ab ex_s0 (run ab ex_s0 ex_sched_all).
Proof. apply reachable_run. constructor. Qed.
(* an interleaved schedule (reader inside the first writer's commit), with a growing writer *)
Example ex_interleaved_done :
  let s0 := init 7 [writer0 true; reader0; writer0 false; reader0] in
  let sch := [0;1;0;2;1;0;3;0;1;1;0;1;3;3;1;1;3;0;0;3;3;0;0;3;3;0;0;0;0;0;0] ++ repeat 2 12 in
  all_done (run true s0 sch) = true /\ snapshots_okb (run true s0 sch) = true.
Proof. vm_compute. split; reflexivity. Qed.

(* [holder_locks] and [lock_held] of LockFacts for the word fileM and the places [in_writer_section], unfolded
   (their step lemmas below are the LockFacts ones, by conversion):
   a thread inside the writer section is the recorded holder of fileM ... *)
Definition inv_mutex (s : cstate) : Prop :=
  forall i t, nth_error (threads s) i = Some t -> in_writer_section (t_pc t) = true -> fileM s = Some i.
(* ... and the recorded holder is inside the writer section *)
Definition inv_holder (s : cstate) : Prop :=
  forall i, fileM s = Some i -> exists t, nth_error (threads s) i = Some t /\ in_writer_section (t_pc t) = true.

Lemma initial_not_in_section ts i t :
  initial_threads ts -> nth_error ts i = Some t -> t_pc t = WStart \/ t_pc t = RStart.
Proof.
  intros Hts Hi. apply nth_error_In in Hi. unfold initial_threads in Hts.
  rewrite Forall_forall in Hts. specialize (Hts _ Hi). intuition.
Qed.

Lemma inv_mutex_init c0 ts : initial_threads ts -> inv_mutex (init c0 ts).
Proof.
  intros Hts i t Hi Hw. simpl in Hi.
  destruct (initial_not_in_section _ _ _ Hts Hi) as [E|E]; rewrite E in Hw; discriminate.
Qed.

Lemma inv_holder_init c0 ts : inv_holder (init c0 ts).
Proof. intros i H. discriminate. Qed.

Lemma inv_mutex_step ab s i s' : inv_mutex s -> step ab s i = Some s' -> inv_mutex s'.
Proof.
  intros IM H. destruct (step_lock_moves _ _ _ _ H) as (t & t' & Hi & Hth & Hm & _).
  unfold inv_mutex. rewrite Hth. exact (holder_locks_step _ _ _ _ _ _ _ Hi Hm IM).
Qed.

Lemma inv_holder_step ab s i s' : inv_holder s -> step ab s i = Some s' -> inv_holder s'.
Proof.
  intros IH H. destruct (step_lock_moves _ _ _ _ H) as (t & t' & Hi & Hth & Hm & _).
  unfold inv_holder. rewrite Hth. exact (lock_held_step _ _ _ _ _ _ _ Hi Hm IH).
Qed.

Theorem C09_mutex_inv ab c0 ts s :
  initial_threads ts -> reachable ab (init c0 ts) s -> inv_mutex s /\ inv_holder s.
Proof.
  intros Hts. apply (reachable_ind_inv ab (fun _ => True) (fun s => inv_mutex s /\ inv_holder s)); [auto| |].
  - split; [apply inv_mutex_init; exact Hts | apply inv_holder_init].
  - intros s1 i s1' _ [IM IH] Hst. split; [eapply inv_mutex_step | eapply inv_holder_step]; eauto.
Qed.

Lemma inv_mutex_ok s : inv_mutex s -> mutex_ok s.
Proof.
  intros IM i j ti tj Hi Hj Hwi Hwj.
  pose proof (IM _ _ Hi Hwi). pose proof (IM _ _ Hj Hwj). congruence.
Qed.

Theorem C09_mutex : forall ab c0 ts s,
  initial_threads ts -> reachable ab (init c0 ts) s -> mutex_ok s.
Proof. intros ab c0 ts s Hts Hr. apply inv_mutex_ok. eapply C09_mutex_inv; eauto. Qed.

(* i holds fileM iff thread i is in the writer section *)
Theorem C09_mutex_holder : forall ab c0 ts s i,
  initial_threads ts -> reachable ab (init c0 ts) s ->
  (fileM s = Some i <-> exists t, nth_error (threads s) i = Some t /\ in_writer_section (t_pc t) = true).
Proof.
  intros ab c0 ts s i Hts Hr. destruct (C09_mutex_inv _ _ _ _ Hts Hr) as [IM IH]. split.
  - apply IH.
  - intros (t & Hi & Hw). eapply IM; eauto.
Qed.

(* pcs between a writer's header read and its own header write *)
Definition holds_hdr (p : pc) : bool :=
  match p with WHdr | WReg | CGrow1 | CGrow2 | CGrow3 | CData | CHeaderNext => true | _ => false end.

Definition inv_fresh (s : cstate) : Prop :=
  forall i t, nth_error (threads s) i = Some t -> holds_hdr (t_pc t) = true -> t_hdr t = cur s.

Lemma holds_hdr_section p : holds_hdr p = true -> in_writer_section p = true.
Proof. destruct p; simpl; congruence. Qed.

Lemma inv_fresh_init c0 ts : initial_threads ts -> inv_fresh (init c0 ts).
Proof.
  intros Hts i t Hi Hw. simpl in Hi.
  destruct (initial_not_in_section _ _ _ Hts Hi) as [E|E]; rewrite E in Hw; discriminate.
Qed.

Lemma inv_fresh_step ab s i s' : inv_mutex s -> inv_fresh s -> step ab s i = Some s' -> inv_fresh s'.
Proof.
  intros IM IH H j tj Hj Hh. destruct (step_spec _ _ _ _ H) as (t & Hi & Hlive & Hth & Ecur & _).
  rewrite Hth in Hj. rewrite Ecur. split_thread Hj Hne.
  - (* the moving thread: it reads cur s at WFl, keeps its header up to CHeaderNext, and then no longer holds one *)
    pose proof (IH _ _ Hi) as Hf. unfold next in *.
    destruct (t_pc t) eqn:Hpc; try destruct ab; simpl in *; try discriminate; auto.
  - (* another thread that holds a header: it has fileM, so the moving thread is not the one writing the header *)
    destruct (t_pc t) eqn:Hpc; try exact (IH _ _ Hj Hh). exfalso.
    pose proof (IM _ _ Hj (holds_hdr_section _ Hh)).
    assert (fileM s = Some i) by (apply (IM _ _ Hi); rewrite Hpc; reflexivity).
    congruence.
Qed.

Theorem C09_fresh_writer_inv ab c0 ts s :
  initial_threads ts -> reachable ab (init c0 ts) s -> inv_fresh s.
Proof.
  intros Hts. apply (reachable_ind_inv ab inv_mutex).
  - intros s1 Hr. exact (proj1 (C09_mutex_inv ab c0 ts s1 Hts Hr)).
  - apply inv_fresh_init; exact Hts.
  - intros s1 i s1'. apply inv_fresh_step.
Qed.

(* every thread between its header read and its header write still sees the current header *)
Theorem C09_fresh_writer : forall ab c0 ts s i t,
  initial_threads ts -> reachable ab (init c0 ts) s ->
  nth_error (threads s) i = Some t ->
  In (t_pc t) [WHdr; WReg; CGrow1; CGrow2; CGrow3; CData; CHeaderNext] ->
  t_hdr t = cur s.
Proof.
  intros ab c0 ts s i t Hts Hr Hi Hin. eapply C09_fresh_writer_inv; eauto.
  simpl in Hin. repeat (destruct Hin as [<-|Hin]; [reflexivity|]). tauto.
Qed.

Lemma step_cur_cases ab s i s' :
  inv_fresh s -> step ab s i = Some s' -> cur s' = cur s \/ cur s' = S (cur s).
Proof.
  intros IF H. destruct (step_spec _ _ _ _ H) as (t & Hi & _ & _ & -> & _).
  destruct (t_pc t) eqn:Hpc; auto.
  right. f_equal. apply (IF _ _ Hi). rewrite Hpc. reflexivity.
Qed.

(* no lost update: every step leaves cur alone or increments it by exactly one *)
Theorem C09_commit_increments : forall ab c0 ts s i s',
  initial_threads ts -> reachable ab (init c0 ts) s -> step ab s i = Some s' ->
  cur s' = cur s \/ cur s' = S (cur s).
Proof. intros. eapply step_cur_cases; eauto. eapply C09_fresh_writer_inv; eauto. Qed.

(* ... and the only step that changes cur is a header write, by a thread that read cur s *)
Theorem C09_commit_header : forall ab c0 ts s i s' t,
  initial_threads ts -> reachable ab (init c0 ts) s -> step ab s i = Some s' ->
  nth_error (threads s) i = Some t ->
  (t_pc t = CHeaderNext -> t_hdr t = cur s /\ cur s' = S (cur s)) /\
  (t_pc t <> CHeaderNext -> cur s' = cur s).
Proof.
  intros ab c0 ts s i s' t Hts Hr H Ht.
  pose proof (C09_fresh_writer_inv _ _ _ _ Hts Hr) as IF.
  destruct (step_spec _ _ _ _ H) as (t0 & Hi & _ & _ & -> & _). rewrite Ht in Hi. injection Hi as <-.
  split; intros E.
  - rewrite E. split; [|f_equal]; apply (IF _ _ Ht); rewrite E; reflexivity.
  - destruct (t_pc t); congruence.
Qed.

Theorem C04_fresh_register : forall s i s' t,
  step true s i = Some s' -> nth_error (threads s) i = Some t -> t_pc t = RFl ->
  exists t', nth_error (threads s') i = Some t' /\ t_hdr t' = cur s /\ t_pc t' = RReg /\
             readers s' = cur s :: readers s /\ cur s' = cur s.
Proof.
  intros s i s' t H Ht Hp. unfold step in H. rewrite Ht, Hp in H. injection H as <-. simpl.
  eexists. split; [eapply nth_set_same; eauto|]. simpl. auto.
Qed.

Theorem C04_cur_monotone_step : forall ab c0 ts s i s',
  initial_threads ts -> reachable ab (init c0 ts) s -> step ab s i = Some s' -> cur s <= cur s'.
Proof. intros. destruct (C09_commit_increments _ _ _ _ _ _ H H0 H1); lia. Qed.

Inductive reach_from (ab : bool) (s : cstate) : cstate -> Prop :=
| rf_refl : reach_from ab s s
| rf_step s1 i s2 : reach_from ab s s1 -> step ab s1 i = Some s2 -> reach_from ab s s2.

Lemma reachable_trans ab s0 s s' : reachable ab s0 s -> reach_from ab s s' -> reachable ab s0 s'.
Proof. intros Hr Hf. induction Hf; auto. eapply reach_step; eauto. Qed.

(* cur never decreases between a reachable state and any later state *)
Theorem C04_cur_monotone : forall ab c0 ts s s',
  initial_threads ts -> reachable ab (init c0 ts) s -> reach_from ab s s' -> cur s <= cur s'.
Proof.
  intros ab c0 ts s s' Hts Hr Hf. induction Hf; auto.
  etransitivity; [apply IHHf; exact Hr|].
  eapply C04_cur_monotone_step; eauto. eapply reachable_trans; eauto.
Qed.

(* the snapshot a reader registers is at least as new as the header current in any earlier state *)
Theorem C04_fresh : forall c0 ts s_before s i s' t,
  initial_threads ts -> reachable true (init c0 ts) s_before -> reach_from true s_before s ->
  step true s i = Some s' -> nth_error (threads s) i = Some t -> t_pc t = RFl ->
  exists t', nth_error (threads s') i = Some t' /\ t_hdr t' = cur s /\ cur s_before <= t_hdr t'.
Proof.
  intros c0 ts sb s i s' t Hts Hr Hf H Ht Hp.
  destruct (C04_fresh_register _ _ _ _ H Ht Hp) as (t' & Ht' & Hh & _).
  exists t'. repeat split; auto. rewrite Hh. eapply C04_cur_monotone; eauto.
Qed.

(* contribution of thread t to the number of active readers of snapshot r *)
Definition act (r : nat) (t : thread) : nat :=
  if reader_active (t_pc t) then (if t_hdr t =? r then 1 else 0) else 0.
Fixpoint cnt (r : nat) (ts : list thread) : nat :=
  match ts with [] => 0 | t :: ts' => act r t + cnt r ts' end.

Lemma cnt_set_nth r l i t x :
  nth_error l i = Some t -> cnt r (set_nth l i x) + act r t = cnt r l + act r x.
Proof.
  revert i; induction l as [|y l IH]; intros [|i] H; simpl in *; try discriminate.
  - injection H as ->. lia.
  - specialize (IH _ H). lia.
Qed.

Lemma cnt_pos r l i t : nth_error l i = Some t -> act r t = 1 -> 1 <= cnt r l.
Proof.
  revert i; induction l as [|y l IH]; intros [|i] H Ha; simpl in *; try discriminate.
  - injection H as ->. lia.
  - specialize (IH _ H Ha). lia.
Qed.

Lemma count_remove1_eq x l :
  count_occ Nat.eq_dec (remove1 x l) x = pred (count_occ Nat.eq_dec l x).
Proof.
  induction l as [|y l IH]; simpl; auto.
  destruct (Nat.eqb_spec x y) as [->|Hne].
  - destruct (Nat.eq_dec y y); [reflexivity|congruence].
  - simpl. destruct (Nat.eq_dec y x); [congruence|exact IH].
Qed.

Lemma count_remove1_neq x r l : r <> x ->
  count_occ Nat.eq_dec (remove1 x l) r = count_occ Nat.eq_dec l r.
Proof.
  intros Hne. induction l as [|y l IH]; simpl; auto.
  destruct (Nat.eqb_spec x y) as [->|Hxy].
  - destruct (Nat.eq_dec y r); [congruence|reflexivity].
  - simpl. destruct (Nat.eq_dec y r); congruence.
Qed.

(* pcs at which t_wrel is the writer's applied release bound *)
Definition has_wrel (p : pc) : bool :=
  match p with
  | WFl | WReg | CGrow1 | CGrow2 | CGrow3 | CData | CHeaderNext | CSyncNext | CPublishNext => true
  | _ => false
  end.

(* x is a safe release bound (pending[u] is released for u < x): nothing at or above the oldest live snapshot /
   the current header is released.  [S r], not [r]: pending[r] holds what transaction r itself freed, which is no
   part of snapshot r; likewise the next writer, of id S (cur s), may release pending[cur s]. *)
Definition bound (s : cstate) (x : nat) : Prop :=
  x <= S (cur s) /\ forall r, In r (readers s) -> x <= S r.

(* The snapshot invariant.  cl: snapshots below it may have been overwritten; rel: the published release bound;
   t_wrel: the bound a writer applied to its private free list (model/Conc.v).
   si_nohdr: RHdr / WHdr are the pcs between the header read and the registration / release of the legacy
   two-step begin; under the repaired begin no thread is ever there, and a step from there (acting on a header read
   earlier) would not keep si_cl_rd and si_wrel. *)
Record SInv (s : cstate) : Prop := {
  si_cl_cur : cl s <= cur s;
  si_cl_rd  : forall r, In r (readers s) -> cl s <= r;
  si_rel    : bound s (rel s);
  si_wrel   : forall i t, nth_error (threads s) i = Some t -> has_wrel (t_pc t) = true -> bound s (t_wrel t);
  si_nohdr  : forall i t, nth_error (threads s) i = Some t -> t_pc t <> RHdr /\ t_pc t <> WHdr;
  si_count  : forall r, count_occ Nat.eq_dec (readers s) r = cnt r (threads s)
}.

Lemma cnt_initial r ts : initial_threads ts -> cnt r ts = 0.
Proof.
  unfold initial_threads. induction 1 as [|t ts Ht _ IH]; simpl; auto.
  rewrite IH. unfold act. destruct Ht as [[_ E]|[_ [E _]]]; rewrite E; reflexivity.
Qed.

Lemma SInv_init c0 ts : initial_threads ts -> SInv (init c0 ts).
Proof.
  intros Hts. constructor; simpl.
  - lia.
  - tauto.
  - split; simpl; [lia|tauto].
  - intros i t Hi Hw. destruct (initial_not_in_section _ _ _ Hts Hi) as [E|E]; rewrite E in Hw; discriminate.
  - intros i t Hi. destruct (initial_not_in_section _ _ _ Hts Hi) as [E|E]; rewrite E; split; discriminate.
  - intros r. rewrite cnt_initial by exact Hts. reflexivity.
Qed.

Lemma bound_mono s s' x :
  cur s <= cur s' -> (forall r, In r (readers s') -> In r (readers s) \/ r = cur s) ->
  bound s x -> bound s' x.
Proof.
  intros Hc Hr [B1 B2]. split; [lia|].
  intros r Hin. destruct (Hr _ Hin) as [H| ->]; [apply B2; exact H | exact B1].
Qed.

(* One goal per pc of the moving thread t, with what the invariants say of t: inv_fresh ([Hfresh]) and si_wrel
   ([Hwrel]) brought to their conclusions where they apply; si_nohdr closes the goals at RHdr / WHdr, and
   [finished (t_pc t) = false] in the context those at RDone / WDone. *)
Ltac pc_cases IF HS t Hi Hpc :=
  let Hf := fresh "Hfresh" in pose proof (IF _ _ Hi) as Hf;
  let Hw := fresh "Hwrel" in pose proof (si_wrel _ HS _ _ Hi) as Hw;
  let Hn := fresh "Hnohdr" in pose proof (si_nohdr _ HS _ _ Hi) as Hn;
  destruct (t_pc t) eqn:Hpc; simpl in *; try discriminate; try (destruct Hn; congruence);
  try specialize (Hf eq_refl); try specialize (Hw eq_refl).

(* readers only gains cur s, cur only grows *)
Lemma step_readers_cur s i s' :
  inv_fresh s -> SInv s -> step true s i = Some s' ->
  cur s <= cur s' /\ forall r, In r (readers s') -> In r (readers s) \/ r = cur s.
Proof.
  intros IF HS H. destruct (step_spec _ _ _ _ H) as (t & Hi & Hlive & _ & -> & _ & _ & -> & _).
  pc_cases IF HS t Hi Hpc; (split; [lia|]); intros r Hr;
    try apply In_remove1 in Hr; try destruct Hr as [<-|Hr]; auto.
Qed.

Lemma SInv_step s i s' :
  inv_mutex s -> inv_fresh s -> SInv s -> step true s i = Some s' -> SInv s'.
Proof.
  intros IM IF HS H.
  (* field by field.  In each, pc_cases leaves one goal per pc of the moving thread t, with what [step_spec] says of
     the field at that pc; the pcs that leave the field alone go by the old invariant, the others are the cases
     spelled out. *)
  destruct (step_readers_cur _ _ _ IF HS H) as [Hcur Hrd].
  pose proof (si_cl_cur _ HS) as Hclcur. pose proof (si_cl_rd _ HS) as Hclrd.
  pose proof (si_rel _ HS) as Hrel.
  assert (Hold : forall x, bound s x -> bound s' x) by (intros x; apply bound_mono; assumption).
  destruct (step_spec _ _ _ _ H) as (t & Hi & Hlive & Hth & Ecur & Erel & Ecl & Erd & _). clear H.
  constructor.
  - (* cl <= cur *)
    rewrite Ecl, Ecur. pc_cases IF HS t Hi Hpc; try lia.
    (* CData: cl becomes max cl (pred (t_wrel t)), here and in the next field *)
    destruct Hwrel as [B1 _]. lia.
  - (* cl <= every registered snapshot *)
    intros r Hr. rewrite Ecl. destruct (Hrd _ Hr) as [Hin| ->].
    + pc_cases IF HS t Hi Hpc; try (apply Hclrd; exact Hin).
      destruct Hwrel as [_ B2]. specialize (B2 _ Hin). specialize (Hclrd _ Hin). lia.
    + pc_cases IF HS t Hi Hpc; try lia.
      destruct Hwrel as [B1 _]. lia.
  - (* rel *)
    rewrite Erel. pc_cases IF HS t Hi Hpc; apply Hold; assumption.
  - (* t_wrel *)
    intros j tj Hj Hw. rewrite Hth in Hj. split_thread Hj Hne; [|apply Hold; eapply si_wrel; eauto].
    unfold next in *. pc_cases IF HS t Hi Hpc; try (apply Hold; assumption).
    (* WFl -> WReg: max (t_wrel t) (minl (S cur) readers) *)
    destruct Hwrel as [B1 B2]. unfold bound. rewrite Ecur, Erd. split.
    + pose proof (minl_le_d (S (cur s)) (readers s)). lia.
    + intros r Hr. specialize (B2 _ Hr). pose proof (minl_le_In (S (cur s)) _ _ Hr). lia.
  - (* RHdr / WHdr unreachable *)
    intros j tj Hj. rewrite Hth in Hj. split_thread Hj Hne; [|eapply si_nohdr; eauto].
    unfold next. pc_cases IF HS t Hi Hpc; try destruct (t_grows t); split; discriminate.
  - (* multiset of registered snapshots = multiset of active readers' snapshots *)
    intros r. pose proof (si_count _ HS r) as Hc. rewrite Hth, Erd.
    pose proof (cnt_set_nth r _ _ _ (next true s t) Hi) as Hs. unfold act in Hs. unfold next in *.
    pc_cases IF HS t Hi Hpc;
      try (match type of Hs with context [if t_grows ?t then _ else _] => destruct (t_grows t); simpl in Hs end);
      try lia.
    + (* RFl: register cur s *)
      destruct (Nat.eq_dec (cur s) r) as [E|E]; [apply Nat.eqb_eq in E | apply Nat.eqb_neq in E];
        rewrite E in Hs; lia.
    + (* REnd: deregister t_hdr t *)
      destruct (Nat.eqb_spec (t_hdr t) r) as [->|Hne].
      * rewrite count_remove1_eq. lia.
      * rewrite count_remove1_neq by congruence. lia.
Qed.

Theorem C04_snapshots_inv c0 ts s :
  initial_threads ts -> reachable true (init c0 ts) s -> SInv s.
Proof.
  intros Hts. apply (reachable_ind_inv true (fun s => inv_mutex s /\ inv_fresh s)).
  - intros s1 Hr. split; [exact (proj1 (C09_mutex_inv _ _ _ _ Hts Hr)) | exact (C09_fresh_writer_inv _ _ _ _ Hts Hr)].
  - apply SInv_init; exact Hts.
  - intros s1 i s1' [IM IF]. apply SInv_step; assumption.
Qed.

Lemma SInv_snapshots_ok s : SInv s -> snapshots_ok s.
Proof.
  intros HS i t Hi Ha. apply (si_cl_rd _ HS).
  assert (Hc : 1 <= cnt (t_hdr t) (threads s)).
  { eapply cnt_pos; eauto. unfold act. rewrite Ha, Nat.eqb_refl. reflexivity. }
  rewrite <- (si_count _ HS) in Hc.
  apply (count_occ_In Nat.eq_dec). lia.
Qed.

Theorem C04_snapshots : forall c0 ts s,
  initial_threads ts -> reachable true (init c0 ts) s -> snapshots_ok s.
Proof. intros c0 ts s Hts Hr. apply SInv_snapshots_ok. eapply C04_snapshots_inv; eauto. Qed.

(* deadlock freedom.  inv_wr, inv_rd: [lock_held] for the word wr / places wr_pc and [holders_held] for rd / rd_pc
   (LockFacts), unfolded *)

Definition inv_wr (s : cstate) : Prop :=
  forall j, wr s = Some j -> exists t, nth_error (threads s) j = Some t /\ wr_pc (t_pc t) = true.
Definition inv_rd (s : cstate) : Prop :=
  NoDup (rd s) /\ forall k, In k (rd s) -> exists t, nth_error (threads s) k = Some t /\ rd_pc (t_pc t) = true.

Lemma inv_wr_init c0 ts : inv_wr (init c0 ts).
Proof. intros j H. discriminate. Qed.
Lemma inv_rd_init c0 ts : inv_rd (init c0 ts).
Proof. split; simpl; [constructor|tauto]. Qed.

Lemma inv_wr_step ab s i s' : inv_wr s -> step ab s i = Some s' -> inv_wr s'.
Proof.
  intros IH H. destruct (step_lock_moves _ _ _ _ H) as (t & t' & Hi & Hth & _ & Hm & _).
  unfold inv_wr. rewrite Hth. exact (lock_held_step _ _ _ _ _ _ _ Hi Hm IH).
Qed.

Lemma inv_rd_step ab s i s' : inv_rd s -> step ab s i = Some s' -> inv_rd s'.
Proof.
  intros IH H. destruct (step_lock_moves _ _ _ _ H) as (t & t' & Hi & Hth & _ & _ & Hm).
  unfold inv_rd. rewrite Hth. exact (holders_held_step _ _ _ _ _ _ _ Hi Hm IH).
Qed.

Record PInv (s : cstate) : Prop := {
  pi_mutex : inv_mutex s; pi_holder : inv_holder s; pi_wr : inv_wr s; pi_rd : inv_rd s
}.

Theorem C09_progress_inv ab c0 ts s :
  initial_threads ts -> reachable ab (init c0 ts) s -> PInv s.
Proof.
  intros Hts Hr. destruct (C09_mutex_inv ab c0 ts s Hts Hr) as [IM IH].
  constructor; [exact IM | exact IH | |]; clear IM IH; revert s Hr.
  - apply (reachable_ind_inv ab (fun _ => True)); [auto | apply inv_wr_init|].
    intros s1 i s1' _. apply inv_wr_step.
  - apply (reachable_ind_inv ab (fun _ => True)); [auto | apply inv_rd_init|].
    intros s1 i s1' _. apply inv_rd_step.
Qed.

(* the guard of thread t's next step *)
Definition guard (s : cstate) (t : thread) : Prop :=
  match t_pc t with
  | RStart => wr s = None
  | WStart => fileM s = None
  | CGrow1 => rd s = [] /\ wr s = None
  | RDone | WDone => False
  | _ => True
  end.

Lemma enabled_of_guard ab s i t :
  nth_error (threads s) i = Some t -> guard s t -> exists s', step ab s i = Some s'.
Proof.
  intros Hi Hg. unfold step, guard in *. rewrite Hi.
  destruct (t_pc t); destruct ab; try contradiction; eauto.
  all: try (rewrite Hg; eauto; fail).
  all: destruct Hg as [Hg1 Hg2]; rewrite Hg1, Hg2; eauto.
Qed.

Lemma PInv_progress ab s : PInv s -> all_done s = false -> some_enabled ab s.
Proof.
  intros [IM IH IW [ND IR]] Hnd. unfold some_enabled.
  destruct (fileM s) as [h|] eqn:Hf.
  - (* the holder of fileM, or whoever blocks its mmap write lock, can move *)
    destruct (IH _ Hf) as (th & Hh & Hsec).
    destruct (wr s) as [j|] eqn:Hwr.
    { destruct (IW _ Hwr) as (tj & Hj & Hp). exists j. eapply enabled_of_guard; eauto.
      unfold guard. destruct (t_pc tj); try discriminate Hp; exact I. }
    destruct (rd s) as [|k rest] eqn:Hrd.
    { exists h. eapply enabled_of_guard; eauto. unfold guard.
      destruct (t_pc th); try discriminate Hsec; auto. }
    destruct (IR k) as (tk & Hk & Hp); [left; reflexivity|].
    exists k. eapply enabled_of_guard; eauto. unfold guard.
    destruct (t_pc tk); try discriminate Hp; exact I.
  - (* nobody holds fileM: any unfinished thread can move *)
    apply forallb_false_nth in Hnd. destruct Hnd as (k & t & Hk & Hfin).
    assert (Hnosec : in_writer_section (t_pc t) = false).
    { destruct (in_writer_section (t_pc t)) eqn:E; auto.
      pose proof (IM _ _ Hk E). congruence. }
    assert (Hwr : wr s = None).
    { destruct (wr s) as [j|] eqn:Hwr; auto.
      destruct (IW _ Hwr) as (tj & Hj & Hp).
      assert (fileM s = Some j) by (apply (IM _ _ Hj); destruct (t_pc tj); try discriminate Hp; reflexivity).
      congruence. }
    exists k. eapply enabled_of_guard; eauto. unfold guard.
    destruct (t_pc t); try discriminate Hnosec; try discriminate Hfin; auto.
Qed.

Theorem C09_progress : forall ab c0 ts s,
  initial_threads ts -> reachable ab (init c0 ts) s -> all_done s = false -> some_enabled ab s.
Proof. intros ab c0 ts s Hts Hr Hnd. eapply PInv_progress; eauto. eapply C09_progress_inv; eauto. Qed.

(* the lock-state characterisations used above, as stand-alone facts *)
Theorem C09_rwlock_state : forall ab c0 ts s,
  initial_threads ts -> reachable ab (init c0 ts) s ->
  (forall j, wr s = Some j -> exists t, nth_error (threads s) j = Some t /\ (t_pc t = CGrow2 \/ t_pc t = CGrow3)) /\
  NoDup (rd s) /\
  (forall k, In k (rd s) -> exists t, nth_error (threads s) k = Some t /\ rd_pc (t_pc t) = true).
Proof.
  intros ab c0 ts s Hts Hr. destruct (C09_progress_inv _ _ _ _ Hts Hr) as [_ _ IW [ND IR]].
  split; [|auto]. intros j Hj. destruct (IW j Hj) as (t & Ht & Hp). exists t. split; [exact Ht|].
  destruct (t_pc t); try discriminate Hp; auto.
Qed.

Print Assumptions C09_mutex.
Print Assumptions C09_mutex_holder.
Print Assumptions C04_snapshots.
Print Assumptions C04_fresh.
Print Assumptions C04_fresh_register.
Print Assumptions C04_cur_monotone.
Print Assumptions C09_fresh_writer.
Print Assumptions C09_commit_increments.
Print Assumptions C09_commit_header.
Print Assumptions C09_progress.
Print Assumptions C09_rwlock_state.
Print Assumptions C04_legacy_refuted.
Print Assumptions C04_legacy_refuted'.
Print Assumptions ex_repaired_ok.
Print Assumptions ex_all_done_true.
Print Assumptions ex_interleaved_done.
