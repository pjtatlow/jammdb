(* Whole runs of the page-lifecycle machine (model/PL.v), by induction along accept_all over the one-event
   facts of PLFacts.v: a reader's snapshot is not written for as long as it stays registered (C03), a run
   without commit changes nothing (C06), tx and np never decrease, np counts the pages (C05), and with no
   reader the file size stays within twice the live data plus scratch (the C10 plateau). *)
From Coq Require Import List NArith Bool Lia ZifyN ZifyBool Permutation.
From Jamm Require Import PL PLFacts.
Import ListNotations.
Local Open Scope list_scope. Local Open Scope N_scope.

Arguments N.add : simpl never. Arguments N.sub : simpl never. Arguments N.min : simpl never.
Arguments N.ltb : simpl never. Arguments N.leb : simpl never. Arguments N.eqb : simpl never.
Arguments N.max : simpl never. Arguments N.mul : simpl never.

Lemma accept_all_app es1 : forall s es2,
  accept_all s (es1 ++ es2) =
  match accept_all s es1 with Some s1 => accept_all s1 es2 | None => None end.
Proof.
  induction es1 as [|e es1 IH]; intros s es2; cbn [app accept_all]; [reflexivity|].
  destruct (accept s e) as [s1|]; [apply IH | reflexivity].
Qed.

Lemma accept_all_cons s e es s' :
  accept_all s (e :: es) = Some s' -> exists s1, accept s e = Some s1 /\ accept_all s1 es = Some s'.
Proof.
  cbn [accept_all]. destruct (accept s e) as [s1|]; [|discriminate]. intros H. exists s1. tauto.
Qed.

Definition writes_of (es : list event) : list N :=
  flat_map (fun e => match e with ECommit w _ _ _ _ _ => w | _ => [] end) es.

Definition ev_writes (e : event) : list N :=
  match e with ECommit w _ _ _ _ _ => w | _ => [] end.

Lemma writes_of_cons e es : writes_of (e :: es) = ev_writes e ++ writes_of es.
Proof. reflexivity. Qed.

(* the events that leave reader r registered: not its own end, and no reopen (which drops every reader);
   [keeps_reader r] is [Forall (keeps_ev r)] and [writes_of] is [flat_map ev_writes], written out *)
Definition keeps_ev (r : N) (e : event) : Prop :=
  match e with EEndR x => x <> r | EReopen _ => False | _ => True end.

Definition keeps_reader (r : N) (es : list event) : Prop :=
  Forall (fun e => match e with EEndR x => x <> r | EReopen _ => False | _ => True end) es.

Lemma remove_reader_keeps x rl : forall l l',
  remove_reader x l = Some l' -> fst rl <> x -> In rl l -> In rl l'.
Proof.
  induction l as [|a l IH]; intros l' H Hne Hin; cbn [remove_reader] in H; [discriminate|].
  destruct (fst a =? x) eqn:E.
  - inversion H; subst. destruct Hin as [Hin|Hin]; [|exact Hin].
    subst. apply N.eqb_eq in E. contradiction.
  - destruct (remove_reader x l) as [l''|] eqn:E'; [|discriminate]. inversion H; subst.
    destruct Hin as [Hin|Hin]; [left; exact Hin | right; exact (IH l'' eq_refl Hne Hin)].
Qed.

Lemma reader_step s e s1 r L :
  PLInv s -> In (r, L) (readers s) -> accept s e = Some s1 -> keeps_ev r e ->
  (forall x, In x (ev_writes e) -> ~ In x L) /\ In (r, L) (readers s1).
Proof.
  intros Hinv Hr Hacc Hk. destruct e; cbn [ev_writes keeps_ev] in *.
  - split; [intros x []|]. cbn [accept] in Hacc. inversion Hacc; subst. cbn [readers]. right. exact Hr.
  - split; [intros x []|]. cbn [accept] in Hacc.
    destruct (remove_reader snap (readers s)) as [rs|] eqn:E; [|discriminate].
    inversion Hacc; subst. cbn [readers].
    apply (remove_reader_keeps snap (r, L) _ _ E); [cbn [fst]; congruence | exact Hr].
  - split; [intros x []|]. apply accept_BeginW_same in Hacc. subst. exact Hr.
  - split.
    + intros x Hx.
      exact (snapshot_never_written _ _ _ _ _ _ _ _ Hinv Hacc r L Hr x Hx).
    + rewrite (readers_Commit _ _ _ _ _ _ _ _ Hacc). exact Hr.
  - split; [intros x []|]. inversion Hacc; subst. exact Hr.
  - destruct Hk.
Qed.

(* C03 along a run: as long as reader r stays registered, no commit writes a page of its snapshot L *)
Theorem reader_frozen : forall es s s' r L,
  PLInv s -> In (r, L) (readers s) -> accept_all s es = Some s' -> keeps_reader r es ->
  (forall x, In x (writes_of es) -> ~ In x L) /\ In (r, L) (readers s') /\ PLInv s'.
Proof.
  induction es as [|e es IH]; intros s s' r L Hinv Hr Hacc Hk.
  - cbn [accept_all] in Hacc. inversion Hacc; subst. split; [intros x []|]. split; assumption.
  - apply accept_all_cons in Hacc. destruct Hacc as [s1 [H1 H2]].
    inversion Hk as [|? ? Hke Hkes]; subst.
    destruct (reader_step s e s1 r L Hinv Hr H1 Hke) as [Hw Hr1].
    pose proof (accept_inv _ _ _ Hinv H1) as Hinv1.
    destruct (IH s1 s' r L Hinv1 Hr1 H2 Hkes) as [Hws [Hr' Hinv']].
    split; [|split; assumption].
    intros x Hx. rewrite writes_of_cons in Hx.
    apply in_app_or in Hx. destruct Hx as [Hx|Hx]; [exact (Hw x Hx) | exact (Hws x Hx)].
Qed.
Print Assumptions reader_frozen.

(* from the initial state: the reader registered by an EBeginR after the prefix es1 *)
Corollary reader_frozen_from_init es1 es2 s1 s' :
  accept_all init_pl es1 = Some s1 ->
  accept_all init_pl (es1 ++ EBeginR :: es2) = Some s' ->
  keeps_reader (tx s1) es2 ->
  (forall x, In x (writes_of es2) -> ~ In x (live s1)) /\
  In (tx s1, live s1) (readers s') /\ PLInv s'.
Proof.
  intros H1 H Hk. rewrite accept_all_app, H1 in H. cbn [accept_all accept] in H.
  pose proof (reachable_inv es1 s1 H1) as Hinv1.
  set (s2 := mkPl (live s1) (free s1) (pend s1) (np s1) (tx s1) ((tx s1, live s1) :: readers s1)) in *.
  assert (Hinv2 : PLInv s2) by (apply (accept_inv s1 EBeginR s2 Hinv1); reflexivity).
  apply (reader_frozen es2 s2 s' (tx s1) (live s1) Hinv2); [left; reflexivity | exact H | exact Hk].
Qed.

(* the same without naming the intermediate state in the hypotheses *)
Corollary reader_frozen_from_init' es1 es2 s' :
  accept_all init_pl (es1 ++ EBeginR :: es2) = Some s' ->
  exists s1, accept_all init_pl es1 = Some s1 /\ PLInv s1 /\
    (keeps_reader (tx s1) es2 ->
     (forall x, In x (writes_of es2) -> ~ In x (live s1)) /\
     In (tx s1, live s1) (readers s') /\ PLInv s').
Proof.
  intros H. pose proof H as H'. rewrite accept_all_app in H'.
  destruct (accept_all init_pl es1) as [s1|] eqn:H1; [|discriminate].
  exists s1. split; [reflexivity|]. split; [exact (reachable_inv es1 s1 H1)|].
  intros Hk. exact (reader_frozen_from_init es1 es2 s1 s' H1 H Hk).
Qed.
Print Assumptions reader_frozen_from_init.
Print Assumptions reader_frozen_from_init'.

(* C06 over several steps: abandoned work leaves no trace *)

Lemma pl_eta s : mkPl (live s) (free s) (pend s) (np s) (tx s) (readers s) = s.
Proof. destruct s. reflexivity. Qed.

Theorem begin_rollback_same s f p s' : accept_all s [EBeginW f p; ERollback] = Some s' -> s' = s.
Proof.
  intros H. apply accept_all_cons in H. destruct H as [s1 [H1 H2]].
  apply accept_BeginW_same in H1. subst s1. cbn in H2. inversion H2. reflexivity.
Qed.

Lemma accept_BeginR_EndR s : accept_all s [EBeginR; EEndR (tx s)] = Some s.
Proof.
  cbn [accept_all accept readers remove_reader fst tx live free pend np].
  rewrite N.eqb_refl. rewrite pl_eta. reflexivity.
Qed.

Theorem reader_begin_end_same s s' : accept_all s [EBeginR; EEndR (tx s)] = Some s' -> s' = s.
Proof. rewrite accept_BeginR_EndR. intros H. inversion H. reflexivity. Qed.

(* a reader that comes and goes while a write transaction is abandoned *)
Theorem begin_reader_rollback_same s f p s' :
  accept_all s [EBeginW f p; EBeginR; EEndR (tx s); ERollback] = Some s' -> s' = s.
Proof.
  intros H. apply accept_all_cons in H. destruct H as [s1 [H1 H2]].
  apply accept_BeginW_same in H1. subst s1.
  change [EBeginR; EEndR (tx s); ERollback] with ([EBeginR; EEndR (tx s)] ++ [ERollback]) in H2.
  rewrite accept_all_app, accept_BeginR_EndR in H2. cbn in H2. inversion H2. reflexivity.
Qed.

Theorem reader_around_rollback_same s f p s' :
  accept_all s [EBeginR; EBeginW f p; ERollback; EEndR (tx s)] = Some s' -> s' = s.
Proof.
  intros H. apply accept_all_cons in H. destruct H as [s1 [H1 H2]].
  cbn [accept] in H1. inversion H1; subst s1; clear H1.
  apply accept_all_cons in H2. destruct H2 as [s2 [H2 H3]].
  apply accept_BeginW_same in H2. subst s2.
  apply accept_all_cons in H3. destruct H3 as [s3 [H3 H4]]. cbn [accept] in H3. inversion H3; subst s3; clear H3.
  cbn [accept_all accept readers remove_reader fst tx live free pend np] in H4.
  rewrite N.eqb_refl in H4. rewrite pl_eta in H4. inversion H4. reflexivity.
Qed.

Theorem begin_rollback_reader_same s f p s' :
  accept_all s [EBeginW f p; ERollback; EBeginR; EEndR (tx s)] = Some s' -> s' = s.
Proof.
  intros H. change [EBeginW f p; ERollback; EBeginR; EEndR (tx s)]
    with ([EBeginW f p; ERollback] ++ [EBeginR; EEndR (tx s)]) in H.
  rewrite accept_all_app in H.
  destruct (accept_all s [EBeginW f p; ERollback]) as [s1|] eqn:E; [|discriminate].
  apply begin_rollback_same in E. subst s1. exact (reader_begin_end_same s s' H).
Qed.

(* in general: a run without ECommit / EReopen does not change the database part of the state *)
Definition same_db (s s' : pl) : Prop :=
  live s' = live s /\ free s' = free s /\ pend s' = pend s /\ np s' = np s /\ tx s' = tx s.

Definition no_commit (e : event) : Prop :=
  match e with ECommit _ _ _ _ _ _ => False | EReopen _ => False | _ => True end.

Lemma no_commit_step s e s' : no_commit e -> accept s e = Some s' -> same_db s s'.
Proof.
  unfold same_db. intros Hn H. destruct e; cbn [no_commit] in Hn; try contradiction.
  - cbn [accept] in H. inversion H; subst. cbn. repeat split.
  - cbn [accept] in H. destruct (remove_reader snap (readers s)); [|discriminate].
    inversion H; subst. cbn. repeat split.
  - apply accept_BeginW_same in H. subst. repeat split.
  - inversion H; subst. repeat split.
Qed.

Theorem no_commit_same_db : forall es s s',
  Forall no_commit es -> accept_all s es = Some s' -> same_db s s'.
Proof.
  intros es s s' Hn H.
  apply (accept_all_ind (fun _ es => Forall no_commit es) same_db) with (es := es); auto.
  - repeat split.
  - unfold same_db. intuition congruence.
  - intros s0 e es0 s1 Hn0 Ha. inversion Hn0; subst. split; [assumption | eapply no_commit_step; eassumption].
Qed.
Print Assumptions begin_rollback_same.
Print Assumptions reader_begin_end_same.
Print Assumptions begin_reader_rollback_same.
Print Assumptions reader_around_rollback_same.
Print Assumptions begin_rollback_reader_same.
Print Assumptions no_commit_same_db.

Theorem commit_tx_np s w nf npd l' np' tx' s' :
  accept s (ECommit w nf npd l' np' tx') = Some s' ->
  tx s' = tx s + 1 /\ tx s' = tx' /\ np s <= np s' /\ np s' = np'.
Proof.
  intros H. apply accept_commit_facts in H. destruct H as (t & f1 & p1 & Hwv & Hc & ->).
  apply writer_view_eq in Hwv. destruct Hwv as [Ht _]. cbn [tx np].
  pose proof (cf_np Hc). pose proof (cf_tx Hc).
  repeat split; lia.
Qed.

Theorem accept_mono s e s' : accept s e = Some s' -> tx s <= tx s' /\ np s <= np s'.
Proof.
  intros H.
  assert (Hnc : no_commit e -> tx s <= tx s' /\ np s <= np s').
  { intros Hn. destruct (no_commit_step s e s' Hn H) as (_ & _ & _ & A & B). lia. }
  destruct e; try exact (Hnc I).
  - apply commit_tx_np in H. lia.
  - apply accept_reopen_inv in H. destruct H as [_ [_ ->]]. cbn [tx np]. lia.
Qed.

Theorem accept_all_mono : forall es s s', accept_all s es = Some s' -> tx s <= tx s' /\ np s <= np s'.
Proof.
  intros es s s' H.
  apply (accept_all_ind (fun _ _ => True) (fun s s' => tx s <= tx s' /\ np s <= np s')) with (es := es);
    auto; try lia.
  intros s0 e _ s1 _ Ha. split; [exact I | exact (accept_mono s0 e s1 Ha)].
Qed.
Print Assumptions commit_tx_np.
Print Assumptions accept_all_mono.

Definition card (l : list N) : N := N.of_nat (length l).

Lemma card_nil : card [] = 0.
Proof. reflexivity. Qed.

Lemma card_app a b : card (a ++ b) = card a + card b.
Proof. unfold card. rewrite app_length. lia. Qed.

Lemma range_go_length n : forall lo, length (range_go n lo) = n.
Proof. induction n as [|n IH]; intros lo; cbn [range_go length]; [reflexivity | rewrite IH; reflexivity]. Qed.

Lemma rangeN_length lo hi : length (rangeN lo hi) = N.to_nat (hi - lo).
Proof. rewrite rangeN_go. apply range_go_length. Qed.

Lemma NoDup_range_card l lo hi :
  NoDup l -> (forall x, In x l <-> lo <= x < hi) -> card l = hi - lo.
Proof.
  intros Hnd Hin. unfold card.
  assert (P : Permutation l (rangeN lo hi)).
  { apply NoDup_Permutation; [exact Hnd | apply rangeN_NoDup|].
    intros x. rewrite Hin, rangeN_In. reflexivity. }
  rewrite (Permutation_length P), rangeN_length. lia.
Qed.

Lemma NoDup_incl_card a b : NoDup a -> incl a b -> card a <= card b.
Proof. intros Hnd Hi. unfold card. pose proof (NoDup_incl_length Hnd Hi). lia. Qed.

(* C05 in numeric form: every page of [2, np) is counted exactly once *)
Theorem page_count s :
  PLInv s -> np s = 2 + card (live s) + card (free s) + card (pend_all (pend s)).
Proof.
  intros [H1 [H2 [H3 _]]].
  pose proof (NoDup_range_card (all_pages s) 2 (np s) H2 H3) as H.
  unfold all_pages in H. rewrite !card_app in H. lia.
Qed.
Print Assumptions page_count.

Corollary reachable_page_count es s :
  accept_all init_pl es = Some s -> np s = 2 + card (live s) + card (free s) + card (pend_all (pend s)).
Proof. intros H. apply page_count. exact (reachable_inv es s H). Qed.

Lemma card_split a b : card a = card (filter (fun x => memN x b) a) + card (diffN a b).
Proof.
  unfold card, diffN. induction a as [|x a IH]; cbn [filter]; [reflexivity|].
  destruct (memN x b); cbn [negb length]; lia.
Qed.

Lemma card_le_split a b : NoDup a -> card a <= card b + card (diffN a b).
Proof.
  intros Hnd. rewrite (card_split a b).
  assert (card (filter (fun x => memN x b) a) <= card b); [|lia].
  apply NoDup_incl_card; [apply NoDup_filter; exact Hnd|].
  intros x Hx. apply filter_In in Hx. apply memN_In. tauto.
Qed.

(* C10, the plateau.  The commit contract says alloc is included in free1 + [np, np'); that the file grows only when
   the writer's free list is exhausted is a property of the allocator (FreelistFacts.alloc_complete /
   tx_allocate_spec, single-page allocations).  It is an explicit hypothesis here:
   if the file grew, nothing is left in the published free list. *)
Definition grows_only_when_empty (s : pl) (e : event) : Prop :=
  match e with ECommit w nf npd l' np' tx' => np s < np' -> nf = [] | _ => True end.

(* "every page that was free at begin was allocated" is the same thing for an accepted commit, where
   new_free is a subset of free1 *)
Lemma exhausted_iff (f1 nf : list N) : incl nf f1 -> (incl f1 (diffN f1 nf) <-> nf = []).
Proof.
  intros Hsub. split.
  - intros H. destruct nf as [|x nf]; [reflexivity|]. exfalso.
    assert (Hx : In x (x :: nf)) by (left; reflexivity).
    pose proof (H x (Hsub x Hx)) as Hd. apply diffN_In in Hd. tauto.
  - intros -> x Hx. apply diffN_In. split; [exact Hx | intros []].
Qed.

Lemma grows_only_when_empty_alt s w nf npd l' np' tx' s' :
  accept s (ECommit w nf npd l' np' tx') = Some s' ->
  (grows_only_when_empty s (ECommit w nf npd l' np' tx') <->
   (np s < np' -> forall t f1 p1, writer_view s = (t, f1, p1) -> incl f1 (diffN f1 nf))).
Proof.
  intros H. apply accept_commit_facts in H. destruct H as (t & f1 & p1 & Hwv & Hc & _).
  pose proof (cf_nf_f1 Hc) as Hsub. cbn [grows_only_when_empty]. split.
  - intros Hg Hlt t0 f0 p0 Hwv0. rewrite Hwv in Hwv0. inversion Hwv0; subst.
    apply exhausted_iff; [exact Hsub | exact (Hg Hlt)].
  - intros Hg Hlt. apply (exhausted_iff f1 nf Hsub). exact (Hg Hlt t f1 p1 Hwv).
Qed.

(* the pages this commit freed, and among them the "scratch" ones: allocated and freed by the
   same transaction (never part of the previous snapshot) *)
Definition freed_by (s : pl) (npd : pending) : list N := commit_freed (tx s + 1) npd.
Definition scratch (s : pl) (npd : pending) : list N := diffN (freed_by s npd) (live s).

(* shape of the state after a commit made while no reader is registered *)
Theorem commit_no_readers s w nf npd l' np' tx' s' :
  PLInv s -> readers s = [] -> accept s (ECommit w nf npd l' np' tx') = Some s' ->
  live s' = l' /\ free s' = nf /\ np s' = np' /\ readers s' = [] /\
  pend_all (pend s') = freed_by s npd /\
  (forall u ps, In (u, ps) (pend s') -> u = tx s' /\ ps = freed_by s npd) /\
  NoDup (freed_by s npd) /\
  np s' = 2 + card (live s') + card (free s') + card (freed_by s npd).
Proof.
  intros Hinv Hr H. pose proof (accept_inv _ _ _ Hinv H) as Hinv'.
  pose proof (page_count s' Hinv') as Hcnt.
  apply accept_commit_facts in H. destruct H as (t & f1 & p1 & Hwv & Hc & Hs').
  pose proof (release_no_readers s t f1 p1 Hinv Hr Hwv) as Hp1.
  pose proof (writer_view_eq _ _ _ _ Hwv) as [Ht _].
  unfold freed_by. rewrite <- Ht. subst p1. subst s'. cbn [live free pend np tx readers] in *.
  rewrite pend_all_snoc in Hcnt. cbn [pend_all flat_map app] in Hcnt.
  repeat split; try assumption.
  - rewrite pend_all_snoc. reflexivity.
  - apply In_snoc_pend in H. destruct H as [[]|[H _]]. exact H.
  - apply In_snoc_pend in H. destruct H as [[]|[_ H]]. exact H.
  - exact (cf_nd_freed Hc).
Qed.
Print Assumptions commit_no_readers.

(* one step of the plateau: a commit with no reader registered either does not grow the file, or
   (allocator hypothesis) leaves the free list empty, and then the file holds exactly the new live
   set and the pages this commit freed: at most the two snapshots plus the scratch pages *)
Theorem commit_growth_bound s w nf npd l' np' tx' s' :
  PLInv s -> readers s = [] -> accept s (ECommit w nf npd l' np' tx') = Some s' ->
  grows_only_when_empty s (ECommit w nf npd l' np' tx') ->
  np s' = np s \/
  (np s < np s' /\ free s' = [] /\
   np s' = 2 + card (live s') + card (freed_by s npd) /\
   np s' <= 2 + card (live s') + card (live s) + card (scratch s npd)).
Proof.
  intros Hinv Hr H Hg.
  destruct (commit_no_readers _ _ _ _ _ _ _ _ Hinv Hr H) as [E1 [E2 [E3 [_ [_ [_ [Hnd Hcnt]]]]]]].
  pose proof (commit_tx_np _ _ _ _ _ _ _ _ H) as [_ [_ [Hle _]]].
  destruct (N.eq_dec (np s') (np s)) as [Heq|Hne]; [left; exact Heq | right].
  assert (Hlt : np s < np') by lia. cbn [grows_only_when_empty] in Hg. specialize (Hg Hlt).
  assert (Hf : free s' = []) by congruence. rewrite Hf, card_nil in Hcnt.
  split; [lia|]. split; [exact Hf|]. split; [lia|].
  pose proof (card_le_split (freed_by s npd) (live s) Hnd) as Hsp. unfold scratch. lia.
Qed.
Print Assumptions commit_growth_bound.

(* exactness: pages freed by the commit that belonged to the old snapshot are exactly the old live
   pages that are not live any more, so with no scratch pages
   np s' = 2 + |live s'| + |live s \ live s'| *)
Theorem commit_growth_exact s w nf npd l' np' tx' s' :
  PLInv s -> readers s = [] -> accept s (ECommit w nf npd l' np' tx') = Some s' ->
  grows_only_when_empty s (ECommit w nf npd l' np' tx') -> np s < np s' ->
  scratch s npd = [] ->
  np s' = 2 + card (live s') + card (diffN (live s) (live s')).
Proof.
  intros Hinv Hr H Hg Hlt Hsc.
  destruct (commit_growth_bound _ _ _ _ _ _ _ _ Hinv Hr H Hg) as [Heq|[_ [_ [Hcnt _]]]]; [lia|].
  destruct (commit_no_readers _ _ _ _ _ _ _ _ Hinv Hr H) as [E1 [_ [_ [_ [_ [_ [Hnd _]]]]]]].
  pose proof (proj1 (PLInv_facts s) Hinv) as F.
  apply accept_commit_facts in H. destruct H as (t & f1 & p1 & Hwv & Hc & _).
  pose proof (writer_view_eq _ _ _ _ Hwv) as [Ht _].
  assert (Hfr : freed_by s npd = commit_freed t npd) by (unfold freed_by; congruence).
  assert (Hsub : forall x, In x (freed_by s npd) -> In x (live s)).
  { intros x Hx. destruct (in_dec N.eq_dec x (live s)) as [Hl|Hl]; [exact Hl|]. exfalso.
    assert (Hd : In x (scratch s npd)) by (apply diffN_In; tauto). rewrite Hsc in Hd. exact Hd. }
  assert (P : Permutation (freed_by s npd) (diffN (live s) (live s'))).
  { apply NoDup_Permutation; [exact Hnd | apply NoDup_filter; exact (if_nd_live s F)|].
    intros x. rewrite diffN_In, E1, Hfr. split.
    - intros Hx. split; [apply Hsub; rewrite Hfr; exact Hx|].
      intros Hl'. exact (cf_live'_freed Hc x Hl' Hx).
    - intros [Hl Hnl']. destruct (in_dec N.eq_dec x (commit_freed t npd)) as [Hf|Hf]; [exact Hf|].
      exfalso. exact (Hnl' (cf_kept Hc x Hl Hf)). }
  unfold card in *. rewrite <- (Permutation_length P). exact Hcnt.
Qed.
Print Assumptions commit_growth_exact.

(* the plateau over a run.  [run_ok P s es]: P holds of every (state, event) pair met along the run *)
Fixpoint run_ok (P : pl -> event -> Prop) (s : pl) (es : list event) : Prop :=
  match es with
  | [] => True
  | e :: es' => P s e /\ match accept s e with Some s1 => run_ok P s1 es' | None => True end
  end.

(* per-commit hypotheses: no reader is ever registered (no EBeginR), growth only on an empty free
   list, at most K scratch pages per commit, at most M live pages before and after each commit *)
Definition plateau_hyp (M K : N) (s : pl) (e : event) : Prop :=
  e <> EBeginR /\
  grows_only_when_empty s e /\
  match e with
  | ECommit w nf npd l' np' tx' => card (live s) <= M /\ card l' <= M /\ card (scratch s npd) <= K
  | _ => True
  end.

Lemma no_beginR_readers s e s' : readers s = [] -> e <> EBeginR -> accept s e = Some s' -> readers s' = [].
Proof.
  intros Hr Hne H. destruct e.
  - congruence.
  - cbn [accept] in H. rewrite Hr in H. cbn in H. discriminate.
  - apply accept_BeginW_same in H. congruence.
  - rewrite (readers_Commit _ _ _ _ _ _ _ _ H). exact Hr.
  - inversion H; subst. exact Hr.
  - apply accept_reopen_inv in H. destruct H as [_ [_ ->]]. reflexivity.
Qed.

Lemma plateau_step M K s e s' :
  PLInv s -> readers s = [] -> accept s e = Some s' -> plateau_hyp M K s e ->
  np s' <= N.max (np s) (2 + 2 * M + K).
Proof.
  intros Hinv Hr H [Hne [Hg Hb]].
  assert (Hnc : no_commit e -> np s' <= N.max (np s) (2 + 2 * M + K)).
  { intros Hn. destruct (no_commit_step s e s' Hn H) as (_ & _ & _ & A & _). lia. }
  destruct e; try exact (Hnc I).
  - destruct Hb as [B1 [B2 B3]].
    destruct (commit_no_readers _ _ _ _ _ _ _ _ Hinv Hr H) as [E1 _].
    destruct (commit_growth_bound _ _ _ _ _ _ _ _ Hinv Hr H Hg) as [Heq|[_ [_ [_ Hle]]]]; [lia|].
    rewrite E1 in Hle. lia.
  - apply accept_reopen_inv in H. destruct H as [_ [_ ->]]. cbn [np]. lia.
Qed.

Theorem plateau M K : forall es s s',
  PLInv s -> readers s = [] -> accept_all s es = Some s' -> run_ok (plateau_hyp M K) s es ->
  np s' <= N.max (np s) (2 + 2 * M + K).
Proof.
  intros es s s' Hinv Hr H Hok.
  apply (accept_all_ind (fun s es => PLInv s /\ readers s = [] /\ run_ok (plateau_hyp M K) s es)
                        (fun s s' => np s' <= N.max (np s) (2 + 2 * M + K))) with (es := es);
    auto; try lia.
  intros s0 e es0 s1 (Hi & Hr0 & Hok0) Ha. cbn [run_ok] in Hok0. rewrite Ha in Hok0. destruct Hok0 as [Hp Hok1].
  split; [|exact (plateau_step M K s0 e s1 Hi Hr0 Ha Hp)].
  split; [exact (accept_inv _ _ _ Hi Ha)|]. split; [exact (no_beginR_readers s0 e s1 Hr0 (proj1 Hp) Ha) | exact Hok1].
Qed.
Print Assumptions plateau.

(* from the initial state (np = 4, live = 2 pages) *)
Corollary plateau_from_init M K es s' :
  accept_all init_pl es = Some s' -> run_ok (plateau_hyp M K) init_pl es ->
  np s' <= N.max 4 (2 + 2 * M + K).
Proof. intros H Hok. exact (plateau M K es init_pl s' init_inv eq_refl H Hok). Qed.
Print Assumptions plateau_from_init.

(* non-vacuity: a run of three commits that satisfies the hypotheses with M = 2, K = 0
   (tx 1 grows on an empty free list; tx 2 and tx 3 reuse released pages, the file stays at 6 pages) *)
Definition run_plateau : list event :=
  [ EBeginW [] [];
    ECommit [4; 5] [] [(1, [2; 3])] [4; 5] 6 1;
    EBeginW [2; 3] [];
    ECommit [2; 3] [] [(2, [4; 5])] [2; 3] 6 2;
    ERollback;
    ECommit [4; 5] [] [(3, [2; 3])] [4; 5] 6 3 ].

Example run_plateau_accepted :
  accept_all init_pl run_plateau = Some (mkPl [4; 5] [] [(3, [2; 3])] 6 3 []).
Proof. vm_compute. reflexivity. Qed.

Example run_plateau_ok : run_ok (plateau_hyp 2 0) init_pl run_plateau.
Proof.
  cbn [run_plateau run_ok].
  repeat (match goal with
          | |- _ /\ _ => split
          | |- context [accept ?s ?e] => let r := eval vm_compute in (accept s e) in change (accept s e) with r; cbv iota beta
          | |- plateau_hyp _ _ _ _ => unfold plateau_hyp
          | |- _ <> _ => discriminate
          | |- grows_only_when_empty _ _ => cbn [grows_only_when_empty np]; try (intros _; reflexivity); try exact I
          | |- True => exact I
          | |- _ <= _ => vm_compute; discriminate
          end).
Qed.

Example run_plateau_bound : np (mkPl [4; 5] [] [(3, [2; 3])] 6 3 []) <= N.max 4 (2 + 2 * 2 + 0).
Proof. exact (plateau_from_init 2 0 run_plateau _ run_plateau_accepted run_plateau_ok). Qed.
