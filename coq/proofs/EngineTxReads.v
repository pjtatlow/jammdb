(* Property C07 for the engine model: a write transaction reads its own uncommitted changes.
   [ovl_lookup d b path k] is the point read of key [k] in the bucket at [path], through the OVERLAY of the running
   write transaction (sub-buckets opened / created in this transaction shadow the stored (root, next) of their
   entry; everything else is read through the materialised nodes and the committed pages). It modifies nothing.
   [ref_lookup path m k] is the reference's answer on the nested map [m]. [tx_reads]: after the operations [ops] of a
   write transaction, every lookup anywhere in the bucket tree answers what the reference answers in
   [sem_tx ops (abs_db st)]; [tx_reads_prefix]: the same after any prefix. *)
From Coq Require Import List NArith Bool Arith Lia ZifyN ZifyNat ZifyBool.
From Coq.Strings Require Import Byte.
From Jamm Require Import Bytes Tree Spec Cursor SearchFacts Engine EngineFacts EngineModifyFacts EngineAbs
  EnginePathFacts.
From Jamm Require SpecPathFacts EngineScan.
Import ListNotations.
Import Coq.Strings.String.StringSyntax. Delimit Scope string_scope with string.
Local Open Scope list_scope. Local Open Scope nat_scope.
Set Warnings "-abstract-large-number".

(* get_bucket along [path] (an opened sub-bucket first, else the stored entry, opened read-only), then get.
   Structural in the path: no fuel. The errors are those of the library's get_bucket. *)
Fixpoint ovl_lookup (d : disk) (b : bucket) (path : list bytes) (k : bytes) {struct path} : res (option leafent) :=
  match path with
  | [] => b_lookup d b k
  | nm :: rest =>
      match sub_find nm (b_subs b) with
      | Some sb => ovl_lookup d sb rest k
      | None =>
          bind (b_lookup d b nm) (fun cur =>
            match cur with
            | Some (LBk _ r nx) => ovl_lookup d (Bucket r nx false None []) rest k
            | Some (LKv _ _) => Err "IncompatibleValue"%string
            | None => Err "BucketMissing"%string
            end)
      end
  end.

(* the reference: what the nested map answers *)
Inductive rd_ans := RdEnt (o : option snode) | RdMissing | RdIncompat.
Fixpoint ref_lookup (path : list bytes) (m : snode) (k : bytes) : rd_ans :=
  match path with
  | [] => RdEnt (Spec.alookup k (Spec.b_ents m))
  | nm :: rest =>
      match Spec.alookup nm (Spec.b_ents m) with
      | Some (SVal _) => RdIncompat
      | Some c => ref_lookup rest c k
      | None => RdMissing
      end
  end.

(* a stored / overlay entry under key [k] against the reference's entry *)
Inductive ent_matches (k : bytes) : option snode -> option leafent -> Prop :=
| EM_none : ent_matches k None None
| EM_val : forall v, ent_matches k (Some (SVal v)) (Some (LKv k v))
| EM_bucket : forall o x es r nx, ent_matches k (Some (SBucket o x es)) (Some (LBk k r nx)).

Definition rd_matches (k : bytes) (a : rd_ans) (r : res (option leafent)) : Prop :=
  match a with
  | RdEnt o => exists e, r = Ok e /\ ent_matches k o e
  | RdMissing => r = Err "BucketMissing"%string
  | RdIncompat => r = Err "IncompatibleValue"%string
  end.

(* what the API shows of an entry (Spec.item): of any entry, of plain values only *)
Definition ent_item (e : leafent) : Spec.item := match e with LKv k v => Spec.IKv k v | LBk k _ _ => Spec.IBk k end.
Definition ent_kv (e : leafent) : option Spec.item :=
  match e with LKv k v => Some (Spec.IKv k v) | LBk _ _ _ => None end.

Lemma ent_matches_get : forall k o e, ent_matches k o e ->
  option_map ent_item e = option_map (fun c => Spec.to_item (k, c)) o.
Proof. intros k o e H. destruct H; reflexivity. Qed.

Lemma ent_matches_get_kv : forall k o e, ent_matches k o e ->
  match e with Some e0 => ent_kv e0 | None => None end =
  match o with Some (SVal v) => Some (Spec.IKv k v) | _ => None end.
Proof. intros k o e H. destruct H; reflexivity. Qed.

(* one level: the final get *)
Lemma b_lookup_matches : forall d b m k, ovl_wf d b -> OvlAbs d b m ->
  exists e, b_lookup d b k = Ok e /\ ent_matches k (Spec.alookup k (Spec.b_ents m)) e.
Proof.
  intros d b m k Hw Ha.
  destruct (ovl_both d b m Hw Ha) as (l & ents & Em & Hbw & Hbv & Hs & Hnd & Hsubs & HF & Hroot).
  pose proof (F2_alookup _ (OvlEnt_key d (b_subs b)) l ents k HF) as Hlk.
  exists (Spec.alookup k (assoc l)). split; [apply b_lookup_refines; assumption|].
  subst m. cbn [Spec.b_ents].
  destruct (Spec.alookup k (assoc l)) as [[k0 v|k0 r nx]|] eqn:Hal.
  - destruct (alookup_assoc_key _ _ _ Hal) as [Ek _]. cbn [lkey] in Ek. subst k0.
    destruct Hlk as (x & Hx & He). apply OvlEnt_kv_inv in He. destruct He as [_ ->]. rewrite Hx. constructor.
  - destruct (alookup_assoc_key _ _ _ Hal) as [Ek _]. cbn [lkey] in Ek. subst k0.
    destruct Hlk as (x & Hx & He). destruct (OvlEnt_bk_bucket _ _ _ _ _ _ He) as (o & nx' & es & Ex).
    cbn [snd] in Ex. subst x. rewrite Hx. constructor.
  - rewrite Hlk. constructor.
Qed.

(* where a path leads in the reference: a bucket, nowhere, or through a plain value *)
Inductive at_ans := AtBucket (m : snode) | AtMissing | AtIncompat.
Fixpoint ref_at (path : list bytes) (m : snode) : at_ans :=
  match path with
  | [] => AtBucket m
  | nm :: rest =>
      match Spec.alookup nm (Spec.b_ents m) with
      | Some (SVal _) => AtIncompat
      | Some c => ref_at rest c
      | None => AtMissing
      end
  end.

(* get_bucket along a path through the overlay reaches a well-formed overlay bucket meaning the reference's *)
Theorem ovl_bucket_refines : forall d path b m, ovl_wf d b -> OvlAbs d b m ->
  match ref_at path m with
  | AtBucket c => exists bk, EngineScan.ovl_bucket d b path = Ok bk /\ ovl_wf d bk /\ OvlAbs d bk c
  | AtMissing => EngineScan.ovl_bucket d b path = Err "BucketMissing"%string
  | AtIncompat => EngineScan.ovl_bucket d b path = Err "IncompatibleValue"%string
  end.
Proof.
  intros d. induction path as [|nm rest IH]; intros b m Hw Ha; cbn [ref_at EngineScan.ovl_bucket].
  - exists b. auto.
  - destruct (sub_find nm (b_subs b)) as [sb|] eqn:Hsf.
    + (* opened in this transaction *)
      destruct (sub_meaning d b m nm sb Hw Ha Hsf) as (c & Hc & Hac & Hwc). rewrite Hc.
      destruct (OvlAbs_bucket _ _ _ Hac) as [es Ec]. rewrite Ec. rewrite <- Ec. now apply IH.
    + destruct (ovl_both d b m Hw Ha) as (l & ents & Em & Hbw & Hbv & Hs & Hnd & Hsubs & HF & Hroot).
      pose proof (F2_alookup _ (OvlEnt_key d (b_subs b)) l ents nm HF) as Hlk.
      rewrite (b_lookup_refines d b l nm Hbw Hbv). cbn [bind]. subst m. cbn [Spec.b_ents].
      destruct (Spec.alookup nm (assoc l)) as [[k0 v|k0 r nx]|] eqn:Hal.
      * destruct Hlk as (x & Hx & He). apply OvlEnt_kv_inv in He. destruct He as [_ ->]. rewrite Hx. reflexivity.
      * destruct (alookup_assoc_key _ _ _ Hal) as [Ek _]. cbn [lkey] in Ek. subst k0.
        destruct Hlk as (x & Hx & He). rewrite Hx. apply OvlEnt_bk_inv in He.
        destruct He as [_ [(sb' & Hsf' & _) | (_ & Hc)]]; [congruence|].
        destruct (open_committed d r nx x Hc) as [Hw0 Ha0].
        destruct (CAbs_bucket _ _ _ _ Hc) as [es Ec]. rewrite Ec. rewrite <- Ec. now apply IH.
      * rewrite Hlk. reflexivity.
Qed.

(* the point read is get_bucket along the path, then the final get: on both sides *)
Lemma ovl_get_lookup : forall d path b k, EngineScan.ovl_get d b path k = ovl_lookup d b path k.
Proof.
  intros d. unfold EngineScan.ovl_get.
  induction path as [|nm rest IH]; intros b k; cbn [EngineScan.ovl_bucket ovl_lookup bind]; [reflexivity|].
  destruct (sub_find nm (b_subs b)) as [sb|]; [apply IH|].
  destruct (b_lookup d b nm) as [[[k0 v|k0 r nx]|]| |]; cbn [bind]; try reflexivity. apply IH.
Qed.

Lemma ref_lookup_ref_at : forall path m k, ref_lookup path m k =
  match ref_at path m with
  | AtBucket c => RdEnt (Spec.alookup k (Spec.b_ents c))
  | AtMissing => RdMissing
  | AtIncompat => RdIncompat
  end.
Proof.
  induction path as [|nm rest IH]; intros m k; cbn [ref_lookup ref_at]; [reflexivity|].
  destruct (Spec.alookup nm (Spec.b_ents m)) as [[v|o x es]|]; [reflexivity | apply IH | reflexivity].
Qed.

Theorem ovl_lookup_refines : forall d path b m k, ovl_wf d b -> OvlAbs d b m ->
  rd_matches k (ref_lookup path m k) (ovl_lookup d b path k).
Proof.
  intros d path b m k Hw Ha. pose proof (ovl_bucket_refines d path b m Hw Ha) as H.
  rewrite ref_lookup_ref_at, <- ovl_get_lookup. unfold EngineScan.ovl_get.
  destruct (ref_at path m) as [c| |]; [|now rewrite H|now rewrite H].
  destruct H as (bk & -> & Hwk & Hak). cbn [bind rd_matches]. now apply b_lookup_matches.
Qed.

Lemma ref_at_get_at : forall path m, SpecPathFacts.is_bucket m = true ->
  match Spec.get_at path m with
  | Some (SBucket o x es) => ref_at path m = AtBucket (SBucket o x es)
  | Some (SVal _) => ref_at path m = AtIncompat
  | None => ref_at path m = AtMissing \/ ref_at path m = AtIncompat
  end.
Proof.
  induction path as [|nm rest IH]; intros m Hb; cbn [Spec.get_at ref_at].
  - destruct m; [discriminate | reflexivity].
  - destruct (Spec.alookup nm (Spec.b_ents m)) as [[v|o x es]|]; [| now apply IH | now left].
    destruct rest; cbn [Spec.get_at Spec.b_ents Spec.alookup]; [reflexivity | now right].
Qed.

Lemma OvlAbs_is_bucket : forall d b m, OvlAbs d b m -> SpecPathFacts.is_bucket m = true.
Proof. intros d b m H. destruct (OvlAbs_bucket _ _ _ H) as [es ->]. reflexivity. Qed.

(* the path leads to a bucket of the reference: the read answers the reference's entry; it names a plain value:
   IncompatibleValue, as get_bucket; it leads nowhere: a name on it is absent (BucketMissing) or names a plain value
   (IncompatibleValue) -- which of the two is told by [ref_lookup] in [ovl_lookup_refines] *)
Lemma ovl_lookup_get_at : forall d b m path k, ovl_wf d b -> OvlAbs d b m ->
  match Spec.get_at path m with
  | Some (SBucket o x es) => exists e, ovl_lookup d b path k = Ok e /\ ent_matches k (Spec.alookup k es) e
  | Some (SVal _) => ovl_lookup d b path k = Err "IncompatibleValue"%string
  | None => ovl_lookup d b path k = Err "BucketMissing"%string \/
            ovl_lookup d b path k = Err "IncompatibleValue"%string
  end.
Proof.
  intros d b m path k Hw Ha. pose proof (ovl_lookup_refines d path b m k Hw Ha) as H. rewrite ref_lookup_ref_at in H.
  pose proof (ref_at_get_at path m (OvlAbs_is_bucket _ _ _ Ha)) as Hg.
  destruct (Spec.get_at path m) as [[v|o x es]|].
  - now rewrite Hg in H.
  - now rewrite Hg in H.
  - destruct Hg as [Hg|Hg]; rewrite Hg in H; [now left | now right].
Qed.

Corollary ovl_lookup_at_bucket : forall d b m path k o x es, ovl_wf d b -> OvlAbs d b m ->
  Spec.get_at path m = Some (SBucket o x es) ->
  exists e, ovl_lookup d b path k = Ok e /\ ent_matches k (Spec.alookup k es) e.
Proof.
  intros d b m path k o x es Hw Ha Hg. pose proof (ovl_lookup_get_at d b m path k Hw Ha) as H. now rewrite Hg in H.
Qed.

Corollary ovl_lookup_at_value : forall d b m path k v, ovl_wf d b -> OvlAbs d b m ->
  Spec.get_at path m = Some (SVal v) -> ovl_lookup d b path k = Err "IncompatibleValue"%string.
Proof.
  intros d b m path k v Hw Ha Hg. pose proof (ovl_lookup_get_at d b m path k Hw Ha) as H. now rewrite Hg in H.
Qed.

Corollary ovl_lookup_at_none : forall d b m path k, ovl_wf d b -> OvlAbs d b m ->
  Spec.get_at path m = None ->
  ovl_lookup d b path k = Err "BucketMissing"%string \/ ovl_lookup d b path k = Err "IncompatibleValue"%string.
Proof.
  intros d b m path k Hw Ha Hg. pose proof (ovl_lookup_get_at d b m path k Hw Ha) as H. now rewrite Hg in H.
Qed.

(* below a bucket of the reference the answer is the one from that bucket *)
Lemma ref_lookup_app : forall path m t q k, Spec.get_at path m = Some t -> SpecPathFacts.is_bucket t = true ->
  ref_lookup (path ++ q) m k = ref_lookup q t k.
Proof.
  induction path as [|nm rest IH]; intros m t q k Hg Hb; cbn [Spec.get_at app] in *.
  - inversion Hg; subst. reflexivity.
  - cbn [ref_lookup]. destruct (Spec.alookup nm (Spec.b_ents m)) as [c|]; [|discriminate].
    destruct c as [v|o' x' es'].
    + destruct rest; cbn [Spec.get_at Spec.b_ents Spec.alookup] in Hg; [|discriminate].
      inversion Hg; subst. discriminate.
    + eapply IH; eauto.
Qed.

Lemma ref_lookup_at : forall path m t k, Spec.get_at path m = Some t -> SpecPathFacts.is_bucket t = true ->
  ref_lookup path m k = RdEnt (Spec.alookup k (Spec.b_ents t)).
Proof. intros path m t k Hg Hb. rewrite <- (app_nil_r path). exact (ref_lookup_app path m t [] k Hg Hb). Qed.

Lemma ref_lookup_bucket : forall path m k o x es, Spec.get_at path m = Some (SBucket o x es) ->
  ref_lookup path m k = RdEnt (Spec.alookup k es).
Proof. intros path m k o x es Hg. exact (ref_lookup_at path m _ k Hg eq_refl). Qed.

(** * C07: inside a write transaction every read sees the operations done so far *)

(* the overlay after the operations of a write transaction is well formed and means the reference's state *)
Lemma tx_fold_overlay : forall st ops root' s', db_pages_wf st -> Forall (op_ok (d_disk st)) ops ->
  tx_fold st ops (root_bucket st, begin_w st) = Ok (root', s') ->
  ovl_wf (d_disk st) root' /\ OvlAbs (d_disk st) root' (sem_tx ops (abs_db st)).
Proof.
  intros st ops root' s' Hdb Hok Hf. destruct (ops_refine st ops Hdb Hok) as (r1 & s1 & Hf1 & Hw & Ha & _).
  rewrite Hf in Hf1. inversion Hf1; subst r1 s1. auto.
Qed.

Theorem tx_reads : forall st ops root' s', db_pages_wf st -> Forall (op_ok (d_disk st)) ops ->
  tx_fold st ops (root_bucket st, begin_w st) = Ok (root', s') ->
  forall path k,
    rd_matches k (ref_lookup path (sem_tx ops (abs_db st)) k) (ovl_lookup (d_disk st) root' path k).
Proof.
  intros st ops root' s' Hdb Hok Hf path k.
  destruct (tx_fold_overlay st ops root' s' Hdb Hok Hf) as [Hw Ha]. now apply ovl_lookup_refines.
Qed.

Corollary tx_reads_get_at : forall st ops root' s', db_pages_wf st -> Forall (op_ok (d_disk st)) ops ->
  tx_fold st ops (root_bucket st, begin_w st) = Ok (root', s') ->
  forall path k,
    match Spec.get_at path (sem_tx ops (abs_db st)) with
    | Some (SBucket o x es) =>
        exists e, ovl_lookup (d_disk st) root' path k = Ok e /\ ent_matches k (Spec.alookup k es) e
    | Some (SVal _) => ovl_lookup (d_disk st) root' path k = Err "IncompatibleValue"%string
    | None => ovl_lookup (d_disk st) root' path k = Err "BucketMissing"%string \/
              ovl_lookup (d_disk st) root' path k = Err "IncompatibleValue"%string
    end.
Proof.
  intros st ops root' s' Hdb Hok Hf path k.
  destruct (tx_fold_overlay st ops root' s' Hdb Hok Hf) as [Hw Ha]. now apply ovl_lookup_get_at.
Qed.

Lemma fold_res_app : forall {A B} (f : A -> B -> res A) l1 l2 a,
  fold_res f (l1 ++ l2) a = bind (fold_res f l1 a) (fun a' => fold_res f l2 a').
Proof.
  intros A B f. induction l1 as [|x l1 IH]; intros l2 a; cbn [fold_res app bind]; [reflexivity|].
  destruct (f a x) as [a'| |]; cbn [bind]; [apply IH | reflexivity | reflexivity].
Qed.

(* after ANY prefix ops1 of the transaction's operations the overlay exists, the rest of the fold continues from it,
   and every read through it answers the reference after ops1 *)
Theorem tx_reads_prefix : forall st ops1 ops2, db_pages_wf st -> Forall (op_ok (d_disk st)) (ops1 ++ ops2) ->
  exists root1 s1, tx_fold st ops1 (root_bucket st, begin_w st) = Ok (root1, s1) /\
    tx_fold st (ops1 ++ ops2) (root_bucket st, begin_w st) = tx_fold st ops2 (root1, s1) /\
    ovl_wf (d_disk st) root1 /\ OvlAbs (d_disk st) root1 (sem_tx ops1 (abs_db st)) /\
    forall path k,
      rd_matches k (ref_lookup path (sem_tx ops1 (abs_db st)) k) (ovl_lookup (d_disk st) root1 path k).
Proof.
  intros st ops1 ops2 Hdb Hok. apply Forall_app in Hok. destruct Hok as [Hok1 _].
  destruct (ops_refine st ops1 Hdb Hok1) as (r1 & s1 & Hf1 & Hw & Ha & _).
  exists r1, s1. split; [exact Hf1|]. split.
  - unfold tx_fold in *. rewrite fold_res_app, Hf1. reflexivity.
  - split; [exact Hw|]. split; [exact Ha|]. intros path k. now apply ovl_lookup_refines.
Qed.

(** * The reference side: reading back one's own operation *)

(* the committed meaning is a bucket whose entries are sorted at every level; [sem_tx] keeps that *)
Lemma cwf_sorted : forall n d r nx, cwf n d r -> SpecPathFacts.sorted_rec (abs_bucket n d r nx) = true.
Proof.
  induction n as [|n IH]; intros d r nx H; [destruct H|].
  pose proof H as (Hw & l & Hv & Hall).
  rewrite (cwf_abs_bucket n d r nx l H Hv). apply SpecPathFacts.sorted_rec_bucket. split.
  - rewrite map_map. replace (map (fun x => fst (ent_abs n d x)) l) with (map lkey l).
    + eapply wf_page_sorted; eauto.
    + apply map_ext. intros [k v|k r' nx']; reflexivity.
  - intros k c Hin. apply in_map_iff in Hin. destruct Hin as (e & Ee & Hin).
    rewrite Forall_forall in Hall. specialize (Hall e Hin).
    destruct e as [k0 v|k0 r' nx']; cbn [ent_abs] in Ee; inversion Ee; subst; [reflexivity | now apply IH].
Qed.

Theorem abs_db_wf : forall st, db_pages_wf st -> SpecPathFacts.wf (abs_db st).
Proof.
  intros st H. split; [reflexivity|]. unfold abs_db. now apply cwf_sorted.
Qed.

Corollary sem_tx_wf : forall st ops, db_pages_wf st -> SpecPathFacts.wf (sem_tx ops (abs_db st)).
Proof. intros st ops H. apply SpecPathFacts.wf_sem_tx. now apply abs_db_wf. Qed.

(* the bucket a path-addressed WRITE operates on: buckets missing on the way are created (empty), a plain value on
   the way refuses the operation *)
Fixpoint tgt_at (path : list bytes) (m : snode) : option snode :=
  match path with
  | [] => Some m
  | nm :: rest =>
      match Spec.alookup nm (Spec.b_ents m) with
      | Some (SVal _) => None
      | Some c => tgt_at rest c
      | None => tgt_at rest (SBucket 0 0 [])
      end
  end.

Lemma tgt_at_fresh : forall p, tgt_at p (SBucket 0 0 []) = Some (SBucket 0 0 []).
Proof. induction p as [|nm rest IH]; [reflexivity|]. cbn [tgt_at Spec.b_ents Spec.alookup]. exact IH. Qed.

(* ... in terms of what a read answers before the operation *)
Lemma tgt_ref_lookup : forall path m k,
  match ref_lookup path m k with
  | RdIncompat => tgt_at path m = None
  | RdMissing => tgt_at path m = Some (SBucket 0 0 [])
  | RdEnt o => exists t, tgt_at path m = Some t /\ Spec.alookup k (Spec.b_ents t) = o
  end.
Proof.
  induction path as [|nm rest IH]; intros m k; cbn [ref_lookup tgt_at].
  - exists m. auto.
  - destruct (Spec.alookup nm (Spec.b_ents m)) as [[v|o x es]|]; [reflexivity | apply IH | apply tgt_at_fresh].
Qed.

Lemma tgt_at_sorted : forall path m t, SpecPathFacts.sorted_rec m = true -> tgt_at path m = Some t ->
  SpecPathFacts.sorted_rec t = true.
Proof.
  induction path as [|nm rest IH]; intros m t Hs Ht; cbn [tgt_at] in Ht.
  - inversion Ht; subst. exact Hs.
  - destruct (Spec.alookup nm (Spec.b_ents m)) as [[v|o x es]|] eqn:El; [discriminate| |].
    + apply (IH (SBucket o x es)); [|exact Ht]. destruct m as [v'|o' x' es']; [discriminate|].
      cbn [Spec.b_ents] in El. eapply SpecPathFacts.sorted_rec_child; eauto.
    + apply (IH (SBucket 0 0 [])); [reflexivity | exact Ht].
Qed.

Lemma op_fun_bucket : forall o b, SpecPathFacts.is_bucket b = true -> SpecPathFacts.is_bucket (op_fun o b) = true.
Proof.
  intros o [v|ob xb esb] Hb; [discriminate|].
  destruct o as [p k v|p k|p nm|p]; cbn [op_fun]; [| | |reflexivity].
  - unfold sem_put. cbn [Spec.b_ents]. destruct (Spec.alookup k esb) as [[old|? ? ?]|]; reflexivity.
  - unfold sem_del. cbn [Spec.b_ents]. destruct (Spec.alookup k esb) as [[old|? ? ?]|]; reflexivity.
  - unfold sem_delb. cbn [Spec.b_ents]. destruct (Spec.alookup nm esb) as [[old|? ? ?]|]; reflexivity.
Qed.

(* after the operation, the bucket at the path is [f] of the target *)
Lemma sem_at_target : forall path f m t,
  (forall b, SpecPathFacts.is_bucket b = true -> SpecPathFacts.is_bucket (f b) = true) ->
  SpecPathFacts.is_bucket m = true -> tgt_at path m = Some t ->
  SpecPathFacts.is_bucket t = true /\
  exists m', sem_at path f m = Some m' /\ SpecPathFacts.is_bucket m' = true /\ Spec.get_at path m' = Some (f t).
Proof.
  induction path as [|nm rest IH]; intros f m t Hf Hb Ht; cbn [tgt_at] in Ht.
  - inversion Ht; subst t. split; [exact Hb|]. exists (f m). cbn [sem_at Spec.get_at]. auto.
  - cbn [sem_at]. destruct (Spec.alookup nm (Spec.b_ents m)) as [[v|o x es]|] eqn:El; [discriminate| |].
    + destruct (IH f (SBucket o x es) t Hf eq_refl Ht) as (Hbt & c' & Hs & Hbc & Hg). split; [exact Hbt|].
      rewrite Hs. eexists. split; [reflexivity|]. split; [reflexivity|].
      cbn [Spec.get_at set_ents Spec.b_ents]. rewrite alookup_ainsert, beq_refl. exact Hg.
    + destruct (IH f (SBucket 0 0 []) t Hf eq_refl Ht) as (Hbt & c' & Hs & Hbc & Hg). split; [exact Hbt|].
      rewrite Hs. eexists. split; [reflexivity|]. split; [reflexivity|].
      cbn [Spec.get_at set_ents Spec.b_ents]. rewrite alookup_ainsert, beq_refl. exact Hg.
Qed.

Lemma sem_at_no_target : forall path f m, tgt_at path m = None -> sem_at path f m = None.
Proof.
  induction path as [|nm rest IH]; intros f m Ht; cbn [tgt_at] in Ht; [discriminate|]. cbn [sem_at].
  destruct (Spec.alookup nm (Spec.b_ents m)) as [[v|o x es]|]; [reflexivity| |].
  - now rewrite (IH f _ Ht).
  - rewrite tgt_at_fresh in Ht. discriminate.
Qed.

Lemma tgt_none_lookup : forall path m q k, tgt_at path m = None -> ref_lookup (path ++ q) m k = RdIncompat.
Proof.
  induction path as [|nm rest IH]; intros m q k Ht; cbn [tgt_at] in Ht; [discriminate|].
  cbn [app ref_lookup]. destruct (Spec.alookup nm (Spec.b_ents m)) as [[v|o x es]|]; [reflexivity| |].
  - now apply IH.
  - rewrite tgt_at_fresh in Ht. discriminate.
Qed.

(* a put / delete of [k] at [path] is carried out (not refused) iff a read of [k] at [path] BEFORE it does not
   answer IncompatibleValue (a plain value on the path) and does not answer a bucket entry ([k] names a bucket) *)
Definition kv_accepted (path : list bytes) (k : bytes) (m : snode) : Prop :=
  match ref_lookup path m k with
  | RdIncompat => False
  | RdEnt (Some (SBucket _ _ _)) => False
  | _ => True
  end.

Lemma kv_accepted_tgt : forall path k m, kv_accepted path k m ->
  exists t, tgt_at path m = Some t /\
    (Spec.alookup k (Spec.b_ents t) = None \/ exists v0, Spec.alookup k (Spec.b_ents t) = Some (SVal v0)).
Proof.
  intros path k m H. unfold kv_accepted in H. pose proof (tgt_ref_lookup path m k) as Ht.
  destruct (ref_lookup path m k) as [[[v0|o x es]|]| |]; try contradiction.
  - destruct Ht as (t & Ht & Hl). exists t. split; [exact Ht|]. right. eauto.
  - destruct Ht as (t & Ht & Hl). exists t. split; [exact Ht|]. now left.
  - exists (SBucket 0 0 []). split; [exact Ht|]. now left.
Qed.

Lemma sem_put_read : forall path k v m, SpecPathFacts.is_bucket m = true -> kv_accepted path k m ->
  ref_lookup path (sem_op (Put path k v) m) k = RdEnt (Some (SVal v)).
Proof.
  intros path k v m Hb Hacc. destruct (kv_accepted_tgt path k m Hacc) as (t & Ht & Hl).
  destruct (sem_at_target path (sem_put k v) m t (op_fun_bucket (Put path k v)) Hb Ht) as (Hbt & m' & Hs & Hbm & Hg).
  unfold sem_op. cbn [op_path op_fun]. rewrite Hs.
  rewrite (ref_lookup_at path m' _ k Hg (op_fun_bucket (Put path k v) t Hbt)). f_equal.
  unfold sem_put. destruct Hl as [Hl | [v0 Hl]]; rewrite Hl; cbn [set_ents Spec.b_ents];
    now rewrite alookup_ainsert, beq_refl.
Qed.

Lemma sem_del_read : forall path k m, SpecPathFacts.wf m -> kv_accepted path k m ->
  ref_lookup path (sem_op (Del path k) m) k = RdEnt None.
Proof.
  intros path k m [Hb Hsm] Hacc. destruct (kv_accepted_tgt path k m Hacc) as (t & Ht & Hl).
  destruct (sem_at_target path (sem_del k) m t (op_fun_bucket (Del path k)) Hb Ht) as (Hbt & m' & Hs & Hbm & Hg).
  pose proof (tgt_at_sorted path m t Hsm Ht) as Hst.
  unfold sem_op. cbn [op_path op_fun]. rewrite Hs.
  rewrite (ref_lookup_at path m' _ k Hg (op_fun_bucket (Del path k) t Hbt)). f_equal.
  unfold sem_del. destruct Hl as [Hl | [v0 Hl]]; rewrite Hl; [exact Hl|]. cbn [set_ents Spec.b_ents].
  destruct t as [v'|o x es]; [discriminate|]. apply SpecPathFacts.sorted_rec_bucket in Hst. destruct Hst as [Hst _].
  cbn [Spec.b_ents]. now rewrite (alookup_aremove es k k Hst), beq_refl.
Qed.

(* after delete_bucket [nm] at [path], the path [path ++ [nm]] does not lead to a bucket -- whether or not the
   operation was carried out; the error is the one a read BEFORE it tells *)
Lemma sem_delb_read : forall path nm m k', SpecPathFacts.wf m ->
  ref_lookup (path ++ [nm]) (sem_op (DelB path nm) m) k' =
  match ref_lookup path m nm with
  | RdIncompat | RdEnt (Some (SVal _)) => RdIncompat
  | _ => RdMissing
  end.
Proof.
  intros path nm m k' [Hb Hsm]. pose proof (tgt_ref_lookup path m nm) as Ht.
  unfold sem_op. cbn [op_path op_fun].
  assert (Hgen : forall t, tgt_at path m = Some t ->
            ref_lookup (path ++ [nm]) (match sem_at path (sem_delb nm) m with Some r => r | None => m end) k' =
            match Spec.alookup nm (Spec.b_ents t) with Some (SVal _) => RdIncompat | _ => RdMissing end).
  { intros t Htt.
    destruct (sem_at_target path (sem_delb nm) m t (op_fun_bucket (DelB path nm)) Hb Htt) as (Hbt & m' & Hs & Hbm & Hg).
    pose proof (tgt_at_sorted path m t Hsm Htt) as Hst. rewrite Hs.
    rewrite (ref_lookup_app path m' _ [nm] k' Hg (op_fun_bucket (DelB path nm) t Hbt)).
    cbn [ref_lookup op_fun]. unfold sem_delb.
    destruct (Spec.alookup nm (Spec.b_ents t)) as [[v0|o x es]|] eqn:El.
    - now rewrite El.
    - cbn [set_ents Spec.b_ents]. destruct t as [v'|ot xt est]; [discriminate|].
      apply SpecPathFacts.sorted_rec_bucket in Hst. destruct Hst as [Hst _]. cbn [Spec.b_ents].
      now rewrite (alookup_aremove est nm nm Hst), beq_refl.
    - now rewrite El. }
  destruct (ref_lookup path m nm) as [o| |].
  - destruct Ht as (t & Htt & Hl). rewrite (Hgen t Htt), Hl. destruct o as [[v0|? ? ?]|]; reflexivity.
  - rewrite (Hgen _ Ht). reflexivity.
  - rewrite (sem_at_no_target path (sem_delb nm) m Ht). now apply tgt_none_lookup.
Qed.

(** * C07, the special cases: own put, own delete, own delete_bucket *)

Theorem tx_read_own_put : forall st ops path k v root' s', db_pages_wf st ->
  Forall (op_ok (d_disk st)) (ops ++ [Put path k v]) ->
  tx_fold st (ops ++ [Put path k v]) (root_bucket st, begin_w st) = Ok (root', s') ->
  kv_accepted path k (sem_tx ops (abs_db st)) ->
  ovl_lookup (d_disk st) root' path k = Ok (Some (LKv k v)).
Proof.
  intros st ops path k v root' s' Hdb Hok Hf Hacc.
  pose proof (tx_reads st _ root' s' Hdb Hok Hf path k) as H.
  rewrite sem_tx_snoc, (sem_put_read path k v _ (proj1 (sem_tx_wf st ops Hdb)) Hacc) in H.
  destruct H as (e & He & Hm). rewrite He. inversion Hm; subst. reflexivity.
Qed.

Theorem tx_read_own_del : forall st ops path k root' s', db_pages_wf st ->
  Forall (op_ok (d_disk st)) (ops ++ [Del path k]) ->
  tx_fold st (ops ++ [Del path k]) (root_bucket st, begin_w st) = Ok (root', s') ->
  kv_accepted path k (sem_tx ops (abs_db st)) ->
  ovl_lookup (d_disk st) root' path k = Ok None.
Proof.
  intros st ops path k root' s' Hdb Hok Hf Hacc.
  pose proof (tx_reads st _ root' s' Hdb Hok Hf path k) as H.
  rewrite sem_tx_snoc, (sem_del_read path k _ (sem_tx_wf st ops Hdb) Hacc) in H.
  destruct H as (e & He & Hm). rewrite He. inversion Hm; subst. reflexivity.
Qed.

(* unconditional: [path ++ [nm]] is not a bucket afterwards (when the delete is refused because [nm] is a plain
   value or the path runs through one, it was not a bucket before either) *)
Theorem tx_read_own_delb : forall st ops path nm root' s', db_pages_wf st ->
  Forall (op_ok (d_disk st)) (ops ++ [DelB path nm]) ->
  tx_fold st (ops ++ [DelB path nm]) (root_bucket st, begin_w st) = Ok (root', s') ->
  forall k', ovl_lookup (d_disk st) root' (path ++ [nm]) k' =
    match ref_lookup path (sem_tx ops (abs_db st)) nm with
    | RdIncompat | RdEnt (Some (SVal _)) => Err "IncompatibleValue"%string
    | _ => Err "BucketMissing"%string
    end.
Proof.
  intros st ops path nm root' s' Hdb Hok Hf k'.
  pose proof (tx_reads st _ root' s' Hdb Hok Hf (path ++ [nm]) k') as H.
  rewrite sem_tx_snoc, (sem_delb_read path nm _ k' (sem_tx_wf st ops Hdb)) in H.
  destruct (ref_lookup path (sem_tx ops (abs_db st)) nm) as [[[v0|? ? ?]|]| |]; exact H.
Qed.

(* in particular: a bucket that existed is gone *)
Corollary tx_read_deleted_bucket : forall st ops path nm root' s' o x es o' x' es', db_pages_wf st ->
  Forall (op_ok (d_disk st)) (ops ++ [DelB path nm]) ->
  tx_fold st (ops ++ [DelB path nm]) (root_bucket st, begin_w st) = Ok (root', s') ->
  Spec.get_at path (sem_tx ops (abs_db st)) = Some (SBucket o x es) ->
  Spec.alookup nm es = Some (SBucket o' x' es') ->
  forall k', ovl_lookup (d_disk st) root' (path ++ [nm]) k' = Err "BucketMissing"%string.
Proof.
  intros st ops path nm root' s' o x es o' x' es' Hdb Hok Hf Hg Hl k'.
  rewrite (tx_read_own_delb st ops path nm root' s' Hdb Hok Hf k').
  rewrite (ref_lookup_bucket path _ nm o x es Hg), Hl. reflexivity.
Qed.

(* [kv_accepted] at a bucket that holds no nested bucket under k *)
Lemma kv_accepted_at_bucket : forall path k m o x es, Spec.get_at path m = Some (SBucket o x es) ->
  (forall o' x' es', Spec.alookup k es <> Some (SBucket o' x' es')) -> kv_accepted path k m.
Proof.
  intros path k m o x es Hg Hn. unfold kv_accepted. rewrite (ref_lookup_bucket path m k o x es Hg).
  destruct (Spec.alookup k es) as [[v|o' x' es']|]; [exact I | | exact I]. exact (Hn o' x' es' eq_refl).
Qed.

(** * Examples on [ex2_db] (bucket "b" stored on disk with "e"; "c" created in the transaction) *)

(* the overlay after  put c/d := 03 ; put b/f := 04 *)
Example ex2_reads_computed :
  (* committed value, untouched *)
  ovl_lookup ex2_disk ex2_root1 [] kA = Ok (Some (LKv kA [x01])) /\
  (* own write into the bucket created in this transaction *)
  ovl_lookup ex2_disk ex2_root1 [kC] kD = Ok (Some (LKv kD [x03])) /\
  (* own write into the stored bucket, and its committed neighbour *)
  ovl_lookup ex2_disk ex2_root1 [kB] kF = Ok (Some (LKv kF [x04])) /\
  ovl_lookup ex2_disk ex2_root1 [kB] kE = Ok (Some (LKv kE [x02])) /\
  ovl_lookup ex2_disk ex2_root1 [kB] kA = Ok None /\
  (* bucket entries *)
  ovl_lookup ex2_disk ex2_root1 [] kB = Ok (Some (LBk kB 4 1)) /\
  ovl_lookup ex2_disk ex2_root1 [] kC = Ok (Some (LBk kC 0 0)) /\
  (* not buckets *)
  ovl_lookup ex2_disk ex2_root1 [kA] kA = Err "IncompatibleValue"%string /\
  ovl_lookup ex2_disk ex2_root1 [kG] kA = Err "BucketMissing"%string /\
  ovl_lookup ex2_disk ex2_root1 [kB; kE; kA] kA = Err "IncompatibleValue"%string /\
  (* a fresh transaction reads the stored bucket without opening it *)
  ovl_lookup ex2_disk (root_bucket ex2_db) [kB] kE = Ok (Some (LKv kE [x02])) /\
  ovl_lookup ex2_disk (root_bucket ex2_db) [kB] kF = Ok None.
Proof. vm_compute. repeat split; reflexivity. Qed.

Lemma ex2_ops_ok : Forall (op_ok ex2_disk) ex2_ops.
Proof. repeat constructor; cbn; try lia; exact ex2_free_tree_ok. Qed.

(* all four kinds of operation ([ex2_ops], meaning [ex2_m2]): the theorem applies, and what it says is observed *)
Example ex2_tx_reads :
  exists root' s', tx_fold ex2_db ex2_ops (root_bucket ex2_db, begin_w ex2_db) = Ok (root', s') /\
    (forall path k, rd_matches k (ref_lookup path ex2_m2 k) (ovl_lookup ex2_disk root' path k)) /\
    (* "a" was a value, deleted, then created as a bucket by put a/a := 07 *)
    ovl_lookup ex2_disk root' [] kA = Ok (Some (LBk kA 0 0)) /\
    ovl_lookup ex2_disk root' [kA] kA = Ok (Some (LKv kA [x07])) /\
    (* the stored bucket "b" was deleted and created again: its old keys are gone *)
    ovl_lookup ex2_disk root' [kB] kE = Ok None /\
    ovl_lookup ex2_disk root' [kB] kF = Ok None /\
    ovl_lookup ex2_disk root' [kB; kB] kB = Ok (Some (LKv kB [x09])) /\
    (* g/g was created by Touch and deleted by delete_bucket *)
    ovl_lookup ex2_disk root' [kG; kG] kA = Err "BucketMissing"%string /\
    ovl_lookup ex2_disk root' [kG] kG = Ok None /\
    (* c/d is a value: put c/d/a was refused *)
    ovl_lookup ex2_disk root' [kC; kD] kA = Err "IncompatibleValue"%string /\
    ovl_lookup ex2_disk root' [kC] kD = Ok (Some (LKv kD [x03])).
Proof.
  destruct (ops_refine ex2_db ex2_ops ex2_db_wf ex2_ops_ok) as (root' & s' & Hf & _).
  exists root', s'. split; [exact Hf|]. split.
  - exact (tx_reads ex2_db ex2_ops root' s' ex2_db_wf ex2_ops_ok Hf).
  - vm_compute in Hf. inversion Hf; subst root' s'. vm_compute. repeat split; reflexivity.
Qed.

(* the special cases, instantiated after [ex2_ops0] *)
Example ex2_own_ops :
  (* put b/g/a := 05: "b" is stored and open, "g" is created inside it by the put *)
  (exists root' s', tx_fold ex2_db (ex2_ops0 ++ [Put [kB; kG] kA [x05]]) (root_bucket ex2_db, begin_w ex2_db) = Ok (root', s') /\
     ovl_lookup ex2_disk root' [kB; kG] kA = Ok (Some (LKv kA [x05]))) /\
  (* delete b/e (a committed key of the stored bucket) *)
  (exists root' s', tx_fold ex2_db (ex2_ops0 ++ [Del [kB] kE]) (root_bucket ex2_db, begin_w ex2_db) = Ok (root', s') /\
     ovl_lookup ex2_disk root' [kB] kE = Ok None) /\
  (* delete_bucket b *)
  (exists root' s', tx_fold ex2_db (ex2_ops0 ++ [DelB [] kB]) (root_bucket ex2_db, begin_w ex2_db) = Ok (root', s') /\
     forall k', ovl_lookup ex2_disk root' [kB] k' = Err "BucketMissing"%string).
Proof.
  assert (Hok : forall o, op_ok ex2_disk o -> Forall (op_ok (d_disk ex2_db)) (ex2_ops0 ++ [o])).
  { intros o Ho. apply Forall_app. split; [exact ex2_ops0_ok | constructor; [exact Ho | constructor]]. }
  split; [|split].
  - assert (H : Forall (op_ok (d_disk ex2_db)) (ex2_ops0 ++ [Put [kB; kG] kA [x05]])) by (apply Hok; split; cbn; [lia | exact I]).
    destruct (ops_refine ex2_db _ ex2_db_wf H) as (root' & s' & Hf & _). exists root', s'. split; [exact Hf|].
    apply (tx_read_own_put ex2_db ex2_ops0 [kB; kG] kA [x05] root' s' ex2_db_wf H Hf). vm_compute. exact I.
  - assert (H : Forall (op_ok (d_disk ex2_db)) (ex2_ops0 ++ [Del [kB] kE])) by (apply Hok; split; cbn; [lia | exact I]).
    destruct (ops_refine ex2_db _ ex2_db_wf H) as (root' & s' & Hf & _). exists root', s'. split; [exact Hf|].
    apply (tx_read_own_del ex2_db ex2_ops0 [kB] kE root' s' ex2_db_wf H Hf). vm_compute. exact I.
  - assert (H : Forall (op_ok (d_disk ex2_db)) (ex2_ops0 ++ [DelB [] kB])) by (apply Hok; split; cbn; [lia | exact ex2_free_tree_ok]).
    destruct (ops_refine ex2_db _ ex2_db_wf H) as (root' & s' & Hf & _). exists root', s'. split; [exact Hf|].
    intros k'. exact (tx_read_own_delb ex2_db ex2_ops0 [] kB root' s' ex2_db_wf H Hf k').
Qed.

(* [kv_accepted] cannot be dropped from [tx_read_own_put]: a put on a key that names a bucket is refused
   (IncompatibleValue, absorbed by run_tx's [soft]) and the read still answers the bucket entry *)
Example ex2_put_refused :
  ~ kv_accepted [] kB (sem_tx [] (abs_db ex2_db)) /\
  exists root' s', tx_fold ex2_db ([] ++ [Put [] kB [x05]]) (root_bucket ex2_db, begin_w ex2_db) = Ok (root', s') /\
    ovl_lookup ex2_disk root' [] kB = Ok (Some (LBk kB 4 1)).
Proof.
  split; [vm_compute; intros H; exact H|].
  (* evaluate the fold first: [vm_compute] on a goal that still has the two existentials open falls back to [cbv] *)
  destruct (tx_fold ex2_db ([] ++ [Put [] kB [x05]]) (root_bucket ex2_db, begin_w ex2_db)) as [[root' s']| |] eqn:E;
    vm_compute in E; inversion E; subst root' s'.
  eexists _, _. split; [reflexivity|]. vm_compute. reflexivity.
Qed.

Print Assumptions ovl_bucket_refines.
Print Assumptions ovl_get_lookup.
Print Assumptions ovl_lookup_refines.
Print Assumptions ovl_lookup_at_bucket.
Print Assumptions ovl_lookup_at_value.
Print Assumptions ovl_lookup_at_none.
Print Assumptions tx_reads.
Print Assumptions tx_reads_get_at.
Print Assumptions tx_reads_prefix.
Print Assumptions tx_read_own_put.
Print Assumptions tx_read_own_del.
Print Assumptions tx_read_own_delb.
Print Assumptions tx_read_deleted_bucket.
Print Assumptions abs_db_wf.
Print Assumptions ex2_reads_computed.
Print Assumptions ex2_tx_reads.
Print Assumptions ex2_own_ops.
Print Assumptions ex2_put_refused.
