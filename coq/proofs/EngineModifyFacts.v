(* Tree-level point operations of the write-path model [Engine] refine the reference map.
   [PageView] / [NodeView] give the logical content (list of leaf entries) of a tree of disk pages / of an
   overlay node; [wf_page] / [wf_node] are the search invariant (sorted leaves, sorted separators, distinct
   child pages, every child's keys within its separator interval -- child 0 has NO lower bound).  On a
   well-formed node, lookup is [Spec.alookup] in the view, and [modify] is [apply_lop] on the view, keeps the
   invariant, touches only [seqc], never panics, and succeeds when the fuel covers the height. *)
From Coq Require Import List NArith Bool Arith Lia ZifyN ZifyNat ZifyBool.
From Coq.Strings Require Import Byte.
From Jamm Require Import ListFacts Bytes Tree Spec Cursor SearchFacts Engine EngineMergeFacts EngineFacts.
Import ListNotations.
Import Coq.Strings.String.StringSyntax. Delimit Scope string_scope with string.
Local Open Scope list_scope. Local Open Scope nat_scope.

Lemma replace_at_length : forall {A} (l : list A) i x, length (replace_at l i x) = length l.
Proof.
  intros A. induction l as [|a l IH]; intros [|i] x; cbn [replace_at length]; auto.
Qed.

Lemma replace_at_nth_same : forall {A} (l : list A) i x, i < length l ->
  nth_error (replace_at l i x) i = Some x.
Proof.
  intros A. induction l as [|a l IH]; intros [|i] x Hi; cbn [length] in Hi; try lia;
    cbn [replace_at nth_error]; [reflexivity|]. apply IH. lia.
Qed.

Lemma replace_at_nth_other : forall {A} (l : list A) i j x, i <> j ->
  nth_error (replace_at l i x) j = nth_error l j.
Proof.
  intros A. induction l as [|a l IH]; intros [|i] [|j] x Hij; cbn [replace_at nth_error]; try reflexivity;
    try congruence. apply IH. congruence.
Qed.

Lemma replace_at_split : forall {A} (l : list A) i x y, nth_error l i = Some y ->
  l = firstn i l ++ y :: skipn (S i) l /\ replace_at l i x = firstn i l ++ x :: skipn (S i) l.
Proof.
  intros A. induction l as [|a l IH]; intros [|i] x y H; cbn [nth_error] in H; try discriminate.
  - inversion H; subst. split; reflexivity.
  - destruct (IH i x y H) as [H1 H2]. cbn [replace_at firstn skipn app]. split; f_equal; assumption.
Qed.

Lemma nth_error_nth_map : forall {A} (f : A -> bytes) l j e,
  nth_error l j = Some e -> nth j (map f l) [] = f e.
Proof.
  intros A f l j e H. apply (map_nth_error f) in H. now apply nth_error_nth.
Qed.

(** * Views: the logical content of a page / an overlay node *)

(* [PageView d h p l]: the tree of disk pages rooted at [p] has height at most [h] and its leaf
   entries, left to right, are [l] *)
Inductive PageView (d : disk) : nat -> N -> list leafent -> Prop :=
| PV_leaf : forall h p a l,
    dget d p = Some a -> ap_body a = Leaves l -> PageView d (S h) p l
| PV_branch : forall h p a es ls,
    dget d p = Some a -> ap_body a = Branches es ->
    Forall2 (fun e l => PageView d h (snd e) l) es ls ->
    PageView d (S h) p (concat ls).

(* the child named by a branch entry: the materialised kid with that page id if there is one
   (the FIRST such, as [find_kid] finds it), else the disk page *)
Inductive NodeView (d : disk) : nat -> node -> list leafent -> Prop :=
| NV_leaf : forall h p np og sq l ks,
    NodeView d (S h) (Node p np og sq (Leaves l) ks) l
| NV_branch : forall h p np og sq es ks ls,
    Forall2 (fun e l => (exists kd, find_kid (snd e) ks = Some kd /\ NodeView d h kd l) \/
                        (find_kid (snd e) ks = None /\ PageView d h (snd e) l)) es ls ->
    NodeView d (S h) (Node p np og sq (Branches es) ks) (concat ls).

Definition PageViews (d : disk) (p : N) (l : list leafent) : Prop := exists h, PageView d h p l.
Definition Views (d : disk) (n : node) (l : list leafent) : Prop := exists h, NodeView d h n l.
Definition ChildView (d : disk) (h : nat) (ks : list node) (q : N) (l : list leafent) : Prop :=
  match find_kid q ks with Some kd => NodeView d h kd l | None => PageView d h q l end.
Definition ChildViews (d : disk) (ks : list node) (q : N) (l : list leafent) : Prop :=
  exists h, ChildView d h ks q l.

(** * Well-formedness *)

Definition seps_ok (es : list (bytes * N)) : Prop :=
  es <> [] /\ sorted_keys (map fst es) = true /\ NoDup (map snd es).

(* the keys of child [j] (content [l]) lie in its separator interval:
   >= sep_j unless j = 0 (child 0 has no lower bound), < sep_{j+1} unless j is the last child *)
Definition in_range (seps : list bytes) (j : nat) (l : list leafent) : Prop :=
  (1 <= j -> Forall (fun e => bcmp (nth j seps []) (lkey e) <> Gt) l) /\
  (S j < length seps -> Forall (fun e => bcmp (lkey e) (nth (S j) seps []) = Lt) l).

Inductive wf_page (d : disk) : N -> Prop :=
| wfp_leaf : forall p a l,
    dget d p = Some a -> ap_body a = Leaves l -> sorted_keys (map lkey l) = true -> wf_page d p
| wfp_branch : forall p a es,
    dget d p = Some a -> ap_body a = Branches es -> seps_ok es ->
    Forall (fun e => wf_page d (snd e)) es ->
    (forall j e l, nth_error es j = Some e -> PageViews d (snd e) l -> in_range (map fst es) j l) ->
    wf_page d p.

Inductive wf_node (d : disk) : node -> Prop :=
| wfn_leaf : forall p np og sq l ks,
    sorted_keys (map lkey l) = true -> wf_node d (Node p np og sq (Leaves l) ks)
| wfn_branch : forall p np og sq es ks,
    seps_ok es ->
    Forall (fun e => (exists kd, find_kid (snd e) ks = Some kd /\ wf_node d kd) \/
                     (find_kid (snd e) ks = None /\ wf_page d (snd e))) es ->
    (forall j e l, nth_error es j = Some e -> ChildViews d ks (snd e) l -> in_range (map fst es) j l) ->
    wf_node d (Node p np og sq (Branches es) ks).

(* the disjunction under [Forall] in [wfn_branch], as a function of [find_kid] *)
Definition ChildWf (d : disk) (ks : list node) (q : N) : Prop :=
  match find_kid q ks with Some kd => wf_node d kd | None => wf_page d q end.

Lemma child_view_iff : forall d h ks q l,
  ((exists kd, find_kid q ks = Some kd /\ NodeView d h kd l) \/ (find_kid q ks = None /\ PageView d h q l))
  <-> ChildView d h ks q l.
Proof.
  intros d h ks q l. unfold ChildView. split.
  - intros [(kd & Hk & Hv) | (Hk & Hv)]; rewrite Hk; exact Hv.
  - destruct (find_kid q ks) as [kd|]; intros H; [left; eauto | right; auto].
Qed.

Lemma child_wf_iff : forall d ks q,
  ((exists kd, find_kid q ks = Some kd /\ wf_node d kd) \/ (find_kid q ks = None /\ wf_page d q))
  <-> ChildWf d ks q.
Proof.
  intros d ks q. unfold ChildWf. split.
  - intros [(kd & Hk & Hv) | (Hk & Hv)]; rewrite Hk; exact Hv.
  - destruct (find_kid q ks) as [kd|]; intros H; [left; eauto | right; auto].
Qed.

Lemma NodeView_branch_intro : forall d h p np og sq es ks ls,
  Forall2 (fun e l => ChildView d h ks (snd e) l) es ls ->
  NodeView d (S h) (Node p np og sq (Branches es) ks) (concat ls).
Proof.
  intros d h p np og sq es ks ls HF. apply NV_branch.
  eapply Forall2_impl; [|exact HF]. cbn beta. intros e l H. now apply child_view_iff.
Qed.

Lemma NodeView_branch_inv : forall d h p np og sq es ks l,
  NodeView d h (Node p np og sq (Branches es) ks) l ->
  exists h0 ls, h = S h0 /\ l = concat ls /\ Forall2 (fun e l => ChildView d h0 ks (snd e) l) es ls.
Proof.
  intros d h p np og sq es ks l H. inversion H as [|h0 ? ? ? ? ? ? ls HF]; subst.
  exists h0, ls. split; [reflexivity|]. split; [reflexivity|].
  eapply Forall2_impl; [|exact HF]. cbn beta. intros e l H1. now apply child_view_iff.
Qed.

Lemma NodeView_leaf_inv : forall d h p np og sq l0 ks l,
  NodeView d h (Node p np og sq (Leaves l0) ks) l -> l = l0 /\ exists h0, h = S h0.
Proof. intros d h p np og sq l0 ks l H. inversion H; subst. eauto. Qed.

Lemma wf_node_branch_intro : forall d p np og sq es ks,
  seps_ok es -> Forall (fun e => ChildWf d ks (snd e)) es ->
  (forall j e l, nth_error es j = Some e -> ChildViews d ks (snd e) l -> in_range (map fst es) j l) ->
  wf_node d (Node p np og sq (Branches es) ks).
Proof.
  intros d p np og sq es ks Hs HF Hr. apply wfn_branch; [exact Hs| |exact Hr].
  eapply Forall_impl; [|exact HF]. cbn beta. intros e H. now apply child_wf_iff.
Qed.

Lemma wf_node_branch_inv : forall d p np og sq es ks,
  wf_node d (Node p np og sq (Branches es) ks) ->
  seps_ok es /\ Forall (fun e => ChildWf d ks (snd e)) es /\
  (forall j e l, nth_error es j = Some e -> ChildViews d ks (snd e) l -> in_range (map fst es) j l).
Proof.
  intros d p np og sq es ks H. inversion H as [|? ? ? ? ? ? Hs HF Hr]; subst.
  split; [exact Hs|]. split; [|exact Hr].
  eapply Forall_impl; [|exact HF]. cbn beta. intros e H1. now apply child_wf_iff.
Qed.

(** * Views are functional *)

Lemma PageView_det : forall d h p l, PageView d h p l -> forall h' l', PageView d h' p l' -> l = l'.
Proof.
  intros d. induction h as [|h IH]; intros p l H h' l' H'; [inversion H|].
  inversion H as [? ? a l0 Hg Hb | ? ? a es ls Hg Hb HF]; subst;
    inversion H' as [? ? a' l0' Hg' Hb' | ? ? a' es' ls' Hg' Hb' HF']; subst;
    rewrite Hg in Hg'; inversion Hg'; subst a'; rewrite Hb in Hb'; inversion Hb'; subst; [reflexivity|].
  f_equal. eapply Forall2_det; [|exact HF|exact HF']. cbn beta. intros e y y' Hy Hy'. eapply IH; eauto.
Qed.

Lemma NodeView_det : forall d h n l, NodeView d h n l -> forall h' l', NodeView d h' n l' -> l = l'.
Proof.
  intros d. induction h as [|h IH]; intros n l H h' l' H'; [inversion H|].
  destruct n as [p np og sq [l0|es] ks].
  - apply NodeView_leaf_inv in H, H'. destruct H as [-> _], H' as [-> _]. reflexivity.
  - apply NodeView_branch_inv in H, H'.
    destruct H as (h0 & ls & E & -> & HF), H' as (h0' & ls' & -> & -> & HF'). inversion E; subst h0.
    f_equal. eapply Forall2_det; [|exact HF|exact HF']. cbn beta. unfold ChildView.
    intros e y y' Hy Hy'. destruct (find_kid (snd e) ks) as [kd|].
    + eapply IH; eauto.
    + eapply PageView_det; eauto.
Qed.

Lemma Views_det : forall d n l l', Views d n l -> Views d n l' -> l = l'.
Proof. intros d n l l' [h H] [h' H']. eapply NodeView_det; eauto. Qed.

Lemma ChildViews_det : forall d ks q l l', ChildViews d ks q l -> ChildViews d ks q l' -> l = l'.
Proof.
  intros d ks q l l' [h H] [h' H']. unfold ChildView in *. destruct (find_kid q ks).
  - eapply NodeView_det; eauto.
  - eapply PageView_det; eauto.
Qed.

Lemma PageView_mono : forall d h p l, PageView d h p l -> forall h', h <= h' -> PageView d h' p l.
Proof.
  intros d. induction h as [|h IH]; intros p l H h' Hle; [inversion H|].
  destruct h' as [|h']; [lia|].
  inversion H as [? ? a l0 Hg Hb | ? ? a es ls Hg Hb HF]; subst.
  - eapply PV_leaf; eauto.
  - eapply PV_branch; eauto. eapply Forall2_impl; [|exact HF]. cbn beta. intros e y Hy.
    apply (IH _ _ Hy). lia.
Qed.

Lemma NodeView_mono : forall d h n l, NodeView d h n l -> forall h', h <= h' -> NodeView d h' n l.
Proof.
  intros d. induction h as [|h IH]; intros n l H h' Hle; [inversion H|].
  destruct h' as [|h']; [lia|].
  destruct n as [p np og sq [l0|es] ks].
  - apply NodeView_leaf_inv in H. destruct H as [-> _]. apply NV_leaf.
  - apply NodeView_branch_inv in H. destruct H as (h0 & ls & E & -> & HF). inversion E; subst h0.
    apply NodeView_branch_intro. eapply Forall2_impl; [|exact HF]. cbn beta. unfold ChildView.
    intros e y Hy. destruct (find_kid (snd e) ks).
    + apply (IH _ _ Hy). lia.
    + apply (PageView_mono _ _ _ _ Hy). lia.
Qed.

Lemma node_of_page_view : forall d h q a sq l,
  dget d q = Some a -> PageView d h q l -> NodeView d h (node_of_page q a sq) l.
Proof.
  intros d h q a sq l Hg H. unfold node_of_page.
  inversion H as [? ? a' l0 Hg' Hb | ? ? a' es ls Hg' Hb HF]; subst;
    rewrite Hg in Hg'; inversion Hg'; subst a'; rewrite Hb.
  - apply NV_leaf.
  - apply NodeView_branch_intro. eapply Forall2_impl; [|exact HF]. cbn beta. intros e l H1. exact H1.
Qed.

Lemma node_of_page_wf : forall d q a sq,
  dget d q = Some a -> wf_page d q -> wf_node d (node_of_page q a sq).
Proof.
  intros d q a sq Hg H. unfold node_of_page.
  inversion H as [? a' l0 Hg' Hb Hs | ? a' es Hg' Hb Hs HF Hr]; subst;
    rewrite Hg in Hg'; inversion Hg'; subst a'; rewrite Hb.
  - now apply wfn_leaf.
  - apply wf_node_branch_intro; [exact Hs| |].
    + eapply Forall_impl; [|exact HF]. cbn beta. intros e H1. exact H1.
    + intros j e l Hj [h Hv]. eapply Hr; [exact Hj|]. exists h. exact Hv.
Qed.

(** * Child selection *)

(* what [index_of] picks in a branch: the last separator <= k, or child 0 when k is below all *)
Lemma index_of_branch : forall es k i ex, seps_ok es -> index_of (Branches es) k = (i, ex) ->
  N.to_nat i < length es /\
  (forall j', 1 <= j' -> j' <= N.to_nat i -> bcmp (nth j' (map fst es) []) k <> Gt) /\
  (forall j', N.to_nat i < j' -> j' < length es -> bcmp (nth j' (map fst es) []) k = Gt).
Proof.
  intros es k i ex (Hne & Hs & _) H. unfold index_of in H. cbn [dkeys] in H.
  assert (Hlen : 0 < length es) by (destruct es; [congruence | cbn [length]; lia]).
  destruct (Engine.bsearch (map fst es) k) as [[|] i0] eqn:Eb; inversion H; subst; clear H.
  - pose proof (ebsearch_found _ _ _ Hs Eb) as Hn.
    assert (Hi : N.to_nat i < length (map fst es)) by (apply nth_error_Some; congruence).
    assert (Hk : nth (N.to_nat i) (map fst es) [] = k) by exact (nth_error_nth _ _ _ Hn).
    rewrite map_length in Hi.
    split; [exact Hi|]. split.
    + intros j' _ Hj'. destruct (Nat.eq_dec j' (N.to_nat i)) as [->|Hne'].
      * rewrite Hk, OrderFacts.bcmp_refl. discriminate.
      * pose proof (sorted_keys_nth _ Hs j' (N.to_nat i)) as Hlt. rewrite map_length in Hlt.
        rewrite Hk in Hlt. rewrite Hlt by lia. discriminate.
    + intros j' Hj1 Hj2. pose proof (sorted_keys_nth _ Hs (N.to_nat i) j') as Hlt.
      rewrite map_length, Hk in Hlt. apply OrderFacts.bcmp_lt_gt. apply Hlt. lia.
  - destruct (ebsearch_missing _ _ _ Hs Eb) as (Hi & Hlt & Hgt). rewrite map_length in Hi, Hgt.
    rewrite N2Nat.inj_pred. split; [lia|]. split.
    + intros j' Hj1 Hj2. rewrite Hlt by lia. discriminate.
    + intros j' Hj1 Hj2. apply Hgt. lia.
Qed.

Lemma in_concat_firstn : forall {A} (ls : list (list A)) j x, In x (concat (firstn j ls)) ->
  exists j' l, j' < j /\ nth_error ls j' = Some l /\ In x l.
Proof.
  intros A. induction ls as [|l0 ls IH]; intros [|j] x H; cbn [firstn concat] in H; try contradiction.
  apply in_app_or in H. destruct H as [H|H].
  - exists 0, l0. split; [lia|]. split; [reflexivity | exact H].
  - destruct (IH j x H) as (j' & l & Hj & Hn & Hx). exists (S j'), l. split; [lia|]. split; assumption.
Qed.

Lemma in_concat_skipn : forall {A} (ls : list (list A)) j x, In x (concat (skipn j ls)) ->
  exists j' l, j <= j' /\ nth_error ls j' = Some l /\ In x l.
Proof.
  intros A. induction ls as [|l0 ls IH]; intros j x H.
  - destruct j; cbn in H; contradiction.
  - destruct j as [|j].
    + cbn [skipn] in H. destruct (in_concat_nth _ _ H) as (j' & l & Hn & Hx).
      exists j', l. split; [lia|]. split; assumption.
    + cbn [skipn] in H. destruct (IH j x H) as (j' & l & Hj & Hn & Hx).
      exists (S j'), l. split; [lia|]. split; assumption.
Qed.

Definition all_lt (k : bytes) (l : list leafent) : Prop := Forall (fun e => bcmp (lkey e) k = Lt) l.
Definition all_gt (k : bytes) (l : list leafent) : Prop := Forall (fun e => bcmp k (lkey e) = Lt) l.

(* the children left of the selected one hold only keys < k, those right of it only keys > k *)
Lemma branch_sides : forall seps (ls : list (list leafent)) k j,
  sorted_keys seps = true -> length ls = length seps ->
  (forall j' l, nth_error ls j' = Some l -> in_range seps j' l) ->
  j < length seps ->
  (forall j', 1 <= j' -> j' <= j -> bcmp (nth j' seps []) k <> Gt) ->
  (forall j', j < j' -> j' < length seps -> bcmp (nth j' seps []) k = Gt) ->
  all_lt k (concat (firstn j ls)) /\ all_gt k (concat (skipn (S j) ls)).
Proof.
  intros seps ls k j Hs Hlen Hr Hj Hlo Hhi. split; apply Forall_forall; intros x Hx.
  - destruct (in_concat_firstn _ _ _ Hx) as (j' & l & Hj' & Hn & Hin).
    destruct (Hr j' l Hn) as [_ Hup]. specialize (Hup ltac:(lia)).
    rewrite Forall_forall in Hup. specialize (Hup x Hin).
    eapply bcmp_lt_le_trans; [exact Hup|]. apply Hlo; lia.
  - destruct (in_concat_skipn _ _ _ Hx) as (j' & l & Hj' & Hn & Hin).
    assert (Hj'' : j' < length seps).
    { rewrite <- Hlen. apply nth_error_Some. congruence. }
    destruct (Hr j' l Hn) as [Hdn _]. specialize (Hdn ltac:(lia)).
    rewrite Forall_forall in Hdn. specialize (Hdn x Hin).
    specialize (Hhi j' ltac:(lia) Hj''). apply OrderFacts.bcmp_lt_gt in Hhi.
    eapply bcmp_lt_le_trans; eauto.
Qed.

(** * The reference operations on a concatenation *)

Section AssocApp.
  Context {A : Type}.
  Implicit Types (a b : list (bytes * A)) (k : bytes) (v : A).
  Definition klt k a : Prop := Forall (fun x => bcmp x k = Lt) (map fst a).
  Definition kgt k a : Prop := Forall (fun x => bcmp k x = Lt) (map fst a).

  Lemma alookup_app_l : forall a b k, klt k a -> Spec.alookup k (a ++ b) = Spec.alookup k b.
  Proof.
    induction a as [|[k0 v0] a IH]; intros b k H; [reflexivity|].
    inversion H as [|? ? H0 H1]; subst. cbn [app Spec.alookup].
    apply bcmp_lt_gt in H0. rewrite H0. now apply IH.
  Qed.
  Lemma alookup_app_r : forall a b k, kgt k b -> Spec.alookup k (a ++ b) = Spec.alookup k a.
  Proof.
    induction a as [|[k0 v0] a IH]; intros b k H.
    - cbn [app]. now apply alookup_below.
    - cbn [app Spec.alookup]. destruct (bcmp k k0); auto.
  Qed.
  Lemma ainsert_app_l : forall a b k v, klt k a -> Spec.ainsert k v (a ++ b) = a ++ Spec.ainsert k v b.
  Proof.
    induction a as [|[k0 v0] a IH]; intros b k v H; [reflexivity|].
    inversion H as [|? ? H0 H1]; subst. cbn [app Spec.ainsert].
    apply bcmp_lt_gt in H0. rewrite H0. f_equal. now apply IH.
  Qed.
  Lemma ainsert_app_r : forall a b k v, kgt k b -> Spec.ainsert k v (a ++ b) = Spec.ainsert k v a ++ b.
  Proof.
    induction a as [|[k0 v0] a IH]; intros b k v H.
    - cbn [app Spec.ainsert]. destruct b as [|[k1 v1] b]; [reflexivity|].
      inversion H as [|? ? H0 H1]; subst. cbn [Spec.ainsert]. cbn [fst] in H0. now rewrite H0.
    - cbn [app Spec.ainsert]. destruct (bcmp k k0); cbn [app]; try reflexivity. f_equal. now apply IH.
  Qed.
  Lemma aremove_app_l : forall a b k, klt k a -> Spec.aremove k (a ++ b) = a ++ Spec.aremove k b.
  Proof.
    induction a as [|[k0 v0] a IH]; intros b k H; [reflexivity|].
    inversion H as [|? ? H0 H1]; subst. cbn [app Spec.aremove].
    apply bcmp_lt_gt in H0. rewrite H0. f_equal. now apply IH.
  Qed.
  Lemma aremove_app_r : forall a b k, kgt k b -> Spec.aremove k (a ++ b) = Spec.aremove k a ++ b.
  Proof.
    induction a as [|[k0 v0] a IH]; intros b k H.
    - cbn [app Spec.aremove]. destruct b as [|[k1 v1] b]; [reflexivity|].
      inversion H as [|? ? H0 H1]; subst. cbn [Spec.aremove]. cbn [fst] in H0. now rewrite H0.
    - cbn [app Spec.aremove]. destruct (bcmp k k0); cbn [app]; try reflexivity. f_equal. now apply IH.
  Qed.
End AssocApp.

Definition aop (o : lop) (m : list (bytes * leafent)) : list (bytes * leafent) :=
  match o with OpIns e => Spec.ainsert (lkey e) e m | OpDel k => Spec.aremove k m end.

Lemma assoc_inj : forall l l', assoc l = assoc l' -> l = l'.
Proof.
  intros l l' H. apply (f_equal (map snd)) in H. unfold assoc in H.
  rewrite !map_map in H. cbn [kv_of snd] in H. now rewrite !map_id in H.
Qed.

Lemma assoc_app : forall l l', assoc (l ++ l') = assoc l ++ assoc l'.
Proof. intros. apply map_app. Qed.

Theorem apply_lop_assoc : forall o l, sorted_keys (map lkey l) = true ->
  assoc (apply_lop o l) = aop o (assoc l).
Proof.
  intros [e|k] l Hs; cbn [apply_lop aop]; [now apply leaf_insert_assoc | now apply leaf_delete_assoc].
Qed.

Theorem apply_lop_sorted : forall o l, sorted_keys (map lkey l) = true ->
  sorted_keys (map lkey (apply_lop o l)) = true.
Proof.
  intros [e|k] l Hs; cbn [apply_lop]; [now apply leaf_insert_sorted | now apply leaf_delete_sorted].
Qed.

Lemma all_lt_klt : forall k l, all_lt k l -> klt k (assoc l).
Proof. intros k l H. unfold klt. rewrite assoc_keys. now apply Forall_map. Qed.
Lemma all_gt_kgt : forall k l, all_gt k l -> kgt k (assoc l).
Proof. intros k l H. unfold kgt. rewrite assoc_keys. now apply Forall_map. Qed.

Lemma aop_app : forall o a m b, all_lt (lop_key o) a -> all_gt (lop_key o) b ->
  aop o (assoc a ++ assoc m ++ assoc b) = assoc a ++ aop o (assoc m) ++ assoc b.
Proof.
  intros [e|k] a m b Ha Hb; cbn [aop lop_key] in *; apply all_lt_klt in Ha; apply all_gt_kgt in Hb.
  - rewrite ainsert_app_l by exact Ha. now rewrite ainsert_app_r by exact Hb.
  - rewrite aremove_app_l by exact Ha. now rewrite aremove_app_r by exact Hb.
Qed.

Theorem apply_lop_app : forall o a m b,
  sorted_keys (map lkey (a ++ m ++ b)) = true ->
  all_lt (lop_key o) a -> all_gt (lop_key o) b ->
  apply_lop o (a ++ m ++ b) = a ++ apply_lop o m ++ b.
Proof.
  intros o a m b Hs Ha Hb. apply assoc_inj.
  assert (Hm : sorted_keys (map lkey m) = true).
  { rewrite !map_app in Hs. apply sorted_keys_app in Hs. destruct Hs as [_ Hs].
    apply sorted_keys_app in Hs. tauto. }
  rewrite apply_lop_assoc by exact Hs. rewrite !assoc_app. rewrite aop_app by assumption.
  now rewrite apply_lop_assoc by exact Hm.
Qed.

Theorem alookup_app_mid : forall k a m b, all_lt k a -> all_gt k b ->
  Spec.alookup k (assoc (a ++ m ++ b)) = Spec.alookup k (assoc m).
Proof.
  intros k a m b Ha Hb. rewrite !assoc_app.
  rewrite alookup_app_l by now apply all_lt_klt. now rewrite alookup_app_r by now apply all_gt_kgt.
Qed.

Lemma insert_at_In : forall {A} (l : list A) i x y, In y (insert_at l i x) -> y = x \/ In y l.
Proof.
  intros A. induction l as [|a l IH]; intros [|i] x y H; cbn [insert_at] in H.
  - destruct H as [<-|[]]; auto.
  - destruct H as [<-|[]]; auto.
  - destruct H as [<-|H]; auto.
  - destruct H as [<-|H]; [right; now left|]. destruct (IH i x y H); [auto | right; now right].
Qed.
Lemma replace_at_In : forall {A} (l : list A) i x y, In y (replace_at l i x) -> y = x \/ In y l.
Proof.
  intros A. induction l as [|a l IH]; intros [|i] x y H; cbn [replace_at] in H; try contradiction.
  - destruct H as [<-|H]; [auto | right; now right].
  - destruct H as [<-|H]; [right; now left|]. destruct (IH i x y H); [auto | right; now right].
Qed.
Lemma remove_at_In : forall {A} (l : list A) i y, In y (remove_at l i) -> In y l.
Proof.
  intros A. induction l as [|a l IH]; intros [|i] y H; cbn [remove_at] in H; try contradiction.
  - now right.
  - destruct H as [<-|H]; [now left | right; eauto].
Qed.

Lemma apply_lop_In : forall o l y, In y (apply_lop o l) -> In y l \/ lkey y = lop_key o.
Proof.
  intros [e|k] l y H; cbn [apply_lop lop_key] in *.
  - unfold leaf_insert in H. destruct (Engine.bsearch (map lkey l) (lkey e)) as [[|] i].
    + apply replace_at_In in H. destruct H as [->|H]; auto.
    + apply insert_at_In in H. destruct H as [->|H]; auto.
  - unfold leaf_delete in H. destruct (Engine.bsearch (map lkey l) k) as [[|] i]; auto.
    apply remove_at_In in H. auto.
Qed.

Lemma apply_lop_in_range : forall seps j o l,
  in_range seps j l ->
  (1 <= j -> bcmp (nth j seps []) (lop_key o) <> Gt) ->
  (S j < length seps -> bcmp (nth (S j) seps []) (lop_key o) = Gt) ->
  in_range seps j (apply_lop o l).
Proof.
  intros seps j o l [Hdn Hup] Hlo Hhi. split; intros Hj; apply Forall_forall; intros y Hy;
    apply apply_lop_In in Hy; destruct Hy as [Hy|Hy].
  - specialize (Hdn Hj). rewrite Forall_forall in Hdn. now apply Hdn.
  - rewrite Hy. now apply Hlo.
  - specialize (Hup Hj). rewrite Forall_forall in Hup. now apply Hup.
  - rewrite Hy. apply OrderFacts.bcmp_lt_gt. now apply Hhi.
Qed.

(** * A well-formed view is sorted; selection in a branch *)

Lemma concat_split : forall {A} (ls : list (list A)) j lj x, nth_error ls j = Some lj ->
  concat ls = concat (firstn j ls) ++ lj ++ concat (skipn (S j) ls) /\
  concat (replace_at ls j x) = concat (firstn j ls) ++ x ++ concat (skipn (S j) ls).
Proof.
  intros A. induction ls as [|l0 ls IH]; intros [|j] lj x H; cbn [nth_error] in H; try discriminate.
  - inversion H; subst. split; reflexivity.
  - destruct (IH j lj x H) as [H1 H2]. cbn [replace_at firstn skipn concat].
    rewrite <- !app_assoc. split; f_equal; assumption.
Qed.

Lemma sorted_concat : forall (ls : list (list leafent)),
  (forall j l, nth_error ls j = Some l -> sorted_keys (map lkey l) = true) ->
  (forall j1 j2 l1 l2, j1 < j2 -> nth_error ls j1 = Some l1 -> nth_error ls j2 = Some l2 ->
     keys_below lkey l1 l2) ->
  sorted_keys (map lkey (concat ls)) = true.
Proof.
  induction ls as [|l0 ls IH]; intros Hs Hb; [reflexivity|]. cbn [concat].
  apply sorted_map_app.
  - apply (Hs 0). reflexivity.
  - apply IH.
    + intros j l Hj. apply (Hs (S j)). exact Hj.
    + intros j1 j2 l1 l2 Hlt H1 H2. apply (Hb (S j1) (S j2)); [lia | exact H1 | exact H2].
  - intros a b Ha Hin. destruct (in_concat_nth _ _ Hin) as (j & l & Hj & Hl).
    apply (Hb 0 (S j) l0 l); [lia | reflexivity | exact Hj | exact Ha | exact Hl].
Qed.

Lemma branch_sorted : forall seps (ls : list (list leafent)),
  sorted_keys seps = true -> length ls = length seps ->
  (forall j l, nth_error ls j = Some l -> in_range seps j l /\ sorted_keys (map lkey l) = true) ->
  sorted_keys (map lkey (concat ls)) = true.
Proof.
  intros seps ls Hs Hlen H. apply sorted_concat.
  - intros j l Hj. now apply (H j l).
  - intros j1 j2 l1 l2 Hlt H1 H2 a b Ha Hb.
    assert (Hj2 : j2 < length seps) by (rewrite <- Hlen; apply nth_error_Some; congruence).
    destruct (H _ _ H1) as [[_ Hup] _]. destruct (H _ _ H2) as [[Hdn _] _].
    specialize (Hup ltac:(lia)). specialize (Hdn ltac:(lia)). rewrite Forall_forall in Hup, Hdn.
    specialize (Hup a Ha). specialize (Hdn b Hb).
    eapply bcmp_lt_le_trans; [|exact Hdn].
    destruct (Nat.eq_dec (S j1) j2) as [<-|Hne]; [exact Hup|].
    eapply OrderFacts.bcmp_lt_trans; [exact Hup|]. apply sorted_keys_nth; [exact Hs | lia].
Qed.

Lemma branch_select : forall es (ls : list (list leafent)) k i ex,
  seps_ok es -> length ls = length es ->
  (forall j l, nth_error ls j = Some l -> in_range (map fst es) j l) ->
  index_of (Branches es) k = (i, ex) ->
  exists e lj,
    nth_error es (N.to_nat i) = Some e /\ nth_error ls (N.to_nat i) = Some lj /\
    all_lt k (concat (firstn (N.to_nat i) ls)) /\ all_gt k (concat (skipn (S (N.to_nat i)) ls)) /\
    (1 <= N.to_nat i -> bcmp (nth (N.to_nat i) (map fst es) []) k <> Gt) /\
    (S (N.to_nat i) < length (map fst es) -> bcmp (nth (S (N.to_nat i)) (map fst es) []) k = Gt).
Proof.
  intros es ls k i ex Hok Hlen Hr Hi.
  destruct (index_of_branch es k i ex Hok Hi) as (Hj & Hlo & Hhi).
  destruct Hok as (_ & Hs & _).
  destruct (nth_error es (N.to_nat i)) as [e|] eqn:He; [|apply nth_error_None in He; lia].
  destruct (nth_error ls (N.to_nat i)) as [lj|] eqn:Hl; [|apply nth_error_None in Hl; lia].
  exists e, lj. split; [reflexivity|]. split; [reflexivity|].
  assert (Hhi' : forall j', N.to_nat i < j' -> j' < length (map fst es) ->
                 bcmp (nth j' (map fst es) []) k = Gt).
  { intros j' Hj1 Hj2. apply Hhi; [exact Hj1|]. now rewrite map_length in Hj2. }
  assert (Hlen' : length ls = length (map fst es)) by now rewrite map_length.
  assert (Hj' : N.to_nat i < length (map fst es)) by now rewrite map_length.
  destruct (branch_sides (map fst es) ls k (N.to_nat i) Hs Hlen' Hr Hj' Hlo Hhi') as [Ha Hb].
  split; [exact Ha|]. split; [exact Hb|]. split.
  - intros H1. apply Hlo; lia.
  - intros H1. apply Hhi; [lia|]. now rewrite map_length in H1.
Qed.

(* Descending into a branch whose children (well-formedness [W], view [V], by page id) are in range:
   the entry [index_of] selects, its child's part [lj] of the view, and the position of [k] relative to
   the parts left and right of it. *)
Lemma branch_descend : forall (W : N -> Prop) (V : N -> list leafent -> Prop) es ls k i ex,
  seps_ok es -> Forall (fun e => W (snd e)) es -> Forall2 (fun e l => V (snd e) l) es ls ->
  (forall j e l, nth_error es j = Some e -> V (snd e) l -> in_range (map fst es) j l) ->
  index_of (Branches es) k = (i, ex) ->
  exists sep q lj,
    nthN es i = Some (sep, q) /\ nth_error ls (N.to_nat i) = Some lj /\
    W q /\ V q lj /\ in_range (map fst es) (N.to_nat i) lj /\
    concat ls = concat (firstn (N.to_nat i) ls) ++ lj ++ concat (skipn (S (N.to_nat i)) ls) /\
    all_lt k (concat (firstn (N.to_nat i) ls)) /\ all_gt k (concat (skipn (S (N.to_nat i)) ls)) /\
    (1 <= N.to_nat i -> bcmp (nth (N.to_nat i) (map fst es) []) k <> Gt) /\
    (S (N.to_nat i) < length (map fst es) -> bcmp (nth (S (N.to_nat i)) (map fst es) []) k = Gt).
Proof.
  intros W V es ls k i ex Hok Hch HF Hr Ei.
  assert (Hlen : length ls = length es) by (symmetry; exact (Forall2_length _ _ _ HF)).
  destruct (branch_select es ls k i ex Hok Hlen) as ([sep q] & lj & He & Hl & Ha & Hb & Hlo & Hhi); [|exact Ei|].
  { intros j l Hj. destruct (Forall2_nth_error_r _ _ _ _ _ HF Hj) as (e & He & Hc). exact (Hr j e l He Hc). }
  pose proof (Forall2_nth_error _ _ _ _ _ _ HF He Hl) as Hc. cbn [snd] in Hc.
  rewrite Forall_forall in Hch. specialize (Hch _ (nth_error_In _ _ He)). cbn [snd] in Hch.
  exists sep, q, lj. split; [exact He|]. split; [exact Hl|]. split; [exact Hch|]. split; [exact Hc|].
  split; [exact (Hr _ _ _ He Hc)|]. split; [exact (proj1 (concat_split ls _ lj [] Hl))|]. auto.
Qed.

Lemma PageView_dget : forall d h p l, PageView d h p l -> exists a, dget d p = Some a.
Proof. intros d h p l H. inversion H; eauto. Qed.

(* every child, materialised or not, can be looked at as a node *)
Lemma child_as_node : forall d h ks q l sq, ChildWf d ks q -> ChildView d h ks q l ->
  exists kd, wf_node d kd /\ NodeView d h kd l /\ n_page kd = q /\
    match find_kid q ks with Some kd0 => kd = kd0 | None => exists a, dget d q = Some a /\ kd = node_of_page q a sq end.
Proof.
  intros d h ks q l sq Hw Hv. unfold ChildWf, ChildView in *.
  destruct (find_kid q ks) as [kd|] eqn:Hk.
  - exists kd. split; [exact Hw|]. split; [exact Hv|]. split; [exact (proj2 (find_kid_In _ _ _ Hk)) | reflexivity].
  - destruct (PageView_dget _ _ _ _ Hv) as [a Ha]. exists (node_of_page q a sq).
    split; [now apply node_of_page_wf|]. split; [now apply node_of_page_view|]. split; [reflexivity|eauto].
Qed.

Theorem wf_node_sorted : forall d h n l, wf_node d n -> NodeView d h n l ->
  sorted_keys (map lkey l) = true.
Proof.
  intros d. induction h as [|h IH]; intros n l Hw Hv; [inversion Hv|].
  destruct n as [p np og sq [l0|es] ks].
  - apply NodeView_leaf_inv in Hv. destruct Hv as [-> _]. now inversion Hw.
  - apply NodeView_branch_inv in Hv. destruct Hv as (h0 & ls & E & -> & HF). inversion E; subst h0.
    apply wf_node_branch_inv in Hw. destruct Hw as (Hok & Hch & Hr).
    apply (branch_sorted (map fst es)).
    + apply Hok.
    + rewrite map_length. symmetry. eapply Forall2_length; eauto.
    + intros j l Hj. destruct (Forall2_nth_error_r _ _ _ _ _ HF Hj) as (e & He & Hc). split.
      * eapply Hr; [exact He|]. exists h. exact Hc.
      * rewrite Forall_forall in Hch. specialize (Hch e (nth_error_In _ _ He)).
        destruct (child_as_node d h ks (snd e) l 0%N Hch Hc) as (kd & Hkw & Hkv & _).
        eapply IH; eauto.
Qed.

Theorem wf_page_sorted : forall d h p l, wf_page d p -> PageView d h p l ->
  sorted_keys (map lkey l) = true.
Proof.
  intros d h p l Hw Hv. destruct (PageView_dget _ _ _ _ Hv) as [a Ha].
  apply (wf_node_sorted d h (node_of_page p a 0%N)); [now apply node_of_page_wf | now apply node_of_page_view].
Qed.

(** * Point lookup *)

Lemma alookup_notin : forall {A} (m : list (bytes * A)) k, ~ In k (map fst m) -> Spec.alookup k m = None.
Proof.
  intros A. induction m as [|[k0 v0] m IH]; intros k H; [reflexivity|]. cbn [Spec.alookup].
  destruct (bcmp k k0) eqn:E; [|reflexivity|].
  - exfalso. apply H. left. symmetry. now apply bcmp_eq.
  - apply IH. intros Hin. apply H. now right.
Qed.

Lemma alookup_nth : forall l i e, sorted_keys (map lkey l) = true -> nth_error l i = Some e ->
  Spec.alookup (lkey e) (assoc l) = Some e.
Proof.
  induction l as [|a l IH]; intros i e Hs Hn; [destruct i; discriminate|].
  destruct i as [|i]; cbn [nth_error] in Hn.
  - inversion Hn; subst. cbn [assoc map kv_of Spec.alookup]. now rewrite OrderFacts.bcmp_refl.
  - pose proof (nth_error_keys_lt lkey l i e a Hs Hn) as Hlt.
    change (assoc (a :: l)) with ((lkey a, a) :: assoc l). cbn [Spec.alookup].
    apply bcmp_lt_gt in Hlt. rewrite Hlt. apply (IH i e); [|exact Hn]. cbn [map] in Hs. eapply sorted_keys_tl; eauto.
Qed.

Lemma leaf_lookup_alookup : forall l k i ex, sorted_keys (map lkey l) = true ->
  index_of (Leaves l) k = (i, ex) -> (if ex then nthN l i else None) = Spec.alookup k (assoc l).
Proof.
  intros l k i ex Hs H. unfold index_of in H. cbn [dkeys] in H.
  destruct (Engine.bsearch (map lkey l) k) as [[|] i0] eqn:Eb; inversion H; subst; clear H.
  - destruct (ebsearch_found_ent l k i Hs Eb) as (e0 & Hn & Hk). unfold nthN. rewrite Hn.
    subst k. symmetry. eapply alookup_nth; eauto.
  - symmetry. apply alookup_notin. rewrite assoc_keys. eapply ebsearch_missing_notin; eauto.
Qed.

Lemma PageView_inv : forall d h p l, PageView d h p l ->
  exists h0 a, h = S h0 /\ dget d p = Some a /\
    match ap_body a with
    | Leaves l0 => l = l0
    | Branches es => exists ls, l = concat ls /\ Forall2 (fun e l => PageView d h0 (snd e) l) es ls
    end.
Proof.
  intros d h p l H. inversion H as [h0 ? a l0 Hg Hb | h0 ? a es ls Hg Hb HF]; subst;
    exists h0, a; rewrite Hb; eauto.
Qed.

Lemma wf_page_inv : forall d p, wf_page d p ->
  exists a, dget d p = Some a /\
    match ap_body a with
    | Leaves l => sorted_keys (map lkey l) = true
    | Branches es => seps_ok es /\ Forall (fun e => wf_page d (snd e)) es /\
        (forall j e l, nth_error es j = Some e -> PageViews d (snd e) l -> in_range (map fst es) j l)
    end.
Proof.
  intros d p H. inversion H as [? a l Hg Hb Hs | ? a es Hg Hb Hs HF Hr]; subst;
    exists a; rewrite Hb; auto.
Qed.

Theorem lookup_page_view_h : forall d k h p l fuel, wf_page d p -> PageView d h p l -> h <= fuel ->
  lookup_page fuel d p k = Ok (Spec.alookup k (assoc l)).
Proof.
  intros d k. induction h as [|h IH]; intros p l fuel Hw Hv Hf; [inversion Hv|].
  destruct fuel as [|fuel]; [lia|]. cbn [lookup_page].
  apply PageView_inv in Hv. destruct Hv as (h0 & a & E & Hg & Hv). inversion E; subst h0.
  apply wf_page_inv in Hw. destruct Hw as (a' & Hg' & Hw). rewrite Hg in Hg'. inversion Hg'; subst a'.
  rewrite Hg. destruct (ap_body a) as [l0|es].
  - subst l. destruct (index_of (Leaves l0) k) as [i ex] eqn:Ei. f_equal. now apply leaf_lookup_alookup.
  - destruct Hv as (ls & -> & HF). destruct Hw as (Hok & Hch & Hr).
    destruct (index_of (Branches es) k) as [i ex] eqn:Ei.
    destruct (branch_descend (wf_page d) (PageView d h) es ls k i ex Hok Hch HF
                (fun j e l Hj Hv => Hr j e l Hj (ex_intro _ h Hv)) Ei)
      as (sep & q & lj & He & _ & Hq & Hc & _ & Hcat & Ha & Hb & _).
    rewrite He, (IH q lj fuel Hq Hc ltac:(lia)), Hcat. f_equal. symmetry. now apply alookup_app_mid.
Qed.

Lemma lookup_node_branch : forall fuel d p np og sq es ks k,
  lookup_node fuel d (Node p np og sq (Branches es) ks) k =
  let '(i, _) := index_of (Branches es) k in
  match nthN es i with
  | None => Ok None
  | Some (_, q) => match find_kid q ks with
                   | Some kd => lookup_node fuel d kd k
                   | None => lookup_page fuel d q k end
  end.
Proof.
  intros fuel d p np og sq es ks k. cbn [lookup_node].
  destruct (index_of (Branches es) k) as [i ex]. destruct (nthN es i) as [[sep q]|]; [|reflexivity].
  unfold find_kid. induction ks as [|kd ks IH]; [reflexivity|]. cbn [find].
  destruct (N.eqb (n_page kd) q); [reflexivity | exact IH].
Qed.

Theorem lookup_node_view_h : forall d k h n l fuel, wf_node d n -> NodeView d h n l -> h <= fuel ->
  lookup_node fuel d n k = Ok (Spec.alookup k (assoc l)).
Proof.
  intros d k. induction h as [|h IH]; intros n l fuel Hw Hv Hf; [inversion Hv|].
  destruct n as [p np og sq [l0|es] ks].
  - apply NodeView_leaf_inv in Hv. destruct Hv as [-> _]. inversion Hw; subst. cbn [lookup_node].
    destruct (index_of (Leaves l0) k) as [i ex] eqn:Ei. f_equal. now apply leaf_lookup_alookup.
  - apply NodeView_branch_inv in Hv. destruct Hv as (h0 & ls & E & -> & HF). inversion E; subst h0.
    apply wf_node_branch_inv in Hw. destruct Hw as (Hok & Hch & Hr).
    rewrite lookup_node_branch. destruct (index_of (Branches es) k) as [i ex] eqn:Ei.
    destruct (branch_descend (ChildWf d ks) (ChildView d h ks) es ls k i ex Hok Hch HF
                (fun j e l Hj Hv => Hr j e l Hj (ex_intro _ h Hv)) Ei)
      as (sep & q & lj & He & _ & Hq & Hc & _ & Hcat & Ha & Hb & _).
    rewrite He, Hcat, alookup_app_mid by assumption.
    unfold ChildWf, ChildView in *. destruct (find_kid q ks) as [kd|].
    + apply IH; [exact Hq | exact Hc | lia].
    + apply (lookup_page_view_h d k h); [exact Hq | exact Hc | lia].
Qed.

Theorem lookup_page_view : forall d p l k, wf_page d p -> PageViews d p l ->
  exists h, forall fuel, h <= fuel -> lookup_page fuel d p k = Ok (Spec.alookup k (assoc l)).
Proof. intros d p l k Hw [h Hv]. exists h. intros fuel Hf. eapply lookup_page_view_h; eauto. Qed.

Theorem lookup_node_view : forall d n l k, wf_node d n -> Views d n l ->
  exists h, forall fuel, h <= fuel -> lookup_node fuel d n k = Ok (Spec.alookup k (assoc l)).
Proof. intros d n l k Hw [h Hv]. exists h. intros fuel Hf. eapply lookup_node_view_h; eauto. Qed.

(** * [modify] *)

Definition same_but_seqc (s s' : txs) : Prop :=
  free s' = free s /\ pending s' = pending s /\ txid s' = txid s /\ np s' = np s /\ psz s' = psz s /\
  wr s' = wr s /\ flw s' = flw s /\ (seqc s <= seqc s')%N.

Lemma same_but_seqc_refl : forall s, same_but_seqc s s.
Proof. intros s. unfold same_but_seqc. repeat split; lia. Qed.
Lemma same_but_seqc_trans : forall s1 s2 s3, same_but_seqc s1 s2 -> same_but_seqc s2 s3 -> same_but_seqc s1 s3.
Proof.
  intros s1 s2 s3 (A1 & A2 & A3 & A4 & A5 & A6 & A7 & A8) (B1 & B2 & B3 & B4 & B5 & B6 & B7 & B8).
  unfold same_but_seqc. repeat split; try congruence. lia.
Qed.
Lemma same_but_seqc_next : forall s, same_but_seqc s (snd (next_seq s)).
Proof. intros s. unfold same_but_seqc, next_seq. cbn. repeat split; lia. Qed.

Lemma branch_update : forall d h p np og sq es ks ks' ls j sep q lj' kd',
  seps_ok es -> Forall (fun e => ChildWf d ks (snd e)) es ->
  (forall j e l, nth_error es j = Some e -> ChildViews d ks (snd e) l -> in_range (map fst es) j l) ->
  Forall2 (fun e l => ChildView d h ks (snd e) l) es ls ->
  nth_error es j = Some (sep, q) ->
  kids_upd ks ks' q kd' -> wf_node d kd' -> NodeView d h kd' lj' -> in_range (map fst es) j lj' ->
  NodeView d (S h) (Node p np og sq (Branches es) ks') (concat (replace_at ls j lj')) /\
  wf_node d (Node p np og sq (Branches es) ks').
Proof.
  intros d h p np og sq es ks ks' ls j sep q lj' kd' Hok Hch Hr HF He [Hu1 Hu2] Hkw Hkv Hkr.
  assert (Hnd : NoDup (map snd es)) by apply Hok.
  assert (Hsame : forall j' e', nth_error es j' = Some e' -> snd e' = q -> j' = j /\ e' = (sep, q)).
  { intros j' e' He' Hq. assert (j' = j) by (eapply NoDup_map_nth_error; eauto). subst j'.
    split; [reflexivity | congruence]. }
  assert (Hlen : length es = length ls) by (eapply Forall2_length; eauto).
  assert (Hj : j < length ls) by (rewrite <- Hlen; apply nth_error_Some; congruence).
  split.
  - apply NodeView_branch_intro. apply Forall2_of_nth_error; [now rewrite replace_at_length|].
    intros j' x y Hx Hy. destruct (Nat.eq_dec j' j) as [->|Hne].
    + rewrite replace_at_nth_same in Hy by exact Hj. inversion Hy; subst y.
      rewrite He in Hx. inversion Hx; subst x. cbn [snd]. unfold ChildView. now rewrite Hu1.
    + rewrite replace_at_nth_other in Hy by congruence.
      assert (Hq : snd x <> q) by (intros Hq; destruct (Hsame _ _ Hx Hq); congruence).
      pose proof (Forall2_nth_error _ _ _ _ _ _ HF Hx Hy) as Hc. cbn beta in Hc.
      unfold ChildView in *. now rewrite (Hu2 _ Hq).
  - apply wf_node_branch_intro; [exact Hok| |].
    + apply Forall_forall. intros e' Hin. destruct (In_nth_error _ _ Hin) as [j' Hj'].
      destruct (N.eq_dec (snd e') q) as [Hq|Hq].
      * destruct (Hsame _ _ Hj' Hq) as [-> ->]. cbn [snd]. unfold ChildWf. now rewrite Hu1.
      * rewrite Forall_forall in Hch. specialize (Hch e' Hin). unfold ChildWf in *. now rewrite (Hu2 _ Hq).
    + intros j' e' l He' [h' Hv']. destruct (N.eq_dec (snd e') q) as [Hq|Hq].
      * destruct (Hsame _ _ He' Hq) as [-> ->]. cbn [snd] in Hv'. unfold ChildView in Hv'.
        rewrite Hu1 in Hv'. rewrite (NodeView_det _ _ _ _ Hv' _ _ Hkv). exact Hkr.
      * eapply Hr; [exact He'|]. exists h'. unfold ChildView in *. now rewrite <- (Hu2 _ Hq).
Qed.

Lemma modify_branch : forall f d p npg og sq es ks o s,
  modify (S f) d (Node p npg og sq (Branches es) ks) o s =
  let '(i, _) := index_of (Branches es) (lop_key o) in
  match nthN es i with
  | None => Panic "CANNOT INSERT DATA INTO A BRANCH NODE"%string
  | Some (_, q) =>
      match find_kid q ks with
      | Some kd => bind (modify f d kd o s)
                     (fun r => Ok (Node p npg og sq (Branches es) (replace_kid ks (fst r)), snd r))
      | None => match dget d q with
                | None => Panic "page missing"%string
                | Some a => bind (modify f d (node_of_page q a (seqc s)) o (snd (next_seq s)))
                              (fun r => Ok (Node p npg og sq (Branches es) (ks ++ [fst r]), snd r))
                end
      end
  end.
Proof.
  intros. cbn [modify]. destruct (index_of (Branches es) (lop_key o)) as [i ex].
  destruct (nthN es i) as [[sep q]|]; [|reflexivity].
  destruct (find_kid q ks) as [kd|].
  - destruct (modify f d kd o s) as [[kd' s']| |]; reflexivity.
  - destruct (dget d q) as [a|]; [|reflexivity]. cbn [next_seq snd].
    match goal with |- context [modify f d ?n o ?s1] => destruct (modify f d n o s1) as [[kd' s']| |] end;
      reflexivity.
Qed.

Lemma modify_master : forall d o f n s h l, wf_node d n -> NodeView d h n l ->
  (modify f d n o s = Err "fuel"%string /\ f < h) \/
  (exists n' s', modify f d n o s = Ok (n', s') /\
     NodeView d h n' (apply_lop o l) /\ wf_node d n' /\
     n_page n' = n_page n /\ n_orig n' = n_orig n /\ same_but_seqc s s').
Proof.
  intros d o. induction f as [|f IH]; intros n s h l Hw Hv.
  - left. split; [reflexivity|]. destruct h; [inversion Hv | lia].
  - pose proof (wf_node_sorted _ _ _ _ Hw Hv) as Hsorted.
    destruct n as [p np og sq [l0|es] ks].
    + right. apply NodeView_leaf_inv in Hv. destruct Hv as [-> [h0 ->]]. cbn [modify].
      eexists _, s. split; [reflexivity|]. split; [apply NV_leaf|]. split.
      * apply wfn_leaf. now apply apply_lop_sorted.
      * split; [reflexivity|]. split; [reflexivity|]. apply same_but_seqc_refl.
    + apply NodeView_branch_inv in Hv. destruct Hv as (h0 & ls & -> & -> & HF).
      apply wf_node_branch_inv in Hw. destruct Hw as (Hok & Hch & Hr).
      rewrite modify_branch. destruct (index_of (Branches es) (lop_key o)) as [i ex] eqn:Ei.
      destruct (branch_descend (ChildWf d ks) (ChildView d h0 ks) es ls (lop_key o) i ex Hok Hch HF
                  (fun j e l Hj Hv => Hr j e l Hj (ex_intro _ h0 Hv)) Ei)
        as (sep & q & lj & He & Hl & Hch' & Hc & Hrj & _ & Ha & Hb & Hlo & Hhi).
      rewrite He. unfold nthN in He.
      destruct (concat_split ls _ lj (apply_lop o lj) Hl) as [Hsplit Hsplit'].
      assert (Happ : apply_lop o (concat ls) = concat (replace_at ls (N.to_nat i) (apply_lop o lj))).
      { rewrite Hsplit', Hsplit. rewrite Hsplit in Hsorted. now apply apply_lop_app. }
      pose proof (apply_lop_in_range _ _ o _ Hrj Hlo Hhi) as Hrj'.
      destruct (child_as_node d h0 ks q lj (seqc s) Hch' Hc) as (kd & Hkw & Hkv & Hkp & Hkd).
      destruct (find_kid q ks) as [kd0|] eqn:Hfk.
      * subst kd0.
        destruct (IH kd s h0 lj Hkw Hkv) as [[Herr Hlt] | (kd' & s' & Hm & Hv' & Hw' & Hp' & _ & Hs')].
        -- left. rewrite Herr. split; [reflexivity | lia].
        -- right. rewrite Hm. cbn [bind fst snd]. eexists _, s'. split; [reflexivity|].
           destruct (branch_update d h0 p np og sq es ks (replace_kid ks kd') ls (N.to_nat i) sep q
                       (apply_lop o lj) kd' Hok Hch Hr HF He) as [Hnv Hnw]; try assumption.
           { apply replace_kid_upd. congruence. }
           rewrite Happ. split; [exact Hnv|]. split; [exact Hnw|].
           split; [reflexivity|]. split; [reflexivity | exact Hs'].
      * destruct Hkd as (a & Hga & ->). rewrite Hga.
        destruct (IH (node_of_page q a (seqc s)) (snd (next_seq s)) h0 lj Hkw Hkv)
          as [[Herr Hlt] | (kd' & s' & Hm & Hv' & Hw' & Hp' & _ & Hs')].
        -- left. rewrite Herr. split; [reflexivity | lia].
        -- right. rewrite Hm. cbn [bind fst snd]. eexists _, s'. split; [reflexivity|].
           destruct (branch_update d h0 p np og sq es ks (ks ++ [kd']) ls (N.to_nat i) sep q
                       (apply_lop o lj) kd' Hok Hch Hr HF He) as [Hnv Hnw]; try assumption.
           { apply app_kid_upd; [exact Hfk | exact Hp']. }
           rewrite Happ. split; [exact Hnv|]. split; [exact Hnw|].
           split; [reflexivity|]. split; [reflexivity|].
           eapply same_but_seqc_trans; [apply same_but_seqc_next | exact Hs'].
Qed.

Theorem modify_view_h : forall d h n l fuel o s n' s', wf_node d n -> NodeView d h n l ->
  modify fuel d n o s = Ok (n', s') ->
  NodeView d h n' (apply_lop o l) /\ wf_node d n' /\
  sorted_keys (map lkey (apply_lop o l)) = true /\
  assoc (apply_lop o l) = aop o (assoc l) /\
  same_but_seqc s s' /\ n_page n' = n_page n /\ n_orig n' = n_orig n.
Proof.
  intros d h n l fuel o s n' s' Hw Hv Hm.
  pose proof (wf_node_sorted _ _ _ _ Hw Hv) as Hs.
  destruct (modify_master d o fuel n s h l Hw Hv) as [[Herr _] | (n1 & s1 & Hm1 & Hv1 & Hw1 & Hp & Ho & Hs1)].
  - rewrite Herr in Hm. discriminate.
  - rewrite Hm1 in Hm. inversion Hm; subst n1 s1.
    split; [exact Hv1|]. split; [exact Hw1|]. split; [now apply apply_lop_sorted|].
    split; [now apply apply_lop_assoc|]. auto.
Qed.

Theorem modify_view : forall d n l fuel o s n' s', wf_node d n -> Views d n l ->
  modify fuel d n o s = Ok (n', s') ->
  Views d n' (apply_lop o l) /\ wf_node d n' /\
  sorted_keys (map lkey (apply_lop o l)) = true /\
  assoc (apply_lop o l) = aop o (assoc l) /\
  free s' = free s /\ pending s' = pending s /\ np s' = np s /\ wr s' = wr s /\ flw s' = flw s /\
  txid s' = txid s /\ psz s' = psz s /\ (seqc s <= seqc s')%N /\
  n_page n' = n_page n /\ n_orig n' = n_orig n.
Proof.
  intros d n l fuel o s n' s' Hw [h Hv] Hm.
  destruct (modify_view_h d h n l fuel o s n' s' Hw Hv Hm)
    as (H1 & H2 & H3 & H4 & (A1 & A2 & A3 & A4 & A5 & A6 & A7 & A8) & H6 & H7).
  split; [exists h; exact H1|]. repeat (split; [assumption|]). assumption.
Qed.

Theorem modify_no_panic : forall d n l fuel o s, wf_node d n -> Views d n l ->
  (exists n' s', modify fuel d n o s = Ok (n', s')) \/ modify fuel d n o s = Err "fuel"%string.
Proof.
  intros d n l fuel o s Hw [h Hv].
  destruct (modify_master d o fuel n s h l Hw Hv) as [[Herr _] | (n1 & s1 & Hm1 & _)]; [right | left]; eauto.
Qed.

Corollary modify_never_panics : forall d n l fuel o s msg, wf_node d n -> Views d n l ->
  modify fuel d n o s <> Panic msg.
Proof.
  intros d n l fuel o s msg Hw Hv. destruct (modify_no_panic d n l fuel o s Hw Hv) as [(n' & s' & H) | H];
    rewrite H; discriminate.
Qed.

Theorem modify_total : forall d h n l fuel o s, wf_node d n -> NodeView d h n l -> h <= fuel ->
  exists n' s', modify fuel d n o s = Ok (n', s').
Proof.
  intros d h n l fuel o s Hw Hv Hf.
  destruct (modify_master d o fuel n s h l Hw Hv) as [[_ Hlt] | (n1 & s1 & Hm1 & _)]; [lia | eauto].
Qed.

Theorem modify_err_fuel : forall d h n l fuel o s e, wf_node d n -> NodeView d h n l ->
  modify fuel d n o s = Err e -> e = "fuel"%string /\ fuel < h.
Proof.
  intros d h n l fuel o s e Hw Hv He.
  destruct (modify_master d o fuel n s h l Hw Hv) as [[Herr Hlt] | (n1 & s1 & Hm1 & _)].
  - rewrite Herr in He. inversion He. auto.
  - rewrite Hm1 in He. discriminate.
Qed.

(** * Buckets *)

Definition bucket_wf (d : disk) (b : bucket) : Prop :=
  match b_rootn b with Some n => wf_node d n | None => wf_page d (b_root_page b) end.
Definition BucketView (d : disk) (h : nat) (b : bucket) (l : list leafent) : Prop :=
  match b_rootn b with Some n => NodeView d h n l | None => PageView d h (b_root_page b) l end.
(* [b_lookup] / [b_modify] run with [fuel0]: the bucket's tree must not be higher *)
Definition bucket_view (d : disk) (b : bucket) (l : list leafent) : Prop :=
  exists h, h <= fuel0 /\ BucketView d h b l.

Theorem bucket_view_sorted : forall d h b l, bucket_wf d b -> BucketView d h b l ->
  sorted_keys (map lkey l) = true.
Proof.
  intros d h b l Hw Hv. unfold bucket_wf, BucketView in *. destruct (b_rootn b).
  - eapply wf_node_sorted; eauto.
  - eapply wf_page_sorted; eauto.
Qed.

Theorem b_lookup_view : forall d h b l k, bucket_wf d b -> BucketView d h b l -> h <= fuel0 ->
  b_lookup d b k = Ok (Spec.alookup k (assoc l)).
Proof.
  intros d h b l k Hw Hv Hf. unfold b_lookup, bucket_wf, BucketView in *. destruct (b_rootn b).
  - eapply lookup_node_view_h; eauto.
  - eapply lookup_page_view_h; eauto.
Qed.

Lemma ensure_root_view : forall d h b l s, bucket_wf d b -> BucketView d h b l ->
  exists n s1, ensure_root d b s = Ok (n, s1) /\ wf_node d n /\ NodeView d h n l /\ same_but_seqc s s1.
Proof.
  intros d h b l s Hw Hv. unfold ensure_root, bucket_wf, BucketView in *. destruct (b_rootn b) as [n|].
  - exists n, s. split; [reflexivity|]. split; [exact Hw|]. split; [exact Hv | apply same_but_seqc_refl].
  - destruct (PageView_dget _ _ _ _ Hv) as [a Ha]. rewrite Ha. cbn [next_seq].
    eexists _, _. split; [reflexivity|]. split; [now apply node_of_page_wf|].
    split; [now apply node_of_page_view | apply (same_but_seqc_next s)].
Qed.

Theorem b_modify_view : forall d h b l o s, bucket_wf d b -> BucketView d h b l -> h <= fuel0 ->
  exists b' s', b_modify d b o s = Ok (b', s') /\
    bucket_wf d b' /\ BucketView d h b' (apply_lop o l) /\
    assoc (apply_lop o l) = aop o (assoc l) /\
    sorted_keys (map lkey (apply_lop o l)) = true /\
    b_root_page b' = b_root_page b /\ b_next b' = b_next b /\ b_subs b' = b_subs b /\ b_dirty b' = true /\
    same_but_seqc s s'.
Proof.
  intros d h b l o s Hw Hv Hf.
  pose proof (bucket_view_sorted _ _ _ _ Hw Hv) as Hs.
  destruct (ensure_root_view d h b l s Hw Hv) as (n & s1 & He & Hnw & Hnv & Hs1).
  destruct (modify_master d o fuel0 n s1 h l Hnw Hnv) as [[_ Hlt] | (n' & s2 & Hm & Hv' & Hw' & _ & _ & Hs2)];
    [lia|].
  unfold b_modify. rewrite He. cbn [bind]. rewrite Hm. cbn [bind].
  eexists _, s2. split; [reflexivity|].
  unfold bucket_wf, BucketView. cbn [b_rootn b_root_page b_next b_subs b_dirty].
  split; [exact Hw'|]. split; [exact Hv'|]. split; [now apply apply_lop_assoc|].
  split; [now apply apply_lop_sorted|]. repeat (split; [reflexivity|]).
  eapply same_but_seqc_trans; eauto.
Qed.

(* the complete behaviour of [b_put], by the current binding of k *)
Theorem b_put_spec : forall d h b l k v s, bucket_wf d b -> BucketView d h b l -> h <= fuel0 ->
  match Spec.alookup k (assoc l) with
  | Some (LBk _ _ _) => b_put d b k v s = Err "IncompatibleValue"%string
  | cur =>
      exists b' s' l', b_put d b k v s = Ok (b', s') /\
        bucket_wf d b' /\ BucketView d h b' l' /\
        assoc l' = Spec.ainsert k (LKv k v) (assoc l) /\
        sorted_keys (map lkey l') = true /\
        b_next b' = (match cur with None => b_next b + 1 | Some _ => b_next b end)%N /\
        b_root_page b' = b_root_page b /\ b_subs b' = b_subs b /\ b_dirty b' = true /\
        same_but_seqc s s'
  end.
Proof.
  intros d h b l k v s Hw Hv Hf. unfold b_put. rewrite (b_lookup_view d h b l k Hw Hv Hf). cbn [bind].
  destruct (b_modify_view d h b l (OpIns (LKv k v)) s Hw Hv Hf)
    as (b' & s' & Hm & Hw' & Hv' & Ha & Hs & Hr & Hn & Hsb & Hd & Hss).
  cbn [aop lkey] in Ha.
  destruct (Spec.alookup k (assoc l)) as [[k0 v0|k0 r0 n0]|]; cbn [is_kv].
  - exists b', s', (apply_lop (OpIns (LKv k v)) l). rewrite Hm. repeat (split; [assumption || reflexivity|]).
    assumption.
  - reflexivity.
  - rewrite Hm. cbn [bind]. eexists _, s', (apply_lop (OpIns (LKv k v)) l). split; [reflexivity|].
    unfold bucket_wf, BucketView in *. cbn [b_rootn b_root_page b_next b_subs b_dirty].
    split; [exact Hw'|]. split; [exact Hv'|]. split; [exact Ha|]. split; [exact Hs|].
    split; [now rewrite Hn|]. split; [exact Hr|]. split; [exact Hsb|]. split; [reflexivity | exact Hss].
Qed.

Corollary b_put_incompatible : forall d h b l k v s, bucket_wf d b -> BucketView d h b l -> h <= fuel0 ->
  (b_put d b k v s = Err "IncompatibleValue"%string <->
   exists k0 r nx, Spec.alookup k (assoc l) = Some (LBk k0 r nx)).
Proof.
  intros d h b l k v s Hw Hv Hf. pose proof (b_put_spec d h b l k v s Hw Hv Hf) as H.
  destruct (Spec.alookup k (assoc l)) as [[k0 v0|k0 r0 n0]|].
  - destruct H as (b1 & s1 & l' & Hp' & _). rewrite Hp'. split; [discriminate|].
    intros (? & ? & ? & E). discriminate.
  - split; [eauto | intros _; exact H].
  - destruct H as (b1 & s1 & l' & Hp' & _). rewrite Hp'. split; [discriminate|].
    intros (? & ? & ? & E). discriminate.
Qed.

Theorem b_delete_spec : forall d h b l k s, bucket_wf d b -> BucketView d h b l -> h <= fuel0 ->
  match Spec.alookup k (assoc l) with
  | None => b_delete d b k s = Err "KeyValueMissing"%string
  | Some (LBk _ _ _) => b_delete d b k s = Err "IncompatibleValue"%string
  | Some (LKv _ _) =>
      exists b' s' l', b_delete d b k s = Ok (b', s') /\
        bucket_wf d b' /\ BucketView d h b' l' /\
        assoc l' = Spec.aremove k (assoc l) /\
        sorted_keys (map lkey l') = true /\
        b_next b' = b_next b /\ b_root_page b' = b_root_page b /\ b_subs b' = b_subs b /\
        b_dirty b' = true /\ same_but_seqc s s'
  end.
Proof.
  intros d h b l k s Hw Hv Hf. unfold b_delete. rewrite (b_lookup_view d h b l k Hw Hv Hf). cbn [bind].
  destruct (b_modify_view d h b l (OpDel k) s Hw Hv Hf)
    as (b' & s' & Hm & Hw' & Hv' & Ha & Hs & Hr & Hn & Hsb & Hd & Hss).
  cbn [aop] in Ha.
  destruct (Spec.alookup k (assoc l)) as [[k0 v0|k0 r0 n0]|]; cbn [is_kv]; try reflexivity.
  exists b', s', (apply_lop (OpDel k) l). rewrite Hm. repeat (split; [assumption || reflexivity|]).
  assumption.
Qed.

Corollary b_delete_errors : forall d h b l k s, bucket_wf d b -> BucketView d h b l -> h <= fuel0 ->
  (b_delete d b k s = Err "KeyValueMissing"%string <-> Spec.alookup k (assoc l) = None) /\
  (b_delete d b k s = Err "IncompatibleValue"%string <->
   exists k0 r nx, Spec.alookup k (assoc l) = Some (LBk k0 r nx)).
Proof.
  intros d h b l k s Hw Hv Hf. pose proof (b_delete_spec d h b l k s Hw Hv Hf) as H.
  destruct (Spec.alookup k (assoc l)) as [[k0 v0|k0 r0 n0]|].
  - destruct H as (b1 & s1 & l' & Hp' & _). rewrite Hp'. split; split; try discriminate.
    intros (? & ? & ? & E). discriminate.
  - rewrite H. split; split; try discriminate; eauto.
  - rewrite H. split; split; try discriminate; auto. intros (? & ? & ? & E). discriminate.
Qed.

(* the same statements with the height bound hidden in [bucket_view] *)
Theorem b_lookup_refines : forall d b l k, bucket_wf d b -> bucket_view d b l ->
  b_lookup d b k = Ok (Spec.alookup k (assoc l)).
Proof. intros d b l k Hw (h & Hf & Hv). eapply b_lookup_view; eauto. Qed.

Theorem b_put_refines : forall d b l k v s b' s', bucket_wf d b -> bucket_view d b l ->
  b_put d b k v s = Ok (b', s') ->
  exists l', bucket_wf d b' /\ bucket_view d b' l' /\
    assoc l' = Spec.ainsert k (LKv k v) (assoc l) /\
    b_next b' = (match Spec.alookup k (assoc l) with None => b_next b + 1 | Some _ => b_next b end)%N /\
    same_but_seqc s s'.
Proof.
  intros d b l k v s b' s' Hw (h & Hf & Hv) Hp. pose proof (b_put_spec d h b l k v s Hw Hv Hf) as H.
  destruct (Spec.alookup k (assoc l)) as [[k0 v0|k0 r0 n0]|]; [|rewrite Hp in H; discriminate|];
    destruct H as (b1 & s1 & l' & Hp' & A1 & A2 & A3 & _ & A5 & _ & _ & _ & A9);
    rewrite Hp in Hp'; inversion Hp'; subst; exists l'; (split; [exact A1|]); (split; [exists h; auto|]); auto.
Qed.

Theorem b_delete_refines : forall d b l k s b' s', bucket_wf d b -> bucket_view d b l ->
  b_delete d b k s = Ok (b', s') ->
  exists l', bucket_wf d b' /\ bucket_view d b' l' /\
    assoc l' = Spec.aremove k (assoc l) /\ b_next b' = b_next b /\ same_but_seqc s s'.
Proof.
  intros d b l k s b' s' Hw (h & Hf & Hv) Hp. pose proof (b_delete_spec d h b l k s Hw Hv Hf) as H.
  destruct (Spec.alookup k (assoc l)) as [[k0 v0|k0 r0 n0]|]; try (rewrite Hp in H; discriminate).
  destruct H as (b1 & s1 & l' & Hp' & A1 & A2 & A3 & _ & A5 & _ & _ & _ & A9).
  rewrite Hp in Hp'. inversion Hp'; subst. exists l'. split; [exact A1|]. split; [exists h; auto|]. auto.
Qed.

(** * Non-vacuity *)

Definition kE : bytes := ["e"%byte]. Definition kF : bytes := ["f"%byte]. Definition kG : bytes := ["g"%byte].

(* a three-level tree: root 10 -> leaf 11, leaf 12, branch 13 -> leaf 14 (empty), leaf 15.
   Leaf 11 is child 0 and holds "a", BELOW its separator "b". *)
Definition ex_es : list (bytes * N) := [(kB, 11%N); (kD, 12%N); (kF, 13%N)].
Definition ex_disk : disk :=
  [ (10%N, {| ap_over := 0; ap_body := Branches ex_es |});
    (11%N, {| ap_over := 0; ap_body := Leaves [LKv kA [x01]; LKv kB [x02]] |});
    (12%N, {| ap_over := 0; ap_body := Leaves [LKv kD [x04]; LKv kE [x05]] |});
    (13%N, {| ap_over := 0; ap_body := Branches [(kF, 14%N); (kG, 15%N)] |});
    (14%N, {| ap_over := 0; ap_body := Leaves [] |});
    (15%N, {| ap_over := 0; ap_body := Leaves [LBk kG 7 0] |}) ].
(* page 12 is materialised and "d" has been deleted from it: its first key is above its separator *)
Definition ex_kid12 : node := Node 12 1 (Some kD) 2 (Leaves [LKv kE [x05]]) [].
Definition ex_root : node := Node 10 1 (Some kB) 1 (Branches ex_es) [ex_kid12].
Definition ex_view : list leafent := [LKv kA [x01]; LKv kB [x02]; LKv kE [x05]; LBk kG 7 0].

Ltac nodup_tac := repeat (constructor; [cbn; intuition discriminate|]); constructor.
Ltac seps_ok_tac := split; [discriminate | split; [reflexivity | cbn [map snd]; nodup_tac]].
Ltac in_range_tac :=
  split; intros Hrng; vm_compute in Hrng; try lia;
    repeat constructor; vm_compute; (reflexivity || discriminate).

Lemma ex_pv11 : forall h, PageView ex_disk (S h) 11 [LKv kA [x01]; LKv kB [x02]].
Proof. intros h. eapply PV_leaf; reflexivity. Qed.
Lemma ex_pv12 : forall h, PageView ex_disk (S h) 12 [LKv kD [x04]; LKv kE [x05]].
Proof. intros h. eapply PV_leaf; reflexivity. Qed.
Lemma ex_pv14 : forall h, PageView ex_disk (S h) 14 [].
Proof. intros h. eapply PV_leaf; reflexivity. Qed.
Lemma ex_pv15 : forall h, PageView ex_disk (S h) 15 [LBk kG 7 0].
Proof. intros h. eapply PV_leaf; reflexivity. Qed.
Lemma ex_pv13 : PageView ex_disk 2 13 [LBk kG 7 0].
Proof.
  change [LBk kG 7 0] with (concat [[]; [LBk kG 7 0]]).
  eapply PV_branch; [reflexivity | reflexivity |].
  repeat constructor; [exact (ex_pv14 0) | exact (ex_pv15 0)].
Qed.

Lemma ex_wf11 : wf_page ex_disk 11. Proof. eapply wfp_leaf; reflexivity. Qed.
Lemma ex_wf12 : wf_page ex_disk 12. Proof. eapply wfp_leaf; reflexivity. Qed.
Lemma ex_wf14 : wf_page ex_disk 14. Proof. eapply wfp_leaf; reflexivity. Qed.
Lemma ex_wf15 : wf_page ex_disk 15. Proof. eapply wfp_leaf; reflexivity. Qed.
Lemma ex_wf13 : wf_page ex_disk 13.
Proof.
  eapply wfp_branch; [reflexivity | reflexivity | seps_ok_tac | |].
  - repeat constructor; [exact ex_wf14 | exact ex_wf15].
  - intros j e l Hj [h Hv]. destruct j as [|[|j]]; cbn [nth_error] in Hj.
    + inversion Hj; subst e. rewrite (PageView_det _ _ _ _ Hv _ _ (ex_pv14 0)). in_range_tac.
    + inversion Hj; subst e. rewrite (PageView_det _ _ _ _ Hv _ _ (ex_pv15 0)). in_range_tac.
    + destruct j; discriminate.
Qed.

Lemma ex_nv12 : NodeView ex_disk 1 ex_kid12 [LKv kE [x05]].
Proof. apply NV_leaf. Qed.

Example ex_root_view : NodeView ex_disk 3 ex_root ex_view.
Proof.
  change ex_view with (concat [[LKv kA [x01]; LKv kB [x02]]; [LKv kE [x05]]; [LBk kG 7 0]]).
  apply NodeView_branch_intro.
  apply Forall2_cons; [|apply Forall2_cons; [|apply Forall2_cons; [|apply Forall2_nil]]];
    unfold ChildView; cbn [snd].
  - change (find_kid 11%N [ex_kid12]) with (@None node). exact (ex_pv11 1).
  - change (find_kid 12%N [ex_kid12]) with (Some ex_kid12). apply NV_leaf.
  - change (find_kid 13%N [ex_kid12]) with (@None node). exact ex_pv13.
Qed.

Example ex_root_wf : wf_node ex_disk ex_root.
Proof.
  apply wf_node_branch_intro; [seps_ok_tac | |].
  - apply Forall_cons; [|apply Forall_cons; [|apply Forall_cons; [|apply Forall_nil]]];
      unfold ChildWf; cbn [snd].
    + change (find_kid 11%N [ex_kid12]) with (@None node). exact ex_wf11.
    + change (find_kid 12%N [ex_kid12]) with (Some ex_kid12). apply wfn_leaf. reflexivity.
    + change (find_kid 13%N [ex_kid12]) with (@None node). exact ex_wf13.
  - intros j e l Hj [h Hv]. unfold ChildView in Hv.
    destruct j as [|[|[|j]]]; cbn [nth_error ex_es] in Hj; try (destruct j; discriminate);
      inversion Hj; subst e; cbn [snd] in Hv.
    + change (find_kid 11%N [ex_kid12]) with (@None node) in Hv.
      rewrite (PageView_det _ _ _ _ Hv _ _ (ex_pv11 0)). in_range_tac.
    + change (find_kid 12%N [ex_kid12]) with (Some ex_kid12) in Hv.
      rewrite (NodeView_det _ _ _ _ Hv _ _ ex_nv12). in_range_tac.
    + change (find_kid 13%N [ex_kid12]) with (@None node) in Hv.
      rewrite (PageView_det _ _ _ _ Hv _ _ ex_pv13). in_range_tac.
Qed.

Definition ex_st : txs :=
  {| free := []; pending := []; txid := 1; np := 20; psz := 4096; wr := []; flw := None; seqc := 3 |}.

(* the theorems instantiated: a key below every separator goes to child 0, which is read from disk *)
Example ex_modify_low :
  exists n' s', modify 3 ex_disk ex_root (OpIns (LKv [] [x09])) ex_st = Ok (n', s') /\
    NodeView ex_disk 3 n' (LKv [] [x09] :: ex_view) /\ wf_node ex_disk n' /\ seqc s' = 4%N /\
    lookup_node 3 ex_disk n' [] = Ok (Some (LKv [] [x09])).
Proof.
  destruct (modify_total ex_disk 3 ex_root ex_view 3 (OpIns (LKv [] [x09])) ex_st ex_root_wf ex_root_view
              (le_n _)) as (n' & s' & Hm).
  exists n', s'. split; [exact Hm|].
  destruct (modify_view_h _ _ _ _ _ _ _ _ _ ex_root_wf ex_root_view Hm) as (Hv & Hw & _).
  split; [exact Hv|]. split; [exact Hw|].
  vm_compute in Hm. inversion Hm; subst. split; reflexivity.
Qed.

Example ex_lookup :
  lookup_node 3 ex_disk ex_root kE = Ok (Some (LKv kE [x05])) /\
  lookup_node 3 ex_disk ex_root kD = Ok None /\
  lookup_node 3 ex_disk ex_root kG = Ok (Some (LBk kG 7 0)) /\
  lookup_node 1 ex_disk ex_root kG = Err "fuel"%string.
Proof. repeat split; vm_compute; reflexivity. Qed.

Definition ex_bucket : bucket := Bucket 10 4 false None [].
Example ex_bucket_wf_view : bucket_wf ex_disk ex_bucket /\ BucketView ex_disk 3 ex_bucket
    [LKv kA [x01]; LKv kB [x02]; LKv kD [x04]; LKv kE [x05]; LBk kG 7 0].
Proof.
  split.
  - unfold bucket_wf. cbn [b_rootn ex_bucket b_root_page].
    eapply wfp_branch; [reflexivity | reflexivity | seps_ok_tac | |].
    + repeat constructor; [exact ex_wf11 | exact ex_wf12 | exact ex_wf13].
    + intros j e l Hj [h Hv].
      destruct j as [|[|[|j]]]; cbn [nth_error ex_es] in Hj; try (destruct j; discriminate);
        inversion Hj; subst e; cbn [snd] in Hv.
      * rewrite (PageView_det _ _ _ _ Hv _ _ (ex_pv11 0)). in_range_tac.
      * rewrite (PageView_det _ _ _ _ Hv _ _ (ex_pv12 0)). in_range_tac.
      * rewrite (PageView_det _ _ _ _ Hv _ _ ex_pv13). in_range_tac.
  - unfold BucketView. cbn [b_rootn ex_bucket b_root_page].
    change [LKv kA [x01]; LKv kB [x02]; LKv kD [x04]; LKv kE [x05]; LBk kG 7 0]
      with (concat [[LKv kA [x01]; LKv kB [x02]]; [LKv kD [x04]; LKv kE [x05]]; [LBk kG 7 0]]).
    eapply PV_branch; [reflexivity | reflexivity |].
    repeat constructor; [exact (ex_pv11 1) | exact (ex_pv12 1) | exact ex_pv13].
Qed.

Example ex_bucket_ops :
  (exists b' s', b_put ex_disk ex_bucket kC [x03] ex_st = Ok (b', s') /\ b_next b' = 5%N) /\
  (exists b' s', b_put ex_disk ex_bucket kD [x03] ex_st = Ok (b', s') /\ b_next b' = 4%N) /\
  b_put ex_disk ex_bucket kG [x03] ex_st = Err "IncompatibleValue"%string /\
  b_delete ex_disk ex_bucket kC ex_st = Err "KeyValueMissing"%string /\
  b_delete ex_disk ex_bucket kG ex_st = Err "IncompatibleValue"%string /\
  (exists b' s', b_delete ex_disk ex_bucket kD ex_st = Ok (b', s') /\ b_next b' = 4%N).
Proof. vm_compute. repeat split; eauto. Qed.

(* why the child page ids must be pairwise distinct: with two entries naming the same (empty) page,
   every other clause of the invariant holds, yet after one insert BOTH entries resolve to the
   materialised kid and the view holds the new key twice *)
Definition dup_disk : disk := [ (11%N, {| ap_over := 0; ap_body := Leaves [] |}) ].
Definition dup_root : node := Node 10 1 None 1 (Branches [(kA, 11%N); (kD, 11%N)]) [].
Example dup_pages_break :
  NodeView dup_disk 2 dup_root [] /\
  exists n' s', modify 2 dup_disk dup_root (OpIns (LKv kB [])) ex_st = Ok (n', s') /\
    NodeView dup_disk 2 n' [LKv kB []; LKv kB []] /\
    apply_lop (OpIns (LKv kB [])) [] = [LKv kB []].
Proof.
  split.
  - change (@nil leafent) with (concat [@nil leafent; @nil leafent]).
    apply NodeView_branch_intro. repeat constructor; eapply PV_leaf; reflexivity.
  - eexists _, _. split; [vm_compute; reflexivity|]. split; [|reflexivity].
    change [LKv kB []; LKv kB []] with (concat [[LKv kB []]; [LKv kB []]]).
    apply NodeView_branch_intro. repeat constructor; apply NV_leaf.
Qed.

Print Assumptions PageView_det.
Print Assumptions NodeView_det.
Print Assumptions wf_node_sorted.
Print Assumptions wf_page_sorted.
Print Assumptions lookup_page_view_h.
Print Assumptions lookup_node_view_h.
Print Assumptions lookup_page_view.
Print Assumptions lookup_node_view.
Print Assumptions modify_master.
Print Assumptions modify_view_h.
Print Assumptions modify_view.
Print Assumptions modify_no_panic.
Print Assumptions modify_never_panics.
Print Assumptions modify_total.
Print Assumptions modify_err_fuel.
Print Assumptions b_lookup_view.
Print Assumptions b_modify_view.
Print Assumptions b_put_spec.
Print Assumptions b_put_incompatible.
Print Assumptions b_delete_spec.
Print Assumptions b_delete_errors.
Print Assumptions b_lookup_refines.
Print Assumptions b_put_refines.
Print Assumptions b_delete_refines.
Print Assumptions NodeView_mono.
Print Assumptions ex_root_view.
Print Assumptions ex_root_wf.
Print Assumptions ex_modify_low.
Print Assumptions ex_bucket_wf_view.
Print Assumptions ex_bucket_ops.
Print Assumptions dup_pages_break.
