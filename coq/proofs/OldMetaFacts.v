(* The legacy (<= 0.10) header format: SHA3-256 digest length, encode/decode round trip, and what
   open() (select_any) does with an all-legacy file and with a mixed (one current, one legacy) file. *)
From Coq Require Import List NArith Bool String Lia ZifyN ZifyBool.
From Coq.Strings Require Import Byte.
From Jamm Require Import Bytes Fnv Consts CLayout Meta Keccak OldMeta BytesFacts FnvFacts MetaFacts.
Import ListNotations.
Local Open Scope string_scope. Local Open Scope list_scope. Local Open Scope N_scope.

(* as in MetaFacts: [String.length] is in scope *)
Notation length := List.length.

Lemma rho_pi_length st : length (rho_pi st) = 25%nat.
Proof. unfold rho_pi. rewrite map_length. reflexivity. Qed.

Lemma chi_length_25 l : length l = 25%nat -> length (chi l) = 25%nat.
Proof.
  intros H.
  do 25 (destruct l as [|? l]; [discriminate H|]).
  destruct l; [|discriminate H]. reflexivity.
Qed.

Lemma iota_length rc st : length (iota rc st) = length st.
Proof. destruct st; reflexivity. Qed.

Lemma keccak_round_length rc st : length (keccak_round rc st) = 25%nat.
Proof. unfold keccak_round. rewrite iota_length. apply chi_length_25, rho_pi_length. Qed.

Lemma keccak_rounds_length rcs st :
  length st = 25%nat -> length (keccak_rounds rcs st) = 25%nat.
Proof.
  revert st. induction rcs as [|rc rcs IH]; intros st H; cbn [keccak_rounds]; [exact H|].
  apply IH, keccak_round_length.
Qed.

Lemma keccak_rounds_cons_length rc rcs st : length (keccak_rounds (rc :: rcs) st) = 25%nat.
Proof. cbn [keccak_rounds]. apply keccak_rounds_length, keccak_round_length. Qed.

(* at least one round is run, so the result has 25 lanes whatever the input *)
Lemma keccak_f_length_25 st : length (keccak_f st) = 25%nat.
Proof. unfold keccak_f, round_constants. apply keccak_rounds_cons_length. Qed.

Lemma absorb_block_length st blk : length (absorb_block st blk) = 25%nat.
Proof. apply keccak_f_length_25. Qed.

Lemma absorb_length msg : forall st acc room, length (absorb st acc room msg) = 25%nat.
Proof.
  induction msg as [|b rest IH]; intros st acc room; cbn [absorb].
  - apply absorb_block_length.
  - destruct room as [|[|r]]; apply IH.
Qed.

Lemma bytes_of_lane_length w : length (bytes_of_lane w) = 8%nat.
Proof. reflexivity. Qed.

Lemma squeeze32_length st : (4 <= length st)%nat -> length (squeeze32 st) = 32%nat.
Proof.
  intros H. unfold squeeze32.
  do 4 (destruct st as [|? st]; [cbn [length] in H; lia|]).
  cbn [firstn flat_map]. rewrite !app_length, !bytes_of_lane_length. reflexivity.
Qed.

Theorem sha3_256_length : forall msg, length (sha3_256 msg) = 32%nat.
Proof.
  intros msg. unfold sha3_256. apply squeeze32_length. rewrite absorb_length. lia.
Qed.
Print Assumptions sha3_256_length.

Lemma old_hash_length : forall m, List.length (old_hash m) = 32%nat.
Proof. intros m. apply sha3_256_length. Qed.
Print Assumptions old_hash_length.

(* from here on the digest and the checksum are black boxes *)
Global Opaque sha3_256 fnv.

Lemma old_offsets_same :
  oo_meta_page = o_meta_page /\ oo_magic = o_magic /\ oo_version = o_version /\ oo_pagesize = o_pagesize /\
  oo_root = o_root /\ oo_next = o_next /\ oo_np = o_np /\ oo_fl = o_fl /\ oo_tx = o_tx /\ oo_hash = o_hash.
Proof. repeat split; reflexivity. Qed.

(* the offsets being the same, the legacy encoder makes the writes of the current one, with the digest for a checksum *)
Lemma old_encode_eq P m :
  encode_old_meta_page P m = puts (hdr_writes m (old_hash m)) (zeros (N.to_nat P)).
Proof. cbv [encode_old_meta_page puts hdr_writes fold_left put fst snd]. reflexivity. Qed.

Lemma old_hash_fits P m : old_meta_end <= P -> o_hash + N.of_nat (length (old_hash m)) <= P.
Proof. rewrite old_hash_length. exact (fun H => H). Qed.

Lemma old_encode_length P m : old_meta_end <= P -> length (encode_old_meta_page P m) = N.to_nat P.
Proof.
  intros HP. rewrite old_encode_eq, (puts_length 0) by exact (hdr_laid P m _ (old_hash_fits P m HP)).
  apply zeros_length.
Qed.

Lemma old_encode_windows P m :
  old_meta_end <= P ->
  windows_of (encode_old_meta_page P m) m old_hash_len (old_hash m).
Proof.
  intros HP. pose proof (hdr_windows P m _ (old_hash_fits P m HP)) as W.
  rewrite old_hash_length in W. rewrite old_encode_eq. exact W.
Qed.

Lemma decode_old_windows {pg st sa sb sc sd se sf sg sh si hs} :
  windows pg st sa sb sc sd se sf sg sh si old_hash_len hs ->
  page_type_of pg = Some (le_dec st) /\
  decode_old_meta pg =
    Some (mkMeta (le_dec sa) (le_dec sb) (le_dec sc) (le_dec sd) (le_dec se) (le_dec sf)
                 (le_dec sg) (le_dec sh) (le_dec si) 0, hs).
Proof.
  intros (Ht & Ha & Hb & Hc & Hd & He & Hf & Hg & Hh & Hi & Hj).
  unfold page_type_of, decode_old_meta, rd_le.
  change (N.of_nat 1) with 1. change (N.of_nat 4) with 4. change (N.of_nat 8) with 8.
  destruct old_offsets_same as (-> & -> & -> & -> & -> & -> & -> & -> & -> & ->).
  rewrite Ht, Ha, Hb, Hc, Hd, He, Hf, Hg, Hh, Hi, Hj. cbn [option_map]. split; reflexivity.
Qed.

Lemma read_slot_old_decoded ct pg t m hs :
  page_type_of pg = Some t -> decode_old_meta pg = Some (m, hs) ->
  read_slot_old ct pg =
    if t =? type_meta then (if bytes_eqb (old_hash m) hs then SlotValid (with_hash m) else SlotInvalid)
    else if ct then SlotInvalid else SlotPanic.
Proof. intros Ht Hm. unfold read_slot_old. now rewrite Ht, Hm. Qed.

(* the decoded record: the fields of m, checksum field 0 *)
Definition strip (m : meta) : meta :=
  mkMeta (m_page m) (m_magic m) (m_version m) (m_psz m) (m_root m) (m_next m) (m_np m) (m_fl m) (m_tx m) 0.

Lemma old_encode_decoded P m :
  meta_wf m -> old_meta_end <= P ->
  page_type_of (encode_old_meta_page P m) = Some type_meta /\
  decode_old_meta (encode_old_meta_page P m) = Some (strip m, old_hash m).
Proof.
  intros (?&?&?&?&?&?&?&?&?&?) HP.
  destruct (decode_old_windows (old_encode_windows P m HP)) as [Ht Hm].
  rewrite Ht, Hm, type_byte, !le_dec_enc_4, !le_dec_enc_8 by assumption.
  split; reflexivity.
Qed.

Theorem decode_encode_old_meta : forall P m,
  meta_wf m -> old_meta_end <= P ->
  decode_old_meta (encode_old_meta_page P m) =
    Some (mkMeta (m_page m) (m_magic m) (m_version m) (m_psz m) (m_root m) (m_next m) (m_np m) (m_fl m)
                 (m_tx m) 0, old_hash m).
Proof. intros P m WF HP. exact (proj2 (old_encode_decoded P m WF HP)). Qed.
Print Assumptions decode_encode_old_meta.

Theorem page_type_old_encode : forall P m,
  old_meta_end <= P -> page_type_of (encode_old_meta_page P m) = Some Consts.type_meta.
Proof.
  intros P m HP. destruct (decode_old_windows (old_encode_windows P m HP)) as [Ht _].
  now rewrite Ht, type_byte.
Qed.
Print Assumptions page_type_old_encode.

Lemma bytes_eqb_refl x : bytes_eqb x x = true.
Proof. induction x as [|b x IH]; cbn [bytes_eqb]; [reflexivity|]. now rewrite N.eqb_refl, IH. Qed.

Lemma bytes_eqb_eq x y : bytes_eqb x y = true <-> x = y.
Proof.
  split; [|intros ->; apply bytes_eqb_refl].
  revert y. induction x as [|a x IH]; intros [|b y]; cbn [bytes_eqb]; try discriminate; [reflexivity|].
  intros H. apply andb_true_iff in H as [H1 H2]. apply N.eqb_eq, to_N_inj in H1. apply IH in H2. congruence.
Qed.

Lemma hash_input_of_strip fs m : hash_input_of fs (strip m) = hash_input_of fs m.
Proof. reflexivity. Qed.

Lemma old_hash_strip m : old_hash (strip m) = old_hash m.
Proof. unfold old_hash. now rewrite hash_input_of_strip. Qed.

Lemma meta_hash_strip m : meta_hash (strip m) = meta_hash m.
Proof. unfold meta_hash, hash_input. now rewrite hash_input_of_strip. Qed.

Lemma with_hash_strip m : with_hash (strip m) = with_hash m.
Proof.
  unfold with_hash. rewrite meta_hash_strip. unfold strip.
  cbn [m_page m_magic m_version m_psz m_root m_next m_np m_fl m_tx]. reflexivity.
Qed.

(* a legacy header reads back as the converted (FNV-checksummed) header *)
Theorem read_slot_old_encode : forall ct P m,
  meta_wf m -> old_meta_end <= P ->
  read_slot_old ct (encode_old_meta_page P m) = SlotValid (with_hash m).
Proof.
  intros ct P m WF HP. destruct (old_encode_decoded P m WF HP) as [Ht Hm].
  rewrite (read_slot_old_decoded ct _ _ _ _ Ht Hm), N.eqb_refl, old_hash_strip, bytes_eqb_refl,
    with_hash_strip.
  reflexivity.
Qed.
Print Assumptions read_slot_old_encode.

Lemma slice_prefix b o n k s :
  slice b o n = Some s -> k <= n -> slice b o k = Some (firstn (N.to_nat k) s).
Proof.
  intros H Hk. apply slice_inv in H as [HL ->].
  rewrite slice_some by lia. f_equal.
  rewrite firstn_firstn. f_equal. lia.
Qed.

Lemma windows_prefix {pg st sa sb sc sd se sf sg sh si w sj} k :
  windows pg st sa sb sc sd se sf sg sh si w sj -> k <= w ->
  windows pg st sa sb sc sd se sf sg sh si k (firstn (N.to_nat k) sj).
Proof.
  intros (Ht & Ha & Hb & Hc & Hd & He & Hf & Hg & Hh & Hi & Hj) Hk.
  repeat split; try assumption. now apply (slice_prefix _ _ w).
Qed.

(* What the premise [read_slot ct (encode_old_meta_page ..) = SlotInvalid] of the theorems below on files with a
   legacy header amounts to. The current-format reader sees the same nine fields and takes the first 8 digest
   bytes for the checksum: the page is a valid current-format header exactly when those equal the FNV checksum. *)
Definition digest_prefix (m : meta) : N := le_dec (firstn 8 (old_hash m)).

Theorem read_slot_legacy_page : forall ct P m,
  meta_wf m -> old_meta_end <= P ->
  read_slot ct (encode_old_meta_page P m) =
    if digest_prefix m =? meta_hash m
    then SlotValid (mkMeta (m_page m) (m_magic m) (m_version m) (m_psz m) (m_root m) (m_next m) (m_np m)
                           (m_fl m) (m_tx m) (digest_prefix m))
    else SlotInvalid.
Proof.
  intros ct P m (?&?&?&?&?&?&?&?&?&?) HP.
  destruct (decode_windows (windows_prefix 8 (old_encode_windows P m HP) (N.lt_le_incl 8 old_hash_len eq_refl)))
    as [Ht Hm].
  rewrite (read_slot_decoded ct _ _ _ Ht Hm), type_byte, !le_dec_enc_4, !le_dec_enc_8, N.eqb_refl by assumption.
  change (N.to_nat 8) with 8%nat.
  fold (digest_prefix m). unfold meta_valid. cbn [m_hash].
  replace (meta_hash (mkMeta _ _ _ _ _ _ _ _ _ (digest_prefix m))) with (meta_hash m); [reflexivity|].
  unfold meta_hash, hash_input. reflexivity.
Qed.
Print Assumptions read_slot_legacy_page.

Corollary legacy_page_invalid_iff : forall ct P m,
  meta_wf m -> old_meta_end <= P ->
  (read_slot ct (encode_old_meta_page P m) = SlotInvalid <-> digest_prefix m <> meta_hash m).
Proof.
  intros ct P m WF HP. rewrite read_slot_legacy_page by assumption.
  destruct (N.eqb_spec (digest_prefix m) (meta_hash m)); split; intros; congruence.
Qed.
Print Assumptions legacy_page_invalid_iff.

(* the premise is not vacuous: the two headers of a fresh 4096-byte-page legacy file *)
Example legacy_page_invalid_example :
  read_slot true (encode_old_meta_page 4096 (mkMeta 0 magic version 4096 3 0 4 2 0 0)) = SlotInvalid /\
  read_slot true (encode_old_meta_page 4096 (mkMeta 1 magic version 4096 3 0 4 2 0 0)) = SlotInvalid.
Proof. split; vm_compute; reflexivity. Qed.

(* DBInner::meta() consults the legacy format only when the current-format pass finds no header at all:
   whenever that pass selects or panics, its answer stands *)
Theorem select_any_current_first : forall ct P pg0 pg1,
  select_slots P (read_slot ct pg0) (read_slot ct pg1) <> SelNone ->
  select_any ct P pg0 pg1 = select_slots P (read_slot ct pg0) (read_slot ct pg1).
Proof.
  intros ct P pg0 pg1 H. unfold select_any.
  destruct (select_slots P (read_slot ct pg0) (read_slot ct pg1)); [reflexivity|congruence|reflexivity].
Qed.
Print Assumptions select_any_current_first.

(* independent of how the pages were produced (e.g. a current-format header written over a page whose
   bytes 104..127 still hold the tail of an old digest): one slot valid in the current format, the other
   invalid in the current format => the legacy reader is never consulted *)
Theorem select_any_valid_invalid : forall ct P pg0 pg1 m,
  read_slot ct pg0 = SlotValid m -> read_slot ct pg1 = SlotInvalid ->
  select_any ct P pg0 pg1 = select_slots P (SlotValid m) SlotInvalid /\
  select_any ct P pg1 pg0 = select_slots P SlotInvalid (SlotValid m).
Proof.
  intros ct P pg0 pg1 m V I.
  split; rewrite select_any_current_first; rewrite V, I; try reflexivity;
    cbn [select_slots]; destruct (m_psz m =? P); discriminate.
Qed.
Print Assumptions select_any_valid_invalid.

(* a file with two legacy headers opens as if both had been converted *)
Theorem legacy_file_opens : forall ct P m0 m1,
  meta_wf m0 -> meta_wf m1 -> old_meta_end <= P -> m_psz m0 = P -> m_psz m1 = P ->
  read_slot ct (encode_old_meta_page P m0) = SlotInvalid ->
  read_slot ct (encode_old_meta_page P m1) = SlotInvalid ->
  select_any ct P (encode_old_meta_page P m0) (encode_old_meta_page P m1) =
    select_slots P (SlotValid (with_hash m0)) (SlotValid (with_hash m1)).
Proof.
  intros ct P m0 m1 WF0 WF1 HP _ _ I0 I1.
  unfold select_any. rewrite I0, I1. cbn [select_slots]. now rewrite !read_slot_old_encode.
Qed.
Print Assumptions legacy_file_opens.

(* with the page sizes used: the header with the larger transaction id, ties to slot 1 *)
Corollary legacy_file_opens_newest : forall ct P m0 m1,
  meta_wf m0 -> meta_wf m1 -> old_meta_end <= P -> m_psz m0 = P -> m_psz m1 = P ->
  read_slot ct (encode_old_meta_page P m0) = SlotInvalid ->
  read_slot ct (encode_old_meta_page P m1) = SlotInvalid ->
  select_any ct P (encode_old_meta_page P m0) (encode_old_meta_page P m1) =
    SelMeta (with_hash (if m_tx m1 <? m_tx m0 then m0 else m1)).
Proof.
  intros ct P m0 m1 WF0 WF1 HP P0 P1 I0 I1.
  rewrite (legacy_file_opens ct P m0 m1) by assumption.
  cbn [select_slots]. rewrite !with_hash_psz, P0, P1, N.eqb_refl. cbn [negb].
  unfold with_hash at 1 2. cbn [m_tx]. now destruct (m_tx m1 <? m_tx m0).
Qed.
Print Assumptions legacy_file_opens_newest.

(* a mixed file, with the page size used: the current-format header is selected, even when the legacy header
   carries a larger transaction id (no hypothesis relates m_tx m0 and m_tx m1) *)
Corollary mixed_file_current_wins : forall ct P m0 m1,
  meta_wf m0 -> meta_end <= P -> m_psz m0 = P ->
  read_slot ct (encode_old_meta_page P m1) = SlotInvalid ->
  select_any ct P (encode_meta_page P (with_hash m0)) (encode_old_meta_page P m1) = SelMeta (with_hash m0) /\
  select_any ct P (encode_old_meta_page P m1) (encode_meta_page P (with_hash m0)) = SelMeta (with_hash m0).
Proof.
  intros ct P m0 m1 WF0 HP P0 I1.
  destruct (select_any_valid_invalid ct P _ _ _ (read_slot_encode ct P m0 WF0 HP) I1) as [-> ->].
  cbn [select_slots]. now rewrite with_hash_psz, P0, N.eqb_refl.
Qed.
Print Assumptions mixed_file_current_wins.
