(* The pages written by the running transaction form disjoint allocated runs, handed back only as a whole ([wr_ok]);
   pending pages stay below the high-water mark and off the free list ([pend_ok0]); no pending batch is filed beyond
   the running transaction ([pend_ids_ok]). Their conjunction [WOK] is kept by [write_node], [spill_node], [spill_root],
   by freeing live pages, by allocation and by sequence-counter steps ([W1a] .. [W1d]). *)
From Coq Require Import List NArith Bool Arith Lia ZifyN ZifyNat ZifyBool Permutation.
From Coq.Strings Require Import Byte.
From Jamm Require Spec.
From Jamm Require Import Bytes BytesFacts Tree Cursor SearchFacts Engine EngineAbs EngineFacts EngineMergeFacts.
From Jamm Require Import EngineModifyFacts EngineSpillFacts EnginePathFacts EngineBridgeFacts EngineRebalanceFacts.
From Jamm Require FreelistFacts EngineAllocFacts EngineSpillWfFacts.
From Jamm Require Import EngineTxInvFacts EngineSpillBucketFacts EngineRefines.
Import ListNotations.
Import Coq.Strings.String.StringSyntax. Delimit Scope string_scope with string.
Local Open Scope list_scope. Local Open Scope nat_scope.
Set Warnings "-abstract-large-number".

From Jamm Require Import EngineOwnDefs.

Definition WOK (live : list N) (s : txs) : Prop := wr_ok live s /\ pend_ok0 s /\ pend_ids_ok s.

Lemma wrun_pages_for : forall P q sz dd, (0 < Freelist.pages_for P sz)%N ->
  wrun P q (sz, dd) = nrun q (Freelist.pages_for P sz).
Proof.
  intros P q sz dd H. unfold wrun, mk_apage, Freelist.pages_for in *. cbn [fst snd ap_over]. f_equal. lia.
Qed.

Lemma In_wrun_head : forall P q v, In q (wrun P q v).
Proof. intros P q v. unfold wrun. apply In_nrun. lia. Qed.

(* the node handed to [write_node]: its old run is live (or it has none), or it is exactly a written run *)
Definition node_cond (live : list N) (s : txs) (n : node) : Prop :=
  (forall x, old_run n x -> In x live) \/
  (exists v, wr_get (wr s) (n_page n) = Some v /\ forall x, old_run n x <-> In x (wrun (psz s) (n_page n) v)).

Theorem write_node_wok : forall live s n n' s',
  fresh_inv live s -> WOK live s -> node_cond live s n -> write_node s n = (n', s') ->
  fresh_inv live s' /\ WOK live s' /\
  wr_get (wr s') (n_page n') = Some (node_size n, n_data n) /\
  (forall x, old_run n' x <-> In x (wrun (psz s') (n_page n') (node_size n, n_data n))) /\
  n' = set_page n (n_page n') (n_np n').
Proof.
  intros live s n n' s' Hfi (Hw & Hp & Hi) Hnc Hwn.
  pose proof (write_node_spec _ _ _ _ _ Hfi Hwn) as Hs. cbv zeta in Hs.
  destruct Hs as (En & Ek & Hk0 & Hp2 & Hnl & Hfi' & Ewr & Etx & Epsz & _ & _ & Hnp & Hfr & Hfreed & _ & Epd).
  destruct (write_node_frame _ _ _ _ _ Hfi Hwn) as (Hframe & _ & _ & _ & _ & Hget).
  pose proof (fr_src _ _ _ _ _ Hframe) as Hsrc.
  set (p := n_page n') in *. set (k := n_np n') in *.
  assert (Erun : wrun (psz s') p (node_size n, n_data n) = nrun p k).
  { rewrite Epsz, wrun_pages_for; [now rewrite <- Ek | rewrite <- Ek; exact Hk0]. }
  assert (Hfi1 : fresh_inv live s').
  { eapply fresh_inv_sub; [|exact Hfi']. intros x Hx. apply in_or_app. now right. }
  (* a page of the new run is not a page of an earlier written run *)
  assert (Hnew_old : forall q v x, wr_get (wr s) q = Some v -> In x (wrun (psz s) q v) -> In x (nrun p k) -> False).
  { intros q v x Hq Hx Hn. destruct (wo_range _ _ Hw q v x Hq Hx) as (R1 & R2 & _).
    destruct (Hsrc x Hn) as [A|A]; [exact (R2 A) | lia]. }
  assert (Hold_new : forall x, old_run n x -> In x (nrun p k) -> False).
  { intros x Ho Hn. destruct Hnc as [HA | (v & Hv & HB)].
    - apply (Hnl x); [apply In_nrun, Hn | apply HA, Ho].
    - apply (Hnew_old _ _ x Hv); [apply HB, Ho | exact Hn]. }
  assert (Hget' : forall q v, wr_get (wr s') q = Some v ->
            (q = p /\ v = (node_size n, n_data n)) \/ (q <> p /\ wr_get (wr s) q = Some v)).
  { intros q v Hq. rewrite Ewr, wr_get_put in Hq. destruct (N.eqb_spec p q) as [E|E].
    - left. inversion Hq. auto.
    - right. auto. }
  split; [exact Hfi1|]. split; [split; [|split]|].
  - (* wr_ok *)
    constructor.
    + intros q v x Hq Hx. destruct (Hget' q v Hq) as [[-> ->] | [Hne Hq0]].
      * rewrite Erun in Hx. destruct (fi_live _ _ Hfi' x (in_or_app _ _ _ (or_introl Hx))) as [A B].
        apply In_nrun in Hx. split; [lia|]. split; [exact B | apply Hnl; exact Hx].
      * rewrite Epsz in Hx. destruct (wo_range _ _ Hw q v x Hq0 Hx) as (R1 & R2 & R3).
        split; [lia|]. split; [intros Hf; apply R2, Hfr, Hf | exact R3].
    + intros q1 v1 q2 v2 x H1 H2 X1 X2.
      destruct (Hget' q1 v1 H1) as [[-> ->] | [Hne1 H10]]; destruct (Hget' q2 v2 H2) as [[-> ->] | [Hne2 H20]].
      * reflexivity.
      * exfalso. rewrite Erun in X1. rewrite Epsz in X2. eapply Hnew_old; eauto.
      * exfalso. rewrite Erun in X2. rewrite Epsz in X1. eapply Hnew_old; eauto.
      * rewrite Epsz in X1, X2. eapply (wo_disj _ _ Hw); eauto.
    + intros q v x Hq Hx Hf. apply Hfreed in Hf. apply Hfreed.
      destruct (Hget' q v Hq) as [[-> ->] | [Hne Hq0]].
      * exfalso. rewrite Erun in Hx. destruct Hf as [Hf | Hf]; [|exact (Hold_new x Hf Hx)].
        apply freed_in_tx_pend_at in Hf. apply FreelistFacts.pend_at_sub in Hf.
        destruct (Hp x Hf) as [A B]. destruct (Hsrc x Hx) as [C|C]; [exact (B C) | lia].
      * rewrite Epsz in Hx. destruct Hf as [Hf | Hf]; [left; eapply (wo_freed _ _ Hw); eauto|].
        destruct Hnc as [HA | (v0 & Hv0 & HB)].
        -- exfalso. destruct (wo_range _ _ Hw q v x Hq0 Hx) as (_ & _ & R3). apply R3, HA, Hf.
        -- right. apply HB. apply HB in Hf.
           assert (q = n_page n) by (eapply (wo_disj _ _ Hw); eauto). subst q.
           rewrite Hv0 in Hq0. inversion Hq0; subst v0. apply In_wrun_head.
  - (* pend_ok0 *)
    intros x Hx. rewrite Epd in Hx. apply free_node_page_pend_all in Hx. destruct Hx as [Hx | Hx].
    + destruct (Hp x Hx) as [A B]. split; [lia | intros Hf; apply B, Hfr, Hf].
    + destruct Hnc as [HA | (v0 & Hv0 & HB)].
      * apply (fi_live _ _ Hfi1 x), HA, Hx.
      * apply HB in Hx. destruct (wo_range _ _ Hw _ _ x Hv0 Hx) as (R1 & R2 & _).
        split; [lia | intros Hf; apply R2, Hfr, Hf].
  - (* pend_ids_ok *)
    apply (pend_ids_ok_ext (free_node_page s n)); [exact Epd | |now apply free_node_page_pend_ids].
    rewrite Etx. destruct (free_node_page_fields s n) as (_ & _ & _ & T & _). now rewrite T.
  - split; [exact Hget|]. split; [|exact En].
    intros x. rewrite Erun, In_nrun. unfold old_run. fold p k. split; [tauto|]. intros H. split; [lia | exact H].
Qed.

Lemma node_cond_nopage : forall live s n, n_page n = 0%N -> node_cond live s n.
Proof. intros live s n E. left. intros x [H _]. contradiction. Qed.

Lemma sibs_fold_wok : forall live rest acc s sibs s', fresh_inv live s -> WOK live s ->
  fold_res spill_sib_step rest (acc, s) = Ok (sibs, s') -> fresh_inv live s' /\ WOK live s'.
Proof.
  intros live. induction rest as [|dd rest IH]; intros acc s sibs s' Hfi Hw H; cbn [fold_res] in H.
  - inversion H; subst. auto.
  - apply bind_ok_inv in H. destruct H as ([l1 s1] & Hst & H). unfold spill_sib_step in Hst.
    destruct (first_key dd) as [fk| |]; cbn [bind] in Hst; try discriminate.
    destruct (write_node s (Node 0 0 (Some fk) 0 dd [])) as [sn s2] eqn:Hwn. inversion Hst; subst l1 s1.
    destruct (write_node_wok live s _ sn s2 Hfi Hw (node_cond_nopage live s (Node 0 0 (Some fk) 0 dd []) eq_refl) Hwn) as (F & W & _).
    eapply IH; eauto.
Qed.

Lemma spill_tail_wok : forall live n d1 s1 out s', fresh_inv live s1 -> WOK live s1 ->
  (forall x, old_run n x -> In x live) -> spill_tail n d1 s1 = Ok (out, s') -> fresh_inv live s' /\ WOK live s'.
Proof.
  intros live n d1 s1 out s' Hfi Hw Hold H. unfold spill_tail in H.
  destruct (split s1 d1) as [d0 rest].
  destruct (write_node s1 (set_kids (set_data n d0) [])) as [n1 s2] eqn:W1.
  assert (Hc0 : node_cond live s1 (set_kids (set_data n d0) [])).
  { left. intros x Hx. apply Hold. destruct n; exact Hx. }
  destruct (write_node_wok live s1 _ n1 s2 Hfi Hw Hc0 W1) as (F2 & W2 & G1 & G2 & _).
  assert (Hs3 : exists n2 s3, (match rest with [] => (n1, s2) | _ => write_node s2 n1 end) = (n2, s3) /\
                  fresh_inv live s3 /\ WOK live s3).
  { destruct rest as [|r0 rest'].
    - exists n1, s2. auto.
    - destruct (write_node s2 n1) as [n2 s3] eqn:W3. exists n2, s3. split; [reflexivity|].
      assert (Hc1 : node_cond live s2 n1) by (right; eexists; split; [exact G1 | exact G2]).
      destruct (write_node_wok live s2 n1 n2 s3 F2 W2 Hc1 W3) as (F3 & W3' & _). auto. }
  destruct Hs3 as (n2 & s3 & E3 & F3 & W3). rewrite E3 in H.
  apply bind_ok_inv in H. destruct H as ([sibs s4] & Hsf & H).
  destruct (sibs_fold_wok live rest [] s3 sibs s4 F3 W3 Hsf) as [F4 W4].
  destruct (first_key (n_data n2)) as [fk0| |]; cbn [bind] in H; try discriminate. inversion H; subst. auto.
Qed.

Lemma old_in_inv : forall L n, old_in L n -> (forall x, old_run n x -> In x L) /\ (forall k, In k (n_kids n) -> old_in L k).
Proof. intros L n H. inversion H; auto. Qed.

Theorem spill_node_wok : forall f live n s out s', fresh_inv live s -> WOK live s -> old_in live n ->
  spill_node f n s = Ok (out, s') -> fresh_inv live s' /\ WOK live s'.
Proof.
  induction f as [|f IH]; intros live n s out s' Hfi Hw Hold H; [discriminate|].
  rewrite spill_node_unfold in H. destruct (old_in_inv _ _ Hold) as [Ho Hk].
  apply bind_ok_inv in H. destruct H as (ks & Hkk & H).
  apply bind_ok_inv in H. destruct H as ([d1 s1] & Hfold & H).
  assert (Hkids : forall k, In k (map snd (isort_by fst ks)) -> old_in live k).
  { intros k Hin. apply Hk. rewrite <- (kid_keys_snd _ _ Hkk).
    eapply Permutation_in; [apply Permutation_map; apply EngineMergeFacts.isort_by_perm | exact Hin]. }
  assert (G : forall todo dd s0 d1' s1', (forall k, In k todo -> old_in live k) -> fresh_inv live s0 -> WOK live s0 ->
            fold_res (spill_kid_step f) todo (dd, s0) = Ok (d1', s1') -> fresh_inv live s1' /\ WOK live s1').
  { induction todo as [|k todo IHt]; intros dd s0 d1' s1' Hall F0 W0 Hf; cbn [fold_res] in Hf.
    - inversion Hf; subst. auto.
    - apply bind_ok_inv in Hf. destruct Hf as ([d2 s2] & Hst & Hf). unfold spill_kid_step in Hst.
      apply bind_ok_inv in Hst. destruct Hst as ([[[ko kb] sibs] sk] & Hsp & Hst).
      destruct (IH live k s0 _ sk F0 W0 (Hall k (or_introl eq_refl)) Hsp) as [Fk Wk].
      assert (s2 = sk).
      { destruct dd as [l|es]; [discriminate|]. apply bind_ok_inv in Hst. destruct Hst as (es1 & _ & Hst).
        apply bind_ok_inv in Hst. destruct Hst as (es2 & _ & Hst). now inversion Hst. }
      subst s2. eapply IHt; eauto. intros k' Hk'. apply Hall. now right. }
  destruct (G _ _ _ _ _ Hkids Hfi Hw Hfold) as [F1 W1].
  eapply spill_tail_wok; eauto.
Qed.

Theorem spill_root_wok : forall f live n s p s', fresh_inv live s -> WOK live s -> old_in live n ->
  spill_root f n s = Ok (p, s') -> fresh_inv live s' /\ WOK live s'.
Proof.
  induction f as [|f IH]; intros live n s p s' Hfi Hw Hold H; [discriminate|]. cbn [spill_root] in H.
  apply bind_ok_inv in H. destruct H as ([[[o [fk p1]] sibs] s1] & Hfirst & H).
  assert (Hs1 : fresh_inv live s1 /\ WOK live s1).
  { destruct (old_in_inv _ _ Hold) as [Ho _].
    assert (Hleaf : forall (X : res (spill_out * txs)),
              (let '(n1, s'0) := write_node s (set_kids n []) in Ok ((n_orig n, ([], n_page n1), []), s'0)) = X ->
              X = Ok ((o, (fk, p1), sibs), s1) -> fresh_inv live s1 /\ WOK live s1).
    { intros X EX E. subst X. destruct (write_node s (set_kids n [])) as [n1 s0] eqn:Hwn. inversion E; subst.
      assert (Hc : node_cond live s (set_kids n [])) by (left; intros x Hx; apply Ho; destruct n; exact Hx).
      destruct (write_node_wok live s _ n1 s1 Hfi Hw Hc Hwn) as (F & W & _). auto. }
    destruct (n_data n) as [[|e l]|es]; [eapply Hleaf; [reflexivity | exact Hfirst] | |];
      eapply spill_node_wok; eauto. }
  destruct Hs1 as [F1 W1]. destruct sibs as [|sb sibs]; [inversion H; subst; auto|].
  eapply IH; [exact F1 | exact W1 | | exact H].
  constructor; [intros x [Hx _]; cbn [n_page] in Hx; contradiction | intros k []].
Qed.

(* the statements in the form EngineOwnSpill and EngineCow take as hypotheses *)

Theorem W1a : forall live f n s p s', fresh_inv live s -> wr_ok live s -> pend_ok0 s -> pend_ids_ok s -> old_in live n ->
  spill_root f n s = Ok (p, s') -> wr_ok live s' /\ pend_ok0 s' /\ pend_ids_ok s'.
Proof.
  intros live f n s p s' Hfi A B C Hold H.
  destruct (spill_root_wok f live n s p s' Hfi (conj A (conj B C)) Hold H) as [_ W]. exact W.
Qed.

(* a step that writes nothing, takes pages only from the free list or beyond the high-water mark, and frees only live pages *)
Lemma wr_ok_step : forall live s s', wr s' = wr s -> psz s' = psz s -> (np s <= np s')%N ->
  (forall x, In x (free s') -> In x (free s)) ->
  (forall x, freed_in_tx s x = true -> freed_in_tx s' x = true) ->
  (forall x, freed_in_tx s' x = true -> freed_in_tx s x = true \/ In x live) ->
  wr_ok live s -> wr_ok live s'.
Proof.
  intros live s s' Ew Ep Hnp Hfr Hf1 Hf2 Hw. constructor; rewrite Ew, Ep.
  - intros q v x Hq Hx. destruct (wo_range _ _ Hw q v x Hq Hx) as (R1 & R2 & R3).
    split; [lia|]. split; [intros Hf; apply R2, Hfr, Hf | exact R3].
  - apply (wo_disj _ _ Hw).
  - intros q v x Hq Hx Hf. apply Hf1. destruct (Hf2 x Hf) as [A|A]; [exact (wo_freed _ _ Hw q v x Hq Hx A)|].
    destruct (wo_range _ _ Hw q v x Hq Hx) as (_ & _ & R3). contradiction.
Qed.

Theorem W1b : forall live s p n, fresh_inv live s -> wr_ok live s -> pend_ok0 s -> pend_ids_ok s ->
  (forall x, In x (nrun p n) -> In x live) ->
  wr_ok live (free_pages s p n) /\ pend_ok0 (free_pages s p n) /\ pend_ids_ok (free_pages s p n).
Proof.
  intros live s p n Hfi Hw Hp Hi Hl.
  destruct (free_pages_fields s p n) as (F1 & F2 & F3 & F4 & F5 & _).
  split; [|split; [|now apply free_pages_pend_ids]].
  - apply (wr_ok_step live s _ F3 F5); [rewrite F2; apply N.le_refl | intros x; rewrite F1; auto | | | exact Hw].
    + intros x Hx. apply free_pages_freed. left. exact Hx.
    + intros x Hx. apply free_pages_freed in Hx. destruct Hx as [Hx|Hx]; [left; exact Hx | right; apply Hl, In_nrun, Hx].
  - intros x Hx. rewrite F1, F2. apply EngineAllocFacts.engine_free_pend_all in Hx. destruct Hx as [Hx | Hx].
    + apply Hp, Hx.
    + apply (fi_live _ _ Hfi x), Hl, In_nrun, Hx.
Qed.

Theorem W1c : forall live s bts p n s', fresh_inv live s -> wr_ok live s -> pend_ok0 s -> pend_ids_ok s -> (0 < bts)%N ->
  tx_allocate s bts = (p, n, s') ->
  wr_ok live s' /\ pend_ok0 s' /\ pend_ids_ok s' /\
  (forall q v x, wr_get (wr s') q = Some v -> In x (wrun (psz s') q v) -> ~ In x (nrun p n)).
Proof.
  intros live s bts p n s' Hfi Hw Hp Hi Hb Hal.
  destruct (tx_allocate_fresh _ _ _ _ _ _ Hfi Hb Hal)
    as (_ & _ & _ & _ & _ & _ & Ewr & Epd & Etx & Epsz & _ & _ & Hnp & Hfr & Hsrc).
  split; [|split; [|split]].
  - apply (wr_ok_step live s _ Ewr Epsz Hnp Hfr); [| | exact Hw]; intros x; unfold freed_in_tx; rewrite Epd, Etx; auto.
  - intros x Hx. rewrite Epd in Hx. destruct (Hp x Hx) as [A B]. split; [lia | intros Hf; apply B, Hfr, Hf].
  - apply (pend_ids_ok_ext s); assumption.
  - intros q v x Hq Hx Hn. rewrite Ewr in Hq. rewrite Epsz in Hx. destruct (wo_range _ _ Hw q v x Hq Hx) as (R1 & R2 & _).
    apply In_nrun in Hn. destruct (Hsrc x Hn) as [A|A]; [exact (R2 A) | lia].
Qed.

Theorem W1d : forall live s s', same_but_seqc s s' -> wr_ok live s -> pend_ok0 s -> pend_ids_ok s ->
  wr_ok live s' /\ pend_ok0 s' /\ pend_ids_ok s'.
Proof.
  intros live s s' (A1 & A2 & A3 & A4 & A5 & A6 & A7 & A8) Hw Hp Hi.
  assert (Efr : forall x, freed_in_tx s' x = freed_in_tx s x) by (intros x; unfold freed_in_tx; rewrite A2, A3; reflexivity).
  split; [|split].
  - apply (wr_ok_step live s _ A6 A5); [rewrite A4; apply N.le_refl | intros x; rewrite A1; auto | | | exact Hw];
      intros x; rewrite Efr; auto.
  - intros x Hx. replace (pending s') with (pending s) in Hx by congruence.
    replace (np s') with (np s) by congruence. replace (free s') with (free s) by congruence. apply Hp, Hx.
  - apply (pend_ids_ok_ext s); [congruence | congruence | exact Hi].
Qed.

Print Assumptions W1a.
Print Assumptions W1b.
Print Assumptions W1c.
Print Assumptions W1d.
