(* The complete file image of an engine state, and the file checker on it.
   EngineReadBridge.BytesLevel.image writes the TREE pages of a state into a buffer.  Here the rest of the file is
   added: the header page (Meta.encode_meta_page of the state's meta record, checksummed, in slot [d_tx mod 2]), some
   content [other] in the other slot (invalid, a valid header of an OLDER transaction, or one agreeing with the
   state's), and the free-list page run (Codec.encode_page of [PFree (d_flids st)] with overflow [d_fln - 1] at page
   [d_fl]).  On that image Tree.open_db returns the state's meta, [d_flids st] and the run [d_fl, d_fl + d_fln);
   Tree.bucket_pages returns a permutation of [runs (d_disk st) (Rof st)]; Tree.inv_check and CheckM.check_m accept
   it, for every state reached from [init_db]. *)
From Coq Require Import List NArith Bool Arith Lia ZifyN ZifyNat ZifyBool Permutation Sorted.
From Coq.Strings Require Import Byte.
From Jamm Require Spec Tree Cursor Codec CodecFacts BytesFacts Meta MetaFacts OldMeta CheckM CheckFacts Consts.
From Jamm Require Import ListFacts Bytes.
From Jamm Require Import Engine EngineAbs EngineFacts EngineSpillFacts EngineModifyFacts EngineBridgeFacts EngineRebalanceFacts.
From Jamm Require Import EngineTxInvFacts EngineRefines EngineOwnDefs EngineOwnSpill EngineAllocInv.
From Jamm Require Import EngineDepth EngineSpillDepth EngineReadBridge EngineReadFull.
From Jamm Require Import EngineNoLeakDefs EngineNoLeak EngineReopen.
Import ListNotations.
Local Open Scope list_scope. Local Open Scope N_scope.
Set Warnings "-abstract-large-number".

Import BytesLevel.

(* the header record of a state; the slot number is [d_tx mod 2] (db.rs: meta page id = tx_id % 2) *)
Definition slot_of (st : db) : N := d_tx st mod 2.
Definition meta_of (P : N) (st : db) : Meta.meta :=
  Meta.with_hash (Meta.mkMeta (slot_of st) Consts.magic Consts.version P (d_root st) (d_next st) (d_np st) (d_fl st) (d_tx st) 0).
Definition meta_page (P : N) (st : db) : bytes := Meta.encode_meta_page P (meta_of P st).

(* the free-list page run: the recorded ids, overflow count = run length - 1 *)
Definition fl_bytes (pad : N -> byte) (st : db) : bytes :=
  Codec.encode_page pad (d_fl st) (d_fln st - 1) (Codec.PFree (d_flids st)).

Definition tree_image (pad : N -> byte) (P : N) (st : db) : bytes :=
  image pad P (d_disk st) (Rof st) (zeros (N.to_nat (d_np st * P))).
(* the whole file: tree pages, then the free-list run, then the two header slots; [other] = the bytes of the other
   header slot *)
Definition file_image (pad : N -> byte) (P : N) (st : db) (other : bytes) : bytes :=
  splice (splice (splice (tree_image pad P st) (d_fl st * P) (fl_bytes pad st))
                 (slot_of st * P) (meta_page P st))
         ((1 - slot_of st) * P) other.

(* what the file checker reads of a header page *)
Definition hdr_prefix (P : N) (pg : bytes) : bytes := firstn (N.to_nat (N.min P 256)) pg.

(* the other slot: a page of P bytes which is not a valid header, or a valid header of an older transaction with the
   same page size *)
Definition other_ok (P : N) (st : db) (other : bytes) : Prop :=
  List.length other = N.to_nat P /\
  (Meta.read_slot true (hdr_prefix P other) = Meta.SlotInvalid \/
   exists m', Meta.read_slot true (hdr_prefix P other) = Meta.SlotValid m' /\ Meta.m_psz m' = P /\ Meta.m_tx m' < d_tx st).

(* The other slot may also hold a header of the SAME transaction with the same contents.  This is the file init_file (db.rs)
   writes: both headers valid with tx 0, differing in [meta_page] only (the checker then selects slot 1).  The header
   selected need not be [meta_of P st], but it agrees with the state on every field the checker uses. *)
Definition meta_agrees (P : N) (st : db) (m : Meta.meta) : Prop :=
  Meta.m_psz m = P /\ Meta.m_root m = d_root st /\ Meta.m_next m = d_next st /\ Meta.m_np m = d_np st /\
  Meta.m_fl m = d_fl st /\ Meta.m_tx m = d_tx st.
Definition other_ok2 (P : N) (st : db) (other : bytes) : Prop :=
  List.length other = N.to_nat P /\
  (Meta.read_slot true (hdr_prefix P other) = Meta.SlotInvalid \/
   exists m', Meta.read_slot true (hdr_prefix P other) = Meta.SlotValid m' /\ Meta.m_psz m' = P /\
              (Meta.m_tx m' < d_tx st \/ meta_agrees P st m')).

Lemma other_ok_ok2 : forall P st other, other_ok P st other -> other_ok2 P st other.
Proof. intros P st other [H1 [H|(m' & A & B & C)]]; split; auto. right. exists m'. auto. Qed.

(* the physical limits the abstract engine cannot know (all decidable): the file size fits 64 bits, so do the
   bucket sequence and the transaction id; the free-list record fits its page run; a header fits a page *)
Definition phys_ok (P : N) (st : db) : Prop :=
  d_np st * P < 2^64 /\ d_next st < 2^64 /\ d_tx st < 2^64 /\
  40 + 8 * llen (d_flids st) <= d_fln st * P /\ Meta.meta_end <= P.
Definition tree_fits (P : N) (st : db) : Prop :=
  forall p a, In p (Rof st) -> dget (d_disk st) p = Some a -> page_fits P p a.

(* a buffer of np pages with a run written at page f (f >= 2), and the two header pages *)
Definition lay (T : bytes) (P f : N) (fb : bytes) (s : N) (mp other : bytes) : bytes :=
  splice (splice (splice T (f * P) fb) (s * P) mp) ((1 - s) * P) other.

Section Lay.
Variables (T : bytes) (P np f : N) (fb : bytes) (s : N) (mp other : bytes).
Hypothesis HP : 0 < P.
Hypothesis HT : List.length T = N.to_nat (np * P).
Hypothesis Hnp : 2 <= np.
Hypothesis Hf : 2 <= f.
Hypothesis Hfb : f * P + blen fb <= np * P.
Hypothesis Hs : s < 2.
Hypothesis Hmp : List.length mp = N.to_nat P.
Hypothesis Hother : List.length other = N.to_nat P.

Let L1 := splice T (f * P) fb.
Let L2 := splice L1 (s * P) mp.

Lemma lay_len1 : List.length L1 = N.to_nat (np * P).
Proof. unfold L1. rewrite BytesFacts.splice_length; [exact HT|]. unfold blen in Hfb. lia. Qed.
Lemma lay_fit2 : (N.to_nat (s * P) + List.length mp <= List.length L1)%nat.
Proof. rewrite lay_len1, Hmp. nia. Qed.
Lemma lay_len2 : List.length L2 = N.to_nat (np * P).
Proof. unfold L2. rewrite BytesFacts.splice_length; [exact lay_len1 | exact lay_fit2]. Qed.
Lemma lay_fit3 : (N.to_nat ((1 - s) * P) + List.length other <= List.length L2)%nat.
Proof. rewrite lay_len2, Hother. nia. Qed.
Lemma lay_length : List.length (lay T P f fb s mp other) = N.to_nat (np * P).
Proof. unfold lay. fold L1. fold L2. rewrite BytesFacts.splice_length; [exact lay_len2 | exact lay_fit3]. Qed.

(* beyond the headers and away from the run: the underlying buffer *)
Lemma lay_far : forall off l, 2 * P <= off -> (off + l <= f * P \/ f * P + blen fb <= off) ->
  slice (lay T P f fb s mp other) off l = slice T off l.
Proof.
  intros off l H2 Hd. unfold lay. fold L1. fold L2.
  rewrite BytesFacts.slice_splice_other; [| exact lay_fit3 | right; rewrite Hother; nia].
  unfold L2. rewrite BytesFacts.slice_splice_other; [| exact lay_fit2 | right; rewrite Hmp; nia].
  unfold L1. apply BytesFacts.slice_splice_other; [unfold blen in Hfb; lia|]. unfold blen in Hd. exact Hd.
Qed.

(* inside the run *)
Lemma lay_run : forall o l, o + l <= blen fb -> slice (lay T P f fb s mp other) (f * P + o) l = slice fb o l.
Proof.
  intros o l Hol. unfold lay. fold L1. fold L2.
  rewrite BytesFacts.slice_splice_other; [| exact lay_fit3 | right; rewrite Hother; nia].
  unfold L2. rewrite BytesFacts.slice_splice_other; [| exact lay_fit2 | right; rewrite Hmp; nia].
  unfold L1. apply slice_splice_inside; [unfold blen in Hfb; lia | exact Hol].
Qed.

(* the state's header slot *)
Lemma lay_slot : forall o l, o + l <= P -> slice (lay T P f fb s mp other) (s * P + o) l = slice mp o l.
Proof.
  intros o l Hol. unfold lay. fold L1. fold L2.
  rewrite BytesFacts.slice_splice_other; [| exact lay_fit3 | rewrite Hother; nia].
  unfold L2. apply slice_splice_inside; [exact lay_fit2 | unfold blen; lia].
Qed.

(* the other header slot *)
Lemma lay_other : forall o l, o + l <= P -> slice (lay T P f fb s mp other) ((1 - s) * P + o) l = slice other o l.
Proof.
  intros o l Hol. unfold lay. fold L1. fold L2.
  apply slice_splice_inside; [exact lay_fit3 | unfold blen; lia].
Qed.
End Lay.

(** * The header: the checker reads a prefix of the header page *)

Lemma slice_firstn : forall (b : bytes) k o n, (N.to_nat o + N.to_nat n <= k)%nat -> (k <= List.length b)%nat ->
  slice (firstn k b) o n = slice b o n.
Proof.
  intros b k o n H1 H2.
  rewrite BytesFacts.slice_some by (rewrite firstn_length; lia).
  rewrite BytesFacts.slice_some by lia. f_equal. apply BytesFacts.nth_error_ext'. intros i.
  rewrite !BytesFacts.nth_error_firstn'. destruct (Nat.ltb_spec i (N.to_nat n)) as [L|L]; [|reflexivity].
  rewrite !BytesFacts.nth_error_skipn', BytesFacts.nth_error_firstn'.
  destruct (Nat.ltb_spec (N.to_nat o + i) k); [reflexivity | lia].
Qed.

Lemma read_slot_prefix : forall ct (pg : bytes) k, (N.to_nat Meta.meta_end <= k)%nat -> (k <= List.length pg)%nat ->
  Meta.read_slot ct (firstn k pg) = Meta.read_slot ct pg.
Proof.
  intros ct pg k H1 H2. unfold Meta.read_slot, Meta.page_type_of, Meta.decode_meta, rd_le.
  change (N.to_nat Meta.meta_end) with 104%nat in H1.
  rewrite !slice_firstn by (try exact H2; MetaFacts.offs; lia). reflexivity.
Qed.

Lemma slice_whole_prefix : forall (b : bytes) n, (N.to_nat n <= List.length b)%nat -> slice b 0 n = Some (firstn (N.to_nat n) b).
Proof. intros b n H. rewrite BytesFacts.slice_some by lia. reflexivity. Qed.

(* selection: the state's header [m] in its slot; the other slot invalid, older, or sharing the property [Q] of [m] that
   the caller wants of the selected header *)
Lemma select_agree : forall P (Q : Meta.meta -> Prop) (m : Meta.meta) (so : Meta.slot) (s : N), s < 2 -> Meta.m_psz m = P -> Q m ->
  (so = Meta.SlotInvalid \/ exists m', so = Meta.SlotValid m' /\ Meta.m_psz m' = P /\ (Meta.m_tx m' < Meta.m_tx m \/ Q m')) ->
  exists m2, Meta.select_slots P (if s =? 0 then Meta.SlotValid m else so) (if s =? 0 then so else Meta.SlotValid m) = Meta.SelMeta m2 /\ Q m2.
Proof.
  intros P Q m so s Hs Hp Hq Hso. destruct (N.eqb_spec s 0) as [E|E].
  - destruct Hso as [->|(m' & -> & Hp' & Ht)]; cbn [Meta.select_slots].
    + rewrite Hp, N.eqb_refl. eauto.
    + rewrite Hp, Hp', N.eqb_refl. cbn [negb]. destruct (N.ltb_spec (Meta.m_tx m') (Meta.m_tx m)); [eauto|].
      exists m'. split; [reflexivity|]. destruct Ht as [Ht|Ht]; [lia | exact Ht].
  - destruct Hso as [->|(m' & -> & Hp' & Ht)]; cbn [Meta.select_slots].
    + rewrite Hp, N.eqb_refl. eauto.
    + rewrite Hp, Hp', N.eqb_refl. cbn [negb]. destruct (N.ltb_spec (Meta.m_tx m) (Meta.m_tx m')); [|eauto].
      exists m'. split; [reflexivity|]. destruct Ht as [Ht|Ht]; [lia | exact Ht].
Qed.

(** * Where things are in the image of a state *)

(* the clauses of [db_okz] about where pages are *)
Record layout_facts (st : db) : Prop := {
  lf_np : 2 <= d_np st;
  lf_root : In (d_root st) (Rof st);
  lf_closed : closedR (d_disk st) (Rof st);
  lf_nodup : NoDup (runs (d_disk st) (Rof st) ++ nrun (d_fl st) (d_fln st));
  lf_live : forall x, In x (runs (d_disk st) (Rof st) ++ nrun (d_fl st) (d_fln st)) -> 2 <= x < d_np st }.

Lemma okz_layout : forall st, db_okz st -> layout_facts st.
Proof.
  intros st Hok. pose proof (db_ok'_facts st (proj1 Hok)) as F.
  constructor; [exact (ok_np st F) | exact (ok_root st F) | exact (ok_closed st F) | exact (ok_nodup st F) |].
  intros x Hx. exact (proj1 (ok_live st F x Hx)).
Qed.

Lemma fl_bytes_len : forall pad st, blen (fl_bytes pad st) = 40 + 8 * llen (d_flids st).
Proof. intros pad st. unfold fl_bytes. rewrite CodecFacts.encode_page_length. reflexivity. Qed.

Lemma phys_ok_pos : forall P st, phys_ok P st -> 0 < P.
Proof. intros P st (_ & _ & _ & _ & Hme). revert Hme. MetaFacts.offs. lia. Qed.

Lemma slot_of_lt : forall st, slot_of st < 2.
Proof. intros st. unfold slot_of. apply N.mod_lt. lia. Qed.

Lemma meta_page_len : forall P st, phys_ok P st -> List.length (meta_page P st) = N.to_nat P.
Proof. intros P st (_ & _ & _ & _ & Hme). unfold meta_page. now apply MetaFacts.encode_length. Qed.

(* the free-list run is non-empty, lies in [2, np), and holds the record *)
Lemma fl_run_bounds : forall st P, db_okz st -> phys_ok P st ->
  1 <= d_fln st /\ 2 <= d_fl st /\ d_fl st + d_fln st <= d_np st.
Proof.
  intros st P Hok Hph. pose proof (okz_layout st Hok) as LF. destruct Hph as (_ & _ & _ & Hsz & _).
  assert (H1 : 1 <= d_fln st) by nia. split; [exact H1|].
  pose proof (lf_live st LF (d_fl st)) as Ha. pose proof (lf_live st LF (d_fl st + d_fln st - 1)) as Hb.
  assert (In (d_fl st) (runs (d_disk st) (Rof st) ++ nrun (d_fl st) (d_fln st))) by (apply in_or_app; right; apply In_nrun; lia).
  assert (In (d_fl st + d_fln st - 1) (runs (d_disk st) (Rof st) ++ nrun (d_fl st) (d_fln st))) by (apply in_or_app; right; apply In_nrun; lia).
  specialize (Ha ltac:(assumption)). specialize (Hb ltac:(assumption)). lia.
Qed.
Lemma fl_bytes_fit : forall pad P st, phys_ok P st -> blen (fl_bytes pad st) <= d_fln st * P.
Proof. intros pad P st (_ & _ & _ & Hsz & _). now rewrite fl_bytes_len. Qed.

Lemma np_bounds : forall st P, db_okz st -> phys_ok P st -> P < 2^64 /\ d_np st < 2^64.
Proof.
  intros st P Hok Hph. pose proof (phys_ok_pos P st Hph). pose proof (lf_np st (okz_layout st Hok)).
  destruct Hph as (Hsz & _). split; nia.
Qed.

Lemma meta_of_wf : forall st P, db_okz st -> phys_ok P st ->
  Meta.meta_wf (Meta.mkMeta (slot_of st) Consts.magic Consts.version P (d_root st) (d_next st) (d_np st) (d_fl st) (d_tx st) 0).
Proof.
  intros st P Hok Hph. pose proof (okz_layout st Hok) as LF. pose proof (phys_ok_pos P st Hph) as HP.
  destruct (np_bounds st P Hok Hph) as [HP64 Hnp64]. destruct (fl_run_bounds st P Hok Hph) as (H1 & H2 & H3).
  destruct Hph as (Hsz & Hnx & Htx & _ & _). pose proof (slot_of_lt st) as Hs.
  assert (Hr : d_root st < d_np st).
  { apply (lf_live st LF). apply in_or_app. left. apply In_runs. exists (d_root st). split; [exact (lf_root st LF) | apply In_prun_self]. }
  unfold Meta.meta_wf. cbn [Meta.m_page Meta.m_magic Meta.m_version Meta.m_psz Meta.m_root Meta.m_next Meta.m_np Meta.m_fl Meta.m_tx Meta.m_hash].
  assert (E32 : 2^32 = 4294967296) by reflexivity. rewrite E32.
  repeat split; try assumption; try reflexivity; lia.
Qed.

(* the checker reads a prefix of a header page that holds the whole header *)
Lemma read_hdr_prefix : forall P pg, Meta.meta_end <= P -> List.length pg = N.to_nat P ->
  Meta.read_slot true (hdr_prefix P pg) = Meta.read_slot true pg.
Proof. intros P pg Hme Hl. unfold hdr_prefix. apply read_slot_prefix; revert Hme; MetaFacts.offs; lia. Qed.

Lemma image_slot_valid : forall st P, db_okz st -> phys_ok P st ->
  Meta.read_slot true (hdr_prefix P (meta_page P st)) = Meta.SlotValid (meta_of P st).
Proof.
  intros st P Hok Hph. pose proof Hph as (_ & _ & _ & _ & Hme).
  rewrite read_hdr_prefix; [| exact Hme | exact (meta_page_len P st Hph)].
  unfold meta_page, meta_of. apply MetaFacts.read_slot_encode; [exact (meta_of_wf st P Hok Hph) | exact Hme].
Qed.

(* the header: the state's own in its slot; the other slot invalid, older, or with the property [Q] of the state's own.
   The checker selects a header with that property *)
Lemma open_meta_slots : forall st P rd (Q : Meta.meta -> Prop), Q (meta_of P st) ->
  Meta.read_slot true (Tree.read_header_page rd P (slot_of st)) = Meta.SlotValid (meta_of P st) ->
  (let so := Meta.read_slot true (Tree.read_header_page rd P (1 - slot_of st)) in
   so = Meta.SlotInvalid \/
   exists m', so = Meta.SlotValid m' /\ Meta.m_psz m' = P /\ (Meta.m_tx m' < d_tx st \/ Q m')) ->
  exists m, Tree.open_meta rd P = Meta.SelMeta m /\ Q m.
Proof.
  intros st P rd Q Hq Ha Hso. cbv zeta in Hso. unfold Tree.open_meta, OldMeta.select_any.
  change Consts.meta_checks_page_type with true.
  destruct (select_agree P Q (meta_of P st) _ (slot_of st) (slot_of_lt st) eq_refl Hq Hso) as (m2 & Hsel & Hag).
  exists m2. split; [|exact Hag]. pose proof (slot_of_lt st) as Hs.
  destruct (N.eqb_spec (slot_of st) 0) as [E|E].
  - rewrite E in Ha, Hsel. change (1 - 0) with 1 in Hsel. rewrite Ha, Hsel. reflexivity.
  - assert (E1 : slot_of st = 1) by lia. rewrite E1 in Ha, Hsel. change (1 - 1) with 0 in Hsel.
    rewrite Ha, Hsel. reflexivity.
Qed.

(* opening: the selected header, the recorded free ids, the free-list run; only the free-list run is read *)
Lemma open_db_parts : forall st pad P rd m, db_okz st -> phys_ok P st -> Forall (fun i => i < 2^64) (d_flids st) ->
  CodecFacts.reads_buffer rd (d_fl st * P) (fl_bytes pad st) ->
  Tree.open_meta rd P = Meta.SelMeta m -> Meta.m_fl m = d_fl st ->
  Tree.open_db rd P = Codec.Ok (Tree.mkOpened m (d_flids st) (Codec.seqN (d_fl st) (N.to_nat (d_fln st)))).
Proof.
  intros st pad P rd m Hok Hph Hids Hrd Hm Hfl. unfold Tree.open_db. rewrite Hm, Hfl.
  destruct (fl_run_bounds st P Hok Hph) as (H1 & H2 & H3). destruct (np_bounds st P Hok Hph) as [HP64 Hnp64].
  destruct Hph as (Hsz & _ & _ & Hflsz & _).
  rewrite (CodecFacts.codec_page_free pad P (d_fl st) (d_fln st - 1) (d_flids st) rd).
  - cbn [Codec.bind Codec.ph_overflow]. replace (d_fln st - 1 + 1) with (d_fln st) by lia. reflexivity.
  - lia.
  - lia.
  - exact Hids.
  - unfold Codec.body_size. change Meta.page_hdr_size with 40. nia.
  - unfold Codec.body_size. change Meta.page_hdr_size with 40. replace (d_fln st - 1 + 1) with (d_fln st) by lia. exact Hflsz.
  - exact Hrd.
Qed.

Section StateImage.
Variables (st : db) (pad : N -> byte) (P : N) (other : bytes).
Hypothesis Hok : db_okz st.
Hypothesis HP : 0 < P.
Hypothesis Hfit : tree_fits P st.
Hypothesis Hph : phys_ok P st.
Hypothesis Hother : List.length other = N.to_nat P.

Let F := file_image pad P st other.
Let LF := okz_layout st Hok.

Lemma tree_image_spec :
  List.length (tree_image pad P st) = N.to_nat (d_np st * P) /\
  forall p a, In p (Rof st) -> dget (d_disk st) p = Some a -> forall o l, o + l <= blen (page_bytes pad p a) ->
    slice (tree_image pad P st) (p * P + o) l = slice (page_bytes pad p a) o l.
Proof.
  destruct (image_spec pad P (d_disk st) (d_np st) HP (Rof st) (zeros (N.to_nat (d_np st * P)))
              (BytesFacts.zeros_length _) (NoDup_app_l _ _ (lf_nodup st LF)) Hfit) as [Hlen Hrd].
  { intros x Hx. apply (lf_live st LF x). apply in_or_app. now left. }
  split; [|exact Hrd]. unfold tree_image. rewrite Hlen. apply BytesFacts.zeros_length.
Qed.

Lemma fl_fits_file : d_fl st * P + blen (fl_bytes pad st) <= d_np st * P.
Proof. destruct (fl_run_bounds st P Hok Hph) as (H1 & H2 & H3). pose proof (fl_bytes_fit pad P st Hph). nia. Qed.

(* the file is a [lay]: what Section Lay asks of its parts *)
Lemma file_image_lay : file_image pad P st other =
  lay (tree_image pad P st) P (d_fl st) (fl_bytes pad st) (slot_of st) (meta_page P st) other.
Proof. reflexivity. Qed.
Local Notation at_image L :=
  (L (tree_image pad P st) P (d_np st) (d_fl st) (fl_bytes pad st) (slot_of st) (meta_page P st) other HP
     (proj1 tree_image_spec) (lf_np st LF) (proj1 (proj2 (fl_run_bounds st P Hok Hph))) fl_fits_file (slot_of_lt st)
     (meta_page_len P st Hph) Hother).

Lemma image_length : List.length F = N.to_nat (d_np st * P).
Proof. exact (at_image lay_length). Qed.

(* the free-list run *)
Lemma image_reads_fl : CodecFacts.reads_buffer (Codec.reader_of F) (d_fl st * P) (fl_bytes pad st).
Proof. intros o l Hol. exact (at_image lay_run o l Hol). Qed.

(* the tree pages *)
Lemma image_encodes_tree : file_encodes pad (Codec.reader_of F) P (d_disk st) (Rof st).
Proof.
  destruct (fl_run_bounds st P Hok Hph) as (H1 & H2 & H3). destruct tree_image_spec as [HlenT HrdT].
  intros p a Hp Hg. split; [now apply Hfit|]. intros o l Hol. unfold Codec.reader_of.
  rewrite <- (HrdT p a Hp Hg o l Hol).
  destruct (Hfit p a Hp Hg) as (_ & _ & _ & _ & Hroom).
  pose proof (CodecFacts.encode_page_length pad p (ap_over a) (body_of a)) as Hlp. fold (page_bytes pad p a) in Hlp.
  assert (Hrun : forall x, p <= x < p + (ap_over a + 1) -> In x (runs (d_disk st) (Rof st))).
  { intros x Hx. apply In_runs. exists p. split; [exact Hp|]. rewrite (prun_some _ p a Hg). now apply In_nrun. }
  assert (Hp2 : 2 <= p). { apply (lf_live st LF p). apply in_or_app. left. apply Hrun. lia. }
  assert (Hdis : forall x, p <= x < p + (ap_over a + 1) -> d_fl st <= x < d_fl st + d_fln st -> False).
  { intros x Hx1 Hx2. apply (ListFacts.NoDup_app_disj _ _ x (lf_nodup st LF)); [now apply Hrun | now apply In_nrun]. }
  pose proof (fl_bytes_fit pad P st Hph) as Hfl.
  apply (at_image lay_far).
  - nia.
  - rewrite Hlp in Hol. destruct (N.le_gt_cases p (d_fl st)) as [Hc|Hc].
    + left. assert (p + (ap_over a + 1) <= d_fl st) by (apply N.le_ngt; intros Hc'; apply (Hdis (d_fl st)); lia). nia.
    + right. assert (d_fl st + d_fln st <= p) by (apply N.le_ngt; intros Hc'; apply (Hdis p); lia). nia.
Qed.

(* the two header pages, as the checker reads them *)
Lemma image_hdr_slot : Tree.read_header_page (Codec.reader_of F) P (slot_of st) = hdr_prefix P (meta_page P st).
Proof.
  unfold Tree.read_header_page, Codec.reader_of, F. rewrite file_image_lay, <- (N.add_0_r (slot_of st * P)).
  rewrite (at_image lay_slot 0 (N.min P 256)) by lia.
  rewrite slice_whole_prefix by (rewrite (meta_page_len P st Hph); lia). reflexivity.
Qed.

Lemma image_hdr_other : Tree.read_header_page (Codec.reader_of F) P (1 - slot_of st) = hdr_prefix P other.
Proof.
  unfold Tree.read_header_page, Codec.reader_of, F. rewrite file_image_lay, <- (N.add_0_r ((1 - slot_of st) * P)).
  rewrite (at_image lay_other 0 (N.min P 256)) by lia.
  rewrite slice_whole_prefix by (rewrite Hother; lia). reflexivity.
Qed.

(* the header: the checker selects a header with the property [Q] of the state's own *)
Lemma open_meta_image : forall Q : Meta.meta -> Prop, Q (meta_of P st) ->
  (Meta.read_slot true (hdr_prefix P other) = Meta.SlotInvalid \/
   exists m', Meta.read_slot true (hdr_prefix P other) = Meta.SlotValid m' /\ Meta.m_psz m' = P /\
              (Meta.m_tx m' < d_tx st \/ Q m')) ->
  exists m, Tree.open_meta (Codec.reader_of F) P = Meta.SelMeta m /\ Q m.
Proof.
  intros Q Hq Hso. apply (open_meta_slots st P _ Q Hq).
  - rewrite image_hdr_slot. exact (image_slot_valid st P Hok Hph).
  - cbv zeta. rewrite image_hdr_other. exact Hso.
Qed.
End StateImage.

Lemma meta_of_agrees : forall P st, meta_agrees P st (meta_of P st).
Proof. intros P st. unfold meta_agrees. repeat split; reflexivity. Qed.

Theorem open_image2 : forall st pad P other, db_okz st -> 0 < P -> tree_fits P st -> phys_ok P st ->
  other_ok2 P st other -> Forall (fun i => i < 2^64) (d_flids st) ->
  exists m, meta_agrees P st m /\
    Tree.open_db (Codec.reader_of (file_image pad P st other)) P =
      Codec.Ok (Tree.mkOpened m (d_flids st) (Codec.seqN (d_fl st) (N.to_nat (d_fln st)))).
Proof.
  intros st pad P other Hok HP Hfit Hph [Hlen Hso] Hids.
  destruct (open_meta_image st pad P other Hok HP Hfit Hph Hlen (meta_agrees P st) (meta_of_agrees P st) Hso)
    as (m & Hm & Hag).
  exists m. split; [exact Hag|]. destruct Hag as (_ & _ & _ & _ & Hfl & _).
  exact (open_db_parts st pad P _ m Hok Hph Hids (image_reads_fl st pad P other Hok HP Hfit Hph Hlen) Hm Hfl).
Qed.

(* with [other_ok] the header selected is the state's own *)
Theorem open_image : forall st pad P other, db_okz st -> 0 < P -> tree_fits P st -> phys_ok P st ->
  other_ok P st other -> Forall (fun i => i < 2^64) (d_flids st) ->
  Tree.open_db (Codec.reader_of (file_image pad P st other)) P =
    Codec.Ok (Tree.mkOpened (meta_of P st) (d_flids st) (Codec.seqN (d_fl st) (N.to_nat (d_fln st)))).
Proof.
  intros st pad P other Hok HP Hfit Hph [Hlen Hso] Hids.
  destruct (open_meta_image st pad P other Hok HP Hfit Hph Hlen (eq (meta_of P st)) eq_refl) as (m & Hm & <-).
  { destruct Hso as [H|(m' & A & B & C)]; [now left | right; exists m'; auto]. }
  exact (open_db_parts st pad P _ _ Hok Hph Hids (image_reads_fl st pad P other Hok HP Hfit Hph Hlen) Hm eq_refl).
Qed.

Lemma seqN_map : forall k s, Codec.seqN s k = map (fun i => s + N.of_nat i) (seq 0 k).
Proof.
  induction k as [|k IH]; intros s; [reflexivity|]. cbn [Codec.seqN seq map]. f_equal; [lia|].
  rewrite IH, <- seq_shift, map_map. apply map_ext. intros i. lia.
Qed.
Lemma seqN_nrun : forall s n, Codec.seqN s (N.to_nat n) = nrun s n.
Proof. intros s n. unfold nrun. apply seqN_map. Qed.

Lemma perm_app4 : forall (a b c e : list N), Permutation ((a ++ c) ++ (b ++ e)) ((a ++ b) ++ (c ++ e)).
Proof.
  intros a b c e. rewrite <- !app_assoc. apply Permutation_app_head. rewrite !app_assoc.
  apply Permutation_app_tail. apply Permutation_app_comm.
Qed.

(* the pages of the decoded tree = the runs of the head pages below (and including) the root page *)
Lemma tree_pages_perm : forall f d p t, tree_of f d p = Some t ->
  Permutation (Tree.tree_pages t) (runs d (p :: ppages f d p)).
Proof.
  unfold runs. induction f as [|f IH]; intros d p t Ht; [discriminate|].
  pose proof Ht as Ht0. cbn [tree_of] in Ht. destruct (dget d p) as [a|] eqn:Hg; [|discriminate].
  cbn [ppages]. rewrite Hg. cbn [flat_map]. rewrite (prun_some d p a Hg).
  destruct (ap_body a) as [l|es] eqn:Hb.
  - inversion Ht; subst t. cbn [Tree.tree_pages]. rewrite seqN_nrun. cbn [flat_map]. rewrite app_nil_r. apply Permutation_refl.
  - destruct (tree_of_branch_inv f d p a es t Hg Hb Ht0) as (ks & -> & HF). cbn [Tree.tree_pages]. rewrite seqN_nrun.
    apply Permutation_app_head. rewrite flat_map_app. clear Ht Ht0 Hb Hg.
    induction HF as [|e kt es ks [_ E2] _ IHF]; [apply Permutation_refl|].
    cbn [flat_map map]. rewrite flat_map_app.
    eapply Permutation_trans; [apply Permutation_app; [exact (IH d (snd e) (snd kt) E2) | exact IHF]|].
    cbn [flat_map]. apply perm_app4.
Qed.

Lemma mapM_concat_perm : forall (g : Codec.lent -> Codec.res (list N)) (h : leafent -> list N) l,
  (forall e, In e l -> exists ys, g (ent_of e) = Codec.Ok ys /\ Permutation ys (h e)) ->
  exists subs, Codec.mapM g (map ent_of l) = Codec.Ok subs /\ Permutation (List.concat subs) (flat_map h l).
Proof.
  intros g h. induction l as [|e l IH]; intros H.
  - exists []. split; [reflexivity | apply Permutation_refl].
  - destruct (H e (or_introl eq_refl)) as (ys & Hy & Hp). destruct (IH (fun x Hx => H x (or_intror Hx))) as (subs & Hs & Hps).
    exists (ys :: subs). cbn [map Codec.mapM]. rewrite Hy. cbn [Codec.bind]. rewrite Hs. cbn [Codec.bind].
    split; [reflexivity|]. cbn [List.concat flat_map]. now apply Permutation_app.
Qed.

(* ONE BUCKET WITH EVERYTHING NESTED IN IT: the checker's page walk returns the runs of the bucket's footprint *)
Theorem bucket_pages_ok : forall pad rd P d R np, 0 < P -> closedR d R -> file_encodes pad rd P d R ->
  forall n F r m, sbk n d r -> dbk m d r -> In r R ->
    (List.length (fpg n d r) <= F)%nat -> (List.length (fpg n d r) <= N.to_nat np)%nat ->
    exists reach, Tree.bucket_pages F rd P np r = Codec.Ok reach /\ Permutation reach (runs d (fpg n d r)).
Proof.
  intros pad rd P d R np HP HC HE. induction n as [|n IH]; intros F r m Hs Hd Hr HF Hnp; [destruct Hs|].
  destruct m as [|m]; [destruct Hd|]. cbn [dbk] in Hd. destruct Hd as [h Hd].
  cbn [sbk] in Hs. destruct Hs as (h' & l & Hh & HI & _ & Hv & HFs).
  rewrite fpg_S, runs_app. rewrite fpg_S, app_length in HF, Hnp. cbn [List.length] in HF, Hnp.
  rewrite (PageView_page_ents d h' r l Hv fuel0 Hh) in HF, Hnp |- *.
  destruct F as [|F]; [lia|].
  destruct (PageView_tree d h' r l Hv fuel0 Hh) as (t & Ht & Hfl & _).
  pose proof (PDp_PInv_le h' d None None None r _ h HI Hd) as Hle.
  pose proof (PInv_PDp_pages h' d None None None r _ h fuel0 HI Hd ltac:(lia)) as Hpg.
  pose proof (PDp_tree_of_exact h _ d r fuel0 t Hd Ht) as Hex.
  pose proof (tree_of_mono h d r t Hex (N.to_nat np) ltac:(lia)) as Hnpt.
  pose proof (build_tree_of pad rd P d R HP HC HE (N.to_nat np) r t Hr Hnpt) as Hbt.
  cbn [Tree.bucket_pages]. rewrite Hbt. cbn [Codec.bind]. rewrite Hfl, runs_flat_map.
  destruct (mapM_concat_perm
              (fun e => match e with Codec.EKv _ _ => Codec.Ok [] | Codec.EBk _ r0 _ => Tree.bucket_pages F rd P np r0 end)
              (fun e => runs d (match e with LBk _ r' _ => fpg n d r' | LKv _ _ => [] end)) l) as (subs & Hsubs & Hperm).
  - intros e He. destruct e as [k v|k r' nx]; cbn [ent_of]; [exists []; split; [reflexivity | apply Permutation_refl]|].
    pose proof (PDp_view _ h d r h' l Hd Hv) as HG. rewrite Forall_forall in HG, HFs.
    pose proof (HG _ He) as Hd'. pose proof (HFs _ He) as Hs'. cbn [ent_ok] in Hd'. cbn beta iota in Hs'.
    pose proof (closed_view_entry d R h' r l k r' nx HC Hr Hv He) as Hr'.
    pose proof (flat_map_length_In (fun e => match e with LBk _ r' _ => fpg n d r' | LKv _ _ => [] end) l _ He) as Hsub.
    cbn beta iota in Hsub. apply (IH F r' m Hs' Hd' Hr'); lia.
  - rewrite Hsubs. cbn [Codec.bind]. eexists. split; [reflexivity|].
    apply Permutation_app; [exact (tree_pages_perm fuel0 d r t Ht) | exact Hperm].
Qed.

(* A STATE: the walk from the root returns the runs of the reachable pages *)
Theorem state_bucket_pages : forall st pad rd P, db_okd st -> 0 < P ->
  file_encodes pad rd P (d_disk st) (Rof st) ->
  exists reach, Tree.bucket_pages (N.to_nat (d_np st)) rd P (d_np st) (d_root st) = Codec.Ok reach /\
    Permutation reach (runs (d_disk st) (Rof st)).
Proof.
  intros st pad rd P [Hok [m Hd]] HP HE. pose proof (db_okz_strict st Hok) as Hs.
  pose proof (Rof_length st Hok) as Hlen. pose proof (okz_layout st Hok) as LF.
  exact (bucket_pages_ok pad rd P (d_disk st) (Rof st) (d_np st) HP (lf_closed st LF) HE 16 _ (d_root st) m Hs Hd
           (lf_root st LF) Hlen Hlen).
Qed.

(** * The partition check: the converse of [CheckFacts.partition_ok_perm] *)

Lemma insert_sorted_ss : forall x l, StronglySorted N.le l -> StronglySorted N.le (Tree.insert_sorted x l).
Proof.
  intros x l. induction l as [|a l IH]; intros H; cbn [Tree.insert_sorted].
  - constructor; constructor.
  - inversion H as [|? ? Hl Ha]; subst. destruct (N.leb_spec x a) as [L|L].
    + constructor; [exact H|]. constructor; [exact L|]. rewrite Forall_forall in Ha |- *. intros y Hy. specialize (Ha y Hy). lia.
    + constructor; [now apply IH|]. rewrite Forall_forall in Ha |- *. intros y Hy.
      apply (Permutation_in _ (CheckFacts.insert_sorted_perm x l)) in Hy. destruct Hy as [<-|Hy]; [lia | now apply Ha].
Qed.

Lemma sortN_ss : forall l, StronglySorted N.le (Tree.sortN l).
Proof.
  intros l. unfold Tree.sortN.
  assert (G : forall l acc, StronglySorted N.le acc ->
              StronglySorted N.le (fold_left (fun acc x => Tree.insert_sorted x acc) l acc)).
  { clear l. induction l as [|x l IH]; intros acc Ha; cbn [fold_left]; [exact Ha|]. apply IH. now apply insert_sorted_ss. }
  apply G. constructor.
Qed.

Lemma seqN_ss : forall n s, StronglySorted N.le (Codec.seqN s n).
Proof.
  induction n as [|n IH]; intros s; cbn [Codec.seqN]; constructor; [apply IH|].
  rewrite Forall_forall. intros y Hy. apply CheckFacts.in_seqN in Hy. lia.
Qed.

Theorem perm_partition_ok : forall np reach flrun free,
  Permutation (reach ++ flrun ++ free) (Codec.seqN 2 (N.to_nat (np - 2))) ->
  Tree.partition_ok np reach flrun free = true.
Proof.
  intros np reach flrun free Hp. unfold Tree.partition_ok.
  rewrite (ss_perm_eq _ _ (sortN_ss _) (seqN_ss _ _) (Permutation_trans (CheckFacts.sortN_perm _) Hp)).
  apply CheckFacts.eq_listN_refl.
Qed.

(* NoDup + same elements = permutation of [2, np) *)
Lemma exact_perm : forall st, db_exact_rec st -> NoDup (d_flids st) ->
  Permutation (runs (d_disk st) (Rof st) ++ nrun (d_fl st) (d_fln st) ++ d_flids st) (Codec.seqN 2 (N.to_nat (d_np st - 2))).
Proof.
  intros st Hrec Hnd. pose proof (flids_exact st Hrec) as Hex. destruct Hrec as [[Hok _] _].
  pose proof (okz_layout st Hok) as LF. rewrite app_assoc.
  apply NoDup_Permutation; [| apply CheckFacts.seqN_NoDup |].
  - apply ListFacts.NoDup_app_iff. split; [exact (lf_nodup st LF)|]. split; [exact Hnd|].
    intros x Hl Hx. apply Hex in Hx. destruct Hx as [_ Hx]. apply Hx. exact Hl.
  - intros x. rewrite CheckFacts.in_seqN. split.
    + intros Hx. apply in_app_or in Hx. destruct Hx as [Hx|Hx].
      * pose proof (lf_live st LF x Hx). lia.
      * apply Hex in Hx. lia.
    + intros Hx. destruct (in_dec N.eq_dec x (live_of st (Rof st))) as [Hl|Hl].
      * apply in_or_app. left. exact Hl.
      * apply in_or_app. right. apply Hex. split; [lia | exact Hl].
Qed.

(* the high-water mark is at least 4: the root page and the free-list page are two different pages of [2, np) *)
Lemma np_ge_4 : forall st P, db_okz st -> phys_ok P st -> 4 <= d_np st.
Proof.
  intros st P Hok Hph. pose proof (okz_layout st Hok) as LF. destruct Hph as (_ & _ & _ & Hsz & _).
  assert (H1 : 1 <= d_fln st) by nia.
  assert (Hr : In (d_root st) (runs (d_disk st) (Rof st))).
  { apply In_runs. exists (d_root st). split; [exact (lf_root st LF) | apply In_prun_self]. }
  assert (Hf : In (d_fl st) (nrun (d_fl st) (d_fln st))) by (apply In_nrun; lia).
  pose proof (lf_live st LF (d_root st) (in_or_app _ _ _ (or_introl Hr))) as Br.
  pose proof (lf_live st LF (d_fl st) (in_or_app _ _ _ (or_intror Hf))) as Bf.
  assert (d_root st <> d_fl st).
  { intros E. apply (ListFacts.NoDup_app_disj _ _ (d_fl st) (lf_nodup st LF)); [now rewrite <- E | exact Hf]. }
  lia.
Qed.

Lemma flids_small : forall st P, db_exact_rec st -> phys_ok P st -> Forall (fun i => i < 2^64) (d_flids st).
Proof.
  intros st P Hrec Hph. apply Forall_forall. intros x Hx. apply (flids_exact st Hrec) in Hx.
  pose proof (phys_ok_pos P st Hph). destruct Hph as (Hsz & _). nia.
Qed.

(* checking: the tree pages are read, and the file opens with a header that has the state's root and page count *)
Lemma inv_check_parts : forall st pad P rd m,
  db_exact_rec st -> db_okd st -> NoDup (d_flids st) -> phys_ok P st ->
  file_encodes pad rd P (d_disk st) (Rof st) ->
  Tree.open_db rd P = Codec.Ok (Tree.mkOpened m (d_flids st) (Codec.seqN (d_fl st) (N.to_nat (d_fln st)))) ->
  Meta.m_root m = d_root st -> Meta.m_np m = d_np st ->
  Tree.inv_check rd P = Codec.Ok tt /\ CheckM.check_m rd P = Codec.Ok tt.
Proof.
  intros st pad P rd m Hrec Hokd Hnd Hph HE Hopen Hroot Hnp.
  pose proof (phys_ok_pos P st Hph) as HP. pose proof (np_ge_4 st P (proj1 Hokd) Hph) as H4.
  assert (Hinv : Tree.inv_check rd P = Codec.Ok tt).
  { unfold Tree.inv_check. rewrite Hopen. cbn [Codec.bind Tree.o_meta Tree.o_free Tree.o_flrun]. rewrite Hnp, Hroot.
    destruct (N.ltb_spec (d_np st) 4) as [L|_]; [lia|].
    destruct (state_bucket_pages st pad _ P Hokd HP HE) as (reach & Hr & Hperm). rewrite Hr. cbn [Codec.bind].
    rewrite (FileChecker.state_bucket_wf st pad _ P Hokd HP HE). cbn [Codec.bind negb].
    rewrite perm_partition_ok; [reflexivity|]. rewrite seqN_nrun.
    eapply Permutation_trans; [apply Permutation_app_tail; exact Hperm | now apply exact_perm]. }
  split; [exact Hinv | now apply CheckFacts.inv_check_implies_check_m].
Qed.

Theorem inv_check_image2 : forall st pad P other,
  db_exact_rec st -> db_okd st -> NoDup (d_flids st) ->
  tree_fits P st -> phys_ok P st -> other_ok2 P st other ->
  Tree.inv_check (Codec.reader_of (file_image pad P st other)) P = Codec.Ok tt /\
  CheckM.check_m (Codec.reader_of (file_image pad P st other)) P = Codec.Ok tt.
Proof.
  intros st pad P other Hrec Hokd Hnd Hfit Hph Hso. pose proof (proj1 Hokd) as Hok.
  pose proof (phys_ok_pos P st Hph) as HP.
  destruct (open_image2 st pad P other Hok HP Hfit Hph Hso (flids_small st P Hrec Hph))
    as (m & (_ & Hroot & _ & Hnp & _ & _) & Hopen).
  exact (inv_check_parts st pad P _ m Hrec Hokd Hnd Hph (image_encodes_tree st pad P other Hok HP Hfit Hph (proj1 Hso))
           Hopen Hroot Hnp).
Qed.

Theorem inv_check_image : forall st pad P other,
  db_exact_rec st -> db_okd st -> NoDup (d_flids st) ->
  tree_fits P st -> phys_ok P st -> other_ok P st other ->
  Tree.inv_check (Codec.reader_of (file_image pad P st other)) P = Codec.Ok tt.
Proof.
  intros st pad P other Hrec Hokd Hnd Hfit Hph Hso.
  exact (proj1 (inv_check_image2 st pad P other Hrec Hokd Hnd Hfit Hph (other_ok_ok2 P st other Hso))).
Qed.

(* the library's own consistency check (DB::check, strict mode) accepts it too *)
Theorem check_m_image : forall st pad P other,
  db_exact_rec st -> db_okd st -> NoDup (d_flids st) ->
  tree_fits P st -> phys_ok P st -> other_ok P st other ->
  CheckM.check_m (Codec.reader_of (file_image pad P st other)) P = Codec.Ok tt.
Proof.
  intros st pad P other Hrec Hokd Hnd Hfit Hph Hso.
  exact (proj2 (inv_check_image2 st pad P other Hrec Hokd Hnd Hfit Hph (other_ok_ok2 P st other Hso))).
Qed.

(* from the invariant of histories ([EngineReopen.db_inv] = exact partition + record + [pend_inv] + uniform depth) *)
Lemma inv_flids_NoDup : forall st, db_inv st -> NoDup (d_flids st).
Proof.
  intros st Hinv. destruct (db_inv_facts st Hinv) as (_ & Hok & _ & [_ Hpi] & _ & Hfl).
  apply flids_NoDup; [exact (ok_asc st (db_ok'_facts st (proj1 Hok))) | exact Hpi | exact Hfl].
Qed.

Theorem inv_check_inv : forall st pad P other, db_inv st ->
  tree_fits P st -> phys_ok P st -> other_ok P st other ->
  Tree.inv_check (Codec.reader_of (file_image pad P st other)) P = Codec.Ok tt /\
  CheckM.check_m (Codec.reader_of (file_image pad P st other)) P = Codec.Ok tt.
Proof.
  intros st pad P other Hinv Hfit Hph Hso. destruct (db_inv_facts st Hinv) as (Hrec & _ & Hokd & _).
  exact (inv_check_image2 st pad P other Hrec Hokd (inv_flids_NoDup st Hinv) Hfit Hph (other_ok_ok2 P st other Hso)).
Qed.

(* ANY HISTORY of transactions, closes and reopens from the empty database *)
Theorem hops_inv_check : forall P0 hs st' pad P other, 0 < P0 -> hops_ok (init_db P0) hs ->
  run_hops (init_db P0) hs = Engine.Ok st' ->
  tree_fits P st' -> phys_ok P st' -> other_ok P st' other ->
  Tree.inv_check (Codec.reader_of (file_image pad P st' other)) P = Codec.Ok tt /\
  CheckM.check_m (Codec.reader_of (file_image pad P st' other)) P = Codec.Ok tt.
Proof.
  intros P0 hs st' pad P other HP0 Hok Hrun Hfit Hph Hso.
  destruct (run_hops_inv hs _ st' (init_db_inv P0 HP0) Hok Hrun) as [Hinv _]. now apply inv_check_inv.
Qed.

Lemma hops_ok_txs : forall txs st, txs_ok' st txs -> hops_ok st (hops_of txs).
Proof.
  induction txs as [|[ops ord] txs IH]; intros st H; [exact I|]. cbn [hops_of map hops_ok fst snd step_hop].
  destruct H as [Hops Hn]. split; [exact Hops|]. intros st1 H1. destruct (Hn st1 H1) as [Hrd Hok]. split; [exact Hrd | now apply IH].
Qed.

(* ANY HISTORY of transactions from the empty database *)
Theorem history_inv_check : forall P0 txs st' pad P other, 0 < P0 -> txs_ok' (init_db P0) txs ->
  run_txs (init_db P0) txs = Engine.Ok st' ->
  tree_fits P st' -> phys_ok P st' -> other_ok P st' other ->
  Tree.inv_check (Codec.reader_of (file_image pad P st' other)) P = Codec.Ok tt /\
  CheckM.check_m (Codec.reader_of (file_image pad P st' other)) P = Codec.Ok tt.
Proof.
  intros P0 txs st' pad P other HP0 Htx Hrun. apply (hops_inv_check P0 (hops_of txs)); [exact HP0 | now apply hops_ok_txs |].
  now rewrite run_hops_txs.
Qed.

(* the other slot holding the checksummed header of an OLDER transaction (what commit leaves there) *)
Lemma other_ok_older : forall P st m', Meta.meta_wf m' -> Meta.meta_end <= P -> Meta.m_psz m' = P -> Meta.m_tx m' < d_tx st ->
  other_ok P st (Meta.encode_meta_page P (Meta.with_hash m')).
Proof.
  intros P st m' Hwf Hme Hp Ht. pose proof (MetaFacts.encode_length P (Meta.with_hash m') Hme) as Hlen.
  split; [exact Hlen|]. right. exists (Meta.with_hash m'). split; [|split; [exact Hp | exact Ht]].
  rewrite read_hdr_prefix; [now apply MetaFacts.read_slot_encode | exact Hme | exact Hlen].
Qed.

Definition phys_okb (P : N) (st : db) : bool :=
  (d_np st * P <? 2^64) && (d_next st <? 2^64) && (d_tx st <? 2^64) &&
  (40 + 8 * llen (d_flids st) <=? d_fln st * P) && (Meta.meta_end <=? P).
Lemma phys_okb_ok : forall P st, phys_okb P st = true -> phys_ok P st.
Proof.
  intros P st H. unfold phys_okb in H. repeat (apply andb_true_iff in H; destruct H as [H ?]).
  repeat match goal with Hx : (_ <? _) = true |- _ => apply N.ltb_lt in Hx | Hx : (_ <=? _) = true |- _ => apply N.leb_le in Hx end.
  unfold phys_ok. auto.
Qed.

(* [NoDup (d_flids st)] cannot be dropped: [db_exact_rec] and [db_okd] do not give it.  [EngineReopen.cex_db] (page 4
   both free and pending, recorded twice) satisfies both, and the checker rejects its image *)
Module NeedNoDup.
Import BytesExamples.
Import Coq.Strings.String.
Example cex_okd : db_exact_rec cex_db /\ db_okd cex_db.
Proof.
  split; [exact cex_exact_rec|]. split; [exact (proj1 (proj1 cex_exact_rec))|].
  exact (proj2 (init_db_okd 4096 eq_refl)).
Qed.
Definition cex_verdict := Eval vm_compute in Tree.inv_check (Codec.reader_of (file_image ex_pad 4096 cex_db (zeros 4096))) 4096.
Example cex_rejected : cex_verdict =
  Codec.Bad "pages below the high-water mark are not partitioned into reachable / free-list run / free"%string.
Proof. reflexivity. Qed.
End NeedNoDup.

Print Assumptions open_image.
Print Assumptions state_bucket_pages.
Print Assumptions perm_partition_ok.
Print Assumptions exact_perm.
Print Assumptions inv_check_image.
Print Assumptions check_m_image.
Print Assumptions inv_check_inv.
Print Assumptions hops_inv_check.
Print Assumptions history_inv_check.
Print Assumptions other_ok_older.
Print Assumptions NeedNoDup.cex_okd.

(* the file [init_file] writes, for every page size that holds a header *)
Theorem init_file_checked : forall pad P, Meta.meta_end <= P -> 4 * P < 2^64 ->
  let F := file_image pad P (init_db P) (Meta.encode_meta_page P (Meta.init_meta P 1)) in
  Tree.inv_check (Codec.reader_of F) P = Codec.Ok tt /\ CheckM.check_m (Codec.reader_of F) P = Codec.Ok tt.
Proof.
  intros pad P Hme H64 F.
  assert (HP : 0 < P) by (revert Hme; MetaFacts.offs; lia).
  destruct (db_inv_facts _ (init_db_inv P HP)) as (Hrec & _ & Hokd & _).
  apply inv_check_image2; auto.
  - constructor.
  - intros p a Hp Hg. change (Rof (init_db P)) with [3] in Hp. destruct Hp as [<-|[]]. cbn in Hg. inversion Hg; subst a.
    unfold page_fits, body_of. cbn [ap_over ap_body map CodecFacts.body_ok Codec.body_size fold_left].
    change Meta.page_hdr_size with 40. change Codec.leaf_hdr with 32. change (llen (@nil Codec.lent)) with 0.
    revert Hme. MetaFacts.offs. intros Hme. assert (E64 : 2^64 = 18446744073709551616) by reflexivity. rewrite E64 in *. repeat split; try lia; [apply Forall_nil|]. change (Codec.body_size (Codec.PLeaf [])) with 40. lia.
  - unfold phys_ok. cbn [init_db d_np d_next d_tx d_flids d_fln]. change (llen (@nil N)) with 0.
    revert Hme. MetaFacts.offs. intros Hme. repeat split; lia.
  - assert (Hwf : Meta.meta_wf (Meta.mkMeta 1 Consts.magic Consts.version P 3 0 4 2 0 0)).
    { unfold Meta.meta_wf. cbn [Meta.m_page Meta.m_magic Meta.m_version Meta.m_psz Meta.m_root Meta.m_next Meta.m_np Meta.m_fl Meta.m_tx Meta.m_hash].
      repeat split; try reflexivity. lia. }
    split; [now apply MetaFacts.encode_length|]. right. exists (Meta.init_meta P 1). split.
    + rewrite read_hdr_prefix; [| exact Hme | now apply MetaFacts.encode_length].
      unfold Meta.init_meta. now apply MetaFacts.read_slot_encode.
    + split; [reflexivity|]. right. unfold meta_agrees. repeat split; reflexivity.
Qed.

(* the two-transaction history of ExHistory (zero page in the other slot) and the file [init_file] writes (both
   headers valid with tx 0, differing in meta_page only), at page size 4096 *)
Module ImageExample.
Import ExHistory BytesExamples.
Definition hist_image : bytes := file_image ex_pad 4096 hist_st (zeros 4096).
Definition hist_inv_check := Eval vm_compute in Tree.inv_check (Codec.reader_of hist_image) 4096.
Example hist_inv_check_ok : Tree.inv_check (Codec.reader_of hist_image) 4096 = Codec.Ok tt.
Proof.
  refine (proj1 (history_inv_check 4096 hist hist_st ex_pad 4096 (zeros 4096) eq_refl hist_ok' hist_run_ok hist_fits _ _)).
  - apply phys_okb_ok. vm_compute. reflexivity.
  - split; [reflexivity|]. left. vm_compute. reflexivity.
Qed.
Example hist_check_m_ok : CheckM.check_m (Codec.reader_of hist_image) 4096 = Codec.Ok tt.
Proof. exact (CheckFacts.inv_check_implies_check_m _ _ hist_inv_check_ok). Qed.
Definition init_image : bytes :=
  file_image ex_pad 4096 (init_db 4096) (Meta.encode_meta_page 4096 (Meta.init_meta 4096 1)).
Example init_inv_check_ok : Tree.inv_check (Codec.reader_of init_image) 4096 = Codec.Ok tt.
Proof. refine (proj1 (init_file_checked ex_pad 4096 _ _)); [discriminate | reflexivity]. Qed.
End ImageExample.

Module ImageTheoremExample.
Import ExHistory BytesExamples ImageExample.
Example hist_image_checked :
  Tree.inv_check (Codec.reader_of hist_image) 4096 = Codec.Ok tt /\ CheckM.check_m (Codec.reader_of hist_image) 4096 = Codec.Ok tt.
Proof. exact (conj hist_inv_check_ok hist_check_m_ok). Qed.
End ImageTheoremExample.

Print Assumptions open_image2.
Print Assumptions inv_check_image2.
Print Assumptions init_file_checked.
Print Assumptions ImageTheoremExample.hist_image_checked.
