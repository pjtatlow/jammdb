(* open options: which configurations the builder accepts, and why the alignment guard is needed *)
From Coq Require Import NArith Lia List Bool.
From Jamm Require Import Bytes Consts Meta.
Local Open Scope N_scope.

Definition valid_cfg (P n : N) : Prop := min_pagesize <= P /\ P mod pagesize_align = 0 /\ min_num_pages <= n.
(* what OpenOptions::pagesize / num_pages let through, from the GENERATED guards *)
Definition builder_accepts (P n : N) : bool :=
  (min_pagesize <=? P) && (P mod pagesize_align =? 0) && (min_num_pages <=? n).

Lemma builder_accepts_iff : forall P n, builder_accepts P n = true <-> valid_cfg P n.
Proof.
  intros P n. unfold builder_accepts, valid_cfg.
  rewrite !andb_true_iff, !N.leb_le, N.eqb_eq. tauto.
Qed.

Lemma source_guards : min_pagesize = 1024 /\ pagesize_align = 8 /\ min_num_pages = 4.
Proof. repeat split; reflexivity. Qed.

(* with the guard every page starts on an 8-byte boundary, so the u64 fields of the page header
   (offsets 0, 16, 24 and the payload at 32) are aligned in the map *)
Lemma page_start_aligned : forall P n pid, valid_cfg P n -> (pid * P) mod 8 = 0.
Proof.
  intros P n pid [_ [Ha _]]. change pagesize_align with 8 in Ha.
  apply N.mod_divide in Ha; [|discriminate]. destruct Ha as [k Hk]. subst P.
  rewrite N.mul_assoc. apply N.mod_mul. discriminate.
Qed.
Lemma header_fields_aligned : forall P n pid, valid_cfg P n ->
  (pid * P + off_pg_id) mod 8 = 0 /\ (pid * P + off_pg_count) mod 8 = 0 /\
  (pid * P + off_pg_overflow) mod 8 = 0 /\ (pid * P + payload_off) mod 8 = 0.
Proof.
  intros P n pid H. pose proof (page_start_aligned P n pid H) as Hs.
  apply N.mod_divide in Hs; [|discriminate]. destruct Hs as [k Hk]. rewrite Hk.
  change off_pg_id with 0. change off_pg_count with (2 * 8). change off_pg_overflow with (3 * 8). change payload_off with (4 * 8).
  rewrite N.add_0_r. repeat split; try (rewrite <- N.mul_add_distr_r); apply N.mod_mul; discriminate.
Qed.

(* the builder of the pinned release tests `1024 <= P` only (DESIGN.md D14): it accepts sizes with misaligned pages *)
Lemma unaligned_pagesize_refuted : exists P pid, 1024 <= P /\ P mod 8 <> 0 /\ (pid * P) mod 8 <> 0.
Proof. exists 1025, 1. repeat split; vm_compute; discriminate. Qed.

(* a header whose recorded page size differs from the one the database is opened with is refused (the documented
   panic), whatever the other slot holds; open is a pure function of the file in the model: it issues no I/O *)
Lemma wrong_pagesize_refused : forall P' m s2, m_psz m <> P' ->
  exists why, select_slots P' (SlotValid m) s2 = SelPanic why.
Proof.
  intros P' m s2 H. apply N.eqb_neq in H.
  destruct s2 as [| |m2]; cbn [select_slots]; rewrite ?H; cbn [negb]; eauto.
Qed.
