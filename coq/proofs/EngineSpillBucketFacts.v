(* Spilling the bucket tree writes the overlay's meaning: the parent update that stores a spilled sub-bucket's
   (root, next) replaces one entry of the view in place and keeps the root ready for the spill; the pages written
   mean, on the disk built from any later write set of the transaction, what the overlay means. *)
From Coq Require Import List NArith Bool Arith Lia ZifyN ZifyNat ZifyBool.
From Coq.Strings Require Import Byte.
From Jamm Require Spec EngineSpillWfFacts.
From Jamm Require Import ListFacts Bytes BytesFacts Tree Cursor SearchFacts Engine EngineAbs EngineFacts EngineMergeFacts.
From Jamm Require Import EngineModifyFacts EngineSpillFacts EnginePathFacts EngineBridgeFacts EngineRebalanceFacts.
Import ListNotations.
Import Coq.Strings.String.StringSyntax. Delimit Scope string_scope with string.
Local Open Scope list_scope. Local Open Scope nat_scope.

Notation m_in_range := EngineModifyFacts.in_range.
Notation s_in_range := EngineSpillFacts.in_range.
Notation snode := Spec.snode.
Notation SBucket := Spec.SBucket.
Notation SVal := Spec.SVal.

(** * Replacing an entry of a sorted leaf in place *)

Lemma leaf_insert_replace : forall x e0 y e, sorted_keys (map lkey (x ++ e0 :: y)) = true ->
  lkey e = lkey e0 -> leaf_insert (x ++ e0 :: y) e = x ++ e :: y.
Proof.
  intros x e0 y e Hs Hk. unfold leaf_insert. rewrite map_app in *. cbn [map] in *. rewrite Hk.
  rewrite (bsearch_pos_found _ _ _ Hs). rewrite Nat2N.id, map_length. apply replace_at_mid.
Qed.

Lemma sorted_split_keys : forall (x : list leafent) e0 y, sorted_keys (map lkey (x ++ e0 :: y)) = true ->
  (forall e, In e x -> lkey e <> lkey e0) /\ (forall e, In e y -> lkey e <> lkey e0).
Proof.
  intros x e0 y Hs. rewrite map_app in Hs. cbn [map] in Hs. destruct (sorted_mid _ _ _ Hs) as [A B].
  rewrite Forall_forall in A, B. split; intros e He E.
  - specialize (A (lkey e) (in_map lkey _ _ He)). rewrite E, OrderFacts.bcmp_refl in A. discriminate.
  - specialize (B (lkey e) (in_map lkey _ _ He)). rewrite E, OrderFacts.bcmp_refl in B. discriminate.
Qed.

(** * The parent update keeps the root ready for the spill *)

(* what [spill_ready] asks beyond the rebalance invariant [Inv]: materialised leaves are non-empty and have no
   kids; every page below an un-materialised child is in [keep] *)
Inductive Rdy (d : disk) (keep : list N) : node -> Prop :=
| Rdy_leaf pg npg o sq l : l <> [] -> Rdy d keep (Node pg npg o sq (Leaves l) [])
| Rdy_branch pg npg o sq es kids :
    (forall e kd, In e es -> find_kid (snd e) kids = Some kd -> Rdy d keep kd) ->
    (forall e x, In e es -> find_kid (snd e) kids = None -> in_subtree d (snd e) x -> In x keep) ->
    Rdy d keep (Node pg npg o sq (Branches es) kids).

Lemma Rdy_node_of_page : forall d keep q a sq, dget d q = Some a -> ap_body a <> Leaves [] ->
  (forall x, in_subtree d q x -> In x keep) -> Rdy d keep (node_of_page q a sq).
Proof.
  intros d keep q a sq Hg Hne Hk. unfold node_of_page. destruct (ap_body a) as [l|es] eqn:Hb.
  - apply Rdy_leaf. congruence.
  - apply Rdy_branch.
    + intros e kd _ Hf. rewrite find_kid_nil in Hf. discriminate.
    + intros e x He _ Hx. apply Hk. eapply ist_kid; eauto.
Qed.

Lemma inb_s_in_range : forall lo hi k, inb lo hi k <-> s_in_range lo hi k.
Proof. intros [lo|] [hi|] k; unfold inb, s_in_range, le_lo, lt_hi; tauto. Qed.

Theorem Inv_Rdy_spill_ready : forall h d keep lo hi n,
  Inv h d false lo hi n -> Rdy d keep n -> spill_ready d keep lo hi n.
Proof.
  induction h as [|h IH]; intros d keep lo hi n HI HR; [destruct HI|].
  inversion HR as [pg npg o sq l Hne | pg npg o sq es kids Hk Hkeep]; subst n.
  - apply sr_leaf. exact Hne.
  - rewrite Inv_branch_eq in HI. destruct HI as (Hne & Hs & Hnd & Hinb & [Lnd LF] & HC).
    apply sr_branch.
    + apply Hne. reflexivity.
    + intros k Hk'. apply inb_s_in_range. rewrite Forall_forall in Hinb. apply Hinb, Hk'.
    + exact Lnd.
    + intros kd Hkd. rewrite Forall_forall in LF. destruct (LF kd Hkd) as (key & H1 & H2). exists key. auto.
    + intros l h0 e kd Hb Hf.
      assert (Hlo : forall e0 r, es = e0 :: r -> lo_le lo (lo0 lo (fst e0))).
      { intros e0 r ->. apply lo0_inside. rewrite Forall_forall in Hinb. apply (Hinb (fst e0)). now left. }
      destruct (EngineSpillWfFacts.chb_cbs _ es (lo0 lo) lo hi HC Hlo l h0 e Hb) as (l' & Hc & Hl).
      unfold CInv in Hc. cbn [fst snd] in Hc. rewrite Hf in Hc.
      apply (IH d keep l h0 kd).
      * eapply Inv_weaken; [exact Hl | apply hi_le_refl | exact Hc].
      * apply (Hk e kd); [|exact Hf]. destruct (chb_nth _ _ _ _ _ _ Hb) as (j & Hj & _). eapply nth_error_In; eauto.
    + exact Hkeep.
Qed.

Definition RRdy (d : disk) (keep : list N) (n : node) : Prop := n_data n = Leaves [] \/ Rdy d keep n.

Corollary Inv_RRdy_root_ready : forall h d keep n,
  Inv h d false None None n -> RRdy d keep n -> root_ready d keep n.
Proof.
  intros h d keep n HI [E|HR]; [left; exact E | right; eapply Inv_Rdy_spill_ready; eauto].
Qed.

Lemma insert_at_ne : forall {A} (l : list A) i x, insert_at l i x <> [].
Proof. intros A l i x. destruct i, l; cbn [insert_at]; discriminate. Qed.

Lemma leaf_insert_ne : forall l e, l <> [] -> leaf_insert l e <> [].
Proof.
  intros l e Hl. unfold leaf_insert. destruct (bsearch (map lkey l) (lkey e)) as [[|] i].
  - intros E. apply (f_equal (@length leafent)) in E. rewrite replace_at_length in E. destruct l; [congruence|discriminate].
  - apply insert_at_ne.
Qed.

(* a key of the view that is neither left nor right of child j lies in child j *)
Lemma key_in_selected : forall (ls : list (list leafent)) j lj k, nth_error ls j = Some lj ->
  all_lt k (concat (firstn j ls)) -> all_gt k (concat (skipn (S j) ls)) ->
  In k (map lkey (concat ls)) -> In k (map lkey lj).
Proof.
  intros ls j lj k Hj Ha Hb Hin. destruct (concat_split ls j lj [] Hj) as [E _]. rewrite E in Hin.
  rewrite !map_app, !in_app_iff in Hin. unfold all_lt, all_gt in *. rewrite Forall_forall in Ha, Hb.
  destruct Hin as [Hin|[Hin|Hin]]; [|exact Hin|]; apply in_map_iff in Hin; destruct Hin as (x & <- & Hx); exfalso.
  - specialize (Ha x Hx). rewrite OrderFacts.bcmp_refl in Ha. discriminate.
  - specialize (Hb x Hx). rewrite OrderFacts.bcmp_refl in Hb. discriminate.
Qed.

Lemma PInv_nonempty : forall h d lo hi k q a, PInv h d lo hi (Some k) q -> dget d q = Some a ->
  ap_body a <> Leaves [].
Proof.
  destruct h as [|h]; intros d lo hi k q a H Hg; [destruct H|]. cbn [PInv] in H.
  destruct H as (a' & Hg' & Hok & _). rewrite Hg in Hg'. inversion Hg'; subst a'. cbn [okey_ok] in Hok.
  intros E. rewrite E in Hok. discriminate.
Qed.

Definition ModRep (h : nat) (d : disk) (keep : list N) (lo hi : option bytes) (n n' : node) : Prop :=
  Inv h d false lo hi n' /\ Rdy d keep n' /\ n_page n' = n_page n /\ n_orig n' = n_orig n.

Lemma modify_replace_leaf : forall h d keep lo hi p np og sq l0 ks e,
  Inv h d false lo hi (Node p np og sq (Leaves l0) ks) -> Rdy d keep (Node p np og sq (Leaves l0) ks) ->
  In (lkey e) (map lkey l0) ->
  ModRep h d keep lo hi (Node p np og sq (Leaves l0) ks) (Node p np og sq (Leaves (leaf_insert l0 e)) ks).
Proof.
  intros h d keep lo hi p np og sq l0 ks e HI HR Hin. destruct (Inv_height _ _ _ _ _ _ HI) as [h0 ->].
  rewrite Inv_leaf_eq in HI. destruct HI as [Hs Hf]. unfold ModRep. split; [|split; [|split; reflexivity]].
  - rewrite Inv_leaf_eq. split; [exact (apply_lop_sorted (OpIns e) l0 Hs)|]. apply Forall_forall. intros x Hx.
    apply in_map_iff in Hx. destruct Hx as (y & <- & Hy). rewrite Forall_forall in Hf.
    destruct (apply_lop_In (OpIns e) l0 y Hy) as [Hy'|Hy'].
    + apply Hf. now apply in_map.
    + cbn [lop_key] in Hy'. rewrite Hy'. apply Hf, Hin.
  - inversion HR as [? ? ? ? ? Hne|]; subst. apply Rdy_leaf. now apply leaf_insert_ne.
Qed.

Lemma modrep_branch : forall h0 d keep lo hi p np og sq es ks ks' i sep q b kd',
  Inv (S h0) d false lo hi (Node p np og sq (Branches es) ks) ->
  Rdy d keep (Node p np og sq (Branches es) ks) ->
  nth_error es i = Some (sep, q) -> nth_error (cbounds lo (map fst es) hi) i = Some b ->
  kids_upd ks ks' q kd' -> kids_linked es ks' ->
  Inv h0 d false (fst b) (snd b) kd' -> Rdy d keep kd' ->
  ModRep (S h0) d keep lo hi (Node p np og sq (Branches es) ks) (Node p np og sq (Branches es) ks').
Proof.
  intros h0 d keep lo hi p np og sq es ks ks' i sep q b kd' HI HR En Hb HU HL I1 R1.
  rewrite Inv_branch_eq in HI. destruct HI as (Hne & Hs & Hnd & Hinb & _ & HC).
  unfold ModRep. split; [|split; [|split; reflexivity]].
  - rewrite Inv_branch_eq. repeat (split; [assumption|]).
    exact (children_upd _ _ _ _ _ _ _ _ _ _ _ HC HU Hnd En Hb I1).
  - inversion HR as [|? ? ? ? ? ? Hk Hkeep]; subst. destruct HU as [U1 U2]. apply Rdy_branch.
    + intros e kd He Hf. destruct (N.eq_dec (snd e) q) as [E|NE].
      * rewrite E, U1 in Hf. inversion Hf; subst kd. exact R1.
      * rewrite (U2 _ NE) in Hf. eapply Hk; eauto.
    + intros e x He Hf Hx. destruct (N.eq_dec (snd e) q) as [E|NE].
      * rewrite E, U1 in Hf. discriminate.
      * rewrite (U2 _ NE) in Hf. eapply Hkeep; eauto.
Qed.

Theorem modify_replace : forall f h d keep s lo hi n l e n' s',
  Inv h d false lo hi n -> NodeView d h n l -> Rdy d keep n -> In (lkey e) (map lkey l) ->
  modify f d n (OpIns e) s = Ok (n', s') -> ModRep h d keep lo hi n n'.
Proof.
  induction f as [|f IH]; intros h d keep s lo hi n l e n' s' HI Hv HR Hin H; [discriminate|].
  destruct n as [p np og sq [l0|es] ks].
  - cbn [modify apply_lop] in H. inversion H; subst n' s'. apply NodeView_leaf_inv in Hv. destruct Hv as [-> _].
    now apply modify_replace_leaf.
  - apply NodeView_branch_inv in Hv. destruct Hv as (h0 & ls & -> & -> & HF).
    pose proof (Inv_wf_node _ _ _ _ _ HI) as Hw. apply wf_node_branch_inv in Hw. destruct Hw as (Hok & Hch & Hr).
    rewrite modify_branch in H. cbn [lop_key] in H. destruct (index_of (Branches es) (lkey e)) as [i ex] eqn:Ei.
    destruct (branch_descend (ChildWf d ks) (ChildView d h0 ks) es ls (lkey e) i ex Hok Hch HF
                (fun j e l Hj Hv => Hr j e l Hj (ex_intro _ h0 Hv)) Ei)
      as (sep & q & lj & He & Hl & _ & Hc & _ & _ & Ha & Hb & _).
    rewrite He in H. unfold nthN in He.
    pose proof (key_in_selected ls _ lj (lkey e) Hl Ha Hb Hin) as Hkin.
    pose proof HI as HI0. rewrite Inv_branch_eq in HI0. destruct HI0 as (Hne & Hs & Hnd & Hinb & [Lnd LF] & HC).
    destruct (Forall2_nth_error_l _ _ _ _ _ HC He) as (b & Hbj & Cb). unfold CInv in Cb. cbn [snd fst] in Cb.
    unfold ChildView in Hc.
    assert (Hin_e : In (sep, q) es) by (eapply nth_error_In; eauto).
    inversion HR as [|? ? ? ? ? ? Hk Hkeep]; subst.
    destruct (find_kid q ks) as [kd|] eqn:Ef.
    + apply bind_ok_inv in H. destruct H as ([kd' s1] & Em & H). cbn [fst snd] in H. inversion H; subst n' s'. clear H.
      destruct (IH h0 d keep s (fst b) (snd b) kd lj e kd' s1 Cb Hc (Hk _ _ Hin_e Ef) Hkin Em) as (I1 & R1 & P1 & P3).
      destruct (find_kid_split _ _ _ Ef) as (a & b0 & Eks & Epq & Ha').
      pose proof (replace_kid_upd ks q kd' ltac:(congruence)) as HU.
      assert (Eks' : replace_kid ks kd' = a ++ kd' :: b0).
      { rewrite Eks. apply replace_kid_hit; [congruence|]. intros y Hy. rewrite P1, Epq. now apply Ha'. }
      apply (modrep_branch h0 d keep lo hi p np og sq es ks _ _ sep q b kd' HI HR He Hbj HU); [|exact I1|exact R1].
      split.
      * rewrite Eks', map_app. cbn [map]. rewrite P1. rewrite Eks, map_app in Lnd. exact Lnd.
      * apply Forall_forall. rewrite Forall_forall in LF. intros x Hx. rewrite Eks' in Hx. apply in_app_or in Hx.
        destruct Hx as [Hx | [<- | Hx]].
        -- apply LF. rewrite Eks. apply in_or_app. now left.
        -- rewrite P1, P3. apply LF. rewrite Eks. apply in_or_app. right. now left.
        -- apply LF. rewrite Eks. apply in_or_app. right. now right.
    + destruct (dget d q) as [a|] eqn:Eg; [|discriminate].
      apply bind_ok_inv in H. destruct H as ([kd' s1] & Em & H). cbn [fst snd] in H. inversion H; subst n' s'. clear H.
      pose proof (node_of_page_Inv _ _ _ _ _ _ _ (seqc s) Eg Cb) as I0.
      pose proof (node_of_page_view d h0 q a (seqc s) lj Eg Hc) as V0.
      assert (R0 : Rdy d keep (node_of_page q a (seqc s))).
      { apply Rdy_node_of_page; [exact Eg | eapply PInv_nonempty; eauto |].
        intros x Hx. apply (Hkeep (sep, q) x Hin_e Ef Hx). }
      destruct (IH h0 d keep _ (fst b) (snd b) _ lj e kd' s1 I0 V0 R0 Hkin Em) as (I1 & R1 & P1 & P3).
      rewrite (node_of_page_orig _ _ _ _ _ _ _ (seqc s) Eg Cb) in P3. cbn [n_page node_of_page] in P1.
      pose proof (app_kid_upd ks q kd' Ef P1) as HU.
      apply (modrep_branch h0 d keep lo hi p np og sq es ks _ _ sep q b kd' HI HR He Hbj HU); [|exact I1|exact R1].
      split.
      * rewrite map_app. cbn [map]. apply NoDup_app_intro; [exact Lnd | repeat constructor; intros [] |].
        intros x Hx [<- | []]. apply in_map_iff in Hx. destruct Hx as (y & Hy & Hy').
        apply (find_kid_None _ _ Ef y Hy'). congruence.
      * apply Forall_app. split; [exact LF|]. repeat constructor. exists sep. rewrite P1. split; [exact Hin_e|exact P3].
Qed.

(** ** the bucket level *)
(* the root of a dirty bucket as [spill_bucket] meets it: a materialised node satisfying the rebalance invariant
   and [Rdy] (or an empty leaf), or a committed page that was never loaded (the promoted root of [merge_nodes]) *)
Definition SRoot (d : disk) (keep : list N) (h : nat) (b : bucket) : Prop :=
  match b_rootn b with
  | Some n => Inv h d false None None n /\ RRdy d keep n
  | None => PInv h d None None None (b_root_page b) /\ (forall x, in_subtree d (b_root_page b) x -> In x keep)
  end.

Lemma SRoot_wf : forall d keep h b, SRoot d keep h b -> bucket_wf d b.
Proof.
  intros d keep h b H. unfold SRoot, bucket_wf in *. destruct (b_rootn b).
  - eapply Inv_wf_node. apply H.
  - eapply PInv_wf_page. apply H.
Qed.

Lemma NodeView_empty_leaf : forall d h n l, NodeView d h n l -> n_data n = Leaves [] -> l = [].
Proof.
  intros d h [p np o sq dd ks] l H E. cbn [n_data] in E. subst dd. apply NodeView_leaf_inv in H. tauto.
Qed.

(* the root node that [b_modify] works on: the loaded one, or the committed root page loaded now *)
Lemma ensure_root_SRoot : forall d keep h b l s root s0,
  SRoot d keep h b -> BucketView d h b l -> l <> [] -> ensure_root d b s = Ok (root, s0) ->
  Inv h d false None None root /\ NodeView d h root l /\ Rdy d keep root.
Proof.
  intros d keep h b l s root s0 HS HV Hl Er. unfold SRoot in HS. unfold BucketView in HV. unfold ensure_root in Er.
  destruct (b_rootn b) as [n|].
  - inversion Er; subst root s0. destruct HS as [HI [E|HR]]; [|auto].
    elim Hl. exact (NodeView_empty_leaf _ _ _ _ HV E).
  - destruct HS as [HP Hk]. destruct (PInv_dget _ _ _ _ _ _ HP) as [a Ha]. rewrite Ha in Er. cbn [next_seq] in Er.
    inversion Er; subst root s0.
    split; [exact (node_of_page_Inv _ _ _ _ _ _ _ (seqc s) Ha HP)|].
    split; [exact (node_of_page_view _ _ _ _ (seqc s) _ Ha HV)|].
    apply Rdy_node_of_page; [exact Ha | | exact Hk]. intros E. apply Hl. pose proof (PageView_at _ _ _ _ _ HV Ha) as Hv. now rewrite E in Hv.
Qed.

(* No exactness hypothesis on the view is needed (it would not survive rebalance): the key is already in the view,
   so it is routed into a child whose bounds contain it. *)
Theorem b_modify_replace : forall d keep h b l e s b' s',
  SRoot d keep h b -> BucketView d h b l -> h <= fuel0 -> In (lkey e) (map lkey l) ->
  b_modify d b (OpIns e) s = Ok (b', s') ->
  SRoot d keep h b' /\ BucketView d h b' (leaf_insert l e) /\ (exists n', b_rootn b' = Some n') /\
  b_root_page b' = b_root_page b /\ b_next b' = b_next b /\ b_subs b' = b_subs b /\ same_but_seqc s s'.
Proof.
  intros d keep h b l e s b' s' HS HV Hh Hin H.
  destruct (b_modify_view d h b l (OpIns e) s (SRoot_wf _ _ _ _ HS) HV Hh)
    as (b2 & s2 & E2 & _ & V2 & _ & _ & Q1 & Q2 & Q3 & _ & Q5).
  rewrite H in E2. inversion E2; subst b2 s2. cbn [apply_lop] in V2.
  split; [|split; [exact V2|]].
  2:{ split; [|auto]. unfold b_modify in H. apply bind_ok_inv in H. destruct H as ([root s0] & _ & H).
      apply bind_ok_inv in H. destruct H as ([n1 s1] & _ & H). inversion H. cbn [b_rootn]. eauto. }
  unfold b_modify in H. apply bind_ok_inv in H. destruct H as ([root s0] & Er & H).
  apply bind_ok_inv in H. destruct H as ([n1 s1] & Em & H). inversion H; subst b' s'. clear H.
  assert (Hl : l <> []) by (intros ->; destruct Hin).
  destruct (ensure_root_SRoot _ _ _ _ _ _ _ _ HS HV Hl Er) as (I0 & V0 & R0).
  destruct (modify_replace _ _ _ keep _ _ _ _ _ _ _ _ I0 V0 R0 Hin Em) as (I1 & R1 & _ & _).
  unfold SRoot. cbn [b_rootn]. split; [exact I1 | right; exact R1].
Qed.

(** ** the whole second fold of [spill_bucket]: every spilled sub-bucket's entry is replaced in place *)
Definition meta := (bytes * N * N)%type.
Definition m_name (m : meta) : bytes := fst (fst m).
Definition patch (ms : list meta) (e : leafent) : leafent :=
  match e with
  | LKv _ _ => e
  | LBk k r nx => match find (fun m => beq (m_name m) k) ms with Some (_, r', nx') => LBk k r' nx' | None => e end
  end.

Lemma patch_key : forall ms e, lkey (patch ms e) = lkey e.
Proof.
  intros ms [k v|k r nx]; cbn [patch]; [reflexivity|].
  destruct (find (fun m => beq (m_name m) k) ms) as [[[? ?] ?]|]; reflexivity.
Qed.

Lemma patch_nil : forall l, map (patch []) l = l.
Proof. induction l as [|[k v|k r nx] l IH]; cbn [map patch find]; congruence. Qed.

Lemma patch_other : forall nm r nx e, lkey e <> nm -> patch [(nm, r, nx)] e = e.
Proof.
  intros nm r nx [k v|k r0 nx0] Hk; cbn [patch find m_name fst]; [reflexivity|]. cbn [lkey] in Hk.
  rewrite (beq_false_ne nm k) by congruence. reflexivity.
Qed.

Lemma map_patch_other : forall nm r nx l, (forall e, In e l -> lkey e <> nm) -> map (patch [(nm, r, nx)]) l = l.
Proof.
  intros nm r nx. induction l as [|a l IH]; intros H; [reflexivity|]. cbn [map].
  rewrite patch_other by (apply H; now left). rewrite IH; [reflexivity|]. intros e He. apply H. now right.
Qed.

Lemma leaf_insert_patch : forall l nm r nx r0 nx0, sorted_keys (map lkey l) = true -> In (LBk nm r0 nx0) l ->
  leaf_insert l (LBk nm r nx) = map (patch [(nm, r, nx)]) l.
Proof.
  intros l nm r nx r0 nx0 Hs Hin. destruct (in_split _ _ Hin) as (x & y & ->).
  rewrite (leaf_insert_replace x (LBk nm r0 nx0) y (LBk nm r nx) Hs eq_refl).
  destruct (sorted_split_keys _ _ _ Hs) as [Hx Hy]. cbn [lkey] in Hx, Hy.
  rewrite map_app. cbn [map]. rewrite !map_patch_other by assumption.
  cbn [patch find m_name fst]. rewrite beq_refl. reflexivity.
Qed.

Lemma patch_cons : forall m ms e, ~ In (m_name m) (map m_name ms) -> patch ms (patch [m] e) = patch (m :: ms) e.
Proof.
  intros [[nm r] nx] ms [k v|k r0 nx0] Hni; cbn [patch find m_name fst]; [reflexivity|].
  destruct (beq nm k) eqn:E.
  - apply beq_true_iff in E. subst k. cbn [patch].
    assert (Hf : find (fun m => beq (m_name m) nm) ms = None).
    { destruct (find (fun m => beq (m_name m) nm) ms) as [m'|] eqn:Ef; [|reflexivity]. exfalso. apply Hni.
      apply find_some in Ef. destruct Ef as [Ef1 Ef2]. apply beq_true_iff in Ef2. cbn [m_name fst]. rewrite <- Ef2. apply (in_map m_name _ _ Ef1). }
    now rewrite Hf.
  - reflexivity.
Qed.

(* the two folds of [spill_bucket], named *)
Definition meta_step (d : disk) (acc : bucket * txs) (m : meta) : res (bucket * txs) :=
  let '(bb, s0) := acc in let '(nm, r, nx) := m in
  cur <- b_lookup d bb nm ;;
  match cur with
  | Some e => if is_kv e then Err "IncompatibleValue"%string else b_modify d bb (OpIns (LBk nm r nx)) s0
  | None => '(b', s') <- b_modify d bb (OpIns (LBk nm r nx)) s0 ;;
            Ok (Bucket (b_root_page b') (b_next b' + 1) true (b_rootn b') (b_subs b'), s') end.

Definition sub_acc := (list meta * txs * list bytes * list (bytes * bucket))%type.
Definition sub_step (rec : bucket -> txs -> list bytes -> res (N * N * txs * list bytes))
                    (acc : sub_acc) (_ : bytes * bucket) : res sub_acc :=
  let '(l, s0, o, remaining) := acc in
  match o with [] => Err "order oracle exhausted"%string | nm :: o' =>
    match take_sub nm remaining with None => Err "order oracle names unknown bucket"%string | Some (sb, rem') =>
      '(r, nx, s', o'') <- rec sb s0 o' ;; Ok (l ++ [(nm, r, nx)], s', o'', rem') end end.

Definition spill_tail_b (b1 : bucket) (s2 : txs) (ord1 : list bytes) : res (N * N * txs * list bytes) :=
  match b_rootn b1 with
  | None => Ok (b_root_page b1, b_next b1, s2, ord1)
  | Some rn => '(p, s3) <- spill_root fuel0 rn s2 ;; Ok (p, b_next b1, s3, ord1) end.

Lemma spill_bucket_unfold : forall f d b s ord,
  spill_bucket (S f) d b s ord =
  if negb (is_dirty fuel0 b) then Ok (b_root_page b, b_next b, s, ord) else
  '(metas, s1, ord1, _) <- fold_res (sub_step (spill_bucket f d)) (b_subs b) ([], s, ord, b_subs b) ;;
  '(b1, s2) <- fold_res (meta_step d) metas (b, s1) ;;
  spill_tail_b b1 s2 ord1.
Proof. reflexivity. Qed.

Definition same_tree (b b' : bucket) : Prop :=
  b_root_page b' = b_root_page b /\ b_next b' = b_next b /\ b_subs b' = b_subs b.

Lemma meta_step_replace : forall d keep h bb l s0 nm r nx r0 nx0 b' s',
  SRoot d keep h bb -> BucketView d h bb l -> h <= fuel0 -> In (LBk nm r0 nx0) l ->
  meta_step d (bb, s0) (nm, r, nx) = Ok (b', s') ->
  SRoot d keep h b' /\ BucketView d h b' (map (patch [(nm, r, nx)]) l) /\ (exists n', b_rootn b' = Some n') /\
  same_tree bb b' /\ same_but_seqc s0 s'.
Proof.
  intros d keep h bb l s0 nm r nx r0 nx0 b' s' HS HV Hh Hin H.
  pose proof (SRoot_wf _ _ _ _ HS) as Hw. pose proof (bucket_view_sorted _ _ _ _ Hw HV) as Hs.
  unfold meta_step in H. rewrite (b_lookup_view d h bb l nm Hw HV Hh) in H. cbn [bind] in H.
  destruct (In_nth_error _ _ Hin) as [i Hi]. pose proof (alookup_nth l i _ Hs Hi) as Ha. cbn [lkey] in Ha.
  rewrite Ha in H. cbn [is_kv] in H.
  assert (Hk : In (lkey (LBk nm r nx)) (map lkey l)) by (apply (in_map lkey _ _ Hin)).
  destruct (b_modify_replace d keep h bb l _ s0 b' s' HS HV Hh Hk H) as (A1 & A2 & A3 & A4 & A5 & A6 & A7).
  rewrite (leaf_insert_patch l nm r nx r0 nx0 Hs Hin) in A2. unfold same_tree. tauto.
Qed.

Theorem meta_fold_replace : forall d keep h (ms : list meta) bb l s0 b1 s2,
  SRoot d keep h bb -> BucketView d h bb l -> h <= fuel0 -> NoDup (map m_name ms) ->
  (forall m, In m ms -> exists r0 nx0, In (LBk (m_name m) r0 nx0) l) ->
  fold_res (meta_step d) ms (bb, s0) = Ok (b1, s2) ->
  SRoot d keep h b1 /\ BucketView d h b1 (map (patch ms) l) /\ (ms <> [] -> exists n', b_rootn b1 = Some n') /\
  (ms = [] -> b1 = bb) /\ same_tree bb b1 /\ same_but_seqc s0 s2.
Proof.
  intros d keep h. induction ms as [|[[nm r] nx] ms IH]; intros bb l s0 b1 s2 HS HV Hh Hnd Hall H.
  - cbn [fold_res] in H. inversion H; subst. rewrite patch_nil. unfold same_tree.
    split; [exact HS|]. split; [exact HV|]. split; [congruence|]. split; [reflexivity|].
    split; [auto | apply same_but_seqc_refl].
  - cbn [fold_res] in H. apply bind_ok_inv in H. destruct H as ([b' s'] & Est & H).
    cbn [map] in Hnd. inversion Hnd as [|? ? Hni Hnd']; subst.
    destruct (Hall _ (or_introl eq_refl)) as (r0 & nx0 & Hin). cbn [m_name fst] in Hin.
    destruct (meta_step_replace d keep h bb l s0 nm r nx r0 nx0 b' s' HS HV Hh Hin Est) as (A1 & A2 & A3 & A4 & A5).
    destruct (IH b' _ s' b1 s2 A1 A2 Hh Hnd') as (B1 & B2 & B3 & B4 & B5 & B6); [|exact H|].
    { intros m Hm. destruct (Hall m (or_intror Hm)) as (r1 & nx1 & Hin1). exists r1, nx1.
      apply (in_map (patch [(nm, r, nx)])) in Hin1. rewrite patch_other in Hin1; [exact Hin1|].
      cbn [lkey]. intros E. apply Hni. rewrite <- E. apply (in_map m_name _ _ Hm). }
    split; [exact B1|]. split.
    { rewrite map_map in B2. erewrite map_ext; [exact B2|]. intros e. cbn beta. symmetry. now apply patch_cons. }
    split.
    { intros _. destruct ms as [|m ms]; [rewrite (B4 eq_refl); exact A3 | apply B3; discriminate]. }
    split; [discriminate|]. split.
    + destruct A4 as (X1 & X2 & X3), B5 as (Y1 & Y2 & Y3). unfold same_tree. repeat split; congruence.
    + eapply same_but_seqc_trans; eauto.
Qed.

(** * The meaning of the pages written by [spill_bucket] *)

(** ** committed trees that the transaction leaves alone; the relational meaning of a stored bucket *)

(* every page of the committed bucket rooted at r, and of the buckets nested in it (nesting depth < n), is in
   [keep]; the tree is readable within [fuel0] *)
Fixpoint ckept (n : nat) (d : disk) (keep : list N) (r : N) : Prop :=
  match n with
  | O => False
  | S n' => (forall x, in_subtree d r x -> In x keep) /\ exists l, PageView d fuel0 r l /\
      Forall (fun e => match e with LBk _ r' _ => ckept n' d keep r' | LKv _ _ => True end) l
  end.

(* the entries stored below page r, read with any sufficient fuel *)
Definition EntsOf (d : disk) (r : N) (l : list leafent) : Prop :=
  exists K, forall F, K <= F -> page_ents F d r = l.

(* [Mean d r nx m]: the bucket stored on disk d as (root r, counter nx) means m. Fuel-free counterpart of
   [abs_bucket] (see [Mean_abs_bucket]). *)
Inductive Mean (d : disk) : N -> N -> snode -> Prop :=
| Mean_intro : forall r nx l ents,
    EntsOf d r l -> Forall2 (MeanEnt d) l ents -> Mean d r nx (SBucket 0 nx ents)
with MeanEnt (d : disk) : leafent -> bytes * snode -> Prop :=
| ME_kv : forall k v, MeanEnt d (LKv k v) (k, SVal v)
| ME_bk : forall k r nx m, Mean d r nx m -> MeanEnt d (LBk k r nx) (k, m).

Lemma PageView_transfer : forall d d' h q l, PageView d h q l ->
  (forall x, in_subtree d q x -> dget d' x = dget d x) -> PageView d' h q l.
Proof.
  intros d d'. induction h as [|h IH]; intros q l H Hk; [inversion H|].
  inversion H as [? ? a l0 Hg Hb | ? ? a es ls Hg Hb HF]; subst.
  - eapply PV_leaf; [rewrite (Hk q (ist_self d q)); exact Hg | exact Hb].
  - eapply PV_branch; [rewrite (Hk q (ist_self d q)); exact Hg | exact Hb |].
    eapply ListFacts.Forall2_impl_in; [|exact HF]. cbn beta. intros e y He Hy. apply (IH _ _ Hy).
    intros x Hx. apply Hk. eapply ist_kid; eauto.
Qed.

Lemma PageView_EntsOf : forall d h q l, PageView d h q l -> EntsOf d q l.
Proof. intros d h q l H. exists h. intros F HF. eapply PageView_page_ents; eauto. Qed.

(* a committed bucket whose pages are all kept means the same on every disk that agrees on [keep] *)
Lemma ckept_Mean : forall n d d' keep r nx, (forall x, In x keep -> dget d' x = dget d x) ->
  cwf n d r -> ckept n d keep r -> Mean d' r nx (abs_bucket n d r nx).
Proof.
  induction n as [|n IH]; intros d d' keep r nx Hk Hc Hp; [destruct Hc|].
  pose proof Hc as Hc0. destruct Hc as (Hw & l & Hv & Hall). destruct Hp as (Hsub & l' & Hv' & Hall').
  rewrite (PageView_det _ _ _ _ Hv' _ _ Hv) in Hall'. clear l' Hv'.
  rewrite (cwf_abs_bucket n d r nx l Hc0 Hv). apply Mean_intro with (l := l).
  - apply (PageView_EntsOf d' fuel0). apply (PageView_transfer d d' _ _ _ Hv). intros x Hx. apply Hk, Hsub, Hx.
  - clear Hv Hc0 Hw Hsub. induction l as [|e l IHl]; cbn [map]; constructor.
    + inversion Hall; inversion Hall'; subst. destruct e as [k v|k r' nx']; cbn [ent_abs]; [apply ME_kv|].
      apply ME_bk. apply (IH d d' keep); assumption.
    + inversion Hall; inversion Hall'; subst. apply IHl; assumption.
Qed.

Corollary CAbs_ckept_Mean : forall n d d' keep r nx m, (forall x, In x keep -> dget d' x = dget d x) ->
  cwf n d r -> ckept n d keep r -> CAbs d r nx m -> Mean d' r nx m.
Proof.
  intros n d d' keep r nx m Hk Hc Hp HA. rewrite (CAbs_abs_bucket d r nx m n HA Hc). eapply ckept_Mean; eauto.
Qed.

(* [Mean] is [abs_bucket] whenever the stored tree is readable within the fuels of [abs_bucket] *)
Fixpoint cpres (n : nat) (d : disk) (r : N) : Prop :=
  match n with
  | O => False
  | S n' => pages_present fuel0 d r /\
      Forall (fun e => match e with LBk _ r' _ => cpres n' d r' | LKv _ _ => True end) (page_ents fuel0 d r)
  end.

Lemma EntsOf_present : forall d r l, EntsOf d r l -> pages_present fuel0 d r -> page_ents fuel0 d r = l.
Proof.
  intros d r l [K HK] Hp. pose proof (page_ents_PageView fuel0 d r Hp) as Hv.
  rewrite <- (HK (Nat.max K fuel0)) by lia. symmetry. apply (PageView_page_ents _ _ _ _ Hv). lia.
Qed.

Theorem Mean_abs_bucket : forall n d r nx m, Mean d r nx m -> cpres n d r -> abs_bucket n d r nx = m.
Proof.
  induction n as [|n IH]; intros d r nx m HM Hp; [destruct Hp|]. destruct Hp as [Hp Hall].
  inversion HM as [? ? l ents He HF]; subst. rewrite abs_bucket_S.
  change 64 with fuel0. rewrite (EntsOf_present _ _ _ He Hp) in *. f_equal. clear He HM Hp.
  induction HF as [|e kv l ents Hekv HF IHl]; [reflexivity|]. inversion Hall; subst. cbn [map]. f_equal; [|now apply IHl].
  inversion Hekv as [k v|k r' nx' m' HM']; subst; cbn [ent_abs]; [reflexivity|]. f_equal. now apply IH.
Qed.

(** ** frames *)
Definition unwritten (keep : list N) (s : txs) : Prop := forall x, In x keep -> wr_get (wr s) x = None.

Lemma frame_seqc_r : forall live s s1 s2 A D, frame live s s1 A D -> same_but_seqc s1 s2 -> frame live s s2 A D.
Proof.
  intros live s s1 s2 A D [F1 F2 F3 F4 F5 F6 F7 F8 F9] (E1 & E2 & E3 & E4 & E5 & E6 & _).
  constructor; rewrite ?E1, ?E2, ?E3, ?E4, ?E5, ?E6; try assumption.
  - eapply fresh_inv_ext; [| | |exact F2]; congruence.
  - intros x. rewrite <- F9. unfold freed_in_tx. now rewrite E2, E3.
Qed.

Lemma frame_seqc_l : forall live s0 s1 s2 A D, same_but_seqc s0 s1 -> frame live s1 s2 A D -> frame live s0 s2 A D.
Proof.
  intros live s0 s1 s2 A D (E1 & E2 & E3 & E4 & E5 & E6 & _) [F1 F2 F3 F4 F5 F6 F7 F8 F9].
  constructor; rewrite <- ?E1, <- ?E2, <- ?E3, <- ?E4, <- ?E5, <- ?E6; try assumption.
  intros x. rewrite F9. unfold freed_in_tx. now rewrite E2, E3.
Qed.

Lemma frame_unwritten : forall live s s' A D keep, fresh_inv live s -> frame live s s' A D ->
  (forall x, In x keep -> In x live) -> unwritten keep s -> unwritten keep s'.
Proof.
  intros live s s' A D keep Hfi Hfr Hk Hu x Hx. rewrite (fr_wr _ _ _ _ _ Hfr); [apply Hu, Hx|].
  intros Hi. apply (frame_new _ _ _ _ _ _ Hfi Hfr Hi), Hk, Hx.
Qed.

Lemma unwritten_dget : forall keep s P d, unwritten keep s ->
  forall x, In x keep -> dget (apply_wr (wr s) P d) x = dget d x.
Proof. intros keep s P d Hu x Hx. apply dget_apply_wr_none, Hu, Hx. Qed.

(* a later state of the transaction, seen from an earlier point of the spill *)
Lemma frame_later : forall live A s s1 a dd s'' a2 d2, frame (A ++ live) s s1 a dd ->
  frame ((a ++ A) ++ live) s1 s'' a2 d2 -> frame (A ++ live) s s'' (a2 ++ a) (dd ++ d2).
Proof. intros live A s s1 a dd s'' a2 d2 Hf Hf2. rewrite <- app_assoc in Hf2. eapply frame_trans; eauto. Qed.

(* P holds in EVERY later state of the transaction, s being the state after a stretch of the spill that
   allocated A *)
Definition Henceforth (live A : list N) (s : txs) (P : txs -> Prop) : Prop :=
  forall s'' a2 d2, frame (A ++ live) s s'' a2 d2 -> P s''.

Lemma Henceforth_later : forall live A s s1 a dd (P : txs -> Prop),
  frame (A ++ live) s s1 a dd -> Henceforth live A s P -> Henceforth live (a ++ A) s1 P.
Proof. intros live A s s1 a dd P Hf HW s'' a2 d2 Hf2. exact (HW _ _ _ (frame_later _ _ _ _ _ _ _ _ _ Hf Hf2)). Qed.

Lemma Henceforth_impl : forall live A s (P Q : txs -> Prop),
  (forall s4, P s4 -> Q s4) -> Henceforth live A s P -> Henceforth live A s Q.
Proof. intros live A s P Q H HL s'' a2 d2 Hf. apply H, (HL s'' a2 d2 Hf). Qed.

(* what a recursive call, made with the pages allocated so far counted as live, establishes *)
Lemma Henceforth_app : forall live A a s (P : txs -> Prop), Henceforth (A ++ live) a s P -> Henceforth live (a ++ A) s P.
Proof. intros live A a s P HW s'' a2 d2 Hf. rewrite <- app_assoc in Hf. exact (HW _ _ _ Hf). Qed.

Lemma Henceforth_unwritten : forall keep live A s, fresh_inv (A ++ live) s -> (forall x, In x keep -> In x live) ->
  unwritten keep s -> Henceforth live A s (unwritten keep).
Proof.
  intros keep live A s Hfi Hk Hu s'' a2 d2 Hf. apply (frame_unwritten _ _ _ _ _ keep Hfi Hf); [|exact Hu].
  intros x Hx. apply in_or_app. right. apply Hk, Hx.
Qed.

(* the result (r, nx) of a stretch of the spill that ended in state s having allocated A: in EVERY later state of
   the transaction, the write set applied to the committed disk stores the meaning m at (r, nx) *)
Definition Written (d : disk) (live A : list N) (s : txs) (r nx : N) (m : snode) : Prop :=
  forall s'' a2 d2 P, frame (A ++ live) s s'' a2 d2 -> Mean (apply_wr (wr s'') P d) r nx m.

Lemma Written_later : forall d live A s s1 a dd r nx m,
  frame (A ++ live) s s1 a dd -> Written d live A s r nx m -> Written d live (a ++ A) s1 r nx m.
Proof. intros d live A s s1 a dd r nx m Hf HW s'' a2 d2 P Hf2. exact (HW _ _ _ P (frame_later _ _ _ _ _ _ _ _ _ Hf Hf2)). Qed.

Lemma Written_seqc : forall d live A s s1 r nx m,
  same_but_seqc s s1 -> Written d live A s r nx m -> Written d live A s1 r nx m.
Proof.
  intros d live A s s1 r nx m Hs HW s'' a2 d2 P Hf2. apply (HW s'' a2 d2 P). eapply frame_seqc_l; eauto.
Qed.

(* a committed bucket that the transaction keeps is [Written] from the start *)
Lemma Written_kept : forall n d keep live A s r nx m,
  fresh_inv (A ++ live) s -> (forall x, In x keep -> In x live) -> unwritten keep s ->
  cwf n d r -> ckept n d keep r -> CAbs d r nx m -> Written d live A s r nx m.
Proof.
  intros n d keep live A s r nx m Hfi Hk Hu Hc Hp HA s'' a2 d2 P Hf.
  apply (CAbs_ckept_Mean n d _ keep r nx m); try assumption.
  apply unwritten_dget. exact (Henceforth_unwritten keep live A s Hfi Hk Hu s'' a2 d2 Hf).
Qed.

(** ** the overlay after rebalance, as [spill_bucket] needs it *)
Definition DRoot (d : disk) (keep : list N) (h : nat) (b : bucket) : Prop :=
  match b_rootn b with
  | Some n => Inv h d false None None n /\ RRdy d keep n
  | None => (forall x, in_subtree d (b_root_page b) x -> In x keep) /\
            (b_subs b <> [] -> PInv h d None None None (b_root_page b))
  end.

Inductive SReady (d : disk) (keep : list N) : bucket -> Prop :=
| SReady_clean : forall b,
    is_dirty fuel0 b = false ->
    (exists n, cwf n d (b_root_page b) /\ ckept n d keep (b_root_page b)) ->
    (forall m, OvlAbs d b m -> CAbs d (b_root_page b) (b_next b) m) ->
    SReady d keep b
| SReady_dirty : forall b h l,
    is_dirty fuel0 b = true ->
    h <= fuel0 -> BucketView d h b l -> DRoot d keep h b ->
    NoDup (map fst (b_subs b)) ->
    (forall nm sb, In (nm, sb) (b_subs b) -> (exists r nx, In (LBk nm r nx) l) /\ SReady d keep sb) ->
    (forall k r nx, In (LBk k r nx) l -> sub_find k (b_subs b) = None -> exists n, cwf n d r /\ ckept n d keep r) ->
    SReady d keep b.

Definition SpillPost (d : disk) (live : list N) (b : bucket) (m : snode) (s : txs)
                     (res : N * N * txs * list bytes) : Prop :=
  let '(r, nx, s', _) := res in
  exists alloc dead, frame live s s' alloc dead /\ (In r alloc \/ r = b_root_page b) /\
    nx = b_next b /\ Spec.b_next m = nx /\ Written d live alloc s' r nx m.

Definition RecOK (d : disk) (keep : list N)
                 (rec : bucket -> txs -> list bytes -> res (N * N * txs * list bytes)) : Prop :=
  forall live b s ord res m, fresh_inv live s -> (forall x, In x keep -> In x live) -> unwritten keep s ->
    SReady d keep b -> OvlAbs d b m -> rec b s ord = Ok res -> SpillPost d live b m s res.

Lemma take_sub_inv : forall nm subs sb rem', take_sub nm subs = Some (sb, rem') ->
  exists a b, subs = a ++ (nm, sb) :: b /\ rem' = a ++ b.
Proof.
  intros nm. induction subs as [|[n' b'] r IH]; intros sb rem' H; [discriminate|]. cbn [take_sub] in H.
  destruct (beq n' nm) eqn:E.
  - inversion H; subst. apply beq_true_iff in E. subst n'. exists [], rem'. split; reflexivity.
  - destruct (take_sub nm r) as [[b0 r0]|] eqn:Et; [|discriminate]. inversion H; subst.
    destruct (IH _ _ eq_refl) as (a & b & -> & ->). exists ((n', b') :: a), b. split; reflexivity.
Qed.

(** ** the first fold: the opened sub-buckets are spilled in oracle order *)

Lemma sub_step_ok_inv : forall rec ms s0 o remaining x acc', sub_step rec (ms, s0, o, remaining) x = Ok acc' ->
  exists nm o' sb a b r nx s' o'', o = nm :: o' /\ remaining = a ++ (nm, sb) :: b /\
    rec sb s0 o' = Ok (r, nx, s', o'') /\ acc' = (ms ++ [(nm, r, nx)], s', o'', a ++ b).
Proof.
  intros rec ms s0 o remaining x acc' H. unfold sub_step in H. destruct o as [|nm o']; [discriminate|].
  destruct (take_sub nm remaining) as [[sb rem']|] eqn:Et; [|discriminate].
  apply bind_ok_inv in H. destruct H as ([[[r nx] s'] o''] & Hrec & H). inversion H; subst acc'.
  destruct (take_sub_inv _ _ _ _ Et) as (a & b & Erem & ->). exists nm, o', sb, a, b, r, nx, s', o''. auto.
Qed.

(* every opened sub-bucket is spilled exactly once: those not yet spilled remain, the results so far are named
   after the others; P is what the layer at hand knows of the results ms and the state s0 *)
Definition SubInv (subs : list (bytes * bucket)) (P : list meta -> txs -> Prop) (acc : sub_acc) : Prop :=
  let '(ms, s0, _, remaining) := acc in
  NoDup (map fst remaining) /\ (forall x, In x remaining -> In x subs) /\
  NoDup (map m_name ms) /\ (forall m, In m ms -> ~ In (m_name m) (map fst remaining)) /\
  (forall x, In x subs -> In (fst x) (map m_name ms) \/ In x remaining) /\
  (forall m, In m ms -> exists sb, In (m_name m, sb) subs) /\ P ms s0.

Section SubFold.
Variables (rec : bucket -> txs -> list bytes -> res (N * N * txs * list bytes)) (subs : list (bytes * bucket)).
Variable P : list meta -> txs -> Prop.
Hypothesis Hstep : forall ms s0 nm sb o r nx s' o', In (nm, sb) subs -> ~ In nm (map m_name ms) -> P ms s0 ->
  rec sb s0 o = Ok (r, nx, s', o') -> P (ms ++ [(nm, r, nx)]) s'.

Lemma sub_step_inv : forall x acc acc', SubInv subs P acc -> sub_step rec acc x = Ok acc' ->
  SubInv subs P acc' /\ S (length (snd acc')) = length (snd acc).
Proof.
  intros x [[[ms s0] o] remaining] acc' HI H.
  destruct (sub_step_ok_inv _ _ _ _ _ _ _ H) as (nm & o' & sb & a & b & r & nx & s' & o'' & -> & Erem & Hrec & ->).
  destruct HI as (I1 & I2 & I3 & I4 & I5 & I6 & HP).
  assert (Hin_rem : In (nm, sb) remaining) by (rewrite Erem; apply in_or_app; right; now left).
  assert (Hnd : NoDup (map fst a ++ nm :: map fst b)) by (rewrite Erem, map_app in I1; exact I1).
  assert (Hfresh : ~ In nm (map m_name ms)).
  { intros Hi. apply in_map_iff in Hi. destruct Hi as (m0 & E0 & Hm0). apply (I4 m0 Hm0).
    rewrite E0. apply (in_map fst _ _ Hin_rem). }
  cbn [snd]. split; [|rewrite Erem, !app_length; cbn [length]; lia].
  unfold SubInv. split; [rewrite map_app; eapply NoDup_remove_1; eauto|].
  split. { intros y Hy. apply I2. rewrite Erem. apply in_app_or in Hy. apply in_or_app. destruct Hy; [left|right; right]; assumption. }
  split.
  { rewrite map_app. cbn [map m_name fst]. apply NoDup_app_intro; [exact I3 | repeat constructor; intros [] |].
    intros y Hy [<-|[]]. exact (Hfresh Hy). }
  split.
  { intros m0 Hm0 Hi. rewrite map_app in Hi. apply in_app_or in Hm0. destruct Hm0 as [Hm0|[<-|[]]].
    - apply (I4 m0 Hm0). rewrite Erem, map_app. cbn [map fst]. apply in_app_or in Hi. apply in_or_app.
      destruct Hi; [left|right; right]; assumption.
    - cbn [m_name fst] in Hi. apply (NoDup_remove_2 _ _ _ Hnd Hi). }
  split.
  { intros y Hy. destruct (I5 y Hy) as [Hy'|Hy'].
    - left. rewrite map_app. apply in_or_app. now left.
    - rewrite Erem in Hy'. apply in_app_or in Hy'. destruct Hy' as [Hy'|[<-|Hy']].
      + right. apply in_or_app. now left.
      + left. rewrite map_app. apply in_or_app. right. now left.
      + right. apply in_or_app. now right. }
  split.
  { intros m0 Hm0. apply in_app_or in Hm0. destruct Hm0 as [Hm0|[<-|[]]]; [exact (I6 m0 Hm0)|].
    exists sb. apply I2, Hin_rem. }
  exact (Hstep ms s0 nm sb o' r nx s' o'' (I2 _ Hin_rem) Hfresh HP Hrec).
Qed.

Lemma SubInv_start : forall s ord, NoDup (map fst subs) -> P [] s -> SubInv subs P ([], s, ord, subs).
Proof.
  intros s ord Hnd HP0. cbn [SubInv]. split; [exact Hnd|]. split; [auto|]. split; [constructor|].
  split; [intros ? []|]. split; [intros x Hx; now right|]. split; [intros ? [] | exact HP0].
Qed.

(* the whole fold: none remains, and P holds of the results *)
Lemma sub_fold_inv : forall s ord metas s1 ord1 remaining, NoDup (map fst subs) -> P [] s ->
  fold_res (sub_step rec) subs ([], s, ord, subs) = Ok (metas, s1, ord1, remaining) ->
  remaining = [] /\ NoDup (map m_name metas) /\ (forall x, In x subs -> In (fst x) (map m_name metas)) /\
  (forall m, In m metas -> exists sb, In (m_name m, sb) subs) /\ P metas s1.
Proof.
  intros s ord metas s1 ord1 remaining Hnd HP0 H.
  destruct (fold_res_inv (sub_step rec) (fun rest acc => SubInv subs P acc /\ length (snd acc) = length rest))
    with (xs := subs) (a := ([]:list meta, s, ord, subs)) (a' := (metas, s1, ord1, remaining))
    as [(_ & _ & J3 & _ & J5 & J6 & HP) Hlen]; [| split; [now apply SubInv_start | reflexivity] | exact H |].
  - intros x xs a a' [HI Hl] E. destruct (sub_step_inv x a a' HI E) as [HI' Hl']. split; [exact HI'|].
    cbn [length] in Hl. lia.
  - cbn [snd length] in Hlen. destruct remaining; [|discriminate]. split; [reflexivity|]. split; [exact J3|].
    split; [|split; [exact J6 | exact HP]]. intros x Hx. destruct (J5 x Hx) as [Hc|[]]. exact Hc.
Qed.
End SubFold.

(* the result m of spilling an opened sub-bucket of [subs], in the state s0 reached after allocating A *)
Definition MetaOK (d : disk) (live : list N) (subs : list (bytes * bucket)) (A : list N) (s0 : txs) (m : meta) : Prop :=
  exists sb ms, In (m_name m, sb) subs /\ OvlAbs d sb ms /\ snd m = b_next sb /\
    Written d live A s0 (snd (fst m)) (snd m) ms.

Definition SubsMean (d : disk) (live : list N) (s : txs) (subs : list (bytes * bucket)) (ms : list meta) (s0 : txs) : Prop :=
  exists A D, frame live s s0 A D /\ Forall (MetaOK d live subs A s0) ms.

Lemma sub_step_meaning : forall d keep live s subs rec, RecOK d keep rec ->
  fresh_inv live s -> (forall x, In x keep -> In x live) -> unwritten keep s ->
  (forall nm sb, In (nm, sb) subs -> SReady d keep sb /\ exists ms, OvlAbs d sb ms) ->
  forall ms s0 nm sb o r nx s' o', In (nm, sb) subs -> SubsMean d live s subs ms s0 ->
    rec sb s0 o = Ok (r, nx, s', o') -> SubsMean d live s subs (ms ++ [(nm, r, nx)]) s'.
Proof.
  intros d keep live s subs rec HR Hfi Hk Hu Hsubs ms s0 nm sb o r nx s' o' Hin (A & D & Hfr & Hall) Hrec.
  destruct (Hsubs nm sb Hin) as [HS [msb Hmsb]].
  assert (Hk' : forall x, In x keep -> In x (A ++ live)) by (intros y Hy; apply in_or_app; right; apply Hk, Hy).
  pose proof (HR (A ++ live) sb s0 o _ msb (fr_fresh _ _ _ _ _ Hfr) Hk'
                 (frame_unwritten _ _ _ _ _ keep Hfi Hfr Hk Hu) HS Hmsb Hrec) as HP.
  cbn [SpillPost] in HP. destruct HP as (a1 & d1 & Hf1 & _ & Enx & _ & HW).
  exists (a1 ++ A), (D ++ d1). split; [eapply frame_trans; eauto|].
  apply Forall_app. split.
  - eapply Forall_impl; [|exact Hall]. intros m0 (sb0 & ms0 & X1 & X2 & X3 & X4).
    exists sb0, ms0. repeat (split; [assumption|]). eapply Written_later; eauto.
  - repeat constructor. exists sb, msb. cbn [m_name fst snd]. split; [exact Hin|]. split; [exact Hmsb|].
    split; [exact Enx|]. intros s'' a2 d2 P Hf2. rewrite <- app_assoc in Hf2. apply (HW s'' a2 d2 P Hf2).
Qed.

(** ** the entries of the patched view mean what the overlay's entries mean *)
Lemma find_name : forall (ms : list meta) k, In k (map m_name ms) ->
  exists m1, find (fun m => beq (m_name m) k) ms = Some m1 /\ In m1 ms /\ m_name m1 = k.
Proof.
  induction ms as [|m ms IH]; intros k H; [destruct H|]. cbn [find]. destruct (beq (m_name m) k) eqn:E.
  - exists m. apply beq_true_iff in E. split; [reflexivity|]. split; [now left | exact E].
  - cbn [map] in H. destruct H as [H|H]; [rewrite H, beq_refl in E; discriminate|].
    destruct (IH k H) as (m1 & F1 & F2 & F3). exists m1. split; [exact F1|]. split; [now right | exact F3].
Qed.

Lemma patched_meaning : forall d d' subs (ms : list meta) l ents,
  NoDup (map fst subs) ->
  (forall m, In m ms -> exists sb mm, In (m_name m, sb) subs /\ OvlAbs d sb mm /\ Mean d' (snd (fst m)) (snd m) mm) ->
  (forall x, In x subs -> In (fst x) (map m_name ms)) ->
  (forall k r nx, In (LBk k r nx) l -> sub_find k subs = None -> forall m', CAbs d r nx m' -> Mean d' r nx m') ->
  Forall2 (OvlEnt d subs) l ents -> Forall2 (MeanEnt d') (map (patch ms) l) ents.
Proof.
  intros d d' subs ms l ents Hnd Hms Hcov Hdisk HF. induction HF as [|e kv l ents He HF IH]; [constructor|].
  cbn [map]. constructor.
  2:{ apply IH. intros k r nx Hin. apply Hdisk. now right. }
  inversion He as [? k v | ? k r nx sb m' Hf Ho | ? k r nx m' Hf Hc]; subst.
  - cbn [patch]. apply ME_kv.
  - pose proof (sub_find_In _ _ _ Hf) as Hin. destruct (find_name ms k (Hcov _ Hin)) as (m1 & F1 & F2 & F3).
    cbn [patch]. rewrite F1. destruct m1 as [[k1 r1] nx1].
    destruct (Hms _ F2) as (sb2 & mm & G1 & G2 & G3). cbn [m_name fst snd] in *. subst k1.
    pose proof (NoDup_In_sub_find _ _ _ Hnd G1) as Hf2. rewrite Hf in Hf2. inversion Hf2; subst sb2.
    rewrite (OvlAbs_det _ _ _ _ Ho G2). apply ME_bk. exact G3.
  - cbn [patch]. destruct (find (fun m => beq (m_name m) k) ms) as [m1|] eqn:Ef.
    + exfalso. apply find_some in Ef. destruct Ef as [E1 E2]. apply beq_true_iff in E2.
      destruct (Hms _ E1) as (sb2 & mm & G1 & _). rewrite E2 in G1.
      rewrite (NoDup_In_sub_find _ _ _ Hnd G1) in Hf. discriminate.
    + apply ME_bk. apply (Hdisk k r nx); [now left | exact Hf | exact Hc].
Qed.

(** ** the induction step *)
Lemma sub_has_meaning : forall d subs l ents nm sb r nx, NoDup (map fst subs) ->
  Forall2 (OvlEnt d subs) l ents -> In (nm, sb) subs -> In (LBk nm r nx) l -> exists ms, OvlAbs d sb ms.
Proof.
  intros d subs l ents nm sb r nx Hnd HF Hin Hl. destruct (Forall2_In_l _ _ _ _ HF Hl) as (kv & _ & He).
  pose proof (NoDup_In_sub_find _ _ _ Hnd Hin) as Hf.
  inversion He as [| ? k r0 nx0 sb' m' Hf' Ho | ? k r0 nx0 m' Hf' Hc]; subst.
  - rewrite Hf in Hf'. inversion Hf'; subst sb'. eauto.
  - rewrite Hf in Hf'. discriminate.
Qed.

(* the unopened nested buckets of a dirty bucket keep their meaning on every later disk *)
Lemma disk_entries_later : forall d keep (live A : list N) s'' P subs l,
  (forall k r nx, In (LBk k r nx) l -> sub_find k subs = None -> exists n, cwf n d r /\ ckept n d keep r) ->
  unwritten keep s'' ->
  forall k r nx, In (LBk k r nx) l -> sub_find k subs = None -> forall m', CAbs d r nx m' ->
    Mean (apply_wr (wr s'') P d) r nx m'.
Proof.
  intros d keep live A s'' P subs l Hdisk Hu k r nx Hin Hf m' Hc. destruct (Hdisk k r nx Hin Hf) as (n & Hc1 & Hc2).
  apply (CAbs_ckept_Mean n d _ keep r nx m'); try assumption. now apply unwritten_dget.
Qed.

Lemma spill_tail_meaning : forall d keep live s A D s1 s2 h l subs (ms : list meta) ents rn p s3 nx,
  fresh_inv live s -> (forall x, In x keep -> In x live) -> unwritten keep s ->
  frame live s s1 A D -> same_but_seqc s1 s2 ->
  Inv h d false None None rn -> RRdy d keep rn -> NodeView d h rn (map (patch ms) l) ->
  NoDup (map fst subs) -> Forall (MetaOK d live subs A s1) ms ->
  (forall x, In x subs -> In (fst x) (map m_name ms)) ->
  (forall k r nx, In (LBk k r nx) l -> sub_find k subs = None -> exists n, cwf n d r /\ ckept n d keep r) ->
  Forall2 (OvlEnt d subs) l ents ->
  spill_root fuel0 rn s2 = Ok (p, s3) ->
  exists alloc dead, frame live s s3 alloc dead /\ In p alloc /\ Written d live alloc s3 p nx (SBucket 0 nx ents).
Proof.
  intros d keep live s A D s1 s2 h l subs ms ents rn p s3 nx Hfi Hk Hu Hfr Hs12 HI HR HV Hnd Hms Hcov Hdisk HF Hsp.
  pose proof (frame_seqc_r _ _ _ _ _ _ Hfr Hs12) as Hfr2.
  pose proof (fr_fresh _ _ _ _ _ Hfr2) as Hfi2.
  assert (Hk2 : forall x, In x keep -> In x (A ++ live)) by (intros y Hy; apply in_or_app; right; apply Hk, Hy).
  pose proof (frame_unwritten _ _ _ _ _ keep Hfi Hfr2 Hk Hu) as Hu2.
  destruct (spill_root_view d keep (A ++ live) h rn _ fuel0 s2 p s3 (Inv_wf_node _ _ _ _ _ HI) HV
              (Inv_RRdy_root_ready _ _ _ _ HI HR) Hfi2 Hsp)
    as (alloc & dead & good & lv & F1 & F2 & F3 & _ & _ & _ & F7).
  exists (alloc ++ A), (D ++ dead). split; [eapply frame_trans; eauto|].
  split; [apply in_or_app; left; apply F2, F3|].
  intros s'' a2 d2 P Hf''. rewrite <- app_assoc in Hf''.
  destruct (frame_later_ok _ _ _ _ _ good keep s'' a2 d2 Hfi2 F1 F2 Hk2 Hu2 Hf'') as [G1 G2].
  apply Mean_intro with (l := map (patch ms) l).
  - exists (lv + ndepth rn + h). intros F HF'. apply (F7 (wr s'') P G1 G2 F HF').
  - apply (patched_meaning d _ subs ms l ents Hnd); [| exact Hcov | | exact HF].
    + intros m Hm. rewrite Forall_forall in Hms. destruct (Hms m Hm) as (sb & mm & X1 & X2 & _ & X4).
      exists sb, mm. split; [exact X1|]. split; [exact X2|].
      apply (X4 s'' (a2 ++ alloc) (dead ++ d2) P). apply (frame_seqc_l _ _ _ _ _ _ Hs12). eapply frame_trans; eauto.
    + apply (disk_entries_later d keep live A s'' P subs l Hdisk G2).
Qed.

Lemma spill_bucket_clean : forall f d b s ord, is_dirty fuel0 b = false ->
  spill_bucket (S f) d b s ord = Ok (b_root_page b, b_next b, s, ord).
Proof. intros f d b s ord E. rewrite spill_bucket_unfold, E. reflexivity. Qed.

(* the dirty clause of [SReady], with the view the overlay's meaning is taken from *)
Lemma SReady_dirty_inv : forall d keep b m, SReady d keep b -> OvlAbs d b m -> is_dirty fuel0 b = true ->
  exists h l ents, h <= fuel0 /\ BucketView d h b l /\ DRoot d keep h b /\ NoDup (map fst (b_subs b)) /\
    (forall nm sb, In (nm, sb) (b_subs b) ->
       (exists r nx, In (LBk nm r nx) l) /\ SReady d keep sb /\ exists ms, OvlAbs d sb ms) /\
    (forall k r nx, In (LBk k r nx) l -> sub_find k (b_subs b) = None -> exists n, cwf n d r /\ ckept n d keep r) /\
    m = SBucket 0 (b_next b) ents /\ Forall2 (OvlEnt d (b_subs b)) l ents.
Proof.
  intros d keep b m HS HO Ed.
  inversion HS as [b0 Hd | b0 h l _ Hh HV HD Hnd Hsubs Hdisk]; subst b0; [congruence|].
  inversion HO as [b0 l0 ents Hbv HF]; subst b0 m.
  assert (El : l0 = l) by (apply (bucket_view_det d b); [exact Hbv | exists h; auto]). subst l0.
  exists h, l, ents. do 4 (split; [assumption|]). split; [|auto].
  intros nm sb Hin. destruct (Hsubs nm sb Hin) as [Hl HSb]. split; [exact Hl|]. split; [exact HSb|].
  destruct Hl as (r0 & nx0 & Hl). eapply sub_has_meaning; eauto.
Qed.

(* an entry that no result replaces belongs to no opened sub-bucket *)
Lemma unpatched_unopened : forall subs (ms : list meta) k, (forall x, In x subs -> In (fst x) (map m_name ms)) ->
  find (fun m => beq (m_name m) k) ms = None -> sub_find k subs = None.
Proof.
  intros subs ms k Hcov Hf. destruct (sub_find k subs) as [sb|] eqn:Hsf; [|reflexivity]. exfalso.
  pose proof (Hcov _ (sub_find_In _ _ _ Hsf)) as Hin. cbn [fst] in Hin.
  destruct (find_name ms k Hin) as (m1 & F1 & _). congruence.
Qed.

(* the root of a dirty bucket can be loaded, except the promoted root of a bucket without opened sub-buckets *)
Lemma dirty_root_cases : forall d keep h b (metas : list meta), DRoot d keep h b ->
  (forall m, In m metas -> exists sb, In (m_name m, sb) (b_subs b)) ->
  (b_rootn b = None /\ metas = []) \/ (SRoot d keep h b /\ (metas <> [] \/ exists n, b_rootn b = Some n)).
Proof.
  intros d keep h b metas HD Hmem. unfold SRoot, DRoot in *. destruct (b_rootn b) as [n|]; [right; split; [exact HD | right; eauto]|].
  destruct metas as [|mt metas]; [left; auto|]. right. split; [|left; discriminate].
  destruct HD as [HD1 HD2]. split; [|exact HD1]. apply HD2. intros E.
  destruct (Hmem mt (or_introl eq_refl)) as [sb Hsb]. rewrite E in Hsb. destruct Hsb.
Qed.

(* how a successful [spill_bucket (S f)] on a dirty bucket with view l ends, the opened sub-buckets having been
   spilled with results [metas] in state s1: with the committed root page that was never loaded, or with the
   spill of the root node that the parent updates leave *)
Inductive SpillTail (d : disk) (keep : list N) (h : nat) (b : bucket) (l : list leafent) (metas : list meta)
                    (s1 : txs) (ord1 : list bytes) : N * N * txs * list bytes -> Prop :=
| ST_unloaded :
    b_rootn b = None -> metas = [] ->
    (forall x, in_subtree d (b_root_page b) x -> In x keep) -> PageView d h (b_root_page b) l ->
    SpillTail d keep h b l metas s1 ord1 (b_root_page b, b_next b, s1, ord1)
| ST_root : forall b1 s2 rn p s3,
    SRoot d keep h b -> fold_res (meta_step d) metas (b, s1) = Ok (b1, s2) ->
    SRoot d keep h b1 -> b_rootn b1 = Some rn -> same_but_seqc s1 s2 ->
    Inv h d false None None rn -> RRdy d keep rn -> NodeView d h rn (map (patch metas) l) ->
    spill_root fuel0 rn s2 = Ok (p, s3) ->
    SpillTail d keep h b l metas s1 ord1 (p, b_next b, s3, ord1).

(* a successful [spill_bucket (S f)] on a dirty bucket: the opened sub-buckets are spilled one after the other, in
   the oracle's order (P is what the caller follows along these calls), their entries are replaced in the root,
   and the root is spilled *)
Theorem spill_bucket_dirty_inv : forall d keep f b s ord res h l (P : list meta -> txs -> Prop),
  is_dirty fuel0 b = true -> h <= fuel0 -> BucketView d h b l -> DRoot d keep h b -> NoDup (map fst (b_subs b)) ->
  (forall nm sb, In (nm, sb) (b_subs b) -> exists r nx, In (LBk nm r nx) l) ->
  P [] s ->
  (forall ms s0 nm sb o r nx s' o', In (nm, sb) (b_subs b) -> ~ In nm (map m_name ms) -> P ms s0 ->
     spill_bucket f d sb s0 o = Ok (r, nx, s', o') -> P (ms ++ [(nm, r, nx)]) s') ->
  spill_bucket (S f) d b s ord = Ok res ->
  exists metas s1 ord1, P metas s1 /\ NoDup (map m_name metas) /\
    (forall x, In x (b_subs b) -> In (fst x) (map m_name metas)) /\
    (forall mt, In mt metas -> exists r nx, In (LBk (m_name mt) r nx) l) /\
    SpillTail d keep h b l metas s1 ord1 res.
Proof.
  intros d keep f b s ord res h l P Ed Hh HV HD Hnd Hnamed HP0 Hstep H.
  rewrite spill_bucket_unfold, Ed in H. cbn [negb] in H.
  apply bind_ok_inv in H. destruct H as ([[[metas s1] ord1] remaining] & Hf1 & H).
  destruct (sub_fold_inv _ _ P Hstep _ _ _ _ _ _ Hnd HP0 Hf1) as (-> & J3 & Hcov & Hmem & HP).
  assert (Hall : forall mt, In mt metas -> exists r nx, In (LBk (m_name mt) r nx) l).
  { intros mt Hmt. destruct (Hmem mt Hmt) as [sb Hsb]. exact (Hnamed _ _ Hsb). }
  exists metas, s1, ord1. do 4 (split; [assumption|]).
  apply bind_ok_inv in H. destruct H as ([b1 s2] & Hf2 & H). unfold spill_tail_b in H.
  destruct (dirty_root_cases d keep h b metas HD Hmem) as [[Ern ->] | [HSR Hsome]].
  - cbn [fold_res] in Hf2. inversion Hf2; subst b1 s2. rewrite Ern in H. inversion H; subst res.
    unfold DRoot in HD. unfold BucketView in HV. rewrite Ern in HD, HV. apply ST_unloaded; [exact Ern | reflexivity | apply HD | exact HV].
  - destruct (meta_fold_replace d keep h metas b l s1 b1 s2 HSR HV Hh J3 Hall Hf2)
      as (B1 & B2 & B3 & B4 & (_ & T2 & _) & B6).
    assert (Hrn : exists rn, b_rootn b1 = Some rn).
    { destruct Hsome as [Hne | [n Hn]]; [apply B3, Hne|]. destruct metas as [|mt metas]; [|apply B3; discriminate].
      rewrite (B4 eq_refl). eauto. }
    destruct Hrn as [rn Ern]. rewrite Ern in H.
    apply bind_ok_inv in H. destruct H as ([p s3] & Hsp & H). inversion H; subst res. rewrite T2.
    pose proof B1 as B1'. unfold SRoot in B1'. rewrite Ern in B1'. unfold BucketView in B2. rewrite Ern in B2.
    exact (ST_root d keep h b l metas s1 ord1 b1 s2 rn p s3 HSR Hf2 B1 Ern B6 (proj1 B1') (proj2 B1') B2 Hsp).
Qed.

Lemma RecOK_step : forall d keep f, RecOK d keep (spill_bucket f d) -> RecOK d keep (spill_bucket (S f) d).
Proof.
  intros d keep f HR live b s ord res m Hfi Hk Hu HS HO H.
  destruct (is_dirty fuel0 b) eqn:Ed.
  2:{ (* clean: returned as it is *)
      rewrite (spill_bucket_clean _ _ _ _ _ Ed) in H. inversion H; subst res.
      inversion HS as [b0 _ (n & Hc1 & Hc2) Hm | b0 h l Hd]; subst b0; [|congruence].
      destruct (OvlAbs_bucket _ _ _ HO) as [ents0 Em].
      cbn [SpillPost]. exists [], []. split; [now apply frame_refl|]. split; [now right|]. split; [reflexivity|].
      split; [rewrite Em; reflexivity|]. apply (Written_kept n d keep live [] s); auto. }
  destruct (SReady_dirty_inv d keep b m HS HO Ed) as (h & l & ents & Hh & HV & HD & Hnd & Hsubs & Hdisk & -> & HF).
  destruct (spill_bucket_dirty_inv d keep f b s ord res h l (SubsMean d live s (b_subs b)) Ed Hh HV HD Hnd
              (fun nm sb Hin => proj1 (Hsubs nm sb Hin)))
    as (metas & s1 & ord1 & (A & D & Hfr & Hms) & J3 & Hcov & Hall & HT); [| |exact H|].
  - exists [], []. split; [now apply frame_refl | constructor].
  - intros ms s0 nm sb o r nx s' o' Hin _.
    exact (sub_step_meaning d keep live s (b_subs b) _ HR Hfi Hk Hu (fun nm sb Hin => proj2 (Hsubs nm sb Hin)) ms s0 nm sb o r nx s' o' Hin).
  - destruct HT as [Ern -> HD1 HVp | b1 s2 rn p s3 HSR Hf2 _ Ern B6 HI HRd B2 Hsp]; cbn [SpillPost].
    + (* the promoted root that was never loaded, no opened sub-bucket: the committed page is returned *)
      exists A, D. split; [exact Hfr|]. split; [now right|]. split; [reflexivity|]. split; [reflexivity|].
      intros s'' a2 d2 P Hf''.
      pose proof (Henceforth_unwritten keep live A s1 (fr_fresh _ _ _ _ _ Hfr) Hk
                    (frame_unwritten _ _ _ _ _ keep Hfi Hfr Hk Hu) s'' a2 d2 Hf'') as Hu''.
      apply Mean_intro with (l := l).
      * apply (PageView_EntsOf _ h). apply (PageView_transfer d _ _ _ _ HVp). intros x Hx.
        apply unwritten_dget with (keep := keep); [exact Hu'' | apply HD1, Hx].
      * rewrite <- (patch_nil l). apply (patched_meaning d _ (b_subs b) [] l ents Hnd); [intros ? [] | exact Hcov | | exact HF].
        apply (disk_entries_later d keep live A s'' P (b_subs b) l Hdisk Hu'').
    + destruct (spill_tail_meaning d keep live s A D s1 s2 h l (b_subs b) metas ents rn p s3 (b_next b)
                  Hfi Hk Hu Hfr B6 HI HRd B2 Hnd Hms Hcov Hdisk HF Hsp) as (alloc & dead & R1 & R2 & R3).
      exists alloc, dead. split; [exact R1|]. split; [now left|]. split; [reflexivity|]. split; [reflexivity | exact R3].
Qed.

Lemma RecOK_all : forall d keep f, RecOK d keep (spill_bucket f d).
Proof.
  intros d keep. induction f as [|f IH]; [|now apply RecOK_step].
  intros live b s ord res m _ _ _ _ _ H. discriminate.
Qed.

(* Spilling the bucket tree writes the overlay's meaning: in every later state s'' of the same transaction, the
   write set applied to the committed disk stores, at the returned (root, counter), the meaning of the overlay. *)
Theorem spill_bucket_meaning : forall f d keep live b s ord r nx s' ord' m,
  fresh_inv live s -> (forall x, In x keep -> In x live) -> (forall x, In x keep -> wr_get (wr s) x = None) ->
  SReady d keep b -> OvlAbs d b m ->
  spill_bucket f d b s ord = Ok (r, nx, s', ord') ->
  exists alloc dead,
    frame live s s' alloc dead /\
    (In r alloc \/ r = b_root_page b) /\
    nx = b_next b /\ Spec.b_next m = nx /\
    forall s'' a2 d2 P, frame (alloc ++ live) s' s'' a2 d2 -> Mean (apply_wr (wr s'') P d) r nx m.
Proof.
  intros f d keep live b s ord r nx s' ord' m Hfi Hk Hu HS HO H.
  exact (RecOK_all d keep f live b s ord (r, nx, s', ord') m Hfi Hk Hu HS HO H).
Qed.

(* in terms of the executable abstraction function, when the new tree is readable within its fuels; that is a
   hypothesis because [spill_root_view] bounds the height of the new tree only by lv + ndepth n + h with lv <= fuel0 *)
Corollary spill_bucket_abs_bucket : forall f d keep live b s ord r nx s' ord' m,
  fresh_inv live s -> (forall x, In x keep -> In x live) -> (forall x, In x keep -> wr_get (wr s) x = None) ->
  SReady d keep b -> OvlAbs d b m ->
  spill_bucket f d b s ord = Ok (r, nx, s', ord') ->
  exists alloc dead, frame live s s' alloc dead /\
    forall s'' a2 d2 P n, frame (alloc ++ live) s' s'' a2 d2 -> cpres n (apply_wr (wr s'') P d) r ->
      abs_bucket n (apply_wr (wr s'') P d) r nx = m.
Proof.
  intros f d keep live b s ord r nx s' ord' m Hfi Hk Hu HS HO H.
  destruct (spill_bucket_meaning f d keep live b s ord r nx s' ord' m Hfi Hk Hu HS HO H)
    as (alloc & dead & F1 & _ & _ & _ & F5).
  exists alloc, dead. split; [exact F1|]. intros s'' a2 d2 P n Hf Hp. apply Mean_abs_bucket; [|exact Hp]. eapply F5; eauto.
Qed.

(** * [commit] *)

(* a successful [commit]: the state s2 in which the spill ends, the run (flp, fln) taken for the new free-list page
   and the final allocator state s4 *)
Lemma commit_ok_inv : forall st b s ord st' b1 s1, rebalance fuel0 (d_disk st) b s = Ok (b1, s1) ->
  commit st b s ord = Ok st' ->
  exists r nx s2 ord' flp fln s4,
    spill_bucket fuel0 (d_disk st) b1 s1 ord = Ok (r, nx, s2, ord') /\
    tx_allocate (free_pages s2 (d_fl st) (d_fln st))
                (40 + 8 * llen (all_pages (free_pages s2 (d_fl st) (d_fln st)))) = (flp, fln, s4) /\
    st' = {| d_disk := apply_wr (wr s4) (psz s4) (d_disk st); d_root := r; d_next := nx; d_np := np s4; d_fl := flp;
             d_fln := fln; d_flids := all_pages s4; d_tx := txid s4; d_free := free s4; d_pending := pending s4;
             d_psz := psz s4 |}.
Proof.
  intros st b s ord st' b1 s1 Hreb H.
  rewrite commit_apply_wr in H. unfold commit_with_apply_wr in H. rewrite Hreb in H. cbn [bind] in H.
  apply bind_ok_inv in H. destruct H as ([[[r nx] s2] ord'] & Hsp & H). cbv zeta in H.
  destruct (tx_allocate _ _) as [[flp fln] s4] eqn:Hal. inversion H. exists r, nx, s2, ord', flp, fln, s4. auto.
Qed.

(* the free-list steps of [commit]: the old free-list run (p, n) is handed back, a run for the new page is taken *)
Lemma commit_tail_frame : forall live s2 p n flp fln s4, fresh_inv live s2 ->
  tx_allocate (free_pages s2 p n) (40 + 8 * llen (all_pages (free_pages s2 p n))) = (flp, fln, s4) ->
  frame live s2 s4 (nrun flp fln) (nrun p n) /\ (forall x, In x (nrun flp fln) -> ~ In x live).
Proof.
  intros live s2 p n flp fln s4 Hfi Hal.
  pose proof (free_pages_frame live s2 p n Hfi) as G1.
  assert (Hpos : (0 < 40 + 8 * llen (all_pages (free_pages s2 p n)))%N) by lia.
  destruct (tx_allocate_frame live _ _ flp fln s4 (fr_fresh _ _ _ _ _ G1) Hpos Hal) as [G2 G3].
  pose proof (frame_trans _ _ _ _ _ _ _ _ G1 G2) as G4. rewrite !app_nil_r in G4.
  split; [exact G4 | intros x Hx; apply G3; now apply In_nrun].
Qed.

(* [commit]: with the state after rebalance satisfying the hypotheses of [spill_bucket_meaning] (rebalance preserves
   [OvlAbs] and yields [SReady]: EngineRefines.rebalance_OvlAbs, rebalance_SReady), the new state
   stores the meaning of the overlay; the page run of the new free list is disjoint from the new tree and the
   live pages. The free-list steps need no further hypothesis. *)
Theorem commit_meaning : forall st b s ord st' b1 s1 keep live m,
  rebalance fuel0 (d_disk st) b s = Ok (b1, s1) ->
  fresh_inv live s1 -> (forall x, In x keep -> In x live) -> (forall x, In x keep -> wr_get (wr s1) x = None) ->
  SReady (d_disk st) keep b1 -> OvlAbs (d_disk st) b1 m ->
  commit st b s ord = Ok st' ->
  exists r nx s2 ord' alloc dead,
    spill_bucket fuel0 (d_disk st) b1 s1 ord = Ok (r, nx, s2, ord') /\
    frame live s1 s2 alloc dead /\
    d_root st' = r /\ d_next st' = nx /\ nx = Spec.b_next m /\ (In r alloc \/ r = b_root_page b1) /\
    (forall x, (d_fl st' <= x < d_fl st' + d_fln st')%N -> ~ In x (alloc ++ live)) /\
    Mean (d_disk st') (d_root st') (d_next st') m /\
    (cpres 16 (d_disk st') (d_root st') -> abs_db st' = m).
Proof.
  intros st b s ord st' b1 s1 keep live m Hreb Hfi Hk Hu HS HO H.
  destruct (commit_ok_inv _ _ _ _ _ _ _ Hreb H) as (r & nx & s2 & ord' & flp & fln & s4 & Hsp & Hal & ->).
  destruct (spill_bucket_meaning _ _ keep live _ _ _ _ _ _ _ m Hfi Hk Hu HS HO Hsp)
    as (alloc & dead & F1 & F2 & F3 & F4 & F5).
  cbn [d_root d_next d_fl d_fln d_disk].
  destruct (commit_tail_frame (alloc ++ live) _ _ _ _ _ _ (fr_fresh _ _ _ _ _ F1) Hal) as [G4 G3].
  pose proof (F5 s4 _ _ (psz s4) G4) as HM.
  exists r, nx, s2, ord', alloc, dead. split; [exact Hsp|]. split; [exact F1|]. split; [reflexivity|].
  split; [reflexivity|]. split; [congruence|]. split; [exact F2|]. split; [intros x Hx; apply G3; now apply In_nrun|]. split; [exact HM|].
  intros Hp. unfold abs_db. cbn [d_root d_next d_disk]. now apply Mean_abs_bucket.
Qed.

(** * Non-vacuity: an overlay with one opened nested bucket

   Committed: root page 3 = { a := 01, bucket b -> (page 4, next 1), bucket e -> (page 5, next 0) }, page 4 = { c := 03 },
   page 5 = {}. The transaction opened b and put d := 04 into it: b's root leaf is materialised and dirty; the root
   bucket's own tree was never loaded (root node None, flag clean) but it is dirty through b; e was not opened. *)
Module SpillExample.
Local Open Scope N_scope.
Definition xa : bytes := ["a"%byte]. Definition xb : bytes := ["b"%byte]. Definition xc : bytes := ["c"%byte].
Definition xd : bytes := ["d"%byte]. Definition xe : bytes := ["e"%byte].
Definition ex_l3 : list leafent := [LKv xa [x01]; LBk xb 4 1; LBk xe 5 0].
Definition ex_d : disk :=
  [ (3, {| ap_over := 0; ap_body := Leaves ex_l3 |});
    (4, {| ap_over := 0; ap_body := Leaves [LKv xc [x03]] |});
    (5, {| ap_over := 0; ap_body := Leaves [] |}) ].
Definition ex_lsb : list leafent := [LKv xc [x03]; LKv xd [x04]].
Definition ex_sb : bucket := Bucket 4 2 true (Some (Node 4 1 (Some xc) 2 (Leaves ex_lsb) [])) [].
Definition ex_b : bucket := Bucket 3 3 false None [(xb, ex_sb)].
Definition ex_s : txs :=
  {| free := []; pending := []; txid := 2; np := 6; psz := 4096; wr := []; flw := None; seqc := 5 |}.
Definition ex_keep : list N := [3; 5].
Definition ex_live : list N := [3; 4; 5].
Definition ex_msb : snode := SBucket 0 2 [(xc, SVal [x03]); (xd, SVal [x04])].
Definition ex_m : snode := SBucket 0 3 [(xa, SVal [x01]); (xb, ex_msb); (xe, SBucket 0 0 [])].
Definition ex_s' : txs :=
  {| free := []; pending := [(2, [4; 3])]; txid := 2; np := 8; psz := 4096;
     wr := [(7, (172, Leaves [LKv xa [x01]; LBk xb 6 2; LBk xe 5 0])); (6, (108, Leaves ex_lsb))];
     flw := None; seqc := 6 |}.

Example ex_fresh : fresh_inv ex_live ex_s.
Proof. apply fresh_inv_no_free; cbn; [reflexivity | lia | lia | intros x Hx; lia]. Qed.

Lemma ex_leaf_subtree : forall q l x, dget ex_d q = Some {| ap_over := 0; ap_body := Leaves l |} ->
  in_subtree ex_d q x -> x = q.
Proof.
  intros q l x Hg Hx. inversion Hx as [|? a es e ? Hg' Hb]; subst; [reflexivity|].
  rewrite Hg in Hg'. inversion Hg'; subst a. discriminate Hb.
Qed.

Example ex_sready_sb : SReady ex_d ex_keep ex_sb.
Proof.
  apply SReady_dirty with (h := 1%nat) (l := ex_lsb).
  - reflexivity.
  - unfold fuel0. lia.
  - unfold BucketView. cbn [b_rootn ex_sb]. apply NV_leaf.
  - unfold DRoot. cbn [b_rootn ex_sb]. split.
    + rewrite Inv_leaf_eq. split; [reflexivity|]. repeat constructor.
    + right. apply Rdy_leaf. discriminate.
  - constructor.
  - intros nm sb [].
  - intros k r nx Hin. cbn [ex_lsb In] in Hin. destruct Hin as [H|[H|[]]]; discriminate H.
Qed.

Example ex_cwf5 : cwf 1 ex_d 5 /\ ckept 1 ex_d ex_keep 5.
Proof.
  split.
  - eapply cwf_leaf; [reflexivity | reflexivity | reflexivity | constructor].
  - cbn [ckept]. split.
    + intros x Hx. rewrite (ex_leaf_subtree 5 [] x eq_refl Hx). right. now left.
    + exists []. split; [eapply PV_leaf; reflexivity | constructor].
Qed.

Example ex_sready : SReady ex_d ex_keep ex_b.
Proof.
  apply SReady_dirty with (h := 1%nat) (l := ex_l3).
  - reflexivity.
  - unfold fuel0. lia.
  - unfold BucketView. cbn [b_rootn b_root_page ex_b]. eapply PV_leaf; reflexivity.
  - unfold DRoot. cbn [b_rootn b_root_page ex_b]. split.
    + intros x Hx. rewrite (ex_leaf_subtree 3 ex_l3 x eq_refl Hx). now left.
    + intros _. cbn [PInv]. eexists. split; [reflexivity|]. split; [exact I|]. cbn [ap_body].
      split; [reflexivity | repeat constructor].
  - cbn [b_subs ex_b map fst]. constructor; [intros [] | constructor].
  - intros nm sb [H|[]]. inversion H; subst nm sb. split; [|exact ex_sready_sb].
    exists 4, 1. right. now left.
  - intros k r nx Hin Hf. cbn [ex_l3 In] in Hin. destruct Hin as [H|[H|[H|[]]]]; inversion H; subst k r nx.
    + vm_compute in Hf. discriminate Hf.
    + exists 1%nat. exact ex_cwf5.
Qed.

Example ex_ovl_sb : OvlAbs ex_d ex_sb ex_msb.
Proof.
  change ex_msb with (SBucket 0 (b_next ex_sb) [(xc, SVal [x03]); (xd, SVal [x04])]).
  apply OvlAbs_intro with (l := ex_lsb).
  - exists 1%nat. split; [unfold fuel0; lia|]. unfold BucketView. cbn [b_rootn ex_sb]. apply NV_leaf.
  - repeat constructor.
Qed.

Example ex_ovl : OvlAbs ex_d ex_b ex_m.
Proof.
  change ex_m with (SBucket 0 (b_next ex_b) [(xa, SVal [x01]); (xb, ex_msb); (xe, SBucket 0 0 [])]).
  apply OvlAbs_intro with (l := ex_l3).
  - exists 1%nat. split; [unfold fuel0; lia|]. unfold BucketView. cbn [b_rootn b_root_page ex_b].
    eapply PV_leaf; reflexivity.
  - constructor; [apply OE_kv|]. constructor; [eapply OE_sub; [reflexivity | exact ex_ovl_sb]|].
    constructor; [|constructor]. apply OE_disk; [reflexivity|]. exists 1%nat. split; [apply ex_cwf5 | reflexivity].
Qed.

(* the spill really writes: the sub-bucket's leaf goes to the new page 6, the root's leaf (materialised by the
   parent update, with b's entry replaced by (6, 2)) to the new page 7; pages 4 and 3 are freed *)
Example ex_spill_runs : spill_bucket fuel0 ex_d ex_b ex_s [xb] = Ok (7, 3, ex_s', []).
Proof. vm_compute. reflexivity. Qed.

Example ex_spill_meaning : exists alloc dead, frame ex_live ex_s ex_s' alloc dead /\ In 7 alloc /\
  forall s'' a2 d2 P, frame (alloc ++ ex_live) ex_s' s'' a2 d2 -> Mean (apply_wr (wr s'') P ex_d) 7 3 ex_m.
Proof.
  destruct (spill_bucket_meaning fuel0 ex_d ex_keep ex_live ex_b ex_s [xb] 7 3 ex_s' [] ex_m ex_fresh)
    as (alloc & dead & F1 & F2 & _ & _ & F5).
  - intros x Hx. unfold ex_keep, ex_live in *. cbn [In] in *. tauto.
  - intros x _. reflexivity.
  - exact ex_sready.
  - exact ex_ovl.
  - exact ex_spill_runs.
  - exists alloc, dead. split; [exact F1|]. split; [|exact F5]. destruct F2 as [F2|F2]; [exact F2 | discriminate F2].
Qed.

(* and the executable abstraction of the disk built from the write set agrees *)
Example ex_spill_abs : abs_bucket 16 (apply_wr (wr ex_s') 4096 ex_d) 7 3 = ex_m.
Proof. vm_compute. reflexivity. Qed.
End SpillExample.

(** * A structural sufficient condition for the clean clause of [SReady]

   A clean bucket was opened ([Bucket r nx false None []]) and never modified: no root node, and each of its opened
   (clean) sub-buckets still carries the (root, next) stored in its entry. *)
Inductive SClean (d : disk) (keep : list N) : bucket -> Prop :=
| SClean_intro : forall b,
    b_rootn b = None ->
    (exists n, cwf n d (b_root_page b) /\ ckept n d keep (b_root_page b)) ->
    (forall nm sb, In (nm, sb) (b_subs b) -> SClean d keep sb /\
       forall l, PageView d fuel0 (b_root_page b) l -> In (LBk nm (b_root_page sb) (b_next sb)) l) ->
    SClean d keep b.

Lemma same_key_same_entry : forall (l : list leafent) e1 e2, sorted_keys (map lkey l) = true ->
  In e1 l -> In e2 l -> lkey e1 = lkey e2 -> e1 = e2.
Proof.
  intros l e1 e2 Hs H1 H2 Hk. destruct (In_nth_error _ _ H1) as [i Hi]. destruct (In_nth_error _ _ H2) as [j Hj].
  pose proof (NoDup_map_nth_error lkey l i j e1 e2 (sorted_NoDup _ Hs) Hi Hj Hk). subst j. congruence.
Qed.

Lemma SClean_meaning_k : forall k d keep b, bdepth b < k -> SClean d keep b ->
  forall m, OvlAbs d b m -> CAbs d (b_root_page b) (b_next b) m.
Proof.
  induction k as [|k IH]; intros d keep b Hk HC m HO; [lia|].
  inversion HC as [b0 Ern (n & Hc & _) Hsubs]; subst b0.
  inversion HO as [b0 l ents (h & Hh & Hbv) HF]; subst b0 m.
  unfold BucketView in Hbv. rewrite Ern in Hbv.
  destruct n as [|n]; [destruct Hc|]. pose proof Hc as Hc0. destruct Hc as (Hw & l' & Hv & Hall).
  assert (El : l' = l) by (exact (PageView_det _ _ _ _ Hv _ _ Hbv)). subst l'.
  pose proof (wf_page_sorted _ _ _ _ Hw Hv) as Hs.
  exists (S n). split; [exact Hc0|]. rewrite (cwf_abs_bucket n d _ _ l Hc0 Hv). f_equal.
  assert (Haux : forall l1 ents1, (forall e, In e l1 -> In e l) ->
            Forall (fun e => match e with LBk _ r' _ => cwf n d r' | LKv _ _ => True end) l1 ->
            Forall2 (OvlEnt d (b_subs b)) l1 ents1 -> ents1 = map (ent_abs n d) l1).
  { induction l1 as [|e l1 IHl]; intros ents1 Hin Hall1 HF1; inversion HF1 as [|? kv ? ents' He HF']; subst; [reflexivity|].
    inversion Hall1 as [|? ? Hce Hall']; subst. cbn [map]. f_equal; [|apply IHl; auto; intros e0 He0; apply Hin; now right].
    inversion He as [? k0 v | ? k0 r nx sb m' Hf Ho | ? k0 r nx m' Hf Hca]; subst; cbn [ent_abs]; [reflexivity| |].
    - f_equal. pose proof (sub_find_In _ _ _ Hf) as Hsb. destruct (Hsubs _ _ Hsb) as [HCs Hent].
      pose proof (same_key_same_entry l _ _ Hs (Hent l Hv) (Hin _ (or_introl eq_refl)) eq_refl) as E. inversion E; subst r nx.
      apply (CAbs_abs_bucket d _ _ m' n); [|exact Hce].
      apply (IH d keep sb); [|exact HCs|exact Ho]. pose proof (bdepth_sub b _ Hsb). cbn [snd] in *. lia.
    - f_equal. apply (CAbs_abs_bucket d r nx m' n Hca Hce). }
  apply Haux; auto.
Qed.

Theorem SReady_clean_struct : forall d keep b, is_dirty fuel0 b = false -> SClean d keep b -> SReady d keep b.
Proof.
  intros d keep b Hd HC. apply SReady_clean; [exact Hd| |].
  - inversion HC; subst. assumption.
  - intros m. apply (SClean_meaning_k (S (bdepth b)) d keep b); [lia | exact HC].
Qed.

Print Assumptions modify_replace.
Print Assumptions b_modify_replace.
Print Assumptions meta_fold_replace.
Print Assumptions Inv_Rdy_spill_ready.
Print Assumptions Mean_abs_bucket.
Print Assumptions spill_bucket_meaning.
Print Assumptions spill_bucket_abs_bucket.
Print Assumptions commit_meaning.
Print Assumptions SReady_clean_struct.
Print Assumptions SpillExample.ex_spill_meaning.
