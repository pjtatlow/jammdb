(* The operations of a transaction establish the completeness invariant [Cov]: whatever part of the committed
   footprint the overlay no longer refers to was handed back (delete_bucket frees the WHOLE footprint of the
   deleted bucket). Mirror of EngineOwnOps. *)
From Coq Require Import List NArith Bool Arith Lia ZifyN ZifyNat ZifyBool.
From Coq.Strings Require Import Byte.
From Jamm Require Spec.
From Jamm Require Import Bytes BytesFacts Tree Cursor SearchFacts Engine EngineAbs EngineFacts EngineMergeFacts.
From Jamm Require Import EngineModifyFacts EngineSpillFacts EnginePathFacts EngineBridgeFacts EngineRebalanceFacts.
From Jamm Require FreelistFacts EngineAllocFacts EngineSpillWfFacts.
From Jamm Require Import EngineTxInvFacts EngineSpillBucketFacts EngineRefines.
From Jamm Require Import EngineOwnDefs EngineOwnWr EngineOwnOps EngineOwnReb EngineOwnSpill.
From Jamm Require Import EngineNoLeakFree EngineNoLeakWr EngineNoLeakNode EngineNoLeakCov.
Import ListNotations.
Import Coq.Strings.String.StringSyntax. Delimit Scope string_scope with string.
Local Open Scope list_scope. Local Open Scope nat_scope.
Set Warnings "-abstract-large-number".

Section OpsCov.
Variables (d : disk) (R : list N).
Hypothesis HCR : closedR d R.
Hypothesis Hnz : forall x, In x R -> x <> 0%N.

(* the result of [b_modify] on the tree of [b] (possibly after more pages were freed, with a new counter and a
   new list of opened sub-buckets) *)
Lemma Cov_modified : forall n s b r0 h l o s1 b1 b2 s2 nx' subs',
  Cov d (S n) s b r0 -> BLoc d s1 b1 h l -> b_root_page b1 = b_root_page b -> b_rootn b1 = b_rootn b ->
  root_in d R b -> bpg_ok d b ->
  b_modify d b1 o s1 = Ok (b2, s2) ->
  (forall x, freed_in_tx s x = true -> freed_in_tx s1 x = true) ->
  (forall k r nx, In (LBk k r nx) l ->
     In (LBk k r nx) (apply_lop o l) \/ forall x, In x (foot d n r) -> freed_in_tx s1 x = true) ->
  (forall k sb r nx, In (k, sb) subs' -> In (LBk k r nx) (apply_lop o l) -> Cov d n s1 sb r) ->
  Cov d (S n) s2 (Bucket (b_root_page b2) nx' true (b_rootn b2) subs') r0.
Proof.
  intros n s b r0 h l o s1 b1 b2 s2 nx' subs' HCv HL E1 E2 HR Hpg Hm Hfr Hent Hsub.
  assert (Hv : bucket_view d b l) by (eapply (bucket_view_tree d b1); eauto using BLoc_bucket_view).
  rewrite Cov_S in HCv. destruct (HCv l Hv) as (A & B & C).
  destruct (b_modify_BLoc _ _ _ _ _ _ _ _ HL Hm) as (HL' & _ & Hr & _ & _ & _ & Hss).
  assert (Hpg1 : bpg_ok d b1) by (unfold bpg_ok in *; now rewrite E2).
  assert (Hnz1 : b_rootn b1 = None -> b_root_page b1 <> 0%N).
  { rewrite E1, E2. now apply (root_in_nz d R Hnz). }
  destruct (b_modify_heads _ _ _ _ _ _ _ _ HL Hnz1 Hpg1 Hm) as [Hhd Hpg2].
  rewrite (bheads_tree d b b1 E1 E2) in Hhd.
  set (B' := Bucket (b_root_page b2) nx' true (b_rootn b2) subs').
  assert (Hhd' : bheads d B' = bheads d b) by (rewrite <- Hhd; now apply bheads_tree).
  assert (Hfr2 : forall x, freed_in_tx s1 x = true -> freed_in_tx s2 x = true).
  { intros x Hx. now rewrite (sbs_freed _ _ x Hss). }
  rewrite Cov_S. intros l' Hv'.
  assert (El : l' = apply_lop o l).
  { eapply bucket_view_det; [exact Hv'|]. eapply (bucket_view_tree d b2); [reflexivity | reflexivity | eapply BLoc_bucket_view; eauto]. }
  subst l'. rewrite Hhd'. split; [|split].
  - intros Hr0 q Hq. destruct (A Hr0 q Hq) as [X|X]; [now left | right]. eapply gone_mono; [|exact X]. auto.
  - intros Hr0 k r nx He. destruct (B Hr0 k r nx He) as [X|X].
    + destruct (Hent k r nx X) as [Y|Y]; [now left | right; intros x Hx; apply Hfr2, Y, Hx].
    + right. intros x Hx. apply Hfr2, Hfr, X, Hx.
  - intros k sb r nx Hk He. cbn [B' b_subs] in Hk. eapply Cov_mono; [exact Hfr2 | eapply Hsub; eauto].
Qed.

(* the contract of an operation applied at the end of a path *)
Definition cov_pres (f : bucket -> txs -> res (bucket * txs)) : Prop :=
  forall n k b s b' s' r0, 2 <= n -> 2 <= k -> SDeep d s b -> XDF d R k b -> OwnS d n s b r0 -> pend_ids_ok s ->
    Cov d n s b r0 -> f b s = Ok (b', s') ->
    Cov d n s' b' r0 /\ (forall x, freed_in_tx s x = true -> freed_in_tx s' x = true).

(* an operation on a plain key *)
Lemma kvop_cov : forall n kk s b r0 o b' s2, SDeep d s b -> XDF d R kk b -> OwnS d n s b r0 -> Cov d n s b r0 ->
  kv_done d b o s b' s2 ->
  Cov d n s2 b' r0 /\ (forall x, freed_in_tx s x = true -> freed_in_tx s2 x = true).
Proof.
  intros n kk s b r0 o b' s2 HD HX HO HCv [[-> ->] | (cur & b2 & nx' & Hl & Hnb & Hno & Hm & ->)]; [now split|].
  destruct (SDeep_inv _ _ _ HD) as (h & l & HL & _).
  rewrite (BLoc_lookup _ _ _ _ _ _ HL) in Hl. inversion Hl; subst cur.
  destruct (XDF_inv _ _ _ _ _ _ _ HX HL) as (f' & _ & HR & _).
  destruct (OwnS_pos _ _ _ _ _ HO) as [n' ->].
  pose proof (BLoc_sorted _ _ _ _ _ HL) as Hs. pose proof (BLoc_bucket_view _ _ _ _ _ HL) as Hv.
  destruct (b_modify_BLoc _ _ _ _ _ _ _ _ HL Hm) as (_ & _ & _ & _ & _ & _ & Hss).
  split; [|intros x Hx; now rewrite (sbs_freed _ _ x Hss)].
  destruct (OwnS_inv _ _ _ _ _ _ HO Hv) as (_ & _ & _ & H3 & _).
  pose proof HCv as HCv0. rewrite Cov_S in HCv0. destruct (HCv0 l Hv) as (_ & _ & C).
  apply (Cov_modified n' s b r0 h l o s b b2 s2 nx' (b_subs b) HCv HL eq_refl eq_refl HR H3 Hm); [auto | |].
  - intros k r nx He. left. apply ent_kept; [exact Hs | exact He|]. intros ->. eapply (no_LBk_of_lookup l); eauto.
  - intros k sb r nx Hk He. apply apply_lop_In' in He. destruct He as [He|He]; [eapply C; eauto | exfalso; eapply Hno; eauto].
Qed.

Lemma open_Cov : forall n s r nx, r <> 0%N -> sbk (S n) d r -> Cov d (S n) s (Bucket r nx false None []) r.
Proof.
  intros n s r nx Hr Hs. destruct (sbk_inv _ _ _ Hs) as (h & Hh & HP & _ & HV & _ & HF).
  rewrite Cov_S. intros l Hv.
  assert (El : l = page_ents fuel0 d r).
  { eapply bucket_view_det; [exact Hv|]. exists h. split; [exact Hh | exact HV]. }
  subst l. split; [|split].
  - intros _ q Hq. left. unfold bheads. cbn [b_rootn b_root_page]. exact Hq.
  - intros _ k r' nx' He. now left.
  - intros k sb r' nx' [].
Qed.

(* a new list of opened sub-buckets (and a later transaction state) over the same tree *)
Lemma Cov_resub : forall n s s2 b r0 l nx' dt' subs', Cov d (S n) s b r0 -> bucket_view d b l ->
  (forall x, freed_in_tx s x = true -> freed_in_tx s2 x = true) ->
  (forall k sb r nx, In (k, sb) subs' -> In (LBk k r nx) l -> Cov d n s2 sb r) ->
  Cov d (S n) s2 (Bucket (b_root_page b) nx' dt' (b_rootn b) subs') r0.
Proof.
  intros n s s2 b r0 l nx' dt' subs' HCv Hv Hfr Hsub. rewrite Cov_S in *. destruct (HCv l Hv) as (A & B & C).
  set (B' := Bucket (b_root_page b) nx' dt' (b_rootn b) subs'). intros l' Hv'.
  assert (El : l' = l).
  { eapply bucket_view_det; [exact Hv'|]. eapply (bucket_view_tree d b); [reflexivity | reflexivity | exact Hv]. }
  subst l'. rewrite (bheads_tree d b B' eq_refl eq_refl). split; [|split].
  - intros Hr0 q Hq. destruct (A Hr0 q Hq) as [X|X]; [now left | right; eapply gone_mono; eauto].
  - intros Hr0 k r nx He. destruct (B Hr0 k r nx He) as [X|X]; [now left | right; intros x Hx; apply Hfr, X, Hx].
  - intros k sb r nx Hk He. cbn [B' b_subs] in Hk. eapply Hsub; eauto.
Qed.

Lemma opened_cov : forall n kk s b r0 name b0, SDeep d s b -> XDF d R kk b -> OwnS d (S (S n)) s b r0 ->
  Cov d (S (S n)) s b r0 -> opened d b name b0 -> Cov d (S (S n)) s b0 r0.
Proof.
  intros n kk s b r0 name b0 HD HX HO HCv [sb _ | k0 r nx Hsf Hl]; [exact HCv|].
  destruct (SDeep_inv _ _ _ HD) as (h & l & HL & _). pose proof (BLoc_lookup_LBk _ _ _ _ _ _ _ _ _ HL Hl) as Hal.
  pose proof (BLoc_bucket_view _ _ _ _ _ HL) as Hv. pose proof (BLoc_sorted _ _ _ _ _ HL) as Hs.
  destruct (XDF_inv _ _ _ _ _ _ _ HX HL) as (f' & _ & _ & _ & HU & _).
  assert (Hr : r <> 0%N) by (apply Hnz; eapply HU; eauto).
  destruct (alookup_LBk_In _ _ _ _ _ Hal) as [_ He].
  pose proof HCv as HCv0. rewrite Cov_S in HCv0. destruct (HCv0 l Hv) as (_ & _ & C).
  apply (Cov_resub (S n) s s b r0 l _ _ _ HCv Hv); [auto|].
  intros k sb r' nx' Hk He'. apply In_sub_put in Hk. destruct Hk as [Hk|Hk]; [|eapply C; eauto].
  inversion Hk; subst k sb.
  assert (E : LBk name r' nx' = LBk name r nx) by (eapply same_key_same_entry; eauto). inversion E; subst r' nx'.
  assert (HOe : OwnS d (S n) s (Bucket r nx false None []) r) by (eapply entry_sub; eauto).
  cbn [OwnS] in HOe. destruct HOe as (_ & [Hz|Hsb] & _); [contradiction|]. now apply open_Cov.
Qed.

Theorem goc_cov : forall name n kk b s b' s' r0, 2 <= n -> 2 <= kk -> SDeep d s b -> XDF d R kk b -> OwnS d n s b r0 ->
  pend_ids_ok s -> Cov d n s b r0 -> b_get_or_create d b name s = Ok (b', s') -> Cov d n s' b' r0.
Proof.
  intros name n kk b s b' s' r0 Hn Hkk HD HX HO Hp HCv H. destruct n as [|[|n]]; try lia.
  destruct (b_get_or_create_ok_inv _ _ _ _ _ _ H) as [[Ho ->] | (Hsf & Hl0 & b2 & Hm & ->)]; [eapply opened_cov; eauto|].
  destruct (SDeep_inv _ _ _ HD) as (h & l & HL & HS).
  destruct (XDF_inv _ _ _ _ _ _ _ HX HL) as (f' & _ & HR & _).
  pose proof (BLoc_sorted _ _ _ _ _ HL) as Hs. pose proof (BLoc_bucket_view _ _ _ _ _ HL) as Hv.
  assert (Hle1 : (seqc s <= seqc (snd (next_seq s)))%N) by (cbn; lia).
  pose proof (BLoc_seqc_mono _ _ _ _ _ _ Hle1 HL) as HL1.
  pose proof (same_but_seqc_next s) as Hss1.
  destruct (OwnS_inv _ _ _ _ _ _ HO Hv) as (_ & _ & _ & H3 & _).
  pose proof HCv as HCv0. rewrite Cov_S in HCv0. destruct (HCv0 l Hv) as (_ & _ & C).
  apply (Cov_modified (S n) s b r0 h l _ (snd (next_seq s)) b b2 s' _ _ HCv HL1 eq_refl eq_refl HR H3 Hm).
  + intros x Hx. now rewrite (sbs_freed _ _ x Hss1).
  + intros k r nx He. left. apply ent_kept; [exact Hs | exact He|]. cbn [lop_key lkey]. intros ->.
    apply (In_LBk_alookup _ _ _ _ Hs) in He. pose proof (BLoc_lookup _ _ _ _ _ name HL) as Hl. congruence.
  + intros k sb r nx Hk He. apply In_sub_put in Hk. destruct Hk as [Hk|Hk].
    * inversion Hk; subst k sb.
      assert (E : LBk name r nx = LBk name 0%N 0%N).
      { eapply (same_key_same_entry (apply_lop (OpIns (LBk name 0%N 0%N)) l)); [now apply apply_lop_sorted | exact He | now apply In_apply_ins | reflexivity]. }
      inversion E; subst r nx. apply Cov_zero. intros k0 sb0 [].
    * apply apply_lop_In' in He. destruct He as [He|He].
      -- eapply Cov_mono; [|eapply C; eauto]. intros x Hx. now rewrite (sbs_freed _ _ x Hss1).
      -- inversion He; subst k r nx. exfalso. exact (sub_find_None_In _ _ _ Hsf Hk eq_refl).
Qed.

(* storing the modified sub-bucket back into its parent *)
Lemma put_back_cov : forall n s1 s2 b r0 h l nm sb' r nx,
  Cov d (S n) s1 b r0 -> BLoc d s1 b h l -> NoDup (map fst (b_subs b)) ->
  In (LBk nm r nx) l -> Cov d n s2 sb' r ->
  (forall x, freed_in_tx s1 x = true -> freed_in_tx s2 x = true) ->
  Cov d (S n) s2 (Bucket (b_root_page b) (b_next b) (b_dirty b) (b_rootn b) (sub_put nm sb' (b_subs b))) r0.
Proof.
  intros n s1 s2 b r0 h l nm sb' r nx HCv HL Hnd He Hc' Hfr. pose proof (BLoc_bucket_view _ _ _ _ _ HL) as Hv.
  pose proof (BLoc_sorted _ _ _ _ _ HL) as Hs.
  pose proof HCv as HCv0. rewrite Cov_S in HCv0. destruct (HCv0 l Hv) as (_ & _ & C).
  apply (Cov_resub n s1 s2 b r0 l _ _ _ HCv Hv Hfr).
  intros k sbk r' nx' Hk He'. apply In_sub_put in Hk. destruct Hk as [Hk|Hk].
  - inversion Hk; subst k sbk.
    assert (E : LBk nm r' nx' = LBk nm r nx) by (eapply same_key_same_entry; eauto). inversion E; subst r' nx'. exact Hc'.
  - eapply Cov_mono; [exact Hfr | eapply C; eauto].
Qed.

Theorem at_path_cov : forall f, own_pres d R f -> cov_pres f -> forall path fuel n k b s b' s' r0,
  length path + 2 <= n -> length path + 2 <= k ->
  SDeep d s b -> XDF d R k b -> OwnS d n s b r0 -> pend_ids_ok s -> Cov d n s b r0 ->
  at_path fuel d b path f s = Ok (b', s') ->
  Cov d n s' b' r0 /\ (forall x, freed_in_tx s x = true -> freed_in_tx s' x = true).
Proof.
  intros f Hfo Hf path fuel n k b s b' s' r0 Hn Hk HD HX HO Hp HCv H. revert n k r0 Hn Hk HD HX HO Hp HCv.
  pattern path, b, s, b', s'. apply (at_path_ok_ind d f) with (3 := H).
  - intros b0 s0 b0' s0' H0 n k r0 Hn Hk HD HX HO Hp HCv. exact (Hf n k b0 s0 b0' s0' r0 Hn Hk HD HX HO Hp HCv H0).
  - intros nm rest b0 s0 b1 s1 sb sb' s2 Hg Hsf IH n k r0 Hn Hk HD HX HO Hp HCv. cbn [length] in Hn, Hk.
    destruct (b_get_or_create_pres d nm b0 s0 b1 s1 HD Hg) as [HD1 _].
    destruct (b_get_or_create_xd d R HCR nm k b0 s0 b1 s1 ltac:(lia) HD HX Hg) as [HX1 _].
    destruct (goc_own d R Hnz nm n k b0 s0 b1 s1 r0 ltac:(lia) ltac:(lia) HD HX HO Hp Hg) as (HO1 & Hfr1 & Hp1).
    pose proof (goc_cov nm n k b0 s0 b1 s1 r0 ltac:(lia) ltac:(lia) HD HX HO Hp HCv Hg) as HC1.
    destruct (SDeep_inv _ _ _ HD1) as (h1 & l1 & HL1 & (Hnd1 & _)). pose proof (BLoc_bucket_view _ _ _ _ _ HL1) as Hv1.
    destruct n as [|n]; [lia|]. destruct k as [|k]; [lia|].
    destruct (OwnS_inv _ _ _ _ _ _ HO1 Hv1) as (_ & _ & _ & _ & _ & _ & C & _ & E).
    destruct (E nm sb (sub_find_In _ _ _ Hsf)) as (r & nx & He & Ho).
    pose proof HC1 as HC1'. rewrite Cov_S in HC1'. destruct (HC1' l1 Hv1) as (_ & _ & CC).
    destruct (IH n k r ltac:(lia) ltac:(lia) (SDeep_sub _ _ _ _ _ HD1 Hsf) (XDF_sub d R _ _ _ _ HX1 Hsf) Ho Hp1
                 (CC nm sb r nx (sub_find_In _ _ _ Hsf) He)) as (Hc' & Hfr2).
    split; [eapply put_back_cov; eauto|]. intros x Hx. apply Hfr2. now rewrite Hfr1.
Qed.

Lemma delb_phase2_cov : forall n kk b0 name sb s0 b' s' r0, SDeep d s0 b0 -> XDF d R kk b0 -> OwnS d (S n) s0 b0 r0 ->
  pend_ids_ok s0 -> Cov d (S n) s0 b0 r0 -> sub_find name (b_subs b0) = Some sb -> delb_phase2 d b0 name s0 = Ok (b', s') ->
  Cov d (S n) s' b' r0 /\ (forall x, freed_in_tx s0 x = true -> freed_in_tx s' x = true).
Proof.
  intros n kk b0 name sb s0 b' s' r0 HD HX HO Hp HCv Hsf H.
  destruct (delb_phase2_inv _ _ _ _ _ _ _ HD Hsf H)
    as (h & l & r1 & nx1 & rest & s1 & HL & HS & Hal & Hnone & Hother & Hnd' & Hin & Hft & Hle1 & HL1 & Hm).
  pose proof (BLoc_bucket_view _ _ _ _ _ HL) as Hv. pose proof (BLoc_sorted _ _ _ _ _ HL) as Hs.
  destruct (XDF_inv _ _ _ _ _ _ _ HX HL) as (f' & _ & HR & _).
  destruct (OwnS_inv _ _ _ _ _ _ HO Hv) as (H0 & H1 & HN & H3 & A & B & C & D & E).
  destruct (E name sb (sub_find_In _ _ _ Hsf)) as (r & nx & He & Ho).
  destruct (OwnS_root d _ _ _ _ Ho) as [Hrp Hsb].
  pose proof HCv as HCv0. rewrite Cov_S in HCv0. destruct (HCv0 l Hv) as (_ & _ & CC).
  rewrite Hrp in Hft.
  assert (Hs1 : (forall x, freed_in_tx s0 x = true -> freed_in_tx s1 x = true) /\
                forall x, In x (foot d n r) -> freed_in_tx s1 x = true).
  { destruct (N.eqb_spec r 0) as [Ez|Ez].
    - inversion Hft; subst s1. split; [auto|]. intros x Hx. rewrite Ez, foot_zero in Hx. destruct Hx.
    - split; [intros x Hx; eapply free_tree_mono; eauto | eapply free_tree_foot_complete; eauto]. }
  destruct Hs1 as (Hfr01 & Hall).
  destruct (b_modify_BLoc _ _ _ _ _ _ _ _ HL1 Hm) as (_ & _ & _ & _ & _ & _ & Hss).
  destruct (b_modify_ok_inv _ _ _ _ _ _ Hm) as [n' ->]. cbn [b_root_page b_next b_subs].
  split; [|intros x Hx; rewrite (sbs_freed _ _ x Hss); now apply Hfr01].
  apply (Cov_modified n s0 b0 r0 h l _ s1 _ _ s' _ _ HCv HL1 eq_refl eq_refl HR H3 Hm Hfr01).
  - intros k r' nx' He'. destruct (beq k name) eqn:Ekn; [apply beq_true_iff in Ekn; subst k | assert (Hne : k <> name) by (intros ->; rewrite EngineFacts.beq_refl in Ekn; discriminate)].
    + right. assert (Eq : LBk name r' nx' = LBk name r nx) by (eapply same_key_same_entry; eauto). inversion Eq; subst r' nx'. exact Hall.
    + left. apply ent_kept; [exact Hs | exact He' | exact Hne].
  - intros k sbk r' nx' Hk He'. apply apply_lop_In' in He'. destruct He' as [He'|He']; [|discriminate].
    eapply Cov_mono; [exact Hfr01 | eapply CC; eauto].
Qed.

Theorem op_run_cov : forall o, cov_pres (op_run d o).
Proof.
  intros [p k v|p k|p nm|p] n kk b s b' s' r0 Hn Hkk HD HX HO Hp HCv H; cbn [op_run] in H.
  - exact (kvop_cov _ _ _ _ _ _ _ _ HD HX HO HCv (soft_put_inv _ _ _ _ _ _ _ H)).
  - exact (kvop_cov _ _ _ _ _ _ _ _ HD HX HO HCv (soft_delete_inv _ _ _ _ _ _ H)).
  - destruct (soft_delete_bucket_inv _ _ _ _ _ _ H) as [[-> ->] | (b0 & sb & Ho & Hsf & H2)]; [now split|].
    destruct n as [|[|n]]; try lia.
    destruct (opened_XDF d R HCR kk s b nm b0 Hkk HD HX Ho) as [HX0 _].
    exact (delb_phase2_cov _ _ _ _ _ _ _ _ _ (opened_SDeep _ _ _ _ _ HD Ho) HX0 (opened_own d R Hnz _ _ _ _ _ _ _ HD HX HO Ho) Hp
             (opened_cov _ _ _ _ _ _ _ HD HX HO HCv Ho) Hsf H2).
  - inversion H; subst. now split.
Qed.

Theorem tx_step_cov : forall o rb s rb' s' n k r0, 9 <= n -> 9 <= k -> SDeep d s rb -> XDF d R k rb ->
  OwnS d n s rb r0 -> pend_ids_ok s -> Cov d n s rb r0 -> tx_step d (rb, s) o = Ok (rb', s') ->
  Cov d n s' rb' r0 /\ (forall x, freed_in_tx s x = true -> freed_in_tx s' x = true).
Proof.
  intros o rb s rb' s' n k r0 Hn Hk HD HX HO Hp HCv H.
  destruct (tx_step_ok_inv _ _ _ _ _ _ H) as [[-> ->] | [Hlen H']]; [now split|].
  apply (at_path_cov _ (op_run_own d R HCR Hnz o) (op_run_cov o) (op_path o) 8 n k rb s rb' s' r0); auto; lia.
Qed.

Theorem tx_fold_cov_gen : forall st ops rb s root' s' n k r0, d_disk st = d -> 9 <= n -> 9 <= k ->
  SDeep d s rb -> XDF d R k rb -> OwnS d n s rb r0 -> pend_ids_ok s -> Cov d n s rb r0 ->
  tx_fold st ops (rb, s) = Ok (root', s') ->
  Cov d n s' root' r0 /\ (forall x, freed_in_tx s x = true -> freed_in_tx s' x = true).
Proof.
  intros st ops rb s root' s' n k r0 Ed Hn Hk HD HX HO Hp HCv H.
  apply (tx_fold_inv st (fun rb' s' => SDeep d s' rb' /\ XDF d R k rb' /\ OwnS d n s' rb' r0 /\ pend_ids_ok s' /\
           Cov d n s' rb' r0 /\ (forall x, freed_in_tx s x = true -> freed_in_tx s' x = true)))
    with (3 := H); [|auto 7].
  intros o rb1 s1 rb2 s2 (HD1 & HX1 & HO1 & Hp1 & HC1 & Hf1) Hst. rewrite Ed in Hst.
  destruct (tx_step_own d R HCR Hnz _ _ _ _ _ _ _ _ Hn Hk HD1 HX1 HO1 Hp1 Hst) as (HO2 & _ & Hp2).
  destruct (tx_step_cov _ _ _ _ _ _ _ _ Hn Hk HD1 HX1 HO1 Hp1 HC1 Hst) as (HC2 & Hf2).
  split; [eapply tx_step_SDeep; eauto|]. split; [eapply (tx_step_xd d R HCR); eauto|]. auto 6.
Qed.

End OpsCov.

Theorem tx_fold_cov : forall st ops root' s', db_ok' st ->
  tx_fold st ops (root_bucket st, begin_w st) = Ok (root', s') ->
  Cov (d_disk st) 16 s' root' (d_root st).
Proof.
  intros st ops root' s' Hok H. pose proof Hok as (Hs & Ha & Hnd & Hpl).
  pose proof Ha as (_ & _ & _ & _ & _ & _ & Hroot & HC & Hlive).
  assert (Hnz : forall x, In x (Rof st) -> x <> 0%N).
  { intros x Hx. destruct (Hlive _ (R_live st _ _ Hx)) as [Hge _]. lia. }
  destruct (tx_fold_cov_gen (d_disk st) (Rof st) HC Hnz st ops (root_bucket st) (begin_w st) root' s' 16 9 (d_root st))
    as (HCv & _); auto; try lia.
  - apply root_bucket_SDeep. exact Hs.
  - unfold root_bucket. eapply XDF_mono; [apply open_XDF; eauto | lia].
  - now apply root_bucket_OwnS.
  - unfold pend_ids_ok. rewrite (begin_w_pending st Hpl). constructor.
  - unfold root_bucket. apply open_Cov; [apply Hnz, Hroot | exact Hs].
Qed.

Print Assumptions tx_fold_cov.
