(* the lifetime-flow check evaluated on the GENERATED signature table of the current source *)
From Coq Require Import List String Bool.
From Jamm Require Import ApiSig ApiFlow.
Import ListNotations.
Local Open Scope string_scope.

Lemma all_anchored : forallb anchoredb api = true.
Proof. vm_compute. reflexivity. Qed.
Lemma no_unanchored : unanchored = [].
Proof. vm_compute. reflexivity. Qed.
Lemma tx_types_not_send : none_send = true.
Proof. vm_compute. reflexivity. Qed.
Lemma db_is_shareable : db_shareable = true.
Proof. vm_compute. reflexivity. Qed.
(* every check above holds of an empty table: this guards against an extraction that found nothing *)
Lemma table_nonempty : 80 <= List.length api.
Proof. vm_compute. repeat constructor. Qed.

(* every value a client can obtain from a public function has its map-pointing parts bounded by the transaction
   borrow (or owns its bytes) *)
Lemma obtainable_ok : forall ty ok, obtainable (Held ty ok) -> ok = true.
Proof.
  intros ty ok H. inversion H as [f c Hf Hc Hty]; subst.
  pose proof all_anchored as A. rewrite forallb_forall in A. specialize (A f Hf).
  unfold anchoredb in A. rewrite forallb_forall in A. exact (A c Hc).
Qed.

(* the signature BucketName::to_bytes has in the pinned release (DESIGN.md D13: the body passes the map borrow
   through, the result is Bytes<'tx> without 'b) is rejected by the check *)
Definition pinned_to_bytes : fn_sig :=
  mkFn "BucketName" [LNamed "b"; LNamed "tx"] "ToBytes" "to_bytes" SValue [] [mkComp "Bytes" [LNamed "tx"]] [] "passthrough".
Lemma pinned_to_bytes_unanchored : anchoredb pinned_to_bytes = false.
Proof. vm_compute. reflexivity. Qed.
(* so is a get_kv loosened to KVPair<'tx,'tx>, whose anchor is not the transaction borrow *)
Definition loosened_get_kv : fn_sig :=
  mkFn "Bucket" [LNamed "b"; LNamed "tx"] "" "get_kv" (SRef (LNamed "a")) [] [mkComp "KVPair" [LNamed "tx"; LNamed "tx"]] [] "".
Lemma loosened_get_kv_unanchored : anchoredb loosened_get_kv = false.
Proof. vm_compute. reflexivity. Qed.
