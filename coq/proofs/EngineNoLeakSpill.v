(* Completeness of [spill_bucket]: in every later state of the transaction, every page of the committed footprint
   of the spilled bucket and every page written for it is a page of the new tree or was handed back. *)
From Coq Require Import List NArith Bool Arith Lia ZifyN ZifyNat ZifyBool.
From Coq.Strings Require Import Byte.
From Jamm Require Spec.
From Jamm Require Import ListFacts Bytes BytesFacts Tree Cursor SearchFacts Engine EngineAbs EngineFacts EngineMergeFacts.
From Jamm Require Import EngineModifyFacts EngineSpillFacts EnginePathFacts EngineBridgeFacts EngineRebalanceFacts.
From Jamm Require FreelistFacts EngineAllocFacts EngineSpillWfFacts.
From Jamm Require Import EngineTxInvFacts EngineSpillBucketFacts EngineRefines.
From Jamm Require Import EngineOwnDefs EngineOwnWr EngineOwnOps EngineOwnReb EngineOwnSpill.
From Jamm Require Import EngineNoLeakWr EngineNoLeakNode EngineNoLeakCov.
Import ListNotations.
Import Coq.Strings.String.StringSyntax. Delimit Scope string_scope with string.
Local Open Scope list_scope. Local Open Scope nat_scope.
Set Warnings "-abstract-large-number".

Section SpillCov.
Variables (d : disk) (keep L : list N).
Hypothesis HC : closedR d keep.
Hypothesis Hz : dget d 0%N = None.
Hypothesis HkL : forall q x, In q keep -> In x (prun d q) -> In x L.

Notation ldisk := (later_disk d).

(* x is a page of the bucket tree rooted at r on the disk of the later state s *)
Definition InT (n : nat) (s : txs) (r x : N) : Prop := In x (runs (ldisk s) (fpg n (ldisk s) r)).

(* P holds in every later state of the transaction *)
Definition Later (live Atot : list N) (s' : txs) (P : txs -> Prop) : Prop :=
  forall s'' a2 d2, frame (Atot ++ live) s' s'' a2 d2 -> P s''.

Lemma InT_own : forall n s p q x, In q (p :: ppages fuel0 (ldisk s) p) -> In x (prun (ldisk s) q) -> InT (S n) s p x.
Proof.
  intros n s p q x Hq Hx. unfold InT. rewrite fpg_S, runs_app. apply in_or_app. left. apply In_runs. eauto.
Qed.

Lemma InT_entry : forall n s p k r nx x, In (LBk k r nx) (page_ents fuel0 (ldisk s) p) -> InT n s r x -> InT (S n) s p x.
Proof.
  intros n s p k r nx x He Hx. unfold InT in *. rewrite fpg_S, runs_app, runs_flat_map. apply in_or_app. right.
  apply in_flat_map. exists (LBk k r nx). split; [exact He | exact Hx].
Qed.

(* what [spill_bucket] establishes *)
Definition CovPost (n : nat) (r0 : N) (live : list N) (s : txs) (res : N * N * txs * list bytes) : Prop :=
  let '(r, _, s', _) := res in
  exists alloc dead, frame live s s' alloc dead /\ xframe s s' /\
    Later live alloc s' (fun s4 => cpres n (ldisk s4) r ->
      (forall x, In x (foot d n r0) -> freed_in_tx s4 x = true \/ InT n s4 r x) /\
      wr_cov s s' s4 (fun _ x => InT n s4 r x)).

Definition RecCov (rec : bucket -> txs -> list bytes -> res (N * N * txs * list bytes)) : Prop :=
  forall n live b s ord res r0 m, n <= fuel0 ->
    fresh_inv live s -> (forall x, In x L -> In x live) -> unwritten keep s ->
    wr_ok L s -> pend_ok0 s -> pend_ids_ok s ->
    SReady d keep b -> OvlAbs d b m -> SReadyX d keep b ->
    OwnI d n s b r0 -> Lnk d n b r0 -> incl (foot d n r0) L ->
    (forall q, wr_get (wr s) q <> None -> In q live) -> Cov d n s b r0 ->
    rec b s ord = Ok res -> CovPost n r0 live s res.

(* the bucket that is not dirty *)
Lemma cov_clean : forall n live b s r0 ord, n <= fuel0 -> fresh_inv live s -> (forall x, In x L -> In x live) ->
  unwritten keep s -> is_dirty fuel0 b = false -> (exists k, sbk k d (b_root_page b)) -> In (b_root_page b) keep ->
  OwnI d n s b r0 -> Lnk d n b r0 -> CovPost n r0 live s (b_root_page b, b_next b, s, ord).
Proof.
  intros n live b s r0 ord Hn Hfi HLl Hu Ed [k Hk] Hin HOw HLk.
  destruct (clean_foot d Hz n fuel0 b r0 s Hn Ed HOw HLk) as (_ & Ep & Hf). rewrite Ep in *.
  pose proof (sbk_nz d k r0 Hz Hk) as Hnz.
  cbn [CovPost]. exists [], []. split; [now apply frame_refl|]. split; [apply xframe_refl|].
  intros s2 a2 d2 Hf2 _. cbn [app] in Hf2.
  pose proof (keep_live d keep L HkL live HLl) as Hkl.
  pose proof (frame_unwritten _ _ _ _ _ keep Hfi Hf2 Hkl Hu) as Hu2.
  split.
  - intros x Hx. right. unfold InT. fold (later_disk d s2). rewrite (kept_tree d keep HC n s2 r0 Hu2 Hin Hnz). exact Hx.
  - apply wr_cov_refl.
Qed.

(** * The fold over the opened sub-buckets *)

Definition SubInvC (n' : nat) (live : list N) (s : txs) (l : list leafent) (ms : list meta) (s0 : txs) : Prop :=
  exists A D, frame live s s0 A D /\ xframe s s0 /\ (forall q, wr_get (wr s0) q <> None -> In q (A ++ live)) /\
    Forall (fun m : meta => exists ro nxo, In (LBk (m_name m) ro nxo) l /\
       Later live A s0 (fun s4 => cpres n' (ldisk s4) (snd (fst m)) ->
         forall x, In x (foot d n' ro) -> freed_in_tx s4 x = true \/ InT n' s4 (snd (fst m)) x)) ms /\
    Later live A s0 (fun s4 => (forall m, In m ms -> cpres n' (ldisk s4) (snd (fst m))) ->
       wr_cov s s0 s4 (fun _ x => exists m, In m ms /\ InT n' s4 (snd (fst m)) x)).

Section SubFoldC.
Variables (n' : nat) (live : list N) (s : txs) (l : list leafent) (subs : list (bytes * bucket)) (r0 : N).
Variable rec : bucket -> txs -> list bytes -> res (N * N * txs * list bytes).
Hypothesis HRc : RecCov rec.
Hypothesis Hn' : n' <= fuel0.
Hypothesis Hfi : fresh_inv live s.
Hypothesis HLl : forall x, In x L -> In x live.
Hypothesis Hunw : unwritten keep s.
Hypothesis HfootL : incl (foot d (S n') r0) L.
Hypothesis Hent : forall e, In e l -> incl (efoot d n' e) (foot d (S n') r0).
Hypothesis Hent2 : forall e1 e2, In e1 l -> In e2 l -> lkey e1 <> lkey e2 -> disj (efoot d n' e1) (efoot d n' e2).
Hypothesis Hsubs : forall nm sb, In (nm, sb) subs ->
  SReady d keep sb /\ (exists ms, OvlAbs d sb ms) /\ SReadyX d keep sb /\
  exists ro nxo, In (LBk nm ro nxo) l /\ OwnI d n' s sb ro /\ Lnk d n' sb ro /\ Cov d n' s sb ro.

Lemma sub_step_invC : forall ms s0 nm sb o r nx s' o', In (nm, sb) subs -> ~ In nm (map m_name ms) ->
  SubInvO d L n' live s l ms s0 -> SubInvC n' live s l ms s0 ->
  rec sb s0 o = Ok (r, nx, s', o') -> SubInvC n' live s l (ms ++ [(nm, r, nx)]) s'.
Proof.
  intros ms s0 nm sb o r nx s' o' Hin Hfresh HI HIc Hrec.
  destruct (Hsubs nm sb Hin) as (HS & [msb Hmsb] & HSX & ro & nxo & Hlro & HOw & HLk & HCv).
  destruct (sub_call_own d L Hz n' live s l r0 Hfi HLl HfootL Hent Hent2 ms s0 nm sb ro nxo Hfresh HI Hlro HOw) as [HroL HOw0].
  destruct HI as (_ & _ & _ & _ & Hw0 & Hp0 & Hi0 & _).
  destruct HIc as (A' & D' & Hfr' & X0 & Hwl0 & Hfoot & Hwrc).
  assert (HL' : forall y, In y L -> In y (A' ++ live)) by (intros y Hy; apply in_or_app; right; now apply HLl).
  pose proof (keep_live d keep L HkL live HLl) as Hkl.
  assert (HCv0 : Cov d n' s0 sb ro) by (apply (Cov_mono d n' s s0 sb ro (xf_freed _ _ X0) HCv)).
  pose proof (HRc n' (A' ++ live) sb s0 o _ ro msb Hn' (fr_fresh _ _ _ _ _ Hfr') HL'
                 (frame_unwritten _ _ _ _ _ keep Hfi Hfr' Hkl Hunw) Hw0 Hp0 Hi0 HS Hmsb HSX HOw0 HLk HroL Hwl0 HCv0 Hrec) as HP.
  cbn [CovPost] in HP. destruct HP as (a1 & d1 & Hf1 & X1 & HW1).
  apply Henceforth_app in HW1.
  exists (a1 ++ A'), (D' ++ d1).
  split; [eapply frame_trans; eauto|]. split; [eapply xframe_trans; eauto|].
  split. { intros q Hq. rewrite <- app_assoc. exact (frame_heads _ _ _ _ _ Hf1 Hwl0 q Hq). }
  split.
  - apply Forall_app. split.
    + rewrite Forall_forall in Hfoot. apply Forall_forall. intros m Hm. destruct (Hfoot m Hm) as (ro' & nxo' & Hl' & HWm).
      exists ro', nxo'. split; [exact Hl'|]. exact (Henceforth_later live A' s0 s' a1 d1 _ Hf1 HWm).
    + repeat constructor. exists ro, nxo. cbn [m_name fst snd]. split; [exact Hlro|].
      eapply Henceforth_impl; [|exact HW1]. cbn beta. intros s4 HP Hc. exact (proj1 (HP Hc)).
  - pose proof (Henceforth_later live A' s0 s' a1 d1 _ Hf1 Hwrc) as Hold.
    intros s4 a2 d2 Hf4 Hcp.
    assert (Hcr : cpres n' (ldisk s4) r) by (apply (Hcp (nm, r, nx)); apply in_or_app; right; now left).
    apply (wr_cov_trans s s0 s' s4 _ _ _ X1
             (Hold s4 a2 d2 Hf4 (fun m Hm => Hcp m (in_or_app _ _ _ (or_introl Hm)))) (proj2 (HW1 s4 a2 d2 Hf4 Hcr))).
    + intros _ x (m & Hm & C). exists m. split; [apply in_or_app; now left | exact C].
    + intros _ x B. exists (nm, r, nx). split; [apply in_or_app; right; now left | exact B].
Qed.
End SubFoldC.

(** * Assembling the new tree *)

Lemma patch_meta : forall (ms : list meta) (l : list leafent) m ro nxo, NoDup (map m_name ms) -> In m ms ->
  In (LBk (m_name m) ro nxo) l -> In (LBk (m_name m) (snd (fst m)) (snd m)) (map (patch ms) l).
Proof.
  intros ms l m ro nxo Hnd Hm Hl. apply in_map_iff. exists (LBk (m_name m) ro nxo). split; [|exact Hl].
  cbn [patch]. destruct (find_name ms (m_name m) (in_map m_name _ _ Hm)) as (m1 & F1 & F2 & F3).
  rewrite F1. assert (m1 = m) by (eapply (NoDup_map_inj m_name ms); eauto). subst m1.
  destruct m as [[nm r] nx]. reflexivity.
Qed.

Lemma cov_assemble : forall n' live s s1 A D (ms : list meta) (l : list leafent) r0 b s3 alloc dead p nx ord,
  fresh_inv live s -> (forall x, In x L -> In x live) -> unwritten keep s ->
  frame live s s1 A D ->
  Forall (fun m : meta => exists ro nxo, In (LBk (m_name m) ro nxo) l /\
     Later live A s1 (fun s4 => cpres n' (ldisk s4) (snd (fst m)) ->
       forall x, In x (foot d n' ro) -> freed_in_tx s4 x = true \/ InT n' s4 (snd (fst m)) x)) ms ->
  Later live A s1 (fun s4 => (forall m, In m ms -> cpres n' (ldisk s4) (snd (fst m))) ->
     wr_cov s s1 s4 (fun _ x => exists m, In m ms /\ InT n' s4 (snd (fst m)) x)) ->
  frame (A ++ live) s1 s3 alloc dead -> xframe s s1 -> xframe s1 s3 ->
  sorted_keys (map lkey l) = true ->
  (r0 = 0%N \/ sbk (S n') d r0) ->
  (r0 <> 0%N -> forall q, In q (r0 :: ppages fuel0 d r0) -> In q (bheads d b) \/ gone d s q) ->
  (r0 <> 0%N -> forall k r nx, In (LBk k r nx) (page_ents fuel0 d r0) ->
     In (LBk k r nx) l \/ forall x, In x (foot d n' r) -> freed_in_tx s x = true) ->
  (forall k r nx, In (LBk k r nx) l -> find (fun m : meta => beq (m_name m) k) ms = None -> In r keep /\ r <> 0%N) ->
  (forall m, In m ms -> exists ro nxo, In (LBk (m_name m) ro nxo) l) -> NoDup (map m_name ms) ->
  Later live (alloc ++ A) s3 (fun s4 => cpres (S n') (ldisk s4) p ->
     page_ents fuel0 (ldisk s4) p = map (patch ms) l /\
     (forall q, In q (bheads d b) -> q <> 0%N ->
        gone d s4 q \/ (In q (p :: ppages fuel0 (ldisk s4) p) /\ prun (ldisk s4) q = prun d q)) /\
     wr_cov s1 s3 s4 (fun q x => In q (p :: ppages fuel0 (ldisk s4) p) /\ In x (prun (ldisk s4) q))) ->
  CovPost (S n') r0 live s (p, nx, s3, ord).
Proof.
  intros n' live s s1 A D ms l r0 b s3 alloc dead p nx ord Hfi HLl Hunw Hfr Hfoot Hwrc Hf3 X01 X13 Hsorted Hr C1 C2
    Hunp Hnamed Hndm Hown.
  pose proof (xframe_trans _ _ _ X01 X13) as X.
  cbn [CovPost]. exists (alloc ++ A), (D ++ dead). pose proof (frame_trans _ _ _ _ _ _ _ _ Hfr Hf3) as Hf13.
  split; [exact Hf13|]. split; [exact X|].
  intros s4 a2 d2 Hf4 Hc.
  destruct (Hown s4 a2 d2 Hf4 Hc) as (Epe & O1 & O2).
  pose proof (keep_live d keep L HkL live HLl) as Hkl.
  pose proof (frame_trans _ _ _ _ _ _ _ _ Hf13 Hf4) as Hf14.
  pose proof (frame_unwritten _ _ _ _ _ keep Hfi Hf14 Hkl Hunw) as Hu4.
  assert (Hf34 : frame (A ++ live) s1 s4 (a2 ++ alloc) (dead ++ d2)).
  { rewrite <- app_assoc in Hf4. eapply frame_trans; eauto. }
  pose proof (frame_freed_mono _ _ _ _ _ Hf4) as Hfr34.
  assert (Hfr04 : forall x, freed_in_tx s x = true -> freed_in_tx s4 x = true).
  { intros x Hx. apply Hfr34, (xf_freed _ _ X), Hx. }
  cbn [cpres] in Hc. destruct Hc as [Hpp Hcall]. rewrite Epe in Hcall. rewrite Forall_forall in Hcall.
  assert (Hcm : forall m, In m ms -> cpres n' (ldisk s4) (snd (fst m))).
  { intros m Hm. destruct (Hnamed m Hm) as (ro & nxo & Hl).
    exact (Hcall _ (patch_meta ms l m ro nxo Hndm Hm Hl)). }
  assert (Hvia : forall m x, In m ms -> InT n' s4 (snd (fst m)) x -> InT (S n') s4 p x).
  { intros m x Hm Hx. destruct (Hnamed m Hm) as (ro & nxo & Hl).
    eapply InT_entry; [rewrite Epe; exact (patch_meta ms l m ro nxo Hndm Hm Hl) | exact Hx]. }
  split.
  - intros x Hx. pose proof (foot_nonzero _ _ _ _ Hx) as Hr0. destruct Hr as [Hr|Hs]; [contradiction|].
    rewrite (foot_split d n' r0 Hz Hs) in Hx. apply in_app_or in Hx. destruct Hx as [Hx|Hx].
    + unfold region in Hx. destruct (N.eqb_spec r0 0) as [E|_]; [contradiction|]. apply In_runs in Hx.
      destruct Hx as (q & Hq & Hx). destruct (C1 Hr0 q Hq) as [Hb|Hg]; [|left; apply Hfr04, Hg, Hx].
      destruct (O1 q Hb (heads_nz d n' r0 q Hz Hs Hq)) as [Hg|[Hin Ep]]; [left; apply Hg, Hx|].
      right. eapply InT_own; [exact Hin | rewrite Ep; exact Hx].
    + apply in_flat_map in Hx. destruct Hx as ([k v|k r nx0] & He & Hx); [destruct Hx|]. cbn [efoot] in Hx.
      destruct (C2 Hr0 k r nx0 He) as [Hl|Hg]; [|left; apply Hfr04, Hg, Hx].
      destruct (find (fun m : meta => beq (m_name m) k) ms) as [m|] eqn:Ef.
      * apply find_some in Ef. destruct Ef as [Hm Hb]. apply beq_true_iff in Hb.
        rewrite Forall_forall in Hfoot. destruct (Hfoot m Hm) as (ro & nxo & Hl' & HW).
        assert (E : LBk (m_name m) ro nxo = LBk k r nx0) by (eapply same_key_same_entry; eauto). inversion E; subst ro nxo.
        destruct (HW s4 _ _ Hf34 (Hcm m Hm) x Hx) as [G|G]; [now left | right; eapply Hvia; eauto].
      * destruct (Hunp k r nx0 Hl Ef) as [Hk Hnz]. right.
        eapply (InT_entry n' s4 p k r nx0); [rewrite Epe; apply in_map_iff; exists (LBk k r nx0); split; [|exact Hl]|].
        -- cbn [patch]. now rewrite Ef.
        -- unfold InT. rewrite (kept_tree d keep HC n' s4 r Hu4 Hk Hnz). exact Hx.
  - apply (wr_cov_trans s s1 s3 s4 _ _ _ X13 (Hwrc s4 _ _ Hf34 Hcm) O2).
    + intros _ x (m & Hm & G). eapply Hvia; eauto.
    + intros q x [B1 B2]. eapply InT_own; eauto.
Qed.

(** * The own tree of a dirty bucket: the three cases of the tail of [spill_bucket] *)

(* pages of a kept subtree on a later disk *)
Lemma kept_subtree : forall s4 u q, unwritten keep s4 -> In u keep -> in_subtree d u q ->
  in_subtree (ldisk s4) u q /\ In q keep /\ prun (ldisk s4) q = prun d q.
Proof.
  intros s4 u q Hu Hk Hs.
  assert (Hq : In q keep) by (eapply closed_subtree; eauto).
  split; [|split; [exact Hq|]].
  - apply (subtree_transfer d); [|exact Hs]. intros y Hy. apply (later_disk_kept d keep s4 y Hu).
    eapply closed_subtree; eauto.
  - unfold prun. now rewrite (later_disk_kept d keep s4 q Hu Hq).
Qed.

(* the materialised, non-empty root *)
Lemma tail_rdy_cov : forall live' s2 h rn lv p s3,
  fresh_inv live' s2 -> (forall x, In x keep -> In x live') -> unwritten keep s2 ->
  (forall q, wr_get (wr s2) q <> None -> In q live') ->
  Inv h d false None None rn -> Rdy d keep rn -> NodeView d h rn lv -> h <= fuel0 ->
  incl (npages h d rn) keep -> pg_ok d rn -> NoDup (npages h d rn) ->
  spill_root fuel0 rn s2 = Ok (p, s3) ->
  exists alloc dead, frame live' s2 s3 alloc dead /\ xframe s2 s3 /\
    forall s4 a2 d2, frame (alloc ++ live') s3 s4 a2 d2 -> pages_present fuel0 (ldisk s4) p ->
      page_ents fuel0 (ldisk s4) p = lv /\
      (forall q, In q (hdl rn ++ npages h d rn) -> q <> 0%N ->
         gone d s4 q \/ (In q (p :: ppages fuel0 (ldisk s4) p) /\ prun (ldisk s4) q = prun d q)) /\
      wr_cov s2 s3 s4 (fun q x => In q (p :: ppages fuel0 (ldisk s4) p) /\ In x (prun (ldisk s4) q)).
Proof.
  intros live' s2 h rn lv p s3 Hfi2 Hk1 Hu2 Hwl2 HI HRd HV Hh Hinc Hpg Hnp Hsp.
  pose proof (Rdy_shape_ok _ _ _ _ _ _ HI HRd) as Hsh.
  assert (Hup : forall x, In x (upages h d rn) -> In x keep).
  { intros x Hx. apply Hinc. now apply EngineSpillWfFacts.upages_incl_npages. }
  pose proof (EngineSpillWfFacts.Inv_swfh h d keep h None None rn HI Hsh Hup (le_n h)) as Hsw.
  pose proof (EngineSpillWfFacts.NoDup_npages_upages h d rn Hnp) as Hund.
  destruct (spill_root_wfw h d keep live' fuel0 rn s2 p s3 h Hfi2 Hk1 Hsw Hund Hsp)
    as (alloc & dead & good & lv0 & F1 & F2 & F3 & _ & F6 & Hfin).
  destruct (spill_root_cov h d keep live' fuel0 rn s2 p s3 h Hfi2 Hk1 Hwl2 Hsw Hund Hsp) as (X & Hold & Huh & Hwr).
  exists alloc, dead. split; [exact F1|]. split; [exact X|].
  intros s4 a2 d2 Hf4 Hp.
  destruct (frame_later_ok _ _ _ _ _ good keep s4 a2 d2 Hfi2 F1 F2 Hk1 Hu2 Hf4) as [G1 G2].
  destruct (Hfin (wr s4) (psz s4) G1 G2) as (R1 & R2 & R3 & R5). cbv zeta in *. fold (later_disk d s4) in *.
  assert (Hu4 : unwritten keep s4) by exact G2.
  pose proof (frame_wr_mono _ _ _ _ _ (fr_fresh _ _ _ _ _ F1) Hf4 (frame_heads _ _ _ _ _ F1 Hwl2)) as Hmono.
  pose proof (frame_freed_mono _ _ _ _ _ Hf4) as Hfr34.
  assert (Hreach : forall q, wsub (wr s3) p q -> in_subtree (ldisk s4) p q).
  { intros q Hw. unfold later_disk. apply wsub_subtree. eapply wsub_mono; [exact Hmono | exact Hw]. }
  split; [|split].
  - rewrite (NodeView_view_leaves d h rn _ HV h (le_n h)) in R5.
    eapply PageView_det; [apply page_ents_PageView; exact Hp | exact R5].
  - intros q Hq Hnz.
    assert (Hcase : In q (mpages rn) \/ exists u, uhead rn u /\ in_subtree d u q).
    { apply in_app_or in Hq. destruct Hq as [Hq|Hq].
      - left. rewrite mpages_eq. apply in_or_app. left. exact Hq.
      - destruct (npages_split h d rn q Hq) as [E|[Hm|Hu]]; [contradiction | | now right].
        left. rewrite mpages_eq. apply in_or_app. now right. }
    destruct Hcase as [Hm|(u & Hu & Hs)].
    + left. intros x Hx. apply Hfr34, Hold. eapply mpages_oldruns; eauto.
    + right. pose proof (uhead_keep h d keep h None None rn Hsw u Hu) as Huk.
      destruct (kept_subtree s4 u q Hu4 Huk Hs) as (Hs4 & _ & Ep). split; [|exact Ep].
      apply present_subtree; [exact Hp|]. eapply subtree_trans; [apply Hreach, Huh, Hu | exact Hs4].
  - intros q v x Hq Hx. destruct (Hwr q v x Hq Hx) as [B|[B|B]]; [now left | right; left; now apply Hfr34|].
    right; right. split; [apply present_subtree; [exact Hp | apply Hreach, B]|].
    unfold later_disk. rewrite (prun_written _ _ _ _ _ (Hmono q v Hq)).
    now rewrite (fr_psz _ _ _ _ _ Hf4).
Qed.

(* the root that is the empty leaf *)
Lemma tail_empty_cov : forall live' s2 h rn p s3,
  fresh_inv live' s2 -> (forall q, wr_get (wr s2) q <> None -> In q live') ->
  n_data rn = Leaves [] -> pg_ok d rn -> NodeView d h rn [] ->
  spill_root fuel0 rn s2 = Ok (p, s3) ->
  exists alloc dead, frame live' s2 s3 alloc dead /\ xframe s2 s3 /\
    forall s4 a2 d2, frame (alloc ++ live') s3 s4 a2 d2 ->
      page_ents fuel0 (ldisk s4) p = [] /\
      (forall q, In q (hdl rn ++ npages h d rn) -> q <> 0%N -> gone d s4 q) /\
      wr_cov s2 s3 s4 (fun q x => In q (p :: ppages fuel0 (ldisk s4) p) /\ In x (prun (ldisk s4) q)).
Proof.
  intros live' s2 h rn p s3 Hfi2 Hwl2 Hemp Hpg HV Hsp.
  destruct (spill_root_empty_w live' fuel0 rn s2 p s3 Hfi2 Hemp Hsp) as (np & v0 & F1 & Hnp & Hget & Hbody).
  destruct (spill_root_empty_cov live' fuel0 rn s2 p s3 Hfi2 Hwl2 Hemp Hsp) as (X & Hold & Hnew).
  exists (nrun p np), (old_pages rn). split; [exact F1|]. split; [exact X|].
  intros s4 a2 d2 Hf4.
  pose proof (frame_wr_mono _ _ _ _ _ (fr_fresh _ _ _ _ _ F1) Hf4 (frame_heads _ _ _ _ _ F1 Hwl2)) as Hmono.
  assert (Hg4 : dget (ldisk s4) p = Some (mk_apage (psz s4) v0)) by (apply dget_apply_wr_some, Hmono, Hget).
  split; [|split].
  - unfold fuel0. eapply page_ents_leaf; [exact Hg4 | exact Hbody].
  - intros q Hq Hnz x Hx. apply (frame_freed_mono _ _ _ _ _ Hf4), Hold.
    rewrite npages_leaf, app_nil_r in Hq by (now rewrite Hemp). unfold hdl in Hq.
    destruct (N.eqb_spec (n_page rn) 0) as [E|E]; [destruct Hq|]. destruct Hq as [<-|[]].
    inversion Hpg as [n0 Hp1 _]; subst n0. destruct (Hp1 E) as (a & Hg & Enp).
    unfold prun in Hx. rewrite Hg in Hx. apply In_nrun in Hx. split; [exact E | lia].
  - intros q v x Hq Hx. destruct (Hnew q ltac:(congruence)) as [B| ->]; [now left | right; right].
    split; [now left|]. unfold later_disk. rewrite (prun_written _ _ _ _ _ (Hmono p v Hq)).
    now rewrite (fr_psz _ _ _ _ _ Hf4).
Qed.

(** * The induction step *)

Lemma RecCov_step : forall f, RecCov (spill_bucket f d) -> RecCov (spill_bucket (S f) d).
Proof.
  intros f HRc n live b s ord res r0 m Hn Hfi HLl Hu Hw Hp0 Hpid HS HO HSX HOw HLk HfL Hwl HCv H.
  pose proof (keep_live d keep L HkL live HLl) as Hkl.
  pose proof (RecOwn_all d keep L HC Hz HkL f) as HR.
  destruct (is_dirty fuel0 b) eqn:Ed.
  2:{ rewrite (spill_bucket_clean _ _ _ _ _ Ed) in H. inversion H; subst res.
      inversion HSX as [b0 _ Hsb Hin | b0 Hd]; subst b0; [|congruence]. eapply cov_clean; eauto. }
  destruct n as [|n']; [destruct HOw|].
  destruct (SReady_dirty_inv d keep b m HS HO Ed) as (h & l & ents & Hh & HV & HD & Hnd & Hsubs & Hdisk & _).
  destruct (own_dirty_inv d keep Hz n' s b r0 h l Ed HSX HOw HLk Hh HV Hsubs)
    as (HXR & Hsorted & Hr & Hpg & Hnb & Hb & E1 & E2 & E3 & E4 & Hsubs4 & Hun).
  rewrite Cov_S in HCv. destruct (HCv l (ex_intro _ h (conj Hh HV))) as (C1 & C2 & C3).
  assert (Hsubs5 : forall nm sb, In (nm, sb) (b_subs b) ->
            SReady d keep sb /\ (exists ms, OvlAbs d sb ms) /\ SReadyX d keep sb /\
            exists ro nxo, In (LBk nm ro nxo) l /\ OwnI d n' s sb ro /\ Lnk d n' sb ro /\ Cov d n' s sb ro).
  { intros nm sb Hin. destruct (Hsubs4 nm sb Hin) as (X1 & X2 & X3 & ro & nxo & Hl & Ho & Hk).
    split; [exact X1|]. split; [exact X2|]. split; [exact X3|]. exists ro, nxo. repeat (split; [assumption|]).
    exact (C3 nm sb ro nxo Hin Hl). }
  assert (Hn' : n' <= fuel0) by (clear - Hn; lia).
  pose proof (fun e He => proj1 (E3 e He)) as E3'.
  destruct (spill_bucket_dirty_inv d keep f b s ord res h l
              (fun ms s0 => SubInvO d L n' live s l ms s0 /\ SubInvC n' live s l ms s0) Ed Hh HV HD Hnd
              (fun nm sb Hin => proj1 (Hsubs nm sb Hin)))
    as (metas & s1 & ord1 & [_ (A & D & Hfr & X01 & Hwl1 & Hfoot & Hwrc)] & J3 & Hcov & Hallm & HT); [| |exact H|].
  { split; [exact (SubInvO_start d L n' live s l Hfi Hw Hp0 Hpid)|].
    exists [], []. split; [now apply frame_refl|]. split; [apply xframe_refl|].
    split; [exact Hwl|]. split; [constructor|]. intros s4 a2 d2 _ _. apply wr_cov_refl. }
  { intros ms s0 nm sb o r nx s' o' Hin Hfresh [HIo HIc] Hrec. split.
    - exact (sub_step_invO d keep L Hz HkL n' live s l (b_subs b) r0 _ HR Hn' Hfi HLl Hu HfL E3' E4 Hsubs4 ms s0 nm sb o r nx s' o' Hin Hfresh HIo Hrec).
    - exact (sub_step_invC n' live s l (b_subs b) r0 _ HRc Hn' Hfi HLl Hu HfL E3' E4 Hsubs5 ms s0 nm sb o r nx s' o' Hin Hfresh HIo HIc Hrec). }
  assert (Hunp : forall k r1 nx1, In (LBk k r1 nx1) l -> find (fun m : meta => beq (m_name m) k) metas = None ->
            In r1 keep /\ r1 <> 0%N).
  { intros k r1 nx1 Hin Hfd. destruct (Hun k r1 nx1 Hin (unpatched_unopened _ _ _ Hcov Hfd)) as (U1 & U2 & _). auto. }
  pose proof (fr_fresh _ _ _ _ _ Hfr) as Hfi1.
  pose proof (frame_unwritten _ _ _ _ _ keep Hfi Hfr Hkl Hu) as Hu1.
  assert (Hk1 : forall x, In x keep -> In x (A ++ live)) by (intros y Hy; apply in_or_app; right; now apply Hkl).
  destruct HT as [Ern -> HD1 HVp | b1 s2 rn p s3 HSR Hf2 B1 Ern B6 HI HRd B2 Hsp].
  - (* the promoted root that was never loaded *)
    apply (cov_assemble n' live s s1 A D [] l r0 b s1 [] [] (b_root_page b) (b_next b) ord1 Hfi HLl Hu Hfr Hfoot Hwrc
             (frame_refl _ _ Hfi1) X01 (xframe_refl _) Hsorted Hr C1 C2 Hunp Hallm J3).
    intros s4 a2 d2 Hf4 Hc. cbn [app] in Hf4.
    pose proof (frame_unwritten _ _ _ _ _ keep Hfi1 Hf4 Hk1 Hu1) as Hu4.
    assert (Hag : forall x, in_subtree d (b_root_page b) x -> dget (ldisk s4) x = dget d x).
    { intros x Hx. apply (later_disk_kept d keep s4 x Hu4), HD1, Hx. }
    rewrite (ppages_transfer d (ldisk s4) fuel0 _ Hag), (page_ents_transfer d (ldisk s4) fuel0 _ Hag).
    rewrite (PageView_page_ents _ _ _ _ HVp fuel0 Hh), patch_nil. split; [reflexivity|]. split.
    + intros q Hq _. right. unfold bheads in Hq. rewrite Ern in Hq. split; [exact Hq|].
      assert (Hs : in_subtree d (b_root_page b) q) by (destruct Hq as [<-|Hq]; [apply ist_self | eapply ppages_subtree; eauto]).
      unfold prun. now rewrite (Hag q Hs).
    + apply wr_cov_refl.
  - destruct (spilled_root_heads d keep HC Hz h b l metas s1 b1 s2 rn HSR HV Hh J3 Hallm Hf2 B1 Ern HXR Hpg) as (Hinc & Hpg1 & Ebo).
    change (bheads d b = hdl rn ++ npages h d rn) in Ebo.
    pose proof (frame_seqc_r _ _ _ _ _ _ Hfr B6) as Hfr02. pose proof (fr_fresh _ _ _ _ _ Hfr02) as Hfi2.
    pose proof (frame_unwritten _ _ _ _ _ keep Hfi Hfr02 Hkl Hu) as Hu2.
    assert (Ewr2 : wr s2 = wr s1) by (destruct B6 as (_ & _ & _ & _ & _ & E & _); exact E).
    assert (Hwl2 : forall q, wr_get (wr s2) q <> None -> In q (A ++ live)) by (rewrite Ewr2; exact Hwl1).
    destruct HRd as [Hemp | HRdy].
    + assert (El : map (patch metas) l = []) by (eapply NodeView_empty_leaf; eauto).
      rewrite El in B2.
      destruct (tail_empty_cov (A ++ live) s2 h rn p s3 Hfi2 Hwl2 Hemp Hpg1 B2 Hsp) as (alloc & dead & F1 & X23 & Hlater).
      pose proof (frame_seqc_l _ _ _ _ _ _ B6 F1) as F1'.
      apply (cov_assemble n' live s s1 A D metas l r0 b s3 alloc dead p (b_next b) ord1 Hfi HLl Hu Hfr Hfoot Hwrc
               F1' X01 (xframe_trans _ _ _ (xframe_seqc _ _ B6) X23) Hsorted Hr C1 C2 Hunp Hallm J3).
      intros s4 a2 d2 Hf4 Hc. rewrite <- app_assoc in Hf4.
      destruct (Hlater s4 a2 d2 Hf4) as (Epe & O1 & O2). rewrite El. split; [exact Epe|]. split.
      * intros q Hq Hnz. left. apply O1; [now rewrite <- Ebo | exact Hnz].
      * unfold wr_cov. rewrite <- Ewr2. exact O2.
    + assert (Hnp : NoDup (npages h d rn)).
      { unfold bown in Hnb. rewrite Ebo in Hnb. apply NoDup_runs_heads in Hnb. eapply NoDup_app_r; eauto. }
      destruct (tail_rdy_cov (A ++ live) s2 h rn _ p s3 Hfi2 Hk1 Hu2 Hwl2 HI HRdy B2 Hh Hinc Hpg1 Hnp Hsp)
        as (alloc & dead & F1 & X23 & Hlater).
      pose proof (frame_seqc_l _ _ _ _ _ _ B6 F1) as F1'.
      apply (cov_assemble n' live s s1 A D metas l r0 b s3 alloc dead p (b_next b) ord1 Hfi HLl Hu Hfr Hfoot Hwrc
               F1' X01 (xframe_trans _ _ _ (xframe_seqc _ _ B6) X23) Hsorted Hr C1 C2 Hunp Hallm J3).
      intros s4 a2 d2 Hf4 Hc. rewrite <- app_assoc in Hf4.
      assert (Hp : pages_present fuel0 (ldisk s4) p) by (cbn [cpres] in Hc; apply Hc).
      destruct (Hlater s4 a2 d2 Hf4 Hp) as (Epe & O1 & O2). split; [exact Epe|]. split.
      * intros q Hq Hnz. apply O1; [now rewrite <- Ebo | exact Hnz].
      * unfold wr_cov. rewrite <- Ewr2. exact O2.
Qed.

Lemma RecCov_all : forall f, RecCov (spill_bucket f d).
Proof.
  induction f as [|f IH]; [|now apply RecCov_step].
  intros n live b s ord res r0 m _ _ _ _ _ _ _ _ _ _ _ _ _ _ _ H. discriminate.
Qed.

End SpillCov.

Print Assumptions RecCov_all.
