(* The strict invariant of EngineRebalanceFacts carried through the operations of a transaction, and what rebalance
   leaves for spill. [db_strict]: every committed bucket root reachable from [d_root] is a strict tree ([PInv]) of
   height <= fuel0 without shared pages. [SDeep d s b]: the overlay bucket [b] and every bucket opened below it satisfy
   [BInv] / [BExact] and the shape fact [LKd] (a materialised leaf has no kids, which [Inv] does not state and spill
   needs: [Inv_without_LKd_not_ready]). The preservation lemmas speak of successful runs, so they do not need [op_ok];
   that the fold succeeds under [op_ok] is [EnginePathFacts.ops_refine].
   [spill_bucket] applies [b_modify (OpIns (LBk nm r nx))] to a bucket after rebalance and before [spill_root]; [modify_Inv]
   needs [Exact], which rebalance does not preserve, so [BInv] is not carried through these insertions; [spill_ready]
   is: EngineSpillBucketFacts, [b_modify_replace]. *)
From Coq Require Import List NArith Bool Arith Lia ZifyN ZifyNat ZifyBool Permutation.
From Coq.Strings Require Import Byte.
From Jamm Require Spec.
From Jamm Require Import ListFacts Bytes Tree Cursor SearchFacts Engine EngineFacts EngineMergeFacts EngineModifyFacts EngineAbs.
From Jamm Require Import EnginePathFacts EngineRebalanceFacts.
From Jamm Require EngineSpillFacts EngineBridgeFacts.
Import ListNotations.
Import Coq.Strings.String.StringSyntax. Delimit Scope string_scope with string.
Local Open Scope list_scope. Local Open Scope nat_scope.
Set Warnings "-abstract-large-number".

(** * The strong committed-state invariant *)

(* [sbk n d r]: the committed bucket rooted at page [r] is a strict tree ([PInv], unbounded key range, filed
   under no separator) of height h <= fuel0 in which no page has two parents, and so is every bucket nested in
   it, to a nesting depth < n (the bucket itself counts 1).  This is exactly what [BInv] asks of the freshly
   opened bucket [Bucket r nx false None []], plus the same for the nested buckets. *)
Fixpoint sbk (n : nat) (d : disk) (r : N) : Prop :=
  match n with
  | O => False
  | S n' => exists h l, h <= fuel0 /\ PInv h d None None None r /\ NoDup (ppages h d r) /\ PageView d h r l /\
      Forall (fun e => match e with LBk _ r' _ => sbk n' d r' | LKv _ _ => True end) l
  end.

Definition db_strict (st : db) : Prop := sbk 16 (d_disk st) (d_root st).

(* a strict page has a view of the same height (so the [PageView] component of [sbk] is no extra demand) *)
Lemma PInv_PageView : forall h d lo hi ok q, PInv h d lo hi ok q -> exists l, PageView d h q l.
Proof.
  induction h as [|h IH]; intros d lo hi ok q H; [destruct H|]. cbn [PInv] in H.
  destruct H as (a & Hg & _ & Hb). destruct (ap_body a) as [l|es] eqn:Eb.
  - exists l. eapply PV_leaf; eauto.
  - destruct Hb as (_ & _ & _ & _ & HC).
    assert (Hls : exists ls, Forall2 (fun e l => PageView d h (snd e) l) es ls).
    { clear Eb. induction HC as [|e b es bs He _ IHC]; [exists []; constructor|].
      destruct IHC as [ls Hls]. destruct (IH _ _ _ _ _ He) as [l0 Hl0]. exists (l0 :: ls). now constructor. }
    destruct Hls as [ls Hls]. exists (concat ls). eapply PV_branch; eauto.
Qed.

Lemma sbk_cwf : forall n d r, sbk n d r -> cwf n d r.
Proof.
  induction n as [|n IH]; intros d r H; [destruct H|]. cbn [sbk] in H. cbn [cwf].
  destruct H as (h & l & Hh & HP & _ & HV & HF). split; [eapply PInv_wf_page; eauto|].
  exists l. split; [eapply PageView_mono; eauto|].
  eapply Forall_impl; [|exact HF]. cbn beta. intros [k v|k r' nx]; [auto | apply IH].
Qed.

Theorem db_strict_pages_wf : forall st, db_strict st -> db_pages_wf st.
Proof. intros st H. apply sbk_cwf. exact H. Qed.

Lemma sbk_mono : forall n d r, sbk n d r -> forall n', n <= n' -> sbk n' d r.
Proof.
  induction n as [|n IH]; intros d r H n' Hle; [destruct H|]. destruct n' as [|n']; [lia|].
  cbn [sbk] in *. destruct H as (h & l & Hh & HP & Hnd & HV & HF). exists h, l. repeat (split; [assumption|]).
  eapply Forall_impl; [|exact HF]. cbn beta. intros [k v|k r' nx]; [auto|]. intros H'. apply (IH _ _ H'). lia.
Qed.

Example init_db_strict : forall P, db_strict (init_db P).
Proof.
  intros P. unfold db_strict, init_db. cbn [d_disk d_root sbk].
  exists 1, []. split; [unfold fuel0; lia|]. split.
  - cbn [PInv]. eexists. split; [reflexivity|]. split; [exact I|]. cbn. split; [reflexivity | constructor].
  - split; [cbn; constructor|]. split; [|constructor]. eapply PV_leaf; reflexivity.
Qed.

(** * The strong overlay invariant *)

(** ** A materialised leaf has no kids (needed by spill; [Inv] is silent about it) *)
Fixpoint LKd (n : node) : Prop :=
  match n with
  | Node _ _ _ _ dd ks =>
      (is_leaf dd = true -> ks = []) /\
      (fix go (l : list node) : Prop := match l with [] => True | k :: l' => LKd k /\ go l' end) ks
  end.

Lemma LKd_eq : forall n, LKd n <-> ((is_leaf (n_data n) = true -> n_kids n = []) /\ Forall LKd (n_kids n)).
Proof.
  intros [p np o s dd ks]. cbn [LKd n_data n_kids].
  assert (G : (fix go (l : list node) : Prop := match l with [] => True | k :: l' => LKd k /\ go l' end) ks
              <-> Forall LKd ks).
  { induction ks as [|k ks IH]; [split; [constructor | exact (fun _ => I)]|]. split.
    - intros [H1 H2]. constructor; [exact H1 | now apply IH].
    - intros H. inversion H; subst. split; [assumption | now apply IH]. }
  tauto.
Qed.

Lemma LKd_node_of_page : forall q a sq, LKd (node_of_page q a sq).
Proof. intros. apply LKd_eq. unfold node_of_page. cbn [n_kids]. split; [reflexivity | constructor]. Qed.

Lemma replace_kid_Forall : forall (Q : node -> Prop) ks k, Forall Q ks -> Q k -> Forall Q (replace_kid ks k).
Proof.
  intros Q. induction ks as [|x ks IH]; intros k HF Hk; cbn [replace_kid]; [repeat constructor; exact Hk|].
  inversion HF; subst. destruct (N.eqb (n_page x) (n_page k)); constructor; auto.
Qed.

Lemma modify_LKd : forall fuel d n o s n' s', LKd n -> modify fuel d n o s = Ok (n', s') -> LKd n'.
Proof.
  induction fuel as [|f IH]; intros d n o s n' s' HL H; [discriminate|].
  destruct n as [p np og sq [l|es] ks].
  - cbn [modify] in H. inversion H; subst. apply LKd_eq in HL. apply LKd_eq. exact HL.
  - rewrite modify_branch in H. destruct (index_of (Branches es) (lop_key o)) as [i ex].
    destruct (nthN es i) as [[sep q]|]; [|discriminate].
    apply LKd_eq in HL. cbn [n_data n_kids is_leaf] in HL. destruct HL as [_ HK].
    destruct (find_kid q ks) as [kd|] eqn:Ef.
    + apply bind_ok_inv in H. destruct H as ([kd' s1] & Em & H). inversion H; subst. cbn [fst].
      apply LKd_eq. cbn [n_data n_kids is_leaf]. split; [discriminate|].
      apply replace_kid_Forall; [exact HK|]. eapply IH; [|exact Em].
      rewrite Forall_forall in HK. apply HK. eapply find_kid_In; eauto.
    + destruct (dget d q) as [a|]; [|discriminate].
      apply bind_ok_inv in H. destruct H as ([kd' s1] & Em & H). inversion H; subst. cbn [fst].
      apply LKd_eq. cbn [n_data n_kids is_leaf]. split; [discriminate|].
      apply Forall_app. split; [exact HK|]. repeat constructor. eapply IH; [|exact Em]. apply LKd_node_of_page.
Qed.

Definition BLK (b : bucket) : Prop := match b_rootn b with Some n => LKd n | None => True end.

Lemma b_modify_BLK : forall d b o s b' s', BLK b -> b_modify d b o s = Ok (b', s') -> BLK b'.
Proof.
  intros d b o s b' s' HL H. unfold b_modify in H.
  apply bind_ok_inv in H. destruct H as ([root s0] & Er & H).
  apply bind_ok_inv in H. destruct H as ([n' s1] & Em & H). inversion H; subst. unfold BLK. cbn [b_rootn].
  eapply modify_LKd; [|exact Em]. unfold ensure_root, BLK in *. destruct (b_rootn b) as [n|].
  - inversion Er; subst. exact HL.
  - destruct (dget d (b_root_page b)); [|discriminate]. cbn [next_seq] in Er. inversion Er; subst.
    apply LKd_node_of_page.
Qed.

(** ** [SDeep] *)

(* the bucket's own tree: the invariant of EngineRebalanceFacts in its exact form, with a view [l] of height [h] <= fuel0 *)
Definition BLoc (d : disk) (s : txs) (b : bucket) (h : nat) (l : list leafent) : Prop :=
  h <= fuel0 /\ BInv h d s b /\ BExact h b /\ BLK b /\ BucketView d h b l.

(* the opened sub-buckets against the view [l]: distinct names, each names a bucket entry of [l] and satisfies [Q];
   every bucket entry that is NOT opened holds a strict committed root (so that opening it later gives [BInv]) *)
Definition SubsOk (Q : bucket -> Prop) (d : disk) (subs : list (bytes * bucket)) (l : list leafent) : Prop :=
  NoDup (map fst subs) /\
  Forall (fun x => (exists r nx, Spec.alookup (fst x) (assoc l) = Some (LBk (fst x) r nx)) /\ Q (snd x)) subs /\
  (forall k k' r nx, Spec.alookup k (assoc l) = Some (LBk k' r nx) -> sub_find k subs = None -> exists n, sbk n d r).

Fixpoint SDeepF (f : nat) (d : disk) (s : txs) (b : bucket) : Prop :=
  match f with
  | O => False
  | S f' => exists h l, BLoc d s b h l /\ SubsOk (SDeepF f' d s) d (b_subs b) l
  end.

(* [SDeep d s b]: [b] and, recursively, every bucket opened below it *)
Definition SDeep (d : disk) (s : txs) (b : bucket) : Prop := exists f, SDeepF f d s b.

Lemma SubsOk_impl : forall (Q Q' : bucket -> Prop) d subs l, (forall x, In x subs -> Q (snd x) -> Q' (snd x)) ->
  SubsOk Q d subs l -> SubsOk Q' d subs l.
Proof.
  intros Q Q' d subs l HQ (H1 & H2 & H3). split; [exact H1|]. split; [|exact H3].
  rewrite Forall_forall in *. intros x Hx. destruct (H2 x Hx) as [A B]. split; [exact A | now apply HQ].
Qed.

Lemma SDeepF_mono : forall f d s b, SDeepF f d s b -> forall f', f <= f' -> SDeepF f' d s b.
Proof.
  induction f as [|f IH]; intros d s b H f' Hle; [destruct H|]. destruct f' as [|f']; [lia|].
  cbn [SDeepF] in *. destruct H as (h & l & HL & HS). exists h, l. split; [exact HL|].
  eapply SubsOk_impl; [|exact HS]. intros x _ Hx. apply (IH _ _ _ Hx). lia.
Qed.

Lemma BLoc_seqc_mono : forall d s s' b h l, (seqc s <= seqc s')%N -> BLoc d s b h l -> BLoc d s' b h l.
Proof.
  intros d s s' b h l Hle (A & B & C & D & E). unfold BLoc. split; [exact A|].
  split; [eapply BInv_seqc_mono; eauto|]. auto.
Qed.

Lemma SDeepF_seqc_mono : forall f d s s' b, (seqc s <= seqc s')%N -> SDeepF f d s b -> SDeepF f d s' b.
Proof.
  induction f as [|f IH]; intros d s s' b Hle H; [exact H|]. cbn [SDeepF] in *.
  destruct H as (h & l & HL & HS). exists h, l. split; [eapply BLoc_seqc_mono; eauto|].
  eapply SubsOk_impl; [|exact HS]. intros x _ Hx. eapply IH; eauto.
Qed.

Lemma SDeep_seqc_mono : forall d s s' b, (seqc s <= seqc s')%N -> SDeep d s b -> SDeep d s' b.
Proof. intros d s s' b Hle [f H]. exists f. eapply SDeepF_seqc_mono; eauto. Qed.

(* finitely many facts indexed by a fuel and monotone in it hold at one common fuel *)
Lemma Forall_exists_fuel : forall {X} (P : nat -> X -> Prop), (forall n m x, n <= m -> P n x -> P m x) ->
  forall l, Forall (fun x => exists n, P n x) l -> exists n, Forall (P n) l.
Proof.
  intros X P Hmono l H. induction H as [|x l [m Hm] _ [n IH]]; [exists 0; constructor|].
  exists (Nat.max m n). constructor; [apply (Hmono m); [lia | exact Hm]|].
  eapply Forall_impl; [|exact IH]. intros y. apply Hmono. lia.
Qed.

Lemma Forall_SDeep_fuel : forall d s (A : bytes * bucket -> Prop) subs,
  Forall (fun x => A x /\ SDeep d s (snd x)) subs ->
  exists f, Forall (fun x => A x /\ SDeepF f d s (snd x)) subs.
Proof.
  intros d s A subs H. apply (Forall_exists_fuel (fun f x => A x /\ SDeepF f d s (snd x))).
  - intros n m x Hle [Hx Hf]. split; [exact Hx | exact (SDeepF_mono _ _ _ _ Hf _ Hle)].
  - eapply Forall_impl; [|exact H]. cbn beta. intros x [Hx [f Hf]]. eauto.
Qed.

(* [SDeep] behaves like the inductive definition one would write *)
Lemma SDeep_intro : forall d s b h l, BLoc d s b h l -> SubsOk (SDeep d s) d (b_subs b) l -> SDeep d s b.
Proof.
  intros d s b h l HL (H1 & H2 & H3). destruct (Forall_SDeep_fuel d s _ _ H2) as [f Hf].
  exists (S f). cbn [SDeepF]. exists h, l. split; [exact HL|]. split; [exact H1|]. split; [exact Hf | exact H3].
Qed.

Lemma SDeep_inv : forall d s b, SDeep d s b -> exists h l, BLoc d s b h l /\ SubsOk (SDeep d s) d (b_subs b) l.
Proof.
  intros d s b [[|f] H]; [destruct H|]. cbn [SDeepF] in H. destruct H as (h & l & HL & HS).
  exists h, l. split; [exact HL|]. eapply SubsOk_impl; [|exact HS]. intros x _ Hx. exists f. exact Hx.
Qed.

Lemma BLoc_wf : forall d s b h l, BLoc d s b h l -> bucket_wf d b.
Proof. intros d s b h l (_ & HB & _). eapply BInv_wf; eauto. Qed.

Lemma BLoc_sorted : forall d s b h l, BLoc d s b h l -> sorted_keys (map lkey l) = true.
Proof. intros d s b h l HL. pose proof HL as (_ & _ & _ & _ & HV). eapply bucket_view_sorted; [eapply BLoc_wf|]; eauto. Qed.

Lemma BLoc_lookup : forall d s b h l k, BLoc d s b h l -> b_lookup d b k = Ok (Spec.alookup k (assoc l)).
Proof.
  intros d s b h l k HL. pose proof HL as (Hh & _ & _ & _ & HV). eapply b_lookup_view; [eapply BLoc_wf| |]; eauto.
Qed.

(* the tree fields decide [BLoc] *)
Lemma BLoc_tree : forall d s b b' h l, b_root_page b' = b_root_page b -> b_rootn b' = b_rootn b ->
  BLoc d s b h l -> BLoc d s b' h l.
Proof.
  intros d s b b' h l E1 E2 (A & B & C & D & E). unfold BLoc, BInv, BExact, BLK, BucketView in *.
  rewrite E1, E2. auto.
Qed.

(** ** [b_modify] and the bookkeeping of the opened sub-buckets *)

Lemma b_modify_BLoc : forall d s b h l o b' s', BLoc d s b h l -> b_modify d b o s = Ok (b', s') ->
  BLoc d s' b' h (apply_lop o l) /\ assoc (apply_lop o l) = aop o (assoc l) /\
  b_root_page b' = b_root_page b /\ b_next b' = b_next b /\ b_subs b' = b_subs b /\ b_dirty b' = true /\
  same_but_seqc s s'.
Proof.
  intros d s b h l o b' s' HL H. pose proof (BLoc_wf _ _ _ _ _ HL) as Hw.
  destruct HL as (Hh & HB & HX & HK & HV).
  destruct (b_modify_view d h b l o s Hw HV Hh) as (b2 & s2 & Hm & _ & Hv' & Ha & _ & Hr & Hn & Hsb & Hd & Hss).
  rewrite H in Hm. inversion Hm; subst b2 s2.
  destruct (b_modify_BInv h d s b o b' s' HB HX H) as (HB' & HX' & _).
  pose proof (b_modify_BLK d b o s b' s' HK H) as HK'.
  unfold BLoc. auto 12.
Qed.

Lemma sub_find_put_None : forall name sb subs k, sub_find k (sub_put name sb subs) = None ->
  k <> name /\ sub_find k subs = None.
Proof.
  intros name sb subs k H. assert (Hk : k <> name).
  { intros ->. rewrite sub_find_put_same in H. discriminate. }
  split; [exact Hk|]. now rewrite sub_find_put_other in H.
Qed.

(* (re)placing the bucket opened under an entry that names a bucket *)
Lemma SubsOk_sub_put : forall (Q : bucket -> Prop) d subs l name sb,
  SubsOk Q d subs l -> (exists r nx, Spec.alookup name (assoc l) = Some (LBk name r nx)) -> Q sb ->
  SubsOk Q d (sub_put name sb subs) l.
Proof.
  intros Q d subs l name sb (H1 & H2 & H3) Hal Hq. split; [now apply sub_put_NoDup|]. split.
  - apply sub_put_Forall; [exact H2|]. cbn [fst snd]. auto.
  - intros k k' r nx Hk Hs. apply sub_find_put_None in Hs. destruct Hs as [_ Hs]. eauto.
Qed.

(* a new bucket entry together with its opened bucket *)
Lemma SubsOk_create : forall (Q : bucket -> Prop) d subs l l' name r nx sb,
  SubsOk Q d subs l -> assoc l' = Spec.ainsert name (LBk name r nx) (assoc l) ->
  sub_find name subs = None -> Q sb -> SubsOk Q d (sub_put name sb subs) l'.
Proof.
  intros Q d subs l l' name r nx sb (H1 & H2 & H3) Ha Hsf Hq. split; [now apply sub_put_NoDup|]. split.
  - apply sub_put_Forall.
    + rewrite Forall_forall in *. intros x Hx. destruct (H2 x Hx) as [(r0 & nx0 & Hal) Hqx]. split; [|exact Hqx].
      exists r0, nx0. rewrite Ha, alookup_ainsert. rewrite beq_false_ne; [exact Hal|]. eapply sub_find_None_In; eauto.
    + cbn [fst snd]. split; [|exact Hq]. exists r, nx. rewrite Ha, alookup_ainsert. now rewrite beq_refl.
  - intros k k' r0 nx0 Hk Hs. apply sub_find_put_None in Hs. destruct Hs as [Hne Hs].
    rewrite Ha, alookup_ainsert, (beq_false_ne _ _ Hne) in Hk. eauto.
Qed.

(* a plain value stored under a key that does not name a bucket *)
Lemma SubsOk_put_kv : forall (Q : bucket -> Prop) d subs l l' k v,
  SubsOk Q d subs l -> assoc l' = Spec.ainsert k (LKv k v) (assoc l) ->
  (forall k0 r nx, Spec.alookup k (assoc l) <> Some (LBk k0 r nx)) -> SubsOk Q d subs l'.
Proof.
  intros Q d subs l l' k v (H1 & H2 & H3) Ha Hnb. split; [exact H1|]. split.
  - rewrite Forall_forall in *. intros x Hx. destruct (H2 x Hx) as [(r0 & nx0 & Hal) Hqx]. split; [|exact Hqx].
    exists r0, nx0. rewrite Ha, alookup_ainsert. destruct (beq (fst x) k) eqn:E; [|exact Hal].
    apply beq_true in E. rewrite E in Hal. now apply Hnb in Hal.
  - intros k0 k' r0 nx0 Hk Hs. rewrite Ha, alookup_ainsert in Hk. destruct (beq k0 k); [discriminate | eauto].
Qed.

(* an entry removed: [subs'] is [subs] without the bucket opened under the removed key, if any *)
Lemma SubsOk_remove : forall (Q : bucket -> Prop) d subs subs' l l' k,
  SubsOk Q d subs l -> sorted_keys (map lkey l) = true -> assoc l' = Spec.aremove k (assoc l) ->
  NoDup (map fst subs') -> (forall x, In x subs' -> In x subs /\ fst x <> k) ->
  (forall k0, k0 <> k -> sub_find k0 subs' = sub_find k0 subs) -> SubsOk Q d subs' l'.
Proof.
  intros Q d subs subs' l l' k (H1 & H2 & H3) Hs Ha Hnd Hin Hother. split; [exact Hnd|]. split.
  - rewrite Forall_forall in *. intros x Hx. destruct (Hin x Hx) as [Hx' Hne].
    destruct (H2 x Hx') as [(r0 & nx0 & Hal) Hqx]. split; [|exact Hqx].
    exists r0, nx0. rewrite Ha, alookup_aremove by now rewrite assoc_keys. now rewrite (beq_false_ne _ _ Hne).
  - intros k0 k' r0 nx0 Hk Hsf. rewrite Ha, alookup_aremove in Hk by now rewrite assoc_keys.
    destruct (beq k0 k) eqn:E; [discriminate|]. apply (H3 k0 k' r0 nx0 Hk). rewrite <- Hother; [exact Hsf|].
    intros ->. rewrite beq_refl in E. discriminate.
Qed.

(** ** The final operations preserve [SDeep] *)

(* the contract of an operation applied at the end of a path *)
Definition sd_pres (d : disk) (f : bucket -> txs -> res (bucket * txs)) : Prop :=
  forall b s b' s', SDeep d s b -> f b s = Ok (b', s') -> SDeep d s' b' /\ (seqc s <= seqc s')%N.

Lemma SubsOk_seqc : forall d s s' subs l, (seqc s <= seqc s')%N ->
  SubsOk (SDeep d s) d subs l -> SubsOk (SDeep d s') d subs l.
Proof. intros d s s' subs l Hle. apply SubsOk_impl. intros x _. now apply SDeep_seqc_mono. Qed.

Lemma sbs_le : forall s s', same_but_seqc s s' -> (seqc s <= seqc s')%N.
Proof. intros s s' (_ & _ & _ & _ & _ & _ & _ & H). exact H. Qed.

Lemma BLoc_bucket_view : forall d s b h l, BLoc d s b h l -> bucket_view d b l.
Proof. intros d s b h l (Hh & _ & _ & _ & HV). exists h. auto. Qed.

(* a view of a bucket with [b]'s tree is [b]'s view *)
Lemma BLoc_view_eq : forall d s b h l b' l', BLoc d s b h l ->
  b_root_page b' = b_root_page b -> b_rootn b' = b_rootn b -> bucket_view d b' l' -> l' = l.
Proof.
  intros d s b h l b' l' HL Ep En Hv'. eapply bucket_view_det; [exact Hv'|].
  exact (bucket_view_tree d b b' l Ep En (BLoc_bucket_view _ _ _ _ _ HL)).
Qed.

(* a leaf operation other than the insertion of a bucket entry, on a key that names no bucket *)
Lemma SubsOk_kvop : forall (Q : bucket -> Prop) d subs l o, SubsOk Q d subs l -> sorted_keys (map lkey l) = true ->
  (forall k0 r nx, Spec.alookup (lop_key o) (assoc l) <> Some (LBk k0 r nx)) -> (forall k r nx, o <> OpIns (LBk k r nx)) ->
  SubsOk Q d subs (apply_lop o l).
Proof.
  intros Q d subs l o HS Hs Hnb Hno. pose proof (apply_lop_assoc o l Hs) as Ha.
  destruct o as [[k v|k r nx]|k]; cbn [aop lop_key lkey] in *.
  - eapply SubsOk_put_kv; eauto.
  - exfalso. eapply Hno; eauto.
  - pose proof HS as (H1 & H2 & _). eapply SubsOk_remove; eauto. intros x Hx. split; [exact Hx|]. intros E.
    rewrite Forall_forall in H2. destruct (H2 x Hx) as [(r & nx & Hr) _]. rewrite E in Hr. eapply Hnb; eauto.
Qed.

Lemma kvop_pres : forall d s b o b' s2, SDeep d s b -> kv_done d b o s b' s2 -> SDeep d s2 b' /\ (seqc s <= seqc s2)%N.
Proof.
  intros d s b o b' s2 HD [[-> ->] | (cur & b2 & nx' & Hl & Hnb & Hno & Hm & ->)]; [split; [exact HD | lia]|].
  destruct (SDeep_inv _ _ _ HD) as (h & l & HL & HS).
  rewrite (BLoc_lookup _ _ _ _ _ _ HL) in Hl. inversion Hl; subst cur.
  destruct (b_modify_BLoc _ _ _ _ _ _ _ _ HL Hm) as (HL' & _ & _ & _ & _ & _ & Hss).
  pose proof (sbs_le _ _ Hss) as Hle. split; [|exact Hle].
  eapply (SDeep_intro d s2 _ h _); [eapply (BLoc_tree d s2 b2); [reflexivity | reflexivity | exact HL']|].
  cbn [b_subs]. eapply SubsOk_kvop; eauto using SubsOk_seqc, BLoc_sorted.
Qed.

(** ** Opening and creating buckets *)

Lemma open_strict : forall n d s r nx, sbk n d r -> SDeep d s (Bucket r nx false None []).
Proof.
  intros [|n] d s r nx H; [destruct H|]. cbn [sbk] in H. destruct H as (h & l & Hh & HP & Hnd & HV & HF).
  apply (SDeep_intro d s _ h l).
  - unfold BLoc, BInv, BExact, BLK, BucketView. cbn [b_rootn b_root_page]. auto 8.
  - cbn [b_subs]. split; [constructor|]. split; [constructor|].
    intros k k' r0 nx0 Hk _. apply alookup_assoc_key in Hk. destruct Hk as [_ Hin].
    rewrite Forall_forall in HF. specialize (HF _ Hin). cbn beta iota in HF. eauto.
Qed.

Lemma new_bucket_SDeep : forall d s sq, (sq < seqc s)%N ->
  SDeep d s (Bucket 0 0 true (Some (Node 0 0 None sq (Leaves []) [])) []).
Proof.
  intros d s sq Hlt. apply (SDeep_intro d s _ 1 []).
  - unfold BLoc, BInv, RInv, BExact, BLK, BucketView. cbn [b_rootn b_root_page].
    split; [unfold fuel0; lia|]. split.
    + split; [rewrite Inv_leaf_eq; split; [reflexivity | constructor]|]. split; [constructor|].
      cbn [seqs flat_map]. split; repeat constructor; [intros [] | exact Hlt].
    + split; [exact I|]. split; [|apply NV_leaf]. apply LKd_eq. cbn [n_kids]. split; [reflexivity | constructor].
  - cbn [b_subs]. split; [constructor|]. split; [constructor|]. intros k k' r nx Hk. discriminate.
Qed.

(* the stored entry that [opened] found, against the view *)
Lemma BLoc_lookup_LBk : forall d s b h l name k r nx, BLoc d s b h l -> b_lookup d b name = Ok (Some (LBk k r nx)) ->
  Spec.alookup name (assoc l) = Some (LBk name r nx).
Proof.
  intros d s b h l name k r nx HL H. rewrite (BLoc_lookup _ _ _ _ _ _ HL) in H. inversion H as [Hal].
  destruct (alookup_assoc_key _ _ _ Hal) as [Ek _]. cbn [lkey] in Ek. now subst k.
Qed.

Lemma opened_SDeep : forall d s b name b0, SDeep d s b -> opened d b name b0 -> SDeep d s b0.
Proof.
  intros d s b name b0 HD [sb _ | k r nx Hsf Hl]; [exact HD|]. destruct (SDeep_inv _ _ _ HD) as (h & l & HL & HS).
  pose proof (BLoc_lookup_LBk _ _ _ _ _ _ _ _ _ HL Hl) as Hal.
  pose proof HS as (_ & _ & H3). destruct (H3 _ _ _ _ Hal Hsf) as [n Hn].
  eapply (SDeep_intro d s _ h l); [eapply (BLoc_tree d s b); [reflexivity | reflexivity | exact HL]|].
  cbn [b_subs]. apply SubsOk_sub_put; [exact HS | eauto | eapply open_strict; eauto].
Qed.

Theorem b_get_or_create_pres : forall d name b s b' s', SDeep d s b -> b_get_or_create d b name s = Ok (b', s') ->
  SDeep d s' b' /\ (seqc s <= seqc s')%N.
Proof.
  intros d name b s b' s' HD H.
  destruct (b_get_or_create_ok_inv _ _ _ _ _ _ H) as [[Ho ->] | (Hsf & _ & b2 & Hm & ->)].
  { split; [eapply opened_SDeep; eauto | lia]. }
  destruct (SDeep_inv _ _ _ HD) as (h & l & HL & HS).
  assert (Hlt1 : (seqc s < seqc (snd (next_seq s)))%N) by (cbn; lia).
  pose proof (BLoc_seqc_mono _ _ _ _ _ _ (N.lt_le_incl _ _ Hlt1) HL) as HL1.
  destruct (b_modify_BLoc _ _ _ _ _ _ _ _ HL1 Hm) as (HL' & Ha & _ & _ & _ & _ & Hss).
  pose proof (sbs_le _ _ Hss) as Hle. split; [|lia]. cbn [aop lkey] in Ha.
  eapply (SDeep_intro d s' _ h _); [eapply (BLoc_tree d s' b2); [reflexivity | reflexivity | exact HL']|].
  cbn [b_subs]. eapply SubsOk_create; [eapply SubsOk_seqc; [|exact HS]; lia | exact Ha | exact Hsf |].
  apply new_bucket_SDeep. lia.
Qed.

Lemma SDeep_sub : forall d s b name sb, SDeep d s b -> sub_find name (b_subs b) = Some sb -> SDeep d s sb.
Proof.
  intros d s b name sb HD Hsf. destruct (SDeep_inv _ _ _ HD) as (h & l & _ & (_ & H2 & _)).
  rewrite Forall_forall in H2. exact (proj2 (H2 _ (sub_find_In _ _ _ Hsf))).
Qed.

(* storing the modified sub-bucket back into its parent *)
Lemma put_back_SDeep : forall d s s' b name sb sb', SDeep d s b -> sub_find name (b_subs b) = Some sb ->
  (seqc s <= seqc s')%N -> SDeep d s' sb' ->
  SDeep d s' (Bucket (b_root_page b) (b_next b) (b_dirty b) (b_rootn b) (sub_put name sb' (b_subs b))).
Proof.
  intros d s s' b name sb sb' HD Hsf Hle HD'. destruct (SDeep_inv _ _ _ HD) as (h & l & HL & HS).
  pose proof HS as (_ & H2 & _). rewrite Forall_forall in H2.
  destruct (H2 _ (sub_find_In _ _ _ Hsf)) as [Hal _]. cbn [fst] in Hal.
  eapply (SDeep_intro d s' _ h l).
  - eapply (BLoc_tree d s' b); [reflexivity | reflexivity |]. eapply BLoc_seqc_mono; eauto.
  - cbn [b_subs]. apply SubsOk_sub_put; [eapply SubsOk_seqc; eauto | exact Hal | exact HD'].
Qed.

(** ** [at_path] and [b_delete_bucket] *)

Theorem at_path_pres : forall d f, sd_pres d f -> forall path fuel b s b' s', SDeep d s b ->
  at_path fuel d b path f s = Ok (b', s') -> SDeep d s' b' /\ (seqc s <= seqc s')%N.
Proof.
  intros d f Hf path fuel b s b' s' HD H. revert HD.
  pattern path, b, s, b', s'. apply (at_path_ok_ind d f) with (3 := H).
  - intros b0 s0 b0' s0' H0 HD. eapply Hf; eauto.
  - intros nm rest b0 s0 b1 s1 sb sb' s2 Hg Hsf IH HD.
    destruct (b_get_or_create_pres d nm b0 s0 b1 s1 HD Hg) as [HD1 Hle1].
    destruct (IH (SDeep_sub _ _ _ _ _ HD1 Hsf)) as [HD2 Hle2]. split; [|lia]. eapply put_back_SDeep; eauto.
Qed.

(* the second phase of delete_bucket on an [SDeep] bucket: the opened bucket [sb] is taken out of the list, the
   pages of its committed tree are freed, and [b_modify] removes its entry *)
Lemma delb_phase2_inv : forall d b0 name sb s0 b' s', SDeep d s0 b0 -> sub_find name (b_subs b0) = Some sb ->
  delb_phase2 d b0 name s0 = Ok (b', s') ->
  exists h l r nx rest s1,
    BLoc d s0 b0 h l /\ SubsOk (SDeep d s0) d (b_subs b0) l /\ Spec.alookup name (assoc l) = Some (LBk name r nx) /\
    sub_find name rest = None /\ (forall k, k <> name -> sub_find k rest = sub_find k (b_subs b0)) /\
    NoDup (map fst rest) /\ (forall x, In x rest -> In x (b_subs b0)) /\
    (if (b_root_page sb =? 0)%N then Ok s0 else free_tree 100000 d [b_root_page sb] s0) = Ok s1 /\
    (seqc s0 <= seqc s1)%N /\
    BLoc d s1 (Bucket (b_root_page b0) (b_next b0) (b_dirty b0) (b_rootn b0) rest) h l /\
    b_modify d (Bucket (b_root_page b0) (b_next b0) (b_dirty b0) (b_rootn b0) rest) (OpDel name) s1 = Ok (b', s').
Proof.
  intros d b0 name sb s0 b' s' HD Hsf H. destruct (SDeep_inv _ _ _ HD) as (h & l & HL & HS).
  pose proof HS as (Hnd & H2 & _).
  destruct (take_sub_spec name (b_subs b0) sb Hnd Hsf) as (rest & Ht & Hnone & Hother & Hnd' & Hin).
  rewrite Forall_forall in H2. destruct (H2 _ (sub_find_In _ _ _ Hsf)) as [(r & nx & Hal) _]. cbn [fst] in Hal.
  destruct (delb_phase2_ok_inv _ _ _ _ _ _ H) as (sb1 & rest1 & s1 & e & Ht1 & Hft & _ & _ & Hm).
  rewrite Ht in Ht1. inversion Ht1; subst sb1 rest1.
  assert (Hle1 : (seqc s0 <= seqc s1)%N).
  { destruct (b_root_page sb =? 0)%N; [inversion Hft; lia|].
    apply free_tree_frees in Hft. destruct Hft as (_ & _ & _ & _ & _ & _ & Hle & _). exact Hle. }
  exists h, l, r, nx, rest, s1. repeat (split; [assumption|]). split; [|exact Hm].
  eapply (BLoc_tree d s1 b0); [reflexivity | reflexivity |]. eapply BLoc_seqc_mono; eauto.
Qed.

Lemma delb_phase2_pres : forall d b0 name sb s0 b' s', SDeep d s0 b0 -> sub_find name (b_subs b0) = Some sb ->
  delb_phase2 d b0 name s0 = Ok (b', s') -> SDeep d s' b' /\ (seqc s0 <= seqc s')%N.
Proof.
  intros d b0 name sb s0 b' s' HD Hsf H.
  destruct (delb_phase2_inv _ _ _ _ _ _ _ HD Hsf H)
    as (h & l & r & nx & rest & s1 & HL & HS & Hal & Hnone & Hother & Hnd' & Hin & _ & Hle1 & HL1 & Hm).
  destruct (b_modify_BLoc _ _ _ _ _ _ _ _ HL1 Hm) as (HL' & Ha & _ & _ & Hsb & _ & Hss).
  pose proof (sbs_le _ _ Hss) as Hle. split; [|lia]. cbn [aop] in Ha. cbn [b_subs] in Hsb.
  apply (SDeep_intro d s' b' h _ HL'). rewrite Hsb.
  eapply SubsOk_remove; [eapply SubsOk_seqc; [|exact HS]; lia | eapply BLoc_sorted; eauto | exact Ha | exact Hnd' | | exact Hother].
  intros x Hx. split; [now apply Hin | eapply sub_find_None_In; eauto].
Qed.

Theorem op_run_pres : forall d o, sd_pres d (op_run d o).
Proof.
  intros d [p k v|p k|p nm|p] b s b' s' HD H; cbn [op_run] in H.
  - exact (kvop_pres _ _ _ _ _ _ HD (soft_put_inv _ _ _ _ _ _ _ H)).
  - exact (kvop_pres _ _ _ _ _ _ HD (soft_delete_inv _ _ _ _ _ _ H)).
  - destruct (soft_delete_bucket_inv _ _ _ _ _ _ H) as [[-> ->] | (b0 & sb & Ho & Hsf & H2)]; [split; [exact HD | lia]|].
    exact (delb_phase2_pres d b0 nm sb s b' s' (opened_SDeep _ _ _ _ _ HD Ho) Hsf H2).
  - inversion H; subst. split; [exact HD | lia].
Qed.

(** ** The steps of a transaction *)

Theorem tx_step_SDeep : forall d o rb s rb' s', SDeep d s rb -> tx_step d (rb, s) o = Ok (rb', s') ->
  SDeep d s' rb' /\ (seqc s <= seqc s')%N.
Proof.
  intros d o rb s rb' s' HD H.
  destruct (tx_step_ok_inv _ _ _ _ _ _ H) as [[-> ->] | [_ H']]; [split; [exact HD | lia]|].
  eapply at_path_pres; eauto using op_run_pres.
Qed.

Theorem tx_fold_SDeep : forall st ops rb s root' s', SDeep (d_disk st) s rb ->
  tx_fold st ops (rb, s) = Ok (root', s') -> SDeep (d_disk st) s' root' /\ (seqc s <= seqc s')%N.
Proof.
  intros st ops rb s root' s' HD H.
  apply (tx_fold_inv st (fun rb' s' => SDeep (d_disk st) s' rb' /\ (seqc s <= seqc s')%N)) with (3 := H);
    [|split; [exact HD | lia]].
  intros o rb1 s1 rb2 s2 [HD1 Hle1] Hst. destruct (tx_step_SDeep _ _ _ _ _ _ HD1 Hst). split; [assumption | lia].
Qed.

Theorem root_bucket_SDeep : forall st s, db_strict st -> SDeep (d_disk st) s (root_bucket st).
Proof. intros st s H. unfold root_bucket. eapply open_strict. exact H. Qed.

(* when the fold returns Ok, every step did what it did: no side condition on the operations is needed *)
Theorem tx_ops_SDeep' : forall st ops root' s', db_strict st ->
  tx_fold st ops (root_bucket st, begin_w st) = Ok (root', s') -> SDeep (d_disk st) s' root'.
Proof. intros st ops root' s' Hdb H. eapply tx_fold_SDeep; [apply root_bucket_SDeep; exact Hdb | exact H]. Qed.

Theorem tx_ops_SDeep : forall st ops root' s', db_strict st -> Forall (op_ok (d_disk st)) ops ->
  tx_fold st ops (root_bucket st, begin_w st) = Ok (root', s') -> SDeep (d_disk st) s' root'.
Proof. intros st ops root' s' Hdb _. now apply tx_ops_SDeep'. Qed.

(** * From [SDeep] to [Deep] of EngineRebalanceFacts; rebalance *)

Lemma SDeepF_Deep : forall f d s b, SDeepF f d s b -> exists v, Deep f d s b v.
Proof.
  induction f as [|f IH]; intros d s b H; [destruct H|]. cbn [SDeepF] in H.
  destruct H as (h & l & (Hh & HB & _ & _ & HV) & (_ & H2 & _)).
  assert (Hvs : exists vs, Forall2 (fun x y => fst x = fst y /\ Deep f d s (snd x) (snd y)) (b_subs b) vs).
  { induction H2 as [|x subs [_ Hx] _ [vs Hvs]]; [exists []; constructor|].
    destruct (IH _ _ _ Hx) as [v Hv]. exists ((fst x, v) :: vs). constructor; [split; [reflexivity | exact Hv] | exact Hvs]. }
  destruct Hvs as [vs Hvs]. exists (BV l vs). cbn [Deep]. split; [exists h; auto | exact Hvs].
Qed.

(* the [bview] is built from the buckets' view lists *)
Theorem SDeep_Deep : forall d s b, SDeep d s b -> exists fv v, Deep fv d s b v.
Proof. intros d s b [f H]. exists f. now apply SDeepF_Deep. Qed.

(* so [rebalance_view] applies to what a transaction's operations leave; afterwards every bucket still satisfies
   [BGood] = [BInv] + [BucketView] over the SAME view lists *)
Theorem rebalance_SDeep : forall f d s b b' s', SDeep d s b -> rebalance f d b s = Ok (b', s') ->
  exists fv v, Deep fv d s b v /\ Deep fv d s' b' v /\ tx_frame s s' /\ b_next b' = b_next b.
Proof.
  intros f d s b b' s' HD H. destruct (SDeep_Deep _ _ _ HD) as (fv & v & Hv).
  destruct (rebalance_view f fv d s b v b' s' Hv H) as (H1 & H2 & H3). exists fv, v. auto.
Qed.

Lemma Deep_BGood : forall fv d s b l vs, Deep fv d s b (BV l vs) -> BGood d s b l.
Proof. intros [|fv] d s b l vs H; [destruct H|]. cbn [Deep] in H. apply H. Qed.

Theorem tx_rebalance_view : forall st ops root' s' b1 s1, db_strict st ->
  tx_fold st ops (root_bucket st, begin_w st) = Ok (root', s') ->
  rebalance fuel0 (d_disk st) root' s' = Ok (b1, s1) ->
  exists fv l vs, Deep fv (d_disk st) s' root' (BV l vs) /\ Deep fv (d_disk st) s1 b1 (BV l vs) /\
    BGood (d_disk st) s1 b1 l /\ tx_frame s' s1 /\ b_next b1 = b_next root'.
Proof.
  intros st ops root' s' b1 s1 Hdb Hf Hr. pose proof (tx_ops_SDeep' st ops root' s' Hdb Hf) as HD.
  destruct (rebalance_SDeep _ _ _ _ _ _ HD Hr) as (fv & [l vs] & A & B & C & D).
  exists fv, l, vs. split; [exact A|]. split; [exact B|]. split; [eapply Deep_BGood; eauto | auto].
Qed.

(** * After rebalance: spill readiness *)

From Jamm Require EngineSpillBucketFacts.
Notation s_in_range := EngineSpillFacts.in_range.
Notation spill_ready := EngineBridgeFacts.spill_ready.
Notation root_ready := EngineBridgeFacts.root_ready.
Notation in_subtree := EngineBridgeFacts.in_subtree.

(** ** The shape spill needs, and [Inv] + shape => [spill_ready] *)

(* every node at or below [n] holds at least one entry *)
Fixpoint NEd (n : node) : Prop :=
  match n with
  | Node _ _ _ _ dd ks =>
      (0 < dlen dd)%N /\
      (fix go (l : list node) : Prop := match l with [] => True | k :: l' => NEd k /\ go l' end) ks
  end.

Lemma NEd_eq : forall n, NEd n <-> ((0 < dlen (n_data n))%N /\ Forall NEd (n_kids n)).
Proof.
  intros [p np o s dd ks]. cbn [NEd n_data n_kids].
  assert (G : (fix go (l : list node) : Prop := match l with [] => True | k :: l' => NEd k /\ go l' end) ks
              <-> Forall NEd ks).
  { induction ks as [|k ks IH]; [split; [constructor | exact (fun _ => I)]|]. split.
    - intros [H1 H2]. constructor; [exact H1 | now apply IH].
    - intros H. inversion H; subst. split; [assumption | now apply IH]. }
  tauto.
Qed.

(* the pages below a strict page are the ones [ppages] lists *)
Lemma PInv_subtree : forall h d lo hi ok q x, PInv h d lo hi ok q -> in_subtree d q x ->
  x = q \/ In x (ppages h d q).
Proof.
  induction h as [|h IH]; intros d lo hi ok q x HP Hx; [destruct HP|].
  inversion Hx as [|? a es e ? Hg Hb He Hsub]; subst; [now left|]. right.
  cbn [PInv] in HP. destruct HP as (a' & Hg' & _ & HB). rewrite Hg in Hg'. inversion Hg'; subst a'.
  rewrite Hb in HB. destruct HB as (_ & _ & _ & _ & HC).
  cbn [ppages]. rewrite Hg, Hb. destruct (In_nth_error _ _ He) as [j Hj].
  destruct (Forall2_nth_error_l _ _ _ _ _ HC Hj) as (b & _ & HPe).
  apply in_or_app. destruct (IH _ _ _ _ _ x HPe Hsub) as [-> | Hin].
  - left. now apply in_map.
  - right. apply in_flat_map. eauto.
Qed.

(* what the invariant of a branch says of the child under an entry [e]: of the materialised kid, or else of the
   committed page, within the bounds [b] of its position *)
Lemma Inv_child : forall h d z lo hi p np o s es ks e,
  Inv (S h) d z lo hi (Node p np o s (Branches es) ks) -> In e es -> exists b, CInv h d ks e b.
Proof.
  intros h d z lo hi p np o s es ks e HI He. rewrite Inv_branch_eq in HI. destruct HI as (_ & _ & _ & _ & _ & HC).
  destruct (ListFacts.Forall2_In_l _ _ _ _ HC He) as (b & _ & Cb). eauto.
Qed.

Lemma Inv_kid : forall h d z lo hi p np o s es ks e kd,
  Inv (S h) d z lo hi (Node p np o s (Branches es) ks) -> In e es -> find_kid (snd e) ks = Some kd ->
  exists b, Inv h d false (fst b) (snd b) kd.
Proof.
  intros h d z lo hi p np o s es ks e kd HI He Hfk. destruct (Inv_child _ _ _ _ _ _ _ _ _ _ _ _ HI He) as (b & Cb).
  unfold CInv in Cb. rewrite Hfk in Cb. eauto.
Qed.

Lemma Inv_kid_page : forall h d z lo hi p np o s es ks e,
  Inv (S h) d z lo hi (Node p np o s (Branches es) ks) -> In e es -> find_kid (snd e) ks = None ->
  exists b, PInv h d (fst b) (snd b) (Some (fst e)) (snd e).
Proof.
  intros h d z lo hi p np o s es ks e HI He Hfk. destruct (Inv_child _ _ _ _ _ _ _ _ _ _ _ _ HI He) as (b & Cb).
  unfold CInv in Cb. rewrite Hfk in Cb. eauto.
Qed.

Lemma Inv_Rdy : forall h d keep lo hi n, Inv h d false lo hi n -> NEd n -> LKd n ->
  incl (npages h d n) keep -> EngineSpillBucketFacts.Rdy d keep n.
Proof.
  induction h as [|h IH]; intros d keep lo hi n HI HN HL Hk; [destruct HI|].
  apply NEd_eq in HN. apply LKd_eq in HL. destruct n as [p np o s [l|es] ks]; cbn [n_data n_kids] in HN, HL.
  - destruct HN as [Hpos _]. destruct HL as [Hks _]. rewrite (Hks eq_refl). apply EngineSpillBucketFacts.Rdy_leaf.
    intros ->. cbn in Hpos. lia.
  - destruct HN as [_ HNk]. destruct HL as [_ HLk]. rewrite npages_branch_eq in Hk.
    assert (Hsub : forall e x, In e es -> In x (cpages h d ks (snd e)) -> In x keep).
    { intros e x He Hx. apply Hk. apply in_or_app. right. apply in_flat_map. eauto. }
    apply EngineSpillBucketFacts.Rdy_branch; intros e y He Hfk.
    + destruct (Inv_kid _ _ _ _ _ _ _ _ _ _ _ _ _ HI He Hfk) as (b & Cb).
      destruct (find_kid_In _ _ _ Hfk) as [Hkin _]. rewrite Forall_forall in HNk, HLk.
      apply (IH d keep _ _ y Cb); [now apply HNk | now apply HLk|].
      intros x Hx. apply (Hsub e x He). unfold cpages. now rewrite Hfk.
    + destruct (Inv_kid_page _ _ _ _ _ _ _ _ _ _ _ _ HI He Hfk) as (b & Cb).
      intros Hy. destruct (PInv_subtree _ _ _ _ _ _ _ Cb Hy) as [-> | Hin].
      * apply Hk. apply in_or_app. left. now apply in_map.
      * apply (Hsub e _ He). unfold cpages. now rewrite Hfk.
Qed.

Theorem Inv_spill_ready : forall h d keep lo hi n, Inv h d false lo hi n -> NEd n -> LKd n ->
  incl (npages h d n) keep -> spill_ready d keep lo hi n.
Proof.
  intros h d keep lo hi n HI HN HL Hk.
  exact (EngineSpillBucketFacts.Inv_Rdy_spill_ready h d keep lo hi n HI (Inv_Rdy h d keep lo hi n HI HN HL Hk)).
Qed.

(** ** What [try_merge] does to the kid list *)

Inductive tm_kids (par k par' : node) : Prop :=
| tk_keep : (0 < dlen (n_data k))%N -> n_kids par' = replace_kid (n_kids par) k -> tm_kids par k par'
| tk_drop : dlen (n_data k) = 0%N -> n_kids par' = filter (not_seq (n_seq k)) (n_kids par) -> tm_kids par k par'
| tk_merge : forall sib md o' (isnew : bool),
    (0 < dlen (n_data k))%N -> merge_data (n_data sib) (n_data k) = Ok md ->
    (if isnew then n_kids sib = [] else In sib (n_kids par)) ->
    n_kids par' =
      (if isnew
       then filter (not_seq (n_seq k)) (n_kids par) ++
              [Node (n_page sib) (n_np sib) o' (n_seq sib) md (n_kids sib ++ n_kids k)]
       else replace_kid (filter (not_seq (n_seq k)) (n_kids par))
              (Node (n_page sib) (n_np sib) o' (n_seq sib) md (n_kids sib ++ n_kids k))) ->
    tm_kids par k par'.

Lemma try_merge_kids : forall d par k s par' s', try_merge d par k s = Ok (par', s') -> tm_kids par k par'.
Proof.
  intros d par k s par' s' H. pose proof (try_merge_cases d par k s) as C. rewrite H in C.
  destruct C as [Hpos | es ok idx Ed Hz Eo Eb | es idx kq q sib s1 isnew md (_ & _ & Hpos & _) Hso Hmd].
  - apply tk_keep; [exact Hpos | destruct par; reflexivity].
  - apply tk_drop; [exact Hz | destruct par; reflexivity].
  - destruct (merged_sib_eq sib k md idx) as [o' Eo]. apply (tk_merge par k _ sib md o' isnew); [exact Hpos | exact Hmd | |].
    + pose proof (sib_of_res d (n_kids par) q s) as R. rewrite Hso in R.
      destruct R as [(-> & Hf & _) | (-> & _ & _ & a & _ & ->)]; [eapply find_kid_In; eauto | reflexivity].
    + rewrite Eo. unfold kids_merged. destruct par, isnew; reflexivity.
Qed.

(** ** One step of [rebalance_kids] on the kid list *)

Lemma replace_kid_In_strict : forall ks k k1 x, NoDup (map n_page ks) -> In k ks -> n_page k1 = n_page k ->
  In x (replace_kid ks k1) -> x = k1 \/ (In x ks /\ x <> k).
Proof.
  intros ks k k1 x Hnd Hk Ep Hx. pose proof (find_kid_NoDup ks k Hnd Hk) as Hf.
  destruct (find_kid_split _ _ _ Hf) as (a & b & Eks & _ & Ha).
  rewrite Eks in Hx. rewrite replace_kid_hit in Hx; [|now symmetry | intros y Hy; rewrite Ep; now apply Ha].
  apply in_app_or in Hx. destruct Hx as [Hx | [<- | Hx]]; [right | now left | right].
  - split; [rewrite Eks; apply in_or_app; now left|]. intros ->. exact (Ha _ Hx eq_refl).
  - split; [rewrite Eks; apply in_or_app; right; now right|]. intros ->.
    rewrite Eks, map_app in Hnd. cbn [map] in Hnd. apply NoDup_remove_2 in Hnd. apply Hnd.
    apply in_or_app. right. now apply in_map.
Qed.

Lemma merge_data_dlen : forall a b md, merge_data a b = Ok md -> dlen md = (dlen a + dlen b)%N.
Proof.
  intros [l1|e1] [l2|e2] md H; cbn [merge_data] in H; inversion H; subst; cbn [dlen]; unfold llen;
    rewrite isort_by_length, app_length; lia.
Qed.

Lemma merge_data_leaf : forall a b md, merge_data a b = Ok md -> is_leaf md = is_leaf a /\ is_leaf md = is_leaf b.
Proof. intros [l1|e1] [l2|e2] md H; cbn [merge_data] in H; inversion H; subst; split; reflexivity. Qed.

(* the invariant of the loop over the snapshot: every kid is [LKd]; a kid whose sequence number is not among the
   ones still to be visited is non-empty, deeply *)
Definition KI (rest : list N) (ks : list node) : Prop :=
  Forall LKd ks /\ Forall (fun x => In (n_seq x) rest \/ NEd x) ks.

Lemma shape_step : forall par k1 par' k sq rest ks0,
  n_kids par = replace_kid ks0 k1 ->
  NoDup (map n_page ks0) -> NoDup (map n_seq ks0) -> In k ks0 -> n_seq k = sq ->
  n_page k1 = n_page k -> n_seq k1 = sq ->
  KI (sq :: rest) ks0 -> LKd k1 -> Forall NEd (n_kids k1) ->
  tm_kids par k1 par' -> KI rest (n_kids par').
Proof.
  intros par k1 par' k sq rest ks0 Epar Hpg Hsq Hk Ek Ep1 Es1 [KL KN] HL1 HN1 Hcase.
  rewrite Forall_forall in KL, KN.
  assert (G : forall x, In x (replace_kid ks0 k1) -> x = k1 \/ (In x ks0 /\ n_seq x <> sq)).
  { intros x Hx. destruct (replace_kid_In_strict ks0 k k1 x Hpg Hk Ep1 Hx) as [-> | [Hx' Hne]]; [now left | right].
    split; [exact Hx'|]. intros E. apply Hne. apply (NoDup_map_inj n_seq ks0); auto. congruence. }
  assert (G2 : forall x, In x ks0 -> n_seq x <> sq -> LKd x /\ (In (n_seq x) rest \/ NEd x)).
  { intros x Hx Hne. split; [now apply KL|]. destruct (KN x Hx) as [[E | Hin] | Hn]; [congruence | now left | now right]. }
  assert (G3 : forall x, In x (filter (not_seq sq) (replace_kid ks0 k1)) -> LKd x /\ (In (n_seq x) rest \/ NEd x)).
  { intros x Hx. apply filter_In in Hx. destruct Hx as [Hx Hns]. unfold not_seq in Hns.
    assert (Hne : n_seq x <> sq) by lia. destruct (G x Hx) as [-> | [Hx' _]]; [congruence | now apply G2]. }
  assert (Hfin : forall P : node -> Prop, (forall x, In x (n_kids par') -> P x) -> Forall P (n_kids par'))
    by (intros P HP; now apply Forall_forall).
  assert (Hgoal : forall x, In x (n_kids par') -> LKd x /\ (In (n_seq x) rest \/ NEd x));
    [|split; apply Hfin; intros x Hx; apply (Hgoal x Hx)].
  destruct Hcase as [Hpos Ek' | Hz Ek' | sib md o' isnew Hpos Hmd Hsib Ek']; rewrite Ek', Epar; clear Ek'.
  - intros x Hx. apply replace_kid_In in Hx.
    assert (Hk1 : LKd k1 /\ (In (n_seq k1) rest \/ NEd k1)).
    { split; [exact HL1|]. right. apply NEd_eq. split; assumption. }
    destruct Hx as [-> | Hx]; [exact Hk1|]. destruct (G x Hx) as [-> | [Hx' Hne]]; [exact Hk1 | now apply G2].
  - rewrite Es1. exact G3.
  - rewrite Es1. rewrite Epar in Hsib.
    destruct (merge_data_leaf _ _ _ Hmd) as [Lf1 Lf2]. pose proof (merge_data_dlen _ _ _ Hmd) as Hdl.
    apply LKd_eq in HL1. destruct HL1 as [HL1a HL1b].
    set (sib' := Node (n_page sib) (n_np sib) o' (n_seq sib) md (n_kids sib ++ n_kids k1)).
    assert (Hsibfacts : (is_leaf (n_data sib) = true -> n_kids sib = []) /\ Forall LKd (n_kids sib) /\
                        (In (n_seq sib) rest \/ Forall NEd (n_kids sib))).
    { destruct isnew.
      - rewrite Hsib. split; [reflexivity|]. split; [constructor | right; constructor].
      - destruct (G sib Hsib) as [-> | [Hx' Hne]].
        + split; [exact HL1a|]. split; [exact HL1b | now right].
        + destruct (G2 sib Hx' Hne) as [HLs HNs]. apply LKd_eq in HLs. destruct HLs as [A B].
          split; [exact A|]. split; [exact B|]. destruct HNs as [HNs | HNs]; [now left|].
          right. apply NEd_eq in HNs. apply HNs. }
    destruct Hsibfacts as (S1 & S2 & S3).
    assert (Hsib' : LKd sib' /\ (In (n_seq sib') rest \/ NEd sib')).
    { split.
      - apply LKd_eq. unfold sib'. cbn [n_data n_kids]. split.
        + intros Hlf. rewrite S1 by congruence. rewrite HL1a by congruence. reflexivity.
        + apply Forall_app. split; assumption.
      - unfold sib'. cbn [n_seq]. destruct S3 as [S3 | S3]; [now left | right].
        apply NEd_eq. cbn [n_data n_kids]. split; [lia|]. apply Forall_app. split; assumption. }
    intros x Hx. destruct isnew.
    + apply in_app_or in Hx. destruct Hx as [Hx | [<- | []]]; [now apply G3 | exact Hsib'].
    + apply replace_kid_In in Hx. destruct Hx as [-> | Hx]; [exact Hsib' | now apply G3].
Qed.

(** ** [rebalance_kids] leaves every kid non-empty, deeply *)

Definition RKS_IH (f : nat) : Prop :=
  forall h d s z lo hi n l n' s',
    Inv h d z lo hi n -> is_leaf (n_data n) = false -> NodeView d h n l ->
    NoDup (npages h d n) -> NoDup (seqs n) -> Forall (fun x => (x < seqc s)%N) (seqs n) ->
    LKd n -> rebalance_kids f d n s = Ok (n', s') -> LKd n' /\ Forall NEd (n_kids n').

Lemma rks_step : forall f h0 d s lo hi n l n0 s0 k k1 s1 n1 s1' rest,
  RKS_IH f ->
  Forall (fun x => (x < seqc s)%N) (seqs n) ->
  RKPost (S h0) d s lo hi n l n0 s0 -> is_leaf (n_data n0) = false ->
  In k (n_kids n0) -> KI (n_seq k :: rest) (n_kids n0) ->
  (if is_leaf (n_data k) then Ok (k, s0) else rebalance_kids f d k s0) = Ok (k1, s1) ->
  try_merge d (set_kids n0 (replace_kid (n_kids n0) k1)) k1 s1 = Ok (n1, s1') ->
  KI rest (n_kids n1).
Proof.
  intros f h0 d s lo hi n l n0 s0 k k1 s1 n1 s1' rest IH Hlt HP0 Hlf Hkin HK Hk1 Hm.
  destruct n0 as [p0 np0 og0 sq0 [l0|es0] ks0]; [discriminate|]. cbn [n_kids set_kids] in *.
  destruct (rk_prep f h0 d s lo hi n l p0 np0 og0 sq0 es0 ks0 s0 k k1 s1 (rebalance_kids_view f) Hlt HP0 Hkin Hk1)
    as ((lo' & hi' & lk & Ik & Vk & Npk & Nsk & Hltk) & (E1 & _ & E2 & _) & _).
  destruct HP0 as (HI & _ & _ & _ & _ & _ & _ & _ & Ns & _).
  rewrite Inv_branch_eq in HI. destruct HI as (_ & _ & _ & _ & [Lnd _] & _).
  assert (Hsk : NoDup (map n_seq ks0)).
  { apply seqs_kids_NoDup. cbn [seqs] in Ns. now inversion Ns. }
  pose proof HK as [KL _]. rewrite Forall_forall in KL. pose proof (KL k Hkin) as HLk.
  assert (Hk : LKd k1 /\ Forall NEd (n_kids k1)).
  { destruct (is_leaf (n_data k)) eqn:Elf.
    - inversion Hk1; subst k1 s1. split; [exact HLk|].
      apply LKd_eq in HLk. destruct HLk as [E _]. rewrite (E Elf). constructor.
    - exact (IH h0 d s0 true lo' hi' k lk k1 s1 Ik Elf Vk Npk Nsk Hltk HLk Hk1). }
  destruct Hk as (HL1 & HN1).
  apply try_merge_kids in Hm.
  eapply (shape_step _ k1 n1 k (n_seq k) rest ks0); eauto. reflexivity.
Qed.

Theorem rebalance_kids_shape : forall fuel, RKS_IH fuel.
Proof.
  induction fuel as [|f IH]; intros h d s z lo hi n l n' s' HI Hlf HV Np Ns Hlt HL H; [discriminate|].
  destruct (Inv_height _ _ _ _ _ _ HI) as [h0 ->].
  apply LKd_eq in HL. destruct HL as [_ HLk].
  destruct (rk_loop f h0 d s lo hi n l (fun rest n0 _ => KI rest (n_kids n0)) (rebalance_kids_view f) Hlt)
    with (z := z) (n' := n') (s' := s') as (_ & Hlf' & [KL KN]); try assumption.
  - intros x rest n0 s0 [KL KN] Ef. split; [exact KL|]. rewrite Forall_forall in *. intros y Hy.
    destruct (KN y Hy) as [[E' | Hin] | Hn]; [|now left | now right].
    pose proof (find_none _ _ Ef y Hy) as Hne. cbn beta in Hne. lia.
  - intros rest n0 s0 k k1 s1 n1 s1' HP0 Hlf0 Hkin HK0 Ek E. eapply rks_step; eauto.
  - split; [exact HLk|]. apply Forall_forall. intros y Hy. left. now apply in_map.
  - split.
    + apply LKd_eq. split; [intros E; congruence | exact KL].
    + rewrite Forall_forall in *. intros y Hy. destruct (KN y Hy) as [[] | Hn]. exact Hn.
Qed.

(** ** [merge_nodes]: the bucket's root is ready for spill *)

Lemma ensure_root_LKd : forall d b s root s0, BLK b -> ensure_root d b s = Ok (root, s0) -> LKd root.
Proof.
  intros d b s root s0 HL Er. pose proof (ensure_root_cases d b s) as C. rewrite Er in C. unfold BLK in HL.
  destruct C as [[En _] | (_ & _ & a & _ & ->)]; [now rewrite En in HL | apply LKd_node_of_page].
Qed.

(* the shape of the root that [merge_nodes] leaves: an empty leaf, or non-empty all the way down *)
Theorem merge_nodes_shape : forall h d s b l b' s',
  BInv h d s b -> BLK b -> BucketView d h b l -> merge_nodes d b s = Ok (b', s') ->
  BLK b' /\ forall n', b_rootn b' = Some n' -> n_data n' = Leaves [] \/ NEd n'.
Proof.
  intros h d s b l b' s' HB HK HV H.
  destruct (merge_nodes_ok_inv _ _ _ _ _ H) as (root & s0 & root1 & s1 & Er & E1 & T).
  destruct (ensure_root_RInv _ _ _ _ _ _ _ HB HV Er) as (HR & HVr & _).
  pose proof (ensure_root_LKd _ _ _ _ _ HK Er) as HLr.
  destruct (root1_RInv _ _ _ _ _ _ _ HR HVr E1) as ((HI1 & _) & _ & _).
  assert (H1 : LKd root1 /\ Forall NEd (n_kids root1)).
  { destruct (is_leaf (n_data root)) eqn:Elf.
    - inversion E1; subst root1 s1. split; [exact HLr|]. apply LKd_eq in HLr. destruct HLr as [E _].
      rewrite (E Elf). constructor.
    - destruct HR as (HI & Hnp & Hsq & Hlt).
      exact (rebalance_kids_shape fuel0 h d s0 false None None root l root1 s1 HI Elf HVr Hnp Hsq Hlt HLr E1). }
  destruct H1 as [HL1 HN1]. pose proof HL1 as HL1'. apply LKd_eq in HL1'. destruct HL1' as [HL1a HL1b].
  destruct T as [k0 q Ed | Ed | Ed]; unfold BLK; cbn [b_rootn].
  - destruct (find_kid q (n_kids root1)) as [kd|] eqn:Ef.
    + destruct (find_kid_In _ _ _ Ef) as [Hin _]. rewrite Forall_forall in HL1b, HN1.
      split; [now apply HL1b|]. intros n' E. inversion E; subst n'. right. now apply HN1.
    + split; [exact I | discriminate].
  - split; [|intros n' E; inversion E; subst n'; left; destruct root1; reflexivity].
    destruct root1 as [p1 np1 og1 sq1 dd ks1]. cbn [n_data] in Ed. subst dd.
    destruct (Inv_height _ _ _ _ _ _ HI1) as [h0 ->]. rewrite Inv_branch_eq in HI1.
    destruct HI1 as (_ & _ & _ & _ & [_ LF] & _).
    assert (ks1 = []) by (destruct ks1 as [|x ks1]; [reflexivity | inversion LF as [|? ? (key & [] & _) _]]).
    subst ks1. apply LKd_eq. cbn [set_data n_data n_kids]. split; [reflexivity | constructor].
  - split; [exact HL1|]. intros n' E. inversion E; subst n'.
    destruct (n_data root1) as [[|e1 l1]|[|e1 es1]] eqn:Ed'; [now left | right | congruence | right]; apply NEd_eq; rewrite Ed';
      (split; [unfold dlen, llen; cbn [length]; lia | exact HN1]).
Qed.

Lemma BInv_root_Inv : forall h d s b n, BInv h d s b -> b_rootn b = Some n -> Inv h d false None None n.
Proof. intros h d s b n H E. unfold BInv in H. rewrite E in H. apply H. Qed.

(* a root that is an empty leaf or non-empty all the way down, under [BInv], is [root_ready] for every [keep]
   that contains the pages named in the overlay *)
Theorem shape_root_ready : forall h d s b n keep, BInv h d s b -> BLK b -> b_rootn b = Some n ->
  (n_data n = Leaves [] \/ NEd n) -> incl (npages h d n) keep -> root_ready d keep n.
Proof.
  intros h d s b n keep HB HK E Hsh Hk. destruct Hsh as [Hsh | Hsh]; [now left | right].
  unfold BLK in HK. rewrite E in HK.
  eapply Inv_spill_ready; eauto. eapply BInv_root_Inv; eauto.
Qed.

Theorem merge_nodes_root_ready : forall h d s b l b' s',
  BInv h d s b -> BLK b -> BucketView d h b l -> merge_nodes d b s = Ok (b', s') ->
  exists h', h' <= h /\ BInv h' d s' b' /\ BucketView d h' b' l /\ BLK b' /\
    forall n' keep, b_rootn b' = Some n' -> incl (npages h' d n') keep -> root_ready d keep n'.
Proof.
  intros h d s b l b' s' HB HK HV H.
  destruct (merge_nodes_view _ _ _ _ _ _ _ HB HV H) as ((h' & Hle & HB' & HV') & _).
  destruct (merge_nodes_shape _ _ _ _ _ _ _ HB HK HV H) as [HK' Hsh].
  exists h'. repeat (split; [assumption|]). intros n' keep E Hk. eapply shape_root_ready; eauto.
Qed.

(** ** [rebalance]: every bucket that spill will visit is ready *)

(* the state of the bucket tree before rebalance: [Deep] of EngineRebalanceFacts with the shape fact [BLK] in every bucket *)
Fixpoint LDeep (f : nat) (d : disk) (s : txs) (b : bucket) (v : bview) : Prop :=
  match f with O => False | S f' =>
    match v with BV l vs =>
      BGood d s b l /\ BLK b /\
      Forall2 (fun x y => fst x = fst y /\ LDeep f' d s (snd x) (snd y)) (b_subs b) vs
    end end.

(* a bucket whose root, if loaded, can be spilled: for every [keep] containing the pages the overlay names *)
Definition BReady (d : disk) (s : txs) (b : bucket) (l : list leafent) : Prop :=
  exists h, h <= fuel0 /\ BInv h d s b /\ BucketView d h b l /\ BLK b /\
    forall n keep, b_rootn b = Some n -> incl (npages h d n) keep -> root_ready d keep n.

(* ... for every bucket [spill_bucket] visits: it stops at a bucket that is not dirty *)
Fixpoint RDeep (f : nat) (d : disk) (s : txs) (b : bucket) (v : bview) : Prop :=
  match f with O => False | S f' =>
    match v with BV l vs =>
      is_dirty fuel0 b = true ->
      BReady d s b l /\ Forall2 (fun x y => fst x = fst y /\ RDeep f' d s (snd x) (snd y)) (b_subs b) vs
    end end.

Lemma SDeepF_LDeep : forall f d s b, SDeepF f d s b -> exists v, LDeep f d s b v.
Proof.
  induction f as [|f IH]; intros d s b H; [destruct H|]. cbn [SDeepF] in H.
  destruct H as (h & l & (Hh & HB & _ & HK & HV) & (_ & H2 & _)).
  assert (Hvs : exists vs, Forall2 (fun x y => fst x = fst y /\ LDeep f d s (snd x) (snd y)) (b_subs b) vs).
  { induction H2 as [|x subs [_ Hx] _ [vs Hvs]]; [exists []; constructor|].
    destruct (IH _ _ _ Hx) as [v Hv]. exists ((fst x, v) :: vs). constructor; [split; [reflexivity | exact Hv] | exact Hvs]. }
  destruct Hvs as [vs Hvs]. exists (BV l vs). cbn [LDeep]. split; [exists h; auto|]. split; [exact HK | exact Hvs].
Qed.

Lemma LDeep_Deep : forall f d s b v, LDeep f d s b v -> Deep f d s b v.
Proof.
  induction f as [|f IH]; intros d s b [l vs] H; [destruct H|]. cbn [LDeep Deep] in *. destruct H as (A & _ & C).
  split; [exact A|]. eapply Forall2_impl; [|exact C]. cbn beta. intros x y [E Hd]. split; [exact E | now apply IH].
Qed.

Lemma LDeep_seqc_mono : forall f d s s' b v, (seqc s <= seqc s')%N -> LDeep f d s b v -> LDeep f d s' b v.
Proof.
  induction f as [|f IH]; intros d s s' b [l vs] Hle H; [exact H|]. cbn [LDeep] in *. destruct H as (A & B & C).
  split; [eapply BGood_seqc_mono; eauto|]. split; [exact B|].
  eapply Forall2_impl; [|exact C]. cbn beta. intros x y [E Hd]. split; [exact E | eapply IH; eauto].
Qed.

Lemma BReady_seqc_mono : forall d s s' b l, (seqc s <= seqc s')%N -> BReady d s b l -> BReady d s' b l.
Proof.
  intros d s s' b l Hle (h & A & B & C). exists h. split; [exact A|]. split; [eapply BInv_seqc_mono; eauto | exact C].
Qed.

Lemma RDeep_seqc_mono : forall f d s s' b v, (seqc s <= seqc s')%N -> RDeep f d s b v -> RDeep f d s' b v.
Proof.
  induction f as [|f IH]; intros d s s' b [l vs] Hle H; [exact H|]. cbn [RDeep] in *. intros Hd.
  destruct (H Hd) as [A C]. split; [eapply BReady_seqc_mono; eauto|].
  eapply Forall2_impl; [|exact C]. cbn beta. intros x y [E Hx]. split; [exact E | eapply IH; eauto].
Qed.

Definition lsub_rel (f : nat) (d : disk) (s : txs) (x : bytes * bucket) (y : bytes * bview) : Prop :=
  fst x = fst y /\ LDeep f d s (snd x) (snd y).
Definition rsub_rel (f : nat) (d : disk) (s : txs) (x : bytes * bucket) (y : bytes * bview) : Prop :=
  fst x = fst y /\ RDeep f d s (snd x) (snd y).

Definition RBR_IH (f : nat) : Prop :=
  forall fv d s b v b' s', LDeep fv d s b v -> rebalance f d b s = Ok (b', s') ->
    RDeep fv d s' b' v /\ tx_frame s s'.

Theorem rebalance_ready : forall f, RBR_IH f.
Proof.
  induction f as [|f IH]; intros fv d s b v b' s' HD H; [discriminate|].
  destruct fv as [|fv]; [destruct HD|]. destruct v as [l vs]. cbn [LDeep] in HD. destruct HD as (HG & HK & HS).
  rewrite rebalance_S in H. destruct (negb (is_dirty fuel0 b)) eqn:Edirty.
  { inversion H; subst. split; [|apply tx_frame_refl]. cbn [RDeep]. intros Hd. rewrite Hd in Edirty. discriminate. }
  apply bind_ok_inv in H. destruct H as ([subs' s1] & Ef & H).
  destruct (reb_fold_F2 f d (lsub_rel fv d) (rsub_rel fv d)) with (subs := b_subs b) (vs := vs) (s := s) (subs' := subs') (s1 := s1)
    as [R1 R2]; [| | |exact HS | exact Ef|].
  { intros s0 s0' x y Hle [E Ha]. split; [exact E | eapply LDeep_seqc_mono; eauto]. }
  { intros s0 s0' x y Hle [E Ha]. split; [exact E | eapply RDeep_seqc_mono; eauto]. }
  { intros s0 x y bx sx [Exy Hxy] Ex. destruct (IH fv d s0 (snd x) (snd y) bx sx Hxy Ex) as (Dx & Tx).
    split; [exact Tx | split; [exact Exy | exact Dx]]. }
  pose proof (tx_frame_le _ _ R2) as Hle1.
  destruct (BGood_seqc_mono _ _ _ _ _ Hle1 HG) as (h & Hh & HB & HV).
  set (b0 := Bucket (b_root_page b) (b_next b) true (b_rootn b) subs') in *.
  assert (HB0 : BInv h d s1 b0) by exact HB. assert (HV0 : BucketView d h b0 l) by exact HV.
  assert (HK0 : BLK b0) by exact HK.
  destruct (merge_nodes_view h d s1 b0 l b' s' HB0 HV0 H) as (_ & _ & _ & Es & _ & Tx).
  destruct (merge_nodes_root_ready h d s1 b0 l b' s' HB0 HK0 HV0 H) as (h' & Hle & HB' & HV' & HK' & Hrdy).
  pose proof (tx_frame_le _ _ Tx) as Hle2. cbn [b0 b_subs] in Es.
  split; [|eapply tx_frame_trans; eauto]. cbn [RDeep]. intros _. split.
  - exists h'. split; [lia|]. auto.
  - rewrite Es. eapply Forall2_impl; [|exact R1]. intros a b1 [E Ha]. split; [exact E | eapply RDeep_seqc_mono; eauto].
Qed.

(* the whole transaction up to and including rebalance *)
Theorem tx_rebalance_ready : forall st ops root' s' b1 s1, db_strict st ->
  tx_fold st ops (root_bucket st, begin_w st) = Ok (root', s') ->
  rebalance fuel0 (d_disk st) root' s' = Ok (b1, s1) ->
  exists fv v, Deep fv (d_disk st) s1 b1 v /\ RDeep fv (d_disk st) s1 b1 v /\ tx_frame s' s1 /\ b_next b1 = b_next root'.
Proof.
  intros st ops root' s' b1 s1 Hdb Hf Hr. destruct (tx_ops_SDeep' st ops root' s' Hdb Hf) as [f HD].
  destruct (SDeepF_LDeep _ _ _ _ HD) as [v Hv]. exists f, v.
  destruct (rebalance_view fuel0 f _ _ _ v _ _ (LDeep_Deep _ _ _ _ _ Hv) Hr) as (A & B & C).
  destruct (rebalance_ready fuel0 f _ _ _ v _ _ Hv Hr) as (D & _). auto.
Qed.

(** ** What a completed [run_tx] went through *)

(* a transaction that [run_tx] completes: its operations left an overlay that means [sem_tx ops (abs_db st)]
   (EnginePathFacts), that overlay satisfies [SDeep], rebalance succeeded on it, kept every view list (EngineRebalanceFacts)
   and left every bucket that spill visits ready *)
Theorem run_tx_rebalance_ready : forall st ops ord st', db_strict st -> Forall (op_ok (d_disk st)) ops ->
  run_tx st ops ord = Ok st' ->
  exists root' s' b1 s1 fv v,
    tx_fold st ops (root_bucket st, begin_w st) = Ok (root', s') /\
    ovl_wf (d_disk st) root' /\ OvlAbs (d_disk st) root' (sem_tx ops (abs_db st)) /\ tx_frees (begin_w st) s' /\
    SDeep (d_disk st) s' root' /\
    rebalance fuel0 (d_disk st) root' s' = Ok (b1, s1) /\
    Deep fv (d_disk st) s' root' v /\ Deep fv (d_disk st) s1 b1 v /\ RDeep fv (d_disk st) s1 b1 v /\
    tx_frame s' s1 /\ b_next b1 = b_next root'.
Proof.
  intros st ops ord st' Hdb Hok Hrun.
  destruct (ops_refine st ops (db_strict_pages_wf st Hdb) Hok) as (root' & s' & Hf & Hw & Ha & Hfr).
  rewrite run_tx_fold, Hf in Hrun. cbn [bind fst snd] in Hrun. unfold commit in Hrun.
  apply bind_ok_inv in Hrun. destruct Hrun as ([b1 s1] & Hr & _).
  destruct (tx_ops_SDeep' st ops root' s' Hdb Hf) as [f HD].
  destruct (SDeepF_LDeep _ _ _ _ HD) as [v Hv].
  destruct (rebalance_view fuel0 f _ _ _ v _ _ (LDeep_Deep _ _ _ _ _ Hv) Hr) as (A & B & C).
  destruct (rebalance_ready fuel0 f _ _ _ v _ _ Hv Hr) as (D & _).
  exists root', s', b1, s1, f, v. split; [exact Hf|]. split; [exact Hw|]. split; [exact Ha|]. split; [exact Hfr|].
  split; [exists f; exact HD|]. split; [exact Hr|]. split; [apply LDeep_Deep; exact Hv|]. auto.
Qed.

(** * Non-vacuity: a committed state with a nested bucket whose tree has two levels *)

Module Ex3.
Local Open Scope N_scope.
Definition ka : bytes := ["a"%byte]. Definition kb : bytes := ["b"%byte]. Definition kc : bytes := ["c"%byte].
Definition kd : bytes := ["d"%byte]. Definition ke : bytes := ["e"%byte]. Definition kf : bytes := ["f"%byte].
Definition kg : bytes := ["g"%byte]. Definition km : bytes := ["m"%byte]. Definition kn : bytes := ["n"%byte].
(* root bucket: page 3 = { a, n -> bucket (root 10, next 6) };  bucket n: branch 10 over leaves 11, 12, 13 *)
Definition ex3_disk : disk :=
  [ (3, {| ap_over := 0; ap_body := Leaves [LKv ka [x01]; LBk kn 10 6] |});
    (10, {| ap_over := 0; ap_body := Branches [(kb, 11); (kd, 12); (kf, 13)] |});
    (11, {| ap_over := 0; ap_body := Leaves [LKv kb [x01]; LKv kc [x02]] |});
    (12, {| ap_over := 0; ap_body := Leaves [LKv kd [x03]; LKv ke [x04]] |});
    (13, {| ap_over := 0; ap_body := Leaves [LKv kf [x05]; LKv kg [x06]] |}) ].
Definition ex3_db : db :=
  {| d_disk := ex3_disk; d_root := 3; d_next := 2; d_np := 14; d_fl := 2; d_fln := 1; d_flids := [];
     d_tx := 1; d_free := []; d_pending := []; d_psz := 4096 |}.

Ltac solve_inb := cbn [map fst lkey]; repeat match goal with
  | |- Forall _ [] => constructor
  | |- Forall _ (_ :: _) => constructor
  | |- inb _ _ _ => split; cbn; try exact I; try discriminate; try reflexivity
  end.
Ltac leaf_PInv := cbn [PInv]; eexists; split; [reflexivity|]; split; [reflexivity || exact I|]; cbn [ap_body];
  split; [reflexivity | solve_inb].

Example ex3_strict : db_strict ex3_db.
Proof.
  unfold db_strict. cbn [d_disk d_root ex3_db sbk].
  exists 1%nat, [LKv ka [x01]; LBk kn 10 6]. split; [unfold fuel0; lia|]. split; [leaf_PInv|].
  split; [cbn; constructor|]. split; [eapply PV_leaf; reflexivity|].
  constructor; [exact I|]. constructor; [|constructor].
  exists 2%nat, (concat [[LKv kb [x01]; LKv kc [x02]]; [LKv kd [x03]; LKv ke [x04]]; [LKv kf [x05]; LKv kg [x06]]]).
  split; [unfold fuel0; lia|]. split; [|split; [|split]].
  - cbn [PInv]. eexists. split; [reflexivity|]. split; [exact I|]. cbn [ap_body].
    split; [discriminate|]. split; [reflexivity|]. split; [repeat constructor; cbn; intuition (try discriminate; try lia)|].
    split; [solve_inb|]. cbn [map fst cbounds cbs nxt lo0].
    apply Forall2_cons; [|apply Forall2_cons; [|apply Forall2_cons; [|apply Forall2_nil]]]; cbn [fst snd]; leaf_PInv.
  - vm_compute. repeat constructor; cbn; intuition (try discriminate; try lia).
  - eapply PV_branch; [reflexivity | reflexivity |].
    apply Forall2_cons; [|apply Forall2_cons; [|apply Forall2_cons; [|apply Forall2_nil]]]; eapply PV_leaf; reflexivity.
  - cbn [concat app]. repeat constructor.
Qed.

(* delete n/e (leaf 12 is left with one entry: rebalance merges it into leaf 11), create bucket m with one key,
   delete and re-create a key of the root *)
Definition ex3_ops : list Engine.op := [Del [kn] ke; Put [km] kc [x07]; Del [] ka; Put [] ka [x08]].
Definition ex3_fold := Eval vm_compute in tx_fold ex3_db ex3_ops (root_bucket ex3_db, begin_w ex3_db).
Definition ex3_root' : bucket := match ex3_fold with Ok (r, _) => r | _ => root_bucket ex3_db end.
Definition ex3_s' : txs := match ex3_fold with Ok (_, s) => s | _ => begin_w ex3_db end.
Definition ex3_reb := Eval vm_compute in rebalance fuel0 ex3_disk ex3_root' ex3_s'.
Definition ex3_b1 : bucket := match ex3_reb with Ok (r, _) => r | _ => root_bucket ex3_db end.
Definition ex3_s1 : txs := match ex3_reb with Ok (_, s) => s | _ => begin_w ex3_db end.

Example ex3_fold_ok : tx_fold ex3_db ex3_ops (root_bucket ex3_db, begin_w ex3_db) = Ok (ex3_root', ex3_s').
Proof. vm_compute. reflexivity. Qed.
Example ex3_reb_ok : rebalance fuel0 (d_disk ex3_db) ex3_root' ex3_s' = Ok (ex3_b1, ex3_s1).
Proof. vm_compute. reflexivity. Qed.

(* the hypotheses of the theorems above hold here, and a merge really happened: the nested bucket n
   (opened, its root loaded, leaf 12 materialised and under-filled) comes out of rebalance with leaf 12 merged
   into the (newly materialised) leaf 11, which is its only kid and holds three entries *)
Example ex3_SDeep : SDeep ex3_disk ex3_s' ex3_root'.
Proof. exact (tx_ops_SDeep' ex3_db ex3_ops _ _ ex3_strict ex3_fold_ok). Qed.

Example ex3_ready : exists fv v, Deep fv ex3_disk ex3_s1 ex3_b1 v /\ RDeep fv ex3_disk ex3_s1 ex3_b1 v.
Proof.
  destruct (tx_rebalance_ready ex3_db ex3_ops _ _ _ _ ex3_strict ex3_fold_ok ex3_reb_ok) as (fv & v & A & B & _).
  eauto.
Qed.

Example ex3_merged :
  map fst (b_subs ex3_b1) = [kn; km] /\ is_dirty fuel0 ex3_b1 = true /\
  option_map (fun b => option_map (fun n => (n_data n, map (fun k => (n_page k, n_data k)) (n_kids n))) (b_rootn b))
             (sub_find kn (b_subs ex3_b1))
  = Some (Some (Branches [(kb, 11); (kf, 13)],
                [(11, Leaves [LKv kb [x01]; LKv kc [x02]; LKv kd [x03]])])).
Proof. vm_compute. repeat split; reflexivity. Qed.
End Ex3.

(* [Inv] alone does not give spill readiness: it says nothing about the kid list of a LEAF node, and
   [spill_ready] (hence [swf] / [spill_node], which would sort and spill such kids and then panic with
   "CANNOT INSERT BRANCH INTO A LEAF NODE") needs it empty.  The model never builds such a node -- [LKd] is preserved
   by [modify] ([modify_LKd]) and re-established by [rebalance_kids] ([rebalance_kids_shape]) -- which is why [LKd]
   is part of [SDeep]. *)
Example Inv_without_LKd_not_ready :
  let n := Node 0 0 None 1 (Leaves [LKv [] []]) [Node 0 0 None 2 (Leaves []) []] in
  RInv 1 [] {| free := []; pending := []; txid := 1; np := 4; psz := 4096; wr := []; flw := None; seqc := 3 |} false n /\
  NEd (Node 0 0 None 1 (Leaves [LKv [] []]) []) /\
  forall keep, ~ spill_ready [] keep None None n.
Proof.
  cbv zeta. split; [|split].
  - unfold RInv. split; [rewrite Inv_leaf_eq; split; [reflexivity | repeat constructor]|].
    split; [constructor|]. cbn [seqs flat_map app seqc].
    split; [repeat constructor; cbn; intuition (try discriminate; try lia) | repeat constructor; lia].
  - apply NEd_eq. cbn. split; [lia | constructor].
  - intros keep H. inversion H.
Qed.

Print Assumptions db_strict_pages_wf.
Print Assumptions init_db_strict.
Print Assumptions tx_step_SDeep.
Print Assumptions tx_fold_SDeep.
Print Assumptions tx_ops_SDeep.
Print Assumptions SDeep_Deep.
Print Assumptions rebalance_SDeep.
Print Assumptions tx_rebalance_view.
Print Assumptions Inv_spill_ready.
Print Assumptions rebalance_kids_shape.
Print Assumptions merge_nodes_root_ready.
Print Assumptions rebalance_ready.
Print Assumptions tx_rebalance_ready.
Print Assumptions run_tx_rebalance_ready.
Print Assumptions Ex3.ex3_strict.
Print Assumptions Ex3.ex3_ready.
Print Assumptions Ex3.ex3_merged.
Print Assumptions Inv_without_LKd_not_ready.
