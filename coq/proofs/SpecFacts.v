(* The reference database spec/Spec.v: a read-only transaction refuses every mutator; an operation that reports a
   refusal or a panic leaves its transaction as it was; nothing but a commit changes the committed state. *)
From Coq Require Import List NArith Bool.
From Jamm Require Import Bytes Spec.
Import ListNotations.

(* [o <> ODump] follows from [is_mutator o = true] *)
Lemma read_only_refused : forall t o, t_writable t = false -> is_mutator o = true -> o <> ODump ->
  step_op t o = (t, RErr ReadOnlyTx).
Proof.
  intros t o Hw Hm Hd. unfold step_op. destruct o; try discriminate; try congruence;
    cbn [is_mutator] in *; rewrite Hw; reflexivity.
Qed.

(* the results that report a refusal, a deleted-handle panic, an orphan handle or a malformed operation: the
   transaction is then left as it was *)
Definition quiet (r : result) : bool :=
  match r with RErr _ | RPanicDeleted | ROrphan | RBadOp => true | _ => false end.

Lemma quiet_no_change : forall t o t' r, step_op t o = (t', r) -> quiet r = true -> t' = t.
Proof.
  intros t o t' r H Q. unfold step_op in H.
  destruct o; try (inversion H; fail);
  repeat match type of H with
  | (if ?c then _ else _) = _ => destruct c
  | match ?x with _ => _ end = _ => destruct x
  | (_, _) = (_, _) => inversion H; clear H
  end; try reflexivity; subst; discriminate.
Qed.

Lemma error_no_change : forall t o t' e, step_op t o = (t', RErr e) -> t' = t.
Proof. intros t o t' e H. exact (quiet_no_change _ _ _ _ H eq_refl). Qed.

Lemma panic_no_change : forall t o t', step_op t o = (t', RPanicDeleted) -> t' = t.
Proof. intros t o t' H. exact (quiet_no_change _ _ _ _ H eq_refl). Qed.

Lemma drop_no_change : forall d t, d_committed (fst (step d (CDrop t))) = d_committed d.
Proof. reflexivity. Qed.
Lemma begin_no_change : forall d t w, d_committed (fst (step d (CBegin t w))) = d_committed d.
Proof. reflexivity. Qed.
Lemma op_no_commit_change : forall d t o, d_committed (fst (step d (COp t o))) = d_committed d.
Proof. intros. cbn [step]. destruct (tlookup t (d_txs d)); [destruct (step_op s o)|]; reflexivity. Qed.
Lemma ro_commit_refused : forall d t x, tlookup t (d_txs d) = Some x -> t_writable x = false ->
  step d (CCommit t) = (mkDb (d_committed d) (tremove t (d_txs d)), RErr ReadOnlyTx).
Proof. intros d t x H Hw. cbn [step]. rewrite H, Hw. reflexivity. Qed.
