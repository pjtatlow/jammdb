(* Panic freedom of whole transactions of the engine model.  Uniform depth ([db_depth]) is kept by the operations and
   by rebalance, and rebalance never panics (EngineDepth.v).  Here: the spill does not panic on the overlay that
   rebalance leaves.  Which [Err]s can occur is a property of the code alone, except "IncompatibleValue" of the parent
   update, which the invariants exclude; hence a transaction on a well-formed state of uniform depth ends in [Ok] or
   in [Err] "fuel" / "order oracle exhausted" / "order oracle names unknown bucket".
   That the spill re-establishes uniform depth (so that the result applies to histories), and that uniform depth is
   NEEDED (a [db_okz] state on which a transaction panics), is in EngineSpillDepth.v. *)
From Coq Require Import List NArith Bool Arith Lia ZifyN ZifyNat ZifyBool Permutation.
From Coq.Strings Require Import Byte.
From Jamm Require Spec.
From Jamm Require Import Bytes BytesFacts Tree Cursor SearchFacts Engine EngineAbs EngineFacts EngineMergeFacts.
From Jamm Require Import EngineModifyFacts EngineSpillFacts EnginePathFacts EngineBridgeFacts EngineRebalanceFacts.
From Jamm Require Import EngineTxInvFacts EngineSpillBucketFacts EngineRefines EngineOwnDefs EngineOwnSpill EngineAllocInv.
From Jamm Require Import EngineDepth.
Import ListNotations.
Import Coq.Strings.String.StringSyntax. Delimit Scope string_scope with string.
Local Open Scope list_scope. Local Open Scope nat_scope.
Set Warnings "-abstract-large-number".

(** * The tail of [spill_node] is total on non-empty data *)

Lemma first_key_total : forall dd, (0 < dlen dd)%N -> exists k, first_key dd = Ok k.
Proof.
  intros [[|e l]|[|e es]] H; cbn [dlen] in H; unfold llen in H; cbn [length] in H; try lia; cbn [first_key]; eauto.
Qed.

Lemma split_nonempty : forall s dd d0 rest, (0 < dlen dd)%N -> split s dd = (d0, rest) ->
  (0 < dlen d0)%N /\ Forall (fun x => (0 < dlen x)%N) rest.
Proof.
  intros s [l|es] d0 rest Hpos Hsp.
  - destruct (split_leaves s l) as (l0 & ls & E & Hcat & _ & _ & H2). rewrite E in Hsp. inversion Hsp; subst d0 rest.
    destruct ls as [|x ls].
    + cbn [concat] in Hcat. rewrite app_nil_r in Hcat. subst l0. split; [exact Hpos | constructor].
    + specialize (H2 ltac:(discriminate)). inversion H2 as [|? ? H0 Hr]; subst. split.
      * cbn [dlen]. unfold llen. lia.
      * apply Forall_forall. intros y Hy. apply in_map_iff in Hy. destruct Hy as (p & <- & Hp).
        rewrite Forall_forall in Hr. specialize (Hr p Hp). cbn [dlen]. unfold llen. lia.
  - destruct (split_branches s es) as (e0 & ess & E & Hcat & _ & _ & H2). rewrite E in Hsp. inversion Hsp; subst d0 rest.
    destruct ess as [|x ess].
    + cbn [concat] in Hcat. rewrite app_nil_r in Hcat. subst e0. split; [exact Hpos | constructor].
    + specialize (H2 ltac:(discriminate)). inversion H2 as [|? ? H0 Hr]; subst. split.
      * cbn [dlen]. unfold llen. lia.
      * apply Forall_forall. intros y Hy. apply in_map_iff in Hy. destruct Hy as (p & <- & Hp).
        rewrite Forall_forall in Hr. specialize (Hr p Hp). cbn [dlen]. unfold llen. lia.
Qed.

Lemma write_node_data : forall s n, n_data (fst (write_node s n)) = n_data n.
Proof.
  intros s n. unfold write_node. destruct (tx_allocate (free_node_page s n) (node_size n)) as [[p npg] s2].
  cbn [fst]. destruct n; reflexivity.
Qed.

Lemma sib_fold_total : forall rest acc, Forall (fun x => (0 < dlen x)%N) rest ->
  exists r, fold_res spill_sib_step rest acc = Ok r.
Proof.
  induction rest as [|dd rest IH]; intros [l s0] HF; cbn [fold_res]; [eauto|]. inversion HF; subst.
  unfold spill_sib_step at 1. destruct (first_key_total dd H1) as [fk ->]. cbn [bind].
  destruct (write_node s0 (Node 0 0 (Some fk) 0 dd [])) as [sn s']. cbn [bind]. apply IH. assumption.
Qed.

Theorem spill_tail_total : forall n d1 s1, (0 < dlen d1)%N -> exists r, spill_tail n d1 s1 = Ok r.
Proof.
  intros n d1 s1 Hpos. unfold spill_tail. destruct (split s1 d1) as [d0 rest] eqn:Esp.
  destruct (split_nonempty _ _ _ _ Hpos Esp) as [H0 Hr].
  pose proof (write_node_data s1 (set_kids (set_data n d0) [])) as E1.
  destruct (write_node s1 (set_kids (set_data n d0) [])) as [n1 s2]. cbn [fst] in E1.
  assert (E2 : forall x : node * txs, x = (match rest with [] => (n1, s2) | _ => write_node s2 n1 end) ->
               n_data (fst x) = d0).
  { intros x ->. destruct rest; [|rewrite write_node_data]; cbn [fst]; rewrite E1; destruct n; reflexivity. }
  destruct (match rest with [] => (n1, s2) | _ => write_node s2 n1 end) as [n2 s3]. specialize (E2 _ eq_refl). cbn [fst] in E2.
  destruct (sib_fold_total rest ([], s3) Hr) as [[sibs s4] ->]. cbn [bind]. rewrite E2.
  destruct (first_key_total d0 H0) as [fk0 ->]. cbn [bind]. eauto.
Qed.

(** * [spill_node] does not panic on an overlay node satisfying [swf] *)

Lemma swf_nonempty : forall fuel d keep lo hi n, swf fuel d keep lo hi n -> (0 < dlen (n_data n))%N.
Proof.
  intros fuel d keep lo hi n H. inversion H as [? ? ? ? ? ? l (Hne & _) | ? ? ? ? ? ? es kids (Hne & _)]; subst;
    cbn [n_data dlen]; unfold llen.
  - destruct l; [exfalso; apply Hne; reflexivity | cbn [length]; lia].
  - destruct es; [exfalso; apply Hne; reflexivity | cbn [length]; lia].
Qed.

Lemma kid_keys_total : forall kids, Forall (fun k => (0 < dlen (n_data k))%N) kids -> exists ks, kid_keys kids = Ok ks.
Proof.
  unfold kid_keys. intros kids.
  assert (G : forall acc : list (bytes * node), Forall (fun k => (0 < dlen (n_data k))%N) kids ->
    exists ks, fold_res (fun acc k => bind (first_key (n_data k)) (fun fk => Ok (acc ++ (fk, k) :: nil))) kids acc = Ok ks).
  { induction kids as [|k kids IH]; intros acc HF; cbn [fold_res]; [eauto|]. inversion HF; subst.
    destruct (first_key_total _ H1) as [fk ->]. cbn [bind]. apply IH. assumption. }
  apply G.
Qed.

Lemma kids_fold_no_panic : forall fuel d keep f lo hi es kids,
  (forall live lo hi n s msg, fresh_inv live s -> swf fuel d keep lo hi n -> spill_node f n s <> Panic msg) ->
  keys_ok lo hi (map fst es) -> NoDup (map snd es) -> NoDup (map n_page kids) ->
  (forall kd, In kd kids -> exists k, n_orig kd = Some k /\ In (k, n_page kd) es) ->
  (forall l h e kd, In (l, h, e) (chb lo hi es) -> find_kid (snd e) kids = Some kd -> swf fuel d keep l h kd) ->
  forall todo outs live s msg, fresh_inv live s ->
    NoDup (map n_page todo) -> (forall kd, In kd todo -> In kd kids) ->
    (forall kd, In kd todo -> find_out outs (n_page kd) = None) -> segs_ok lo hi es outs ->
    fold_res (spill_kid_step f) todo (Branches (flat_map (seg_of outs) es), s) <> Panic msg.
Proof.
  intros fuel d keep f lo hi es kids IHnp Hes Hnd_es Hnd_kids Horig Hkids.
  induction todo as [|kd todo IH]; intros outs live s msg Hfi Hnd Hsub Hnone Hsegs; cbn [fold_res]; [discriminate|].
  assert (Hkd : In kd kids) by (apply Hsub; now left).
  destruct (Horig kd Hkd) as (k & Eorig & Hin_es).
  destruct (kid_swf fuel d keep lo hi es kids Hnd_kids Hkids kd k Hkd Hin_es) as (l & h & Hchb & Hswf).
  destruct (spill_node f kd s) as [[[[ko [fk p]] sibs] sk]|m|e] eqn:Hsp.
  - destruct (spill_node_spec fuel d keep f _ _ _ _ _ _ _ _ _ _ Hfi Hswf Hsp) as (a1 & dd1 & g1 & [Hfr _ _] & _ & Eko & _).
    rewrite Eorig in Eko. subst ko.
    destruct (kid_step_eval f lo hi es Hes Hnd_es kd outs s k fk p sibs sk Hin_es (Hnone kd (or_introl eq_refl)) Hsegs)
      as [Hev Hsegs1]; [|exact Hsp|].
    { intros l' h' Hc.
      destruct (spill_node_spec fuel d keep f _ _ _ _ _ _ _ _ _ _ Hfi (Hkids l' h' _ kd Hc (find_kid_NoDup kids kd Hnd_kids Hkd)) Hsp)
        as (_ & _ & _ & _ & _ & _ & Hk & _). exact Hk. }
    rewrite Hev. cbn [bind]. inversion Hnd as [|? ? Hq_notin Hnd']; subst.
    apply (IH _ (a1 ++ live) sk msg (fr_fresh _ _ _ _ _ Hfr) Hnd'); [| |exact Hsegs1].
    + intros kd' Hk'. apply Hsub. now right.
    + intros kd' Hk'. rewrite find_out_cons. destruct (N.eqb_spec (n_page kd) (n_page kd')) as [E|E].
      * exfalso. apply Hq_notin. rewrite E. now apply in_map.
      * apply Hnone. now right.
  - unfold spill_kid_step at 1. rewrite Hsp. cbn [bind]. intros E. inversion E; subst m. exact (IHnp _ _ _ _ _ _ Hfi Hswf Hsp).
  - unfold spill_kid_step at 1. rewrite Hsp. discriminate.
Qed.

Theorem spill_node_no_panic : forall fuel d keep f live lo hi n s msg,
  fresh_inv live s -> swf fuel d keep lo hi n -> spill_node f n s <> Panic msg.
Proof.
  intros fuel d keep. induction f as [|f IHf]; intros live lo hi n s msg Hfi Hswf; [discriminate|].
  rewrite spill_node_unfold.
  inversion Hswf as [lo0 hi0 pg npg o sq l Hkeys | lo0 hi0 pg npg o sq es kids Hes Hnd_es Hnd_kids Horig Hkids Hstab];
    subst lo0 hi0 n.
  - cbn [n_kids n_data kid_keys fold_res bind isort_by map].
    destruct (spill_tail_total (Node pg npg o sq (Leaves l) []) (Leaves l) s) as [r ->]; [|discriminate].
    exact (swf_nonempty _ _ _ _ _ _ Hswf).
  - cbn [n_kids n_data].
    assert (Hkne : Forall (fun k => (0 < dlen (n_data k))%N) kids).
    { apply Forall_forall. intros kd Hkd. destruct (Horig kd Hkd) as (k & _ & Hin).
      destruct (kid_swf fuel d keep lo hi es kids Hnd_kids Hkids kd k Hkd Hin) as (l & h & _ & Hs).
      exact (swf_nonempty _ _ _ _ _ _ Hs). }
    destruct (kid_keys_total kids Hkne) as [ks Hkk]. rewrite Hkk. cbn [bind].
    destruct (kid_keys_todo kids ks Hkk Hnd_kids) as [Hperm Hndt].
    set (todo := map snd (isort_by fst ks)) in *.
    assert (E0 : es = flat_map (seg_of []) es) by (symmetry; apply flat_map_single).
    assert (Hsubt : forall kd, In kd todo -> In kd kids) by (intros kd Hk; apply (Permutation_in _ Hperm Hk)).
    pose proof (kids_fold_no_panic fuel d keep f lo hi es kids IHf Hes Hnd_es Hnd_kids Horig Hkids
                  todo [] live s msg Hfi Hndt Hsubt (fun _ _ => eq_refl) (segs_ok_nil lo hi es Hes)) as Hnp.
    rewrite <- E0 in Hnp.
    destruct (fold_res (spill_kid_step f) todo (Branches es, s)) as [[d1 s1]|m|e] eqn:Hfold; cbn [bind].
    2:{ intros E. apply Hnp. inversion E. reflexivity. }
    2:{ discriminate. }
    rewrite E0 in Hfold at 1.
    destruct (kids_fold_ind fuel d keep f lo hi es kids (spill_node_spec fuel d keep f) Hes Hnd_es Hnd_kids Horig Hkids
                (fun _ _ _ _ _ => True) (fun _ _ => I) ltac:(intros; exact I)
                todo [] live s d1 s1 Hfi Hndt Hsubt (fun _ _ => eq_refl) (segs_ok_nil lo hi es Hes) Hfold)
      as (outs & Ed1 & Hsegs & _).
    destruct (spill_tail_total (Node pg npg o sq (Branches es) kids) d1 s1) as [r ->]; [|discriminate].
    subst d1. cbn [dlen]. destruct Hes as (Hes_ne & _). destruct es as [|e0 es']; [exfalso; apply Hes_ne; reflexivity|].
    cbn [flat_map]. cbn [chb] in Hsegs.
    destruct (Hsegs _ _ e0 (or_introl eq_refl)) as (Hne0 & _).
    unfold llen. rewrite app_length. destruct (seg_of outs e0); [exfalso; apply Hne0; reflexivity | cbn [length]; lia].
Qed.

(** * [spill_root] *)

Definition spill_root_first (n : node) (s : txs) : res (spill_out * txs) :=
  match n_data n with
  | Leaves [] => let '(n1, s') := write_node s (set_kids n []) in Ok ((n_orig n, ([], n_page n1), []), s')
  | _ => spill_node fuel0 n s end.

Lemma spill_root_unfold : forall f n s,
  spill_root (S f) n s =
  bind (spill_root_first n s) (fun '(out, s1) =>
    let '(_, (fk, p), sibs) := out in
    match sibs with [] => Ok (p, s1) | _ => spill_root f (Node 0 0 (Some fk) 0 (Branches ((fk, p) :: sibs)) []) s1 end).
Proof. reflexivity. Qed.

(* the new root levels: a branch node without kids *)
Lemma root_loop_no_panic : forall f fk p sibs s msg,
  spill_root f (Node 0 0 (Some fk) 0 (Branches ((fk, p) :: sibs)) []) s <> Panic msg.
Proof.
  induction f as [|f IH]; intros fk p sibs s msg; [discriminate|]. rewrite spill_root_unfold.
  unfold spill_root_first. cbn [n_data]. change fuel0 with (S 63). rewrite spill_node_nokids by reflexivity.
  destruct (spill_tail_total (Node 0 0 (Some fk) 0 (Branches ((fk, p) :: sibs)) []) (Branches ((fk, p) :: sibs)) s)
    as [[[[o1 [fk1 p1]] sibs1] s1] E].
  { cbn [dlen]. unfold llen. cbn [length]. lia. }
  cbn [n_data] in *. rewrite E. cbn [bind]. destruct sibs1; [discriminate | apply IH].
Qed.

Theorem spill_root_no_panic : forall fuel d keep f live n s msg, fresh_inv live s ->
  (n_data n = Leaves [] \/ swf fuel d keep None None n) -> spill_root f n s <> Panic msg.
Proof.
  intros fuel d keep f live n s msg Hfi Hn. destruct f as [|f]; [discriminate|]. rewrite spill_root_unfold.
  assert (H1 : forall m, spill_root_first n s <> Panic m).
  { intros m. unfold spill_root_first. destruct Hn as [E|Hswf].
    - rewrite E. destruct (write_node s (set_kids n [])). discriminate.
    - pose proof (swf_nonempty _ _ _ _ _ _ Hswf) as Hpos. pose proof (spill_node_no_panic fuel d keep fuel0 live None None n s m Hfi Hswf) as Hnp.
      destruct (n_data n) as [[|e l]|es]; [cbn in Hpos; lia | exact Hnp | exact Hnp]. }
  destruct (spill_root_first n s) as [[[[o1 [fk1 p1]] sibs1] s1]|m|e] eqn:E; cbn [bind].
  - destruct sibs1; [discriminate | apply root_loop_no_panic].
  - exfalso. exact (H1 m eq_refl).
  - discriminate.
Qed.

(** * [spill_bucket] *)

Lemma meta_step_total : forall d keep h bb l s0 nm r nx r0 nx0,
  SRoot d keep h bb -> BucketView d h bb l -> h <= fuel0 -> In (LBk nm r0 nx0) l ->
  exists b' s', meta_step d (bb, s0) (nm, r, nx) = Ok (b', s').
Proof.
  intros d keep h bb l s0 nm r nx r0 nx0 HS HV Hh Hin.
  pose proof (SRoot_wf _ _ _ _ HS) as Hw. pose proof (bucket_view_sorted _ _ _ _ Hw HV) as Hs.
  unfold meta_step. rewrite (b_lookup_view d h bb l nm Hw HV Hh). cbn [bind].
  destruct (In_nth_error _ _ Hin) as [i Hi]. pose proof (alookup_nth l i _ Hs Hi) as Ha. cbn [lkey] in Ha.
  rewrite Ha. cbn [is_kv].
  destruct (b_modify_view d h bb l (OpIns (LBk nm r nx)) s0 Hw HV Hh) as (b2 & s2 & E2 & _). eauto.
Qed.

Lemma meta_fold_total : forall d keep h (ms : list meta) bb l s0,
  SRoot d keep h bb -> BucketView d h bb l -> h <= fuel0 -> NoDup (map m_name ms) ->
  (forall m, In m ms -> exists r0 nx0, In (LBk (m_name m) r0 nx0) l) ->
  exists r, fold_res (meta_step d) ms (bb, s0) = Ok r.
Proof.
  intros d keep h. induction ms as [|[[nm r] nx] ms IH]; intros bb l s0 HS HV Hh Hnd Hall; cbn [fold_res]; [eauto|].
  cbn [map] in Hnd. inversion Hnd as [|? ? Hni Hnd']; subst.
  destruct (Hall _ (or_introl eq_refl)) as (r0 & nx0 & Hin). cbn [m_name fst] in Hin.
  destruct (meta_step_total d keep h bb l s0 nm r nx r0 nx0 HS HV Hh Hin) as (b' & s' & Est). rewrite Est. cbn [bind].
  destruct (meta_step_replace d keep h bb l s0 nm r nx r0 nx0 b' s' HS HV Hh Hin Est) as (A1 & A2 & _).
  apply (IH b' _ s' A1 A2 Hh Hnd').
  intros m Hm. destruct (Hall m (or_intror Hm)) as (r1 & nx1 & Hin1). exists r1, nx1.
  apply (in_map (patch [(nm, r, nx)])) in Hin1. rewrite patch_other in Hin1; [exact Hin1|].
  cbn [lkey]. intros E. apply Hni. rewrite <- E. apply (in_map m_name _ _ Hm).
Qed.

(** ** Which [Err]s the spill can return *)

Definition fuel_err : String.string := "fuel"%string.
Definition ord_err1 : String.string := "order oracle exhausted"%string.
Definition ord_err2 : String.string := "order oracle names unknown bucket"%string.
Definition commit_errs (e : String.string) : Prop := e = fuel_err \/ e = ord_err1 \/ e = ord_err2.

(* [Ok], or an [Err] among the allowed ones; never a [Panic] *)
Definition okerr {A} (allowed : String.string -> Prop) (r : res A) : Prop :=
  match r with Ok _ => True | Panic _ => False | Err e => allowed e end.

Lemma okerr_intro : forall {A} (allowed : String.string -> Prop) (r : res A),
  (forall m, r <> Panic m) -> (forall e, r = Err e -> allowed e) -> okerr allowed r.
Proof. intros A allowed [a|m|e] H1 H2; cbn [okerr]; [exact I | exact (H1 m eq_refl) | exact (H2 e eq_refl)]. Qed.

Lemma first_key_not_err : forall dd e, first_key dd <> Err e.
Proof. intros [[|x l]|[|x es]] e; cbn [first_key]; discriminate. Qed.

Lemma insert_branch_not_err : forall es o br e, insert_branch es o br <> Err e.
Proof.
  intros es o br e. unfold insert_branch. destruct (bsearch (map fst es) _) as [[|] i]; destruct o; discriminate.
Qed.

Lemma fold_res_err : forall {A B} (step : A -> B -> res A) (allowed : String.string -> Prop) xs,
  (forall x a e, In x xs -> step a x = Err e -> allowed e) ->
  forall a0 e, fold_res step xs a0 = Err e -> allowed e.
Proof.
  intros A B step allowed xs Hstep a0 e H.
  change (rpost (fun _ : A => incl [] xs) (fun _ => True) allowed (Err e)). rewrite <- H.
  apply (fold_res_rpost step (fun rest _ => incl rest xs)); [|apply incl_refl].
  intros x rest a Hi. destruct (step a x) as [a1|m1|e1] eqn:E; cbn [rpost].
  - intros y Hy. apply Hi. now right.
  - exact I.
  - eapply Hstep; [apply Hi; now left | exact E].
Qed.

Lemma spill_tail_not_err : forall n d1 s1 e, spill_tail n d1 s1 <> Err e.
Proof.
  intros n d1 s1 e H. unfold spill_tail in H. destruct (split s1 d1) as [d0 rest].
  destruct (write_node s1 (set_kids (set_data n d0) [])) as [n1 s2].
  destruct (match rest with [] => (n1, s2) | _ => write_node s2 n1 end) as [n2 s3].
  destruct (fold_res spill_sib_step rest ([], s3)) as [[sibs s4]|m1|e1] eqn:Ef; cbn [bind] in H; [|discriminate|].
  - destruct (first_key (n_data n2)) as [fk| |e2] eqn:Ek; cbn [bind] in H; try discriminate.
    exact (first_key_not_err _ _ Ek).
  - apply (fold_res_err spill_sib_step (fun _ => False) rest) in Ef; [exact Ef|].
    intros dd [l s0] e2 _ E. unfold spill_sib_step in E.
    destruct (first_key dd) as [fk| |e3] eqn:Ek; cbn [bind] in E; [|discriminate|exact (first_key_not_err _ _ Ek)].
    destruct (write_node s0 (Node 0 0 (Some fk) 0 dd [])). discriminate.
Qed.

Theorem spill_node_err : forall f n s e, spill_node f n s = Err e -> e = fuel_err.
Proof.
  induction f as [|f IH]; intros n s e H; [inversion H; reflexivity|]. rewrite spill_node_unfold in H.
  destruct (kid_keys (n_kids n)) as [ks|m1|e1] eqn:Ek; cbn [bind] in H; [|discriminate|].
  2:{ exfalso. unfold kid_keys in Ek. apply (fold_res_err _ (fun _ => False)) in Ek; [exact Ek|].
      intros k a e2 _ E. destruct (first_key (n_data k)) as [fk| |e3] eqn:Ef; cbn [bind] in E; try discriminate.
      exact (first_key_not_err _ _ Ef). }
  destruct (fold_res (spill_kid_step f) (map snd (isort_by fst ks)) (n_data n, s)) as [[d1 s1]|m1|e1] eqn:Ef; cbn [bind] in H;
    [exfalso; exact (spill_tail_not_err _ _ _ _ H) | discriminate |].
  inversion H; subst e1. apply (fold_res_err _ (fun e => e = fuel_err)) in Ef; [exact Ef|].
  intros k [dd s0] e2 _ E. unfold spill_kid_step in E.
  destruct (spill_node f k s0) as [[[[ko kb] sibs] sk]|m2|e3] eqn:Es; cbn [bind] in E; [|discriminate|].
  2:{ inversion E; subst e3. exact (IH _ _ _ Es). }
  destruct dd as [l|es]; [discriminate|].
  destruct (insert_branch es ko kb) as [es1|m3|e4] eqn:Ei; cbn [bind] in E; [|discriminate|exfalso; exact (insert_branch_not_err _ _ _ _ Ei)].
  destruct (fold_res (fun e0 sb => insert_branch e0 None sb) sibs es1) as [es2|m4|e5] eqn:Ei2; cbn [bind] in E; try discriminate.
  exfalso. apply (fold_res_err _ (fun _ => False)) in Ei2; [exact Ei2|].
  intros sb a e6 _ E6. exact (insert_branch_not_err _ _ _ _ E6).
Qed.

Theorem spill_root_err : forall f n s e, spill_root f n s = Err e -> e = fuel_err.
Proof.
  induction f as [|f IH]; intros n s e H; [inversion H; reflexivity|]. rewrite spill_root_unfold in H.
  destruct (spill_root_first n s) as [[[[o1 [fk1 p1]] sibs1] s1]|m|e1] eqn:E; cbn [bind] in H; [|discriminate|].
  - destruct sibs1; [discriminate | exact (IH _ _ _ H)].
  - inversion H; subst e1. unfold spill_root_first in E.
    destruct (n_data n) as [[|x l]|es]; [destruct (write_node s (set_kids n [])); discriminate | |]; exact (spill_node_err _ _ _ _ E).
Qed.

Definition SBOK (d : disk) (keep : list N) (rec : bucket -> txs -> list bytes -> res (N * N * txs * list bytes)) : Prop :=
  forall live b s ord m, fresh_inv live s -> (forall x, In x keep -> In x live) -> unwritten keep s ->
    SReady d keep b -> OvlAbs d b m -> okerr commit_errs (rec b s ord).

Lemma okerr_fold_res : forall {A B} (step : A -> B -> res A) (Iv : A -> Prop) (allowed : String.string -> Prop) xs,
  (forall x a, In x xs -> Iv a -> (forall a', step a x = Ok a' -> Iv a') /\ okerr allowed (step a x)) ->
  forall a0, Iv a0 -> okerr allowed (fold_res step xs a0).
Proof.
  intros A B step Iv allowed. induction xs as [|x xs IH]; intros Hstep a0 H0; cbn [fold_res]; [exact I|].
  destruct (Hstep x a0 (or_introl eq_refl) H0) as [S1 S2]. destruct (step a0 x) as [a1|m1|e1]; cbn [bind].
  - apply IH; [intros y a Hy; apply Hstep; now right | now apply S1].
  - exact S2.
  - exact S2.
Qed.

Lemma sub_step_ok : forall d keep live s subs rec, SBOK d keep rec ->
  fresh_inv live s -> (forall x, In x keep -> In x live) -> unwritten keep s ->
  (forall nm sb, In (nm, sb) subs -> SReady d keep sb /\ exists ms, OvlAbs d sb ms) ->
  forall x acc, SubInv subs (SubsMean d live s subs) acc -> okerr commit_errs (sub_step rec acc x).
Proof.
  intros d keep live s subs rec HR Hfi Hk Hu Hsubs x [[[l s0] o] remaining] HI.
  unfold sub_step. destruct o as [|nm o']; [right; left; reflexivity|].
  destruct (take_sub nm remaining) as [[sb rem']|] eqn:Et; [|right; right; reflexivity].
  destruct (take_sub_inv _ _ _ _ Et) as (a & b & Erem & ->).
  destruct HI as (_ & I2 & _ & _ & _ & _ & A & D & Hfr & _).
  assert (Hin_rem : In (nm, sb) remaining) by (rewrite Erem; apply in_or_app; right; now left).
  destruct (Hsubs nm sb (I2 _ Hin_rem)) as [HS [ms Hms]].
  assert (Hk' : forall x, In x keep -> In x (A ++ live)) by (intros y Hy; apply in_or_app; right; apply Hk, Hy).
  pose proof (HR (A ++ live) sb s0 o' ms (fr_fresh _ _ _ _ _ Hfr) Hk'
                 (frame_unwritten _ _ _ _ _ keep Hfi Hfr Hk Hu) HS Hms) as Hok.
  destruct (rec sb s0 o') as [[[[r nx] s'] o'']|m|e]; cbn [bind okerr] in *; [exact I | exact Hok | exact Hok].
Qed.

Lemma SBOK_step : forall d keep f, SBOK d keep (spill_bucket f d) -> SBOK d keep (spill_bucket (S f) d).
Proof.
  intros d keep f HR live b s ord m Hfi Hk Hu HS HO.
  destruct (is_dirty fuel0 b) eqn:Ed; [|rewrite (spill_bucket_clean _ _ _ _ _ Ed); exact I].
  destruct (SReady_dirty_inv d keep b m HS HO Ed) as (h & l & ents & Hh & HV & HD & Hnd & Hsubs & _).
  rewrite spill_bucket_unfold, Ed. cbn [negb].
  pose proof (fun nm sb Hin => proj2 (Hsubs nm sb Hin)) as Hsubs'.
  assert (Hstep : forall ms s0 nm sb o r nx s' o', In (nm, sb) (b_subs b) -> ~ In nm (map m_name ms) ->
            SubsMean d live s (b_subs b) ms s0 -> spill_bucket f d sb s0 o = Ok (r, nx, s', o') ->
            SubsMean d live s (b_subs b) (ms ++ [(nm, r, nx)]) s').
  { intros ms s0 nm sb o r nx s' o' Hin _.
    exact (sub_step_meaning d keep live s (b_subs b) _ (RecOK_all d keep f) Hfi Hk Hu Hsubs' ms s0 nm sb o r nx s' o' Hin). }
  assert (HP0 : SubsMean d live s (b_subs b) [] s) by (exists [], []; split; [now apply frame_refl | constructor]).
  pose proof (okerr_fold_res (sub_step (spill_bucket f d)) (SubInv (b_subs b) (SubsMean d live s (b_subs b))) commit_errs (b_subs b)) as Hok1.
  specialize (Hok1 (fun x acc _ HI => conj
     (fun acc' E => proj1 (sub_step_inv _ _ _ Hstep x acc acc' HI E))
     (sub_step_ok d keep live s (b_subs b) _ HR Hfi Hk Hu Hsubs' x acc HI)) _ (SubInv_start _ _ s ord Hnd HP0)).
  destruct (fold_res (sub_step (spill_bucket f d)) (b_subs b) ([], s, ord, b_subs b)) as [[[[metas s1] ord1] rem]|m1|e1] eqn:Hf1;
    cbn [bind]; [|exact Hok1|exact Hok1].
  destruct (sub_fold_inv _ _ _ Hstep _ _ _ _ _ _ Hnd HP0 Hf1) as (_ & J3 & _ & Hmem & A & D & Hfr & _).
  assert (Hall : forall mt, In mt metas -> exists r0 nx0, In (LBk (m_name mt) r0 nx0) l).
  { intros mt Hmt. destruct (Hmem mt Hmt) as [sb Hsb]. exact (proj1 (Hsubs _ _ Hsb)). }
  destruct (dirty_root_cases d keep h b metas HD Hmem) as [[Ern ->] | [HSR _]].
  - cbn [fold_res bind]. unfold spill_tail_b. rewrite Ern. exact I.
  - destruct (meta_fold_total d keep h metas b l s1 HSR HV Hh J3 Hall) as [[b1 s2] Hf2]. rewrite Hf2. cbn [bind].
    destruct (meta_fold_replace d keep h metas b l s1 b1 s2 HSR HV Hh J3 Hall Hf2) as (B1 & B2 & _ & _ & _ & B6).
    unfold spill_tail_b. destruct (b_rootn b1) as [rn|] eqn:Ern; [|exact I].
    unfold SRoot in B1. rewrite Ern in B1. destruct B1 as [HI HRd]. unfold BucketView in B2. rewrite Ern in B2.
    pose proof (frame_seqc_r _ _ _ _ _ _ Hfr B6) as Hfr2. pose proof (fr_fresh _ _ _ _ _ Hfr2) as Hfi2.
    pose proof (root_ready_swf d keep h rn _ (Inv_wf_node _ _ _ _ _ HI) B2 (Inv_RRdy_root_ready _ _ _ _ HI HRd)) as Hsw.
    pose proof (spill_root_no_panic h d keep fuel0 (A ++ live) rn s2) as Hnp3.
    pose proof (spill_root_err fuel0 rn s2) as Herr3.
    destruct (spill_root fuel0 rn s2) as [[p s3]|m3|e3]; cbn [bind okerr].
    + exact I.
    + exact (Hnp3 m3 Hfi2 Hsw eq_refl).
    + left. exact (Herr3 e3 eq_refl).
Qed.

(* spilling the bucket tree that rebalance leaves: [Ok], or out of fuel, or the oracle [ord] is not an order of
   the opened dirty sub-buckets *)
Theorem spill_bucket_ok : forall f d keep live b s ord m,
  fresh_inv live s -> (forall x, In x keep -> In x live) -> (forall x, In x keep -> wr_get (wr s) x = None) ->
  SReady d keep b -> OvlAbs d b m -> okerr commit_errs (spill_bucket f d b s ord).
Proof.
  intros f d keep.
  assert (G : SBOK d keep (spill_bucket f d)).
  { induction f as [|f IH]; [intros live b s ord m _ _ _ _ _; left; reflexivity | now apply SBOK_step]. }
  intros live b s ord m Hfi Hk Hu HS HO. exact (G live b s ord m Hfi Hk Hu HS HO).
Qed.

Corollary spill_bucket_no_panic : forall f d keep live b s ord m msg,
  fresh_inv live s -> (forall x, In x keep -> In x live) -> (forall x, In x keep -> wr_get (wr s) x = None) ->
  SReady d keep b -> OvlAbs d b m -> spill_bucket f d b s ord <> Panic msg.
Proof.
  intros f d keep live b s ord m msg Hfi Hk Hu HS HO E.
  pose proof (spill_bucket_ok f d keep live b s ord m Hfi Hk Hu HS HO) as H. rewrite E in H. exact H.
Qed.

(** * Which [Err]s rebalance can return: only the model's fuel *)

Theorem rebalance_kids_err : forall fuel d n s e, rebalance_kids fuel d n s = Err e -> e = fuel_err.
Proof.
  induction fuel as [|f IH]; intros d n s e H; [inversion H; reflexivity|]. rewrite rebalance_kids_S in H.
  apply (fold_res_err _ (fun e => e = fuel_err)) in H; [exact H|].
  intros x [n0 s0] e0 _ E. cbn [rk_body] in E.
  destruct (find (fun k => N.eqb (n_seq k) x) (n_kids n0)) as [k|]; [|discriminate].
  destruct (if is_leaf (n_data k) then Ok (k, s0) else rebalance_kids f d k s0) as [[k1 s1]|m1|e1] eqn:Ek; cbn [bind] in E.
  - exfalso. exact (try_merge_not_err _ _ _ _ _ E).
  - discriminate.
  - inversion E; subst e1. destruct (is_leaf (n_data k)); [discriminate | exact (IH _ _ _ _ Ek)].
Qed.

Theorem merge_nodes_err : forall d b s e, merge_nodes d b s = Err e -> e = fuel_err.
Proof.
  intros d b s e H. rewrite merge_nodes_unfold in H. pose proof (ensure_root_cases d b s) as Cr.
  destruct (ensure_root d b s) as [[root s0]|m1|e1] eqn:Er; cbn [bind] in H; [|discriminate|destruct Cr].
  destruct (if is_leaf (n_data root) then Ok (root, s0) else rebalance_kids fuel0 d root s0) as [[root1 s1]|m1|e1] eqn:E1;
    cbn [bind] in H.
  - destruct (mn_tail_total b root1 s1) as (b2 & s2 & E & _). rewrite E in H. discriminate.
  - discriminate.
  - inversion H; subst e1. destruct (is_leaf (n_data root)); [discriminate | exact (rebalance_kids_err _ _ _ _ _ E1)].
Qed.

Theorem rebalance_err : forall f d b s e, rebalance f d b s = Err e -> e = fuel_err.
Proof.
  induction f as [|f IH]; intros d b s e H; [inversion H; reflexivity|]. rewrite rebalance_S in H.
  destruct (negb (is_dirty fuel0 b)); [discriminate|].
  destruct (fold_res (reb_body f d) (b_subs b) ([], s)) as [[subs' s1]|m1|e1] eqn:Ef; cbn [bind] in H.
  - exact (merge_nodes_err _ _ _ _ H).
  - discriminate.
  - inversion H; subst e1. apply (fold_res_err _ (fun e => e = fuel_err)) in Ef; [exact Ef|].
    intros x [l s0] e0 _ E. cbn [reb_body] in E.
    destruct (rebalance f d (snd x) s0) as [[bx sx]|m2|e2] eqn:Ex; cbn [bind] in E; try discriminate.
    inversion E; subst e2. exact (IH _ _ _ _ Ex).
Qed.

(** * [commit] and [run_tx] *)

Theorem run_tx_ok : forall st ops ord, db_ok st -> dget (d_disk st) 0%N = None -> db_depth st ->
  Forall (op_ok (d_disk st)) ops -> okerr commit_errs (run_tx st ops ord).
Proof.
  intros st ops ord [Hdb [R HA]] Hz Hdd Hops.
  destruct (ops_refine st ops (db_strict_pages_wf st Hdb) Hops) as (root' & s' & Hf & _ & Ha & Hfr).
  rewrite run_tx_fold, Hf. cbn [bind fst snd]. rewrite commit_apply_wr. unfold commit_with_apply_wr.
  destruct (tx_ops_SDeep' st ops root' s' Hdb Hf) as [f HD].
  destruct (SDeepF_LDeep _ _ _ _ HD) as [v Hv]. pose proof (LDeep_Deep _ _ _ _ _ Hv) as HDeep.
  pose proof (tx_ops_DD st ops root' s' Hdb Hdd Hz Hf) as HDD.
  pose proof (fun m => rebalance_no_panic' fuel0 f (d_disk st) s' root' v m HDeep HDD) as Hnp. pose proof (rebalance_err fuel0 (d_disk st) root' s') as Herr.
  destruct (rebalance fuel0 (d_disk st) root' s') as [[b1 s1]|m1|e1] eqn:Hr; cbn [bind okerr].
  2:{ exact (Hnp m1 eq_refl). }
  2:{ left. exact (Herr e1 eq_refl). }
  destruct (rebalanced_ready st R ops root' s' b1 s1 _ Hdb HA Hf Ha Hfr Hr) as (Hfi & Hwr & HS & HO).
  assert (Hk : forall x, In x R -> In x (live_of st R)) by (intros x Hx; now apply R_live).
  assert (Hu : forall x, In x R -> wr_get (wr s1) x = None) by (intros x _; rewrite Hwr; reflexivity).
  pose proof (spill_bucket_ok fuel0 (d_disk st) R (live_of st R) b1 s1 ord _ Hfi Hk Hu HS HO) as Hsp.
  destruct (spill_bucket fuel0 (d_disk st) b1 s1 ord) as [[[[r nx] s2] ord']|m2|e2]; cbn [bind okerr] in *; [|exact Hsp|exact Hsp].
  cbv zeta. destruct (tx_allocate _ _) as [[flp fln] s4]. exact I.
Qed.

Theorem run_tx_no_panic : forall st ops ord msg, db_okz st -> db_depth st ->
  Forall (op_ok (d_disk st)) ops -> run_tx st ops ord <> Panic msg.
Proof.
  intros st ops ord msg [Hok Hz] Hdd Hops E.
  pose proof (run_tx_ok st ops ord (db_ok'_db_ok st Hok) Hz Hdd Hops) as H. rewrite E in H. exact H.
Qed.

(* a transaction ends in [Ok] or in one of three [Err]s: the model's own fuel, or the order oracle [ord] is not a
   spill order of the opened dirty sub-buckets *)
Theorem run_tx_result : forall st ops ord, db_okz st -> db_depth st -> Forall (op_ok (d_disk st)) ops ->
  (exists st', run_tx st ops ord = Ok st') \/ run_tx st ops ord = Err fuel_err \/
  run_tx st ops ord = Err ord_err1 \/ run_tx st ops ord = Err ord_err2.
Proof.
  intros st ops ord [Hok Hz] Hdd Hops.
  pose proof (run_tx_ok st ops ord (db_ok'_db_ok st Hok) Hz Hdd Hops) as H.
  destruct (run_tx st ops ord) as [st'|m|e]; cbn [okerr] in H; [left; eauto | destruct H |].
  right. destruct H as [-> | [-> | ->]]; auto.
Qed.

Print Assumptions spill_node_no_panic.
Print Assumptions spill_root_no_panic.
Print Assumptions spill_bucket_ok.
Print Assumptions run_tx_ok.
Print Assumptions run_tx_no_panic.
Print Assumptions run_tx_result.
