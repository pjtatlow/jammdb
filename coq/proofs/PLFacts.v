(* The page-lifecycle machine of model/PL.v: its boolean set helpers reflected into In / NoDup / incl,
   PLInv preserved by every accepted event, and from that the page-level statements quoted by
   props/C02, C03, C05, C06, C10, C12.
   Page ids range over [2, np): pages 0 and 1 are the two header slots and are never live, free or pending. *)
From Coq Require Import List NArith Bool Lia ZifyN ZifyBool.
From Jamm Require Import ListFacts PL.
Import ListNotations.
Local Open Scope list_scope. Local Open Scope N_scope.

Arguments N.add : simpl never. Arguments N.sub : simpl never. Arguments N.min : simpl never.
Arguments N.ltb : simpl never. Arguments N.leb : simpl never. Arguments N.eqb : simpl never.

Lemma memN_In x l : memN x l = true <-> In x l.
Proof.
  unfold memN. rewrite existsb_exists. split.
  - intros [y [Hy He]]. apply N.eqb_eq in He. subst. exact Hy.
  - intros H. exists x. split; [exact H | apply N.eqb_refl].
Qed.

Lemma memN_false x l : memN x l = false <-> ~ In x l.
Proof.
  rewrite <- memN_In. destruct (memN x l); intuition congruence.
Qed.

Lemma negb_memN x l : negb (memN x l) = true <-> ~ In x l.
Proof. rewrite negb_true_iff. apply memN_false. Qed.

Lemma subsetN_incl a b : subsetN a b = true <-> incl a b.
Proof.
  unfold subsetN, incl. rewrite forallb_forall. split; intros H x Hx.
  - apply memN_In. apply H. exact Hx.
  - apply memN_In. apply H. exact Hx.
Qed.

Lemma disjointN_spec a b : disjointN a b = true <-> (forall x, In x a -> ~ In x b).
Proof.
  unfold disjointN. rewrite forallb_forall. split; intros H x Hx.
  - apply negb_memN. apply H. exact Hx.
  - apply negb_memN. apply H. exact Hx.
Qed.

Lemma diffN_In x a b : In x (diffN a b) <-> In x a /\ ~ In x b.
Proof. unfold diffN. rewrite filter_In. rewrite negb_memN. reflexivity. Qed.

Lemma nodupN_NoDup l : nodupN l = true <-> NoDup l.
Proof.
  induction l as [|x l IH]; cbn [nodupN].
  - split; intros; [constructor | reflexivity].
  - rewrite andb_true_iff, negb_memN, IH. split.
    + intros [H1 H2]. constructor; assumption.
    + intros H. inversion H; subst. split; assumption.
Qed.

Lemma seteqN_spec a b : seteqN a b = true <-> (forall x, In x a <-> In x b).
Proof.
  unfold seteqN. rewrite andb_true_iff, !subsetN_incl. unfold incl. split.
  - intros [H1 H2] x. split; auto.
  - intros H. split; intros x; apply H.
Qed.

Lemma seteqN_incl a b : seteqN a b = true <-> incl a b /\ incl b a.
Proof. unfold seteqN. rewrite andb_true_iff, !subsetN_incl. reflexivity. Qed.

(* the local fixpoint of rangeN, named *)
Fixpoint range_go (n : nat) (x : N) : list N :=
  match n with O => [] | S n' => x :: range_go n' (x + 1) end.

Lemma rangeN_go lo hi : rangeN lo hi = range_go (N.to_nat (hi - lo)) lo.
Proof. reflexivity. Qed.

Lemma range_go_In n : forall lo x, In x (range_go n lo) <-> lo <= x < lo + N.of_nat n.
Proof.
  induction n as [|n IH]; intros lo x; cbn [range_go In].
  - split; [tauto | lia].
  - rewrite IH. lia.
Qed.

Lemma range_go_NoDup n : forall lo, NoDup (range_go n lo).
Proof.
  induction n as [|n IH]; intros lo; cbn [range_go]; constructor.
  - rewrite range_go_In. lia.
  - apply IH.
Qed.

Lemma rangeN_In x lo hi : In x (rangeN lo hi) <-> lo <= x < hi.
Proof. rewrite rangeN_go, range_go_In. lia. Qed.

Lemma rangeN_NoDup lo hi : NoDup (rangeN lo hi).
Proof. rewrite rangeN_go. apply range_go_NoDup. Qed.

Lemma pend_all_In x (p : pending) : In x (pend_all p) <-> exists u ps, In (u, ps) p /\ In x ps.
Proof.
  unfold pend_all. rewrite in_flat_map. split.
  - intros [[u ps] [H1 H2]]. exists u, ps. split; assumption.
  - intros [u [ps [H1 H2]]]. exists (u, ps). split; assumption.
Qed.

Lemma pend_lt_In x t (p : pending) :
  In x (pend_lt t p) <-> exists u ps, In (u, ps) p /\ u < t /\ In x ps.
Proof.
  unfold pend_lt. rewrite in_flat_map. split.
  - intros [[u ps] [H1 H2]]. apply filter_In in H1. destruct H1 as [H1 H3]. cbn [fst snd] in *.
    exists u, ps. split; [exact H1 | split; [lia | exact H2]].
  - intros [u [ps [H1 [H2 H3]]]]. exists (u, ps). split; [|exact H3].
    apply filter_In. split; [exact H1|]. cbn [fst]. lia.
Qed.

Lemma pend_ge_In u ps t (p : pending) : In (u, ps) (pend_ge t p) <-> In (u, ps) p /\ t <= u.
Proof.
  unfold pend_ge. rewrite filter_In. cbn [fst]. split; intros [H1 H2]; split; try exact H1; lia.
Qed.

Lemma pend_all_ge_In x t (p : pending) :
  In x (pend_all (pend_ge t p)) <-> exists u ps, In (u, ps) p /\ t <= u /\ In x ps.
Proof.
  rewrite pend_all_In. split.
  - intros [u [ps [H1 H2]]]. apply pend_ge_In in H1. destruct H1. exists u, ps. tauto.
  - intros [u [ps [H1 [H2 H3]]]]. exists u, ps. split; [apply pend_ge_In; tauto | exact H3].
Qed.

Lemma pend_lt_incl t p : incl (pend_lt t p) (pend_all p).
Proof.
  intros x H. apply pend_lt_In in H. destruct H as [u [ps [H1 [_ H2]]]].
  apply pend_all_In. exists u, ps. tauto.
Qed.

Lemma pend_all_ge_incl t p : incl (pend_all (pend_ge t p)) (pend_all p).
Proof.
  intros x H. apply pend_all_ge_In in H. destruct H as [u [ps [H1 [_ H2]]]].
  apply pend_all_In. exists u, ps. tauto.
Qed.

(* [pend_lt t p]: the pages a writer releases when [t] is the least registered reader id;
   [pend_ge t p]: the lists it keeps.  Every pending page is in one of the two ... *)
Lemma pend_split_In x t p :
  In x (pend_all p) <-> In x (pend_lt t p) \/ In x (pend_all (pend_ge t p)).
Proof.
  rewrite pend_all_In, pend_lt_In, pend_all_ge_In. split.
  - intros [u [ps [H1 H2]]]. destruct (N.ltb_spec u t); [left|right]; exists u, ps; tauto.
  - intros [[u [ps H]]|[u [ps H]]]; exists u, ps; tauto.
Qed.

(* ... and, [pend_all p] being duplicate-free, not in both (for any [flat_map] and [filter]) *)
Lemma NoDup_flat_map_filter {A B} (g : A -> list B) (f : A -> bool) (l : list A) :
  NoDup (flat_map g l) ->
  NoDup (flat_map g (filter f l)) /\
  (forall x, In x (flat_map g (filter f l)) -> ~ In x (flat_map g (filter (fun a => negb (f a)) l))).
Proof.
  induction l as [|a l IH]; cbn [flat_map filter]; intros H.
  - split; [constructor | intros x []].
  - apply NoDup_app_iff in H. destruct H as [Ha [Hl Hal]]. destruct (IH Hl) as [IH1 IH2].
    assert (Hsub : forall h x, In x (flat_map g (filter h l)) -> In x (flat_map g l)).
    { intros h x Hx. apply in_flat_map in Hx. destruct Hx as [y [Hy Hx]]. apply filter_In in Hy.
      apply in_flat_map. exists y. tauto. }
    destruct (f a); cbn [negb flat_map].
    + split.
      * apply NoDup_app_iff. split; [exact Ha | split; [exact IH1|]].
        intros x Hx Hx'. exact (Hal x Hx (Hsub _ _ Hx')).
      * intros x Hx Hx'. apply in_app_or in Hx. destruct Hx as [Hx|Hx].
        -- exact (Hal x Hx (Hsub _ _ Hx')).
        -- exact (IH2 x Hx Hx').
    + split; [exact IH1|]. intros x Hx Hx'. apply in_app_or in Hx'. destruct Hx' as [Hx'|Hx'].
      * exact (Hal x Hx' (Hsub _ _ Hx)).
      * exact (IH2 x Hx Hx').
Qed.

Lemma pend_lt_NoDup t p : NoDup (pend_all p) -> NoDup (pend_lt t p).
Proof. intros H. apply (NoDup_flat_map_filter snd (fun x => fst x <? t) p H). Qed.

Lemma pend_lt_ge_disjoint t p :
  NoDup (pend_all p) -> forall x, In x (pend_lt t p) -> ~ In x (pend_all (pend_ge t p)).
Proof. intros H. apply (NoDup_flat_map_filter snd (fun x => fst x <? t) p H). Qed.

Lemma pend_all_ge_NoDup t p : NoDup (pend_all p) -> NoDup (pend_all (pend_ge t p)).
Proof. intros H. apply (NoDup_flat_map_filter snd (fun x => negb (fst x <? t)) p H). Qed.

From Coq Require Import Permutation.
Lemma pend_split_perm t p :
  NoDup (pend_all p) -> Permutation (pend_all (pend_ge t p) ++ pend_lt t p) (pend_all p).
Proof.
  intros H. apply NoDup_Permutation.
  - apply NoDup_app_iff. split; [apply pend_all_ge_NoDup; exact H | split; [apply pend_lt_NoDup; exact H|]].
    intros x H1 H2. exact (pend_lt_ge_disjoint t p H x H2 H1).
  - exact H.
  - intros x. rewrite in_app_iff, (pend_split_In x t p). tauto.
Qed.

Lemma pend_all_app p q : pend_all (p ++ q) = pend_all p ++ pend_all q.
Proof. unfold pend_all. apply flat_map_app. Qed.

Lemma pend_all_snoc (p : pending) (t : N) (freed : list N) :
  pend_all (p ++ match freed with [] => [] | _ => [(t, freed)] end) = pend_all p ++ freed.
Proof.
  rewrite pend_all_app. f_equal. destruct freed; [reflexivity|].
  unfold pend_all. cbn [flat_map snd]. apply app_nil_r.
Qed.

Lemma In_snoc_pend (u : N) (ps : list N) (p : pending) (t : N) (freed : list N) :
  In (u, ps) (p ++ match freed with [] => [] | _ => [(t, freed)] end) ->
  In (u, ps) p \/ (u = t /\ ps = freed).
Proof.
  intros H. apply in_app_or in H. destruct H as [H|H]; [left; exact H|].
  destruct freed; [destruct H|]. destruct H as [H|[]]. inversion H; subst. right. split; reflexivity.
Qed.

Lemma fold_min_le (l : list (N * list N)) : forall t,
  fold_left (fun m r => N.min m (fst r)) l t <= t /\
  (forall r, In r l -> fold_left (fun m r => N.min m (fst r)) l t <= fst r).
Proof.
  induction l as [|a l IH]; intros t; cbn [fold_left].
  - split; [lia | intros r []].
  - destruct (IH (N.min t (fst a))) as [H1 H2]. split; [lia|].
    intros r [Hr|Hr]; [subst; lia | apply H2; exact Hr].
Qed.

Lemma min_reader_le_t s t : min_reader s t <= t.
Proof. unfold min_reader. apply fold_min_le. Qed.

Lemma min_reader_le_reader s t : forall r L, In (r, L) (readers s) -> min_reader s t <= r.
Proof. intros r L H. unfold min_reader. apply (proj2 (fold_min_le (readers s) t) (r, L) H). Qed.

Lemma min_reader_no_readers s t : readers s = [] -> min_reader s t = t.
Proof. intros H. unfold min_reader. rewrite H. reflexivity. Qed.

Lemma writer_view_eq s t f1 p1 :
  writer_view s = (t, f1, p1) ->
  t = tx s + 1 /\ f1 = free s ++ pend_lt (min_reader s t) (pend s) /\ p1 = pend_ge (min_reader s t) (pend s).
Proof. unfold writer_view. intros H. inversion H; subst. repeat split. Qed.

(* C10: a beginning writer frees exactly the pending lists whose key is below every registered reader
   id (and below its own id), and keeps the others *)
Theorem release_exact s t f1 p1 :
  writer_view s = (t, f1, p1) ->
  forall u ps, In (u, ps) (pend s) ->
    (u < min_reader s t -> incl ps f1) /\ (min_reader s t <= u -> In (u, ps) p1).
Proof.
  intros Hwv u ps Hin. apply writer_view_eq in Hwv. destruct Hwv as [Ht [Hf Hp]]. split.
  - intros Hu x Hx. rewrite Hf. apply in_or_app. right. apply pend_lt_In. exists u, ps. tauto.
  - intros Hu. rewrite Hp. apply pend_ge_In. tauto.
Qed.

Lemma filter_nil {A} (f : A -> bool) l : (forall x, In x l -> f x = false) -> filter f l = [].
Proof.
  induction l as [|a l IH]; intros H; cbn [filter]; [reflexivity|].
  rewrite (H a (or_introl eq_refl)). apply IH. intros x Hx. apply H. right. exact Hx.
Qed.

(* with no reader registered, a beginning writer releases every pending list *)
Theorem release_all_no_readers s t f1 p1 :
  PLInv s -> readers s = [] -> writer_view s = (t, f1, p1) ->
  p1 = [] /\ (forall x, In x f1 <-> In x (free s) \/ In x (pend_all (pend s))).
Proof.
  intros Hinv Hr Hwv. apply writer_view_eq in Hwv. destruct Hwv as [Ht [Hf Hp]].
  destruct Hinv as [_ [_ [_ [Hk _]]]]. rewrite (min_reader_no_readers s t Hr) in *.
  assert (Hp1 : p1 = []).
  { rewrite Hp. unfold pend_ge. apply filter_nil. intros [u ps] Hin. cbn [fst].
    specialize (Hk u ps Hin). lia. }
  split; [exact Hp1|]. intros x. rewrite Hf, in_app_iff, (pend_split_In x t (pend s)), <- Hp, Hp1.
  cbn. tauto.
Qed.

Record inv_facts (s : pl) : Prop := {
  if_np : 2 <= np s;
  if_nd_live : NoDup (live s);
  if_nd_free : NoDup (free s);
  if_nd_pend : NoDup (pend_all (pend s));
  if_live_free : forall x, In x (live s) -> ~ In x (free s);
  if_live_pend : forall x, In x (live s) -> ~ In x (pend_all (pend s));
  if_free_pend : forall x, In x (free s) -> ~ In x (pend_all (pend s));
  if_live_rng : forall x, In x (live s) -> 2 <= x < np s;
  if_free_rng : forall x, In x (free s) -> 2 <= x < np s;
  if_pend_rng : forall x, In x (pend_all (pend s)) -> 2 <= x < np s;
  if_cover : forall x, 2 <= x < np s -> In x (live s) \/ In x (free s) \/ In x (pend_all (pend s));
  if_keys : forall u ps, In (u, ps) (pend s) -> u <= tx s;
  if_readers : forall r L, In (r, L) (readers s) ->
      r <= tx s /\
      (forall x, In x L -> 2 <= x < np s) /\
      (forall x, In x L -> ~ In x (free s)) /\
      (forall u ps, In (u, ps) (pend s) -> u <= r -> forall x, In x L -> ~ In x ps)
}.

Lemma PLInv_facts s : PLInv s <-> inv_facts s.
Proof.
  unfold PLInv, all_pages. split.
  - intros [H1 [H2 [H3 [H4 H5]]]].
    apply NoDup_app_iff in H2. destruct H2 as [Ha [Hb Hab]].
    apply NoDup_app_iff in Hb. destruct Hb as [Hb [Hc Hbc]].
    constructor; try assumption.
    + intros x Hx Hx'. apply (Hab x Hx). apply in_or_app. left. exact Hx'.
    + intros x Hx Hx'. apply (Hab x Hx). apply in_or_app. right. exact Hx'.
    + intros x Hx. apply H3. apply in_or_app. left. exact Hx.
    + intros x Hx. apply H3. apply in_or_app. right. apply in_or_app. left. exact Hx.
    + intros x Hx. apply H3. apply in_or_app. right. apply in_or_app. right. exact Hx.
    + intros x Hx. apply H3 in Hx. rewrite !in_app_iff in Hx. exact Hx.
  - intros [ ]. split; [assumption|]. split; [|split; [|split; assumption]].
    + apply NoDup_app_iff. split; [assumption|]. split.
      * apply NoDup_app_iff. auto.
      * intros x Hx Hx'. apply in_app_or in Hx'. destruct Hx'; [eapply if_live_free0 | eapply if_live_pend0]; eauto.
    + intros x. rewrite !in_app_iff. split.
      * intros [H|[H|H]]; auto.
      * apply if_cover0.
Qed.

Theorem init_inv : PLInv init_pl.
Proof.
  unfold PLInv, all_pages, init_pl. cbn [np live free pend tx readers pend_all flat_map app].
  split; [lia|]. split; [|split; [|split]].
  - apply nodupN_NoDup. reflexivity.
  - intros x. cbn [In]. lia.
  - intros u ps [].
  - intros r L [].
Qed.
Print Assumptions init_inv.

Section View.
  Variable s : pl.
  Hypothesis Hinv : inv_facts s.
  Variables (t : N) (f1 : list N) (p1 : pending).
  Hypothesis Hwv : writer_view s = (t, f1, p1).

  Let m := min_reader s t.

  Lemma view_t : t = tx s + 1.
  Proof. apply writer_view_eq in Hwv. tauto. Qed.

  Lemma view_f1_In x : In x f1 <-> In x (free s) \/ In x (pend_lt m (pend s)).
  Proof. apply writer_view_eq in Hwv. destruct Hwv as [_ [-> _]]. apply in_app_iff. Qed.

  Lemma view_p1 : p1 = pend_ge m (pend s).
  Proof. apply writer_view_eq in Hwv. tauto. Qed.

  Lemma view_f1_old x : In x f1 -> In x (free s) \/ In x (pend_all (pend s)).
  Proof. rewrite view_f1_In. intros [H|H]; [left; exact H | right; exact (pend_lt_incl _ _ _ H)]. Qed.

  Lemma view_f1_rng x : In x f1 -> 2 <= x < np s.
  Proof. intros H. apply view_f1_old in H. destruct H; [apply (if_free_rng s Hinv) | apply (if_pend_rng s Hinv)]; assumption. Qed.

  Lemma view_f1_live x : In x f1 -> ~ In x (live s).
  Proof.
    intros H Hl. apply view_f1_old in H. destruct H; [eapply (if_live_free s Hinv) | eapply (if_live_pend s Hinv)]; eauto.
  Qed.

  Lemma view_p1_old x : In x (pend_all p1) -> In x (pend_all (pend s)).
  Proof. rewrite view_p1. apply pend_all_ge_incl. Qed.

  Lemma view_p1_sub u ps : In (u, ps) p1 -> In (u, ps) (pend s).
  Proof. rewrite view_p1. intros H. apply pend_ge_In in H. tauto. Qed.

  Lemma view_f1_p1 x : In x f1 -> ~ In x (pend_all p1).
  Proof.
    rewrite view_f1_In, view_p1. intros [H|H] H'.
    - exact (if_free_pend s Hinv x H (pend_all_ge_incl _ _ _ H')).
    - exact (pend_lt_ge_disjoint m (pend s) (if_nd_pend s Hinv) x H H').
  Qed.

  Lemma view_p1_NoDup : NoDup (pend_all p1).
  Proof. rewrite view_p1. apply pend_all_ge_NoDup. apply (if_nd_pend s Hinv). Qed.

  Lemma view_f1_NoDup : NoDup f1.
  Proof.
    apply writer_view_eq in Hwv. destruct Hwv as [_ [-> _]]. apply NoDup_app_iff.
    split; [apply (if_nd_free s Hinv) | split; [apply pend_lt_NoDup; apply (if_nd_pend s Hinv)|]].
    intros x H H'. exact (if_free_pend s Hinv x H (pend_lt_incl _ _ _ H')).
  Qed.

  Lemma view_cover x : In x (free s) \/ In x (pend_all (pend s)) -> In x f1 \/ In x (pend_all p1).
  Proof.
    rewrite view_f1_In, view_p1. intros [H|H]; [tauto|].
    apply (pend_split_In x m) in H. tauto.
  Qed.

  (* a registered reader's snapshot is disjoint from what the writer may reuse *)
  Lemma view_f1_reader r L : In (r, L) (readers s) -> forall x, In x L -> ~ In x f1.
  Proof.
    intros Hr x Hx Hf. destruct (if_readers s Hinv r L Hr) as [_ [_ [Hfree Hpend]]].
    apply view_f1_In in Hf. destruct Hf as [Hf|Hf]; [exact (Hfree x Hx Hf)|].
    apply pend_lt_In in Hf. destruct Hf as [u [ps [H1 [H2 H3]]]].
    assert (m <= r) by (apply (min_reader_le_reader s t r L Hr)).
    apply (Hpend u ps H1 ltac:(lia) x Hx H3).
  Qed.
End View.

Theorem pinned_retained s r L t f1 p1 :
  PLInv s -> In (r, L) (readers s) -> writer_view s = (t, f1, p1) -> forall x, In x L -> ~ In x f1.
Proof. intros Hinv Hr Hwv. apply PLInv_facts in Hinv. exact (view_f1_reader s Hinv t f1 p1 Hwv r L Hr). Qed.

Set Implicit Arguments.
Record commit_facts (s : pl) (w nf : list N) (npd : pending) (l' : list N) (np' tx' : N)
       (t : N) (f1 : list N) (p1 : pending) (alloc freed : list N) : Prop := {
  cf_alloc : forall x, In x alloc <-> (In x f1 /\ ~ In x nf) \/ np s <= x < np';
  cf_freed : freed = commit_freed t npd;
  cf_np : np s <= np';
  cf_tx : tx' = t;
  cf_nd_nf : NoDup nf;
  cf_nf_f1 : incl nf f1;
  cf_nd_freed : NoDup freed;
  cf_freed_sub : forall x, In x freed -> In x (live s) \/ In x alloc;
  cf_live'_sub : forall x, In x l' -> (In x (live s) /\ ~ In x freed) \/ In x alloc;
  cf_alloc_sub : forall x, In x alloc -> In x l' \/ In x freed;
  cf_written : incl w alloc;
  cf_kept : forall x, In x (live s) -> ~ In x freed -> In x l';
  cf_live'_freed : forall x, In x l' -> ~ In x freed;
  cf_nd_live' : NoDup l'
}.
Unset Implicit Arguments.

Lemma commit_ok_facts s w nf npd l' np' tx' t f1 p1 :
  writer_view s = (t, f1, p1) ->
  commit_ok s w nf npd l' np' tx' = true ->
  commit_facts s w nf npd l' np' tx' t f1 p1 (diffN f1 nf ++ rangeN (np s) np') (commit_freed t npd).
Proof.
  intros Hwv H. unfold commit_ok in H. rewrite Hwv in H.
  repeat (apply andb_prop in H; let H' := fresh "C" in destruct H as [H H']).
  constructor.
  - intros x. rewrite in_app_iff, diffN_In, rangeN_In. reflexivity.
  - reflexivity.
  - apply N.leb_le. assumption.
  - apply N.eqb_eq. assumption.
  - apply nodupN_NoDup. assumption.
  - apply subsetN_incl. assumption.
  - apply nodupN_NoDup. assumption.
  - intros x Hx. apply in_app_iff. revert x Hx. apply subsetN_incl. assumption.
  - intros x Hx. rewrite <- diffN_In. apply in_app_iff. revert x Hx. apply subsetN_incl. assumption.
  - intros x Hx. apply in_app_iff. revert x Hx. apply subsetN_incl. assumption.
  - apply subsetN_incl. assumption.
  - intros x Hx Hx'. assert (Hd : In x (diffN (live s) (commit_freed t npd))) by (apply diffN_In; tauto).
    clear Hx Hx'. revert x Hd. apply subsetN_incl. assumption.
  - apply disjointN_spec. assumption.
  - apply nodupN_NoDup. assumption.
Qed.

Lemma accept_commit_inv s w nf npd l' np' tx' s' :
  accept s (ECommit w nf npd l' np' tx') = Some s' ->
  exists t f1 p1,
    writer_view s = (t, f1, p1) /\
    commit_ok s w nf npd l' np' tx' = true /\
    s' = mkPl l' nf (p1 ++ match commit_freed t npd with [] => [] | _ => [(t, commit_freed t npd)] end)
              np' t (readers s).
Proof.
  cbn [accept]. destruct (commit_ok s w nf npd l' np' tx') eqn:Hok; [|discriminate].
  destruct (writer_view s) as [[t f1] p1] eqn:Hwv. intros H. inversion H; subst.
  exists t, f1, p1. repeat split.
Qed.

Lemma accept_commit_facts s w nf npd l' np' tx' s' :
  accept s (ECommit w nf npd l' np' tx') = Some s' ->
  exists t f1 p1,
    writer_view s = (t, f1, p1) /\
    commit_facts s w nf npd l' np' tx' t f1 p1 (diffN f1 nf ++ rangeN (np s) np') (commit_freed t npd) /\
    s' = mkPl l' nf (p1 ++ match commit_freed t npd with [] => [] | _ => [(t, commit_freed t npd)] end)
              np' t (readers s).
Proof.
  intros H. apply accept_commit_inv in H. destruct H as (t & f1 & p1 & Hwv & Hok & Hs').
  exists t, f1, p1. split; [exact Hwv|]. split; [exact (commit_ok_facts _ _ _ _ _ _ _ _ _ _ Hwv Hok) | exact Hs'].
Qed.

Section Commit.
  Variable s : pl.
  Hypothesis Hinv : inv_facts s.
  Variables (w nf : list N) (npd : pending) (l' : list N) (np' tx' : N).
  Variables (t : N) (f1 : list N) (p1 : pending) (alloc freed : list N).
  Hypothesis Hwv : writer_view s = (t, f1, p1).
  Hypothesis Hc : commit_facts s w nf npd l' np' tx' t f1 p1 alloc freed.

  Lemma alloc_not_live x : In x alloc -> ~ In x (live s).
  Proof.
    intros Ha Hl. apply (cf_alloc Hc) in Ha. destruct Ha as [[Ha _]|Ha].
    - exact (view_f1_live s Hinv t f1 p1 Hwv x Ha Hl).
    - apply (if_live_rng s Hinv) in Hl. lia.
  Qed.

  Lemma alloc_not_nf x : In x alloc -> ~ In x nf.
  Proof.
    intros Ha Hn. apply (cf_alloc Hc) in Ha. destruct Ha as [[_ Ha]|Ha]; [tauto|].
    apply (cf_nf_f1 Hc) in Hn. apply (view_f1_rng s Hinv t f1 p1 Hwv) in Hn. lia.
  Qed.

  Lemma alloc_not_p1 x : In x alloc -> ~ In x (pend_all p1).
  Proof.
    intros Ha Hp. apply (cf_alloc Hc) in Ha. destruct Ha as [[Ha _]|Ha].
    - exact (view_f1_p1 s Hinv t f1 p1 Hwv x Ha Hp).
    - apply (view_p1_old s t f1 p1 Hwv) in Hp. apply (if_pend_rng s Hinv) in Hp. lia.
  Qed.

  Lemma alloc_rng x : In x alloc -> 2 <= x < np'.
  Proof.
    intros Ha. pose proof (cf_np Hc). pose proof (if_np s Hinv).
    apply (cf_alloc Hc) in Ha. destruct Ha as [[Ha _]|Ha]; [|lia].
    apply (view_f1_rng s Hinv t f1 p1 Hwv) in Ha. lia.
  Qed.

  Lemma alloc_not_reader r L : In (r, L) (readers s) -> forall x, In x alloc -> ~ In x L.
  Proof.
    intros Hr x Ha HL. apply (cf_alloc Hc) in Ha. destruct Ha as [[Ha _]|Ha].
    - exact (view_f1_reader s Hinv t f1 p1 Hwv r L Hr x HL Ha).
    - destruct (if_readers s Hinv r L Hr) as [_ [Hrng _]]. apply Hrng in HL. lia.
  Qed.

  Lemma live_not_nf x : In x (live s) -> ~ In x nf.
  Proof. intros Hl Hn. apply (cf_nf_f1 Hc) in Hn. exact (view_f1_live s Hinv t f1 p1 Hwv x Hn Hl). Qed.

  Lemma live_not_p1 x : In x (live s) -> ~ In x (pend_all p1).
  Proof. intros Hl Hp. apply (view_p1_old s t f1 p1 Hwv) in Hp. exact (if_live_pend s Hinv x Hl Hp). Qed.

  Lemma nf_not_p1 x : In x nf -> ~ In x (pend_all p1).
  Proof. intros Hn. apply (cf_nf_f1 Hc) in Hn. exact (view_f1_p1 s Hinv t f1 p1 Hwv x Hn). Qed.

  Lemma commit_NoDup : NoDup (l' ++ nf ++ pend_all p1 ++ freed).
  Proof.
    apply NoDup_app_iff. split; [apply (cf_nd_live' Hc)|]. split.
    - apply NoDup_app_iff. split; [apply (cf_nd_nf Hc)|]. split.
      + apply NoDup_app_iff. split; [apply (view_p1_NoDup s Hinv t f1 p1 Hwv)|].
        split; [apply (cf_nd_freed Hc)|].
        intros x Hp Hf. apply (cf_freed_sub Hc) in Hf. destruct Hf as [Hf|Hf].
        * exact (live_not_p1 x Hf Hp).
        * exact (alloc_not_p1 x Hf Hp).
      + intros x Hn Hx. apply in_app_or in Hx. destruct Hx as [Hx|Hx].
        * exact (nf_not_p1 x Hn Hx).
        * apply (cf_freed_sub Hc) in Hx. destruct Hx as [Hx|Hx].
          -- exact (live_not_nf x Hx Hn).
          -- exact (alloc_not_nf x Hx Hn).
    - intros x Hl Hx. apply in_app_or in Hx. destruct Hx as [Hx|Hx]; [|apply in_app_or in Hx; destruct Hx as [Hx|Hx]].
      + apply (cf_live'_sub Hc) in Hl. destruct Hl as [[Hl _]|Hl].
        * exact (live_not_nf x Hl Hx).
        * exact (alloc_not_nf x Hl Hx).
      + apply (cf_live'_sub Hc) in Hl. destruct Hl as [[Hl _]|Hl].
        * exact (live_not_p1 x Hl Hx).
        * exact (alloc_not_p1 x Hl Hx).
      + exact (cf_live'_freed Hc x Hl Hx).
  Qed.

  Lemma commit_cover x : In x (l' ++ nf ++ pend_all p1 ++ freed) <-> 2 <= x < np'.
  Proof.
    pose proof (cf_np Hc) as Hnp. pose proof (if_np s Hinv) as Hnp2.
    rewrite !in_app_iff. split.
    - assert (Hlive : In x (live s) -> 2 <= x < np') by (intros H; apply (if_live_rng s Hinv) in H; lia).
      intros [H|[H|[H|H]]].
      + apply (cf_live'_sub Hc) in H. destruct H as [[H _]|H]; [auto | apply alloc_rng; exact H].
      + apply (cf_nf_f1 Hc) in H. apply (view_f1_rng s Hinv t f1 p1 Hwv) in H. lia.
      + apply (view_p1_old s t f1 p1 Hwv) in H. apply (if_pend_rng s Hinv) in H. lia.
      + apply (cf_freed_sub Hc) in H. destruct H as [H|H]; [auto | apply alloc_rng; exact H].
    - intros Hx.
      assert (Halloc : In x alloc -> In x l' \/ In x nf \/ In x (pend_all p1) \/ In x freed).
      { intros H. apply (cf_alloc_sub Hc) in H. tauto. }
      destruct (N.ltb_spec x (np s)) as [Hlt|Hge].
      + destruct (if_cover s Hinv x ltac:(lia)) as [H|H].
        * destruct (in_dec N.eq_dec x freed) as [Hf|Hf]; [tauto|].
          left. exact (cf_kept Hc x H Hf).
        * apply (view_cover s t f1 p1 Hwv) in H. destruct H as [H|H]; [|tauto].
          destruct (in_dec N.eq_dec x nf) as [Hn|Hn]; [tauto|].
          apply Halloc. apply (cf_alloc Hc). left. tauto.
      + apply Halloc. apply (cf_alloc Hc). right. lia.
  Qed.
End Commit.

(* PLInv mentions the registered readers in its last clause only *)
Lemma PLInv_readers s rs :
  PLInv s ->
  (forall r L, In (r, L) rs -> In (r, L) (readers s) \/ (r = tx s /\ L = live s)) ->
  PLInv (mkPl (live s) (free s) (pend s) (np s) (tx s) rs).
Proof.
  intros Hinv Hrs. pose proof (proj1 (PLInv_facts s) Hinv) as F.
  destruct Hinv as (H1 & H2 & H3 & H4 & H5). repeat (split; [assumption|]).
  intros r L Hr. destruct (Hrs r L Hr) as [Hr'|[-> ->]]; [exact (H5 r L Hr')|]. cbn [tx np free pend].
  split; [lia|]. split; [apply (if_live_rng s F)|]. split; [apply (if_live_free s F)|].
  intros u ps Hin _ x Hx Hps. apply (if_live_pend s F x Hx). apply pend_all_In. exists u, ps. tauto.
Qed.

Lemma accept_inv_BeginR s s' : PLInv s -> accept s EBeginR = Some s' -> PLInv s'.
Proof.
  intros Hinv H. inversion H; subst; clear H. apply (PLInv_readers s _ Hinv).
  intros r L [Hr|Hr]; [right; inversion Hr; auto | left; exact Hr].
Qed.

Lemma remove_reader_In snap : forall l l', remove_reader snap l = Some l' -> forall r, In r l' -> In r l.
Proof.
  induction l as [|a l IH]; intros l' H r Hr; cbn [remove_reader] in H; [discriminate|].
  destruct (fst a =? snap).
  - inversion H; subst. right. exact Hr.
  - destruct (remove_reader snap l) as [l''|] eqn:E; [|discriminate]. inversion H; subst.
    destruct Hr as [Hr|Hr]; [left; exact Hr | right; exact (IH l'' eq_refl r Hr)].
Qed.

Lemma accept_inv_EndR s snap s' : PLInv s -> accept s (EEndR snap) = Some s' -> PLInv s'.
Proof.
  intros Hinv H. cbn [accept] in H. destruct (remove_reader snap (readers s)) as [rs|] eqn:E; [|discriminate].
  inversion H; subst; clear H. apply (PLInv_readers s rs Hinv).
  intros r L Hr. left. exact (remove_reader_In snap _ _ E _ Hr).
Qed.

(* C06: a writer that begins, and one that rolls back, leave the shared state as it was *)
Theorem accept_BeginW_same s f p s' : accept s (EBeginW f p) = Some s' -> s' = s.
Proof.
  cbn [accept]. destruct (writer_view s) as [[t f1] p1].
  destruct (seteqN f f1 && nodupN f && pend_eq p p1); intros H; inversion H; reflexivity.
Qed.

Theorem accept_Rollback_same s : accept s ERollback = Some s.
Proof. reflexivity. Qed.

Lemma accept_inv_BeginW s f p s' : PLInv s -> accept s (EBeginW f p) = Some s' -> PLInv s'.
Proof. intros Hinv H. apply accept_BeginW_same in H. subst. exact Hinv. Qed.

Lemma accept_inv_Rollback s s' : PLInv s -> accept s ERollback = Some s' -> PLInv s'.
Proof. intros Hinv H. inversion H; subst. exact Hinv. Qed.

Lemma accept_reopen_inv s f s' :
  accept s (EReopen f) = Some s' ->
  (forall x, In x f <-> In x (free s) \/ In x (pend_all (pend s))) /\ NoDup f /\
  s' = mkPl (live s) f [] (np s) (tx s) [].
Proof.
  cbn [accept]. destruct (seteqN f (free s ++ pend_all (pend s)) && nodupN f) eqn:E; [|discriminate].
  apply andb_prop in E. destruct E as [E1 E2]. intros H. inversion H; subst; clear H.
  split; [|split; [apply nodupN_NoDup; exact E2 | reflexivity]].
  intros x. rewrite <- in_app_iff. apply seteqN_spec. exact E1.
Qed.

(* C10: open() loses no page: the loaded free list is the old free list plus everything pending *)
Theorem reopen_keeps s f s' :
  accept s (EReopen f) = Some s' -> forall x, In x (free s') <-> In x (free s) \/ In x (pend_all (pend s)).
Proof. intros H. apply accept_reopen_inv in H. destruct H as [H [_ ->]]. exact H. Qed.

Lemma accept_inv_Reopen s f s' : PLInv s -> accept s (EReopen f) = Some s' -> PLInv s'.
Proof.
  intros Hinv H. apply accept_reopen_inv in H. destruct H as [Hf [Hnd ->]].
  apply PLInv_facts in Hinv. apply PLInv_facts.
  constructor; cbn [live free pend np tx readers pend_all flat_map]; try apply Hinv.
  - exact Hnd.
  - constructor.
  - intros x Hl Hx. apply Hf in Hx. destruct Hx; [eapply (if_live_free s Hinv) | eapply (if_live_pend s Hinv)]; eauto.
  - intros x _ [].
  - intros x _ [].
  - intros x Hx. apply Hf in Hx. destruct Hx; [apply (if_free_rng s Hinv) | apply (if_pend_rng s Hinv)]; assumption.
  - intros x [].
  - intros x Hx. apply (if_cover s Hinv) in Hx. rewrite Hf. tauto.
  - intros u ps [].
  - intros r L [].
Qed.

Lemma accept_inv_Commit s w nf npd l' np' tx' s' :
  PLInv s -> accept s (ECommit w nf npd l' np' tx') = Some s' -> PLInv s'.
Proof.
  intros Hinv H. apply accept_commit_facts in H. destruct H as (t & f1 & p1 & Hwv & Hc & ->).
  apply PLInv_facts in Hinv.
  set (freed := commit_freed t npd) in *.
  unfold PLInv, all_pages. cbn [live free pend np tx readers]. rewrite pend_all_snoc.
  pose proof (view_t s t f1 p1 Hwv) as Ht.
  split; [|split; [|split; [|split]]].
  - pose proof (cf_np Hc). pose proof (if_np s Hinv). lia.
  - exact (commit_NoDup s Hinv _ _ _ _ _ _ _ _ _ _ _ Hwv Hc).
  - exact (commit_cover s Hinv _ _ _ _ _ _ _ _ _ _ _ Hwv Hc).
  - intros u ps Hin. apply In_snoc_pend in Hin. destruct Hin as [Hin|[-> _]]; [|lia].
    apply (view_p1_sub s t f1 p1 Hwv) in Hin. apply (if_keys s Hinv) in Hin. lia.
  - intros r L Hr. destruct (if_readers s Hinv r L Hr) as [R1 [R2 [R3 R4]]].
    split; [lia|]. split; [|split].
    + intros x Hx. apply R2 in Hx. pose proof (cf_np Hc). lia.
    + intros x Hx Hn. apply (cf_nf_f1 Hc) in Hn.
      exact (view_f1_reader s Hinv t f1 p1 Hwv r L Hr x Hx Hn).
    + intros u ps Hin Hur. apply In_snoc_pend in Hin. destruct Hin as [Hin|[-> _]]; [|lia].
      apply (view_p1_sub s t f1 p1 Hwv) in Hin. exact (R4 u ps Hin Hur).
Qed.

Theorem accept_inv : forall s e s', PLInv s -> accept s e = Some s' -> PLInv s'.
Proof.
  intros s e s' Hinv H. destruct e.
  - exact (accept_inv_BeginR s s' Hinv H).
  - exact (accept_inv_EndR s snap s' Hinv H).
  - exact (accept_inv_BeginW s obs_free obs_pend s' Hinv H).
  - exact (accept_inv_Commit s _ _ _ _ _ _ s' Hinv H).
  - exact (accept_inv_Rollback s s' Hinv H).
  - exact (accept_inv_Reopen s obs_free s' Hinv H).
Qed.
Print Assumptions accept_inv.

(* Induction along an accepted run.  [I] may mention the events still to come, so that a condition on
   the run (a [Forall], a condition threaded through the states) is carried by it; [Q] relates the two
   ends of the run. *)
Lemma accept_all_ind (I : pl -> list event -> Prop) (Q : pl -> pl -> Prop) :
  (forall s, Q s s) -> (forall a b c, Q a b -> Q b c -> Q a c) ->
  (forall s e es s', I s (e :: es) -> accept s e = Some s' -> I s' es /\ Q s s') ->
  forall es s s', I s es -> accept_all s es = Some s' -> I s' [] /\ Q s s'.
Proof.
  intros Hrefl Htrans Hstep. induction es as [|e es IH]; intros s s' HI H; cbn [accept_all] in H.
  - inversion H; subst. auto.
  - destruct (accept s e) as [s1|] eqn:E; [|discriminate].
    destruct (Hstep s e es s1 HI E) as [HI1 HQ1]. destruct (IH s1 s' HI1 H) as [HI' HQ']. eauto.
Qed.

Corollary accept_all_inv : forall es s s', PLInv s -> accept_all s es = Some s' -> PLInv s'.
Proof.
  intros es s s' Hinv H.
  apply (accept_all_ind (fun s _ => PLInv s) (fun _ _ => True)) with (es := es) (s := s); auto.
  intros s0 e _ s1 Hi Ha. split; [exact (accept_inv s0 e s1 Hi Ha) | exact I].
Qed.

Corollary reachable_inv : forall es s, accept_all init_pl es = Some s -> PLInv s.
Proof. intros es s H. exact (accept_all_inv es init_pl s init_inv H). Qed.
Print Assumptions accept_all_inv.
Print Assumptions reachable_inv.

(* C03 core: a registered reader's snapshot is never written *)

Theorem snapshot_never_written : forall s w nf npd l' np' tx' s',
  PLInv s -> accept s (ECommit w nf npd l' np' tx') = Some s' ->
  forall r L, In (r, L) (readers s) -> forall x, In x w -> ~ In x L.
Proof.
  intros s w nf npd l' np' tx' s' Hinv H r L Hr x Hx.
  apply accept_commit_facts in H. destruct H as (t & f1 & p1 & Hwv & Hc & _). apply PLInv_facts in Hinv.
  apply (cf_written Hc) in Hx.
  exact (alloc_not_reader s Hinv _ _ _ _ _ _ _ _ _ _ _ Hwv Hc r L Hr x Hx).
Qed.
Print Assumptions snapshot_never_written.

Theorem readers_Commit s w nf npd l' np' tx' s' :
  accept s (ECommit w nf npd l' np' tx') = Some s' -> readers s' = readers s.
Proof. intros H. apply accept_commit_inv in H. destruct H as [t [f1 [p1 [_ [_ ->]]]]]. reflexivity. Qed.

Theorem readers_BeginW s f p s' : accept s (EBeginW f p) = Some s' -> readers s' = readers s.
Proof. intros H. apply accept_BeginW_same in H. subst. reflexivity. Qed.

Theorem readers_Rollback s s' : accept s ERollback = Some s' -> readers s' = readers s.
Proof. intros H. inversion H. reflexivity. Qed.

(* after the commit the snapshot is still registered, hence (PLInv s') neither free nor released,
   and no page of it is in what the NEXT writer may reuse *)
Corollary snapshot_retained_after_commit s w nf npd l' np' tx' s' r L :
  PLInv s -> accept s (ECommit w nf npd l' np' tx') = Some s' -> In (r, L) (readers s) ->
  In (r, L) (readers s') /\
  (forall x, In x L -> ~ In x (free s')) /\
  (forall u ps, In (u, ps) (pend s') -> u <= r -> forall x, In x L -> ~ In x ps) /\
  (forall t f1 p1, writer_view s' = (t, f1, p1) -> forall x, In x L -> ~ In x f1).
Proof.
  intros Hinv H Hr. pose proof (accept_inv _ _ _ Hinv H) as Hinv'.
  assert (Hr' : In (r, L) (readers s')) by (rewrite (readers_Commit _ _ _ _ _ _ _ _ H); exact Hr).
  split; [exact Hr'|]. destruct Hinv' as [I1 [I2 [I3 [I4 I5]]]]. destruct (I5 r L Hr') as [_ [_ [A B]]].
  split; [exact A|]. split; [exact B|]. intros t f1 p1 Hwv.
  exact (pinned_retained s' r L t f1 p1 (conj I1 (conj I2 (conj I3 (conj I4 I5)))) Hr' Hwv).
Qed.

(* C02/C12 premise, copy-on-write: a commit writes no page that was live, and every page that was live
   stays live or goes to pending *)

Theorem commit_cow : forall s w nf npd l' np' tx' s',
  PLInv s -> accept s (ECommit w nf npd l' np' tx') = Some s' ->
  (forall x, In x w -> ~ In x (live s)) /\
  (forall x, In x (live s) -> In x (live s') \/ In x (pend_all (pend s'))).
Proof.
  intros s w nf npd l' np' tx' s' Hinv H.
  apply accept_commit_facts in H. destruct H as (t & f1 & p1 & Hwv & Hc & ->). apply PLInv_facts in Hinv.
  cbn [live pend]. rewrite pend_all_snoc. split.
  - intros x Hx. apply (cf_written Hc) in Hx.
    exact (alloc_not_live s Hinv _ _ _ _ _ _ _ _ _ _ _ Hwv Hc x Hx).
  - intros x Hx. destruct (in_dec N.eq_dec x (commit_freed t npd)) as [Hf|Hf].
    + right. apply in_or_app. right. exact Hf.
    + left. exact (cf_kept Hc x Hx Hf).
Qed.
Print Assumptions commit_cow.

(* sharper: the old live pages that leave the live set go to the pending list OF THIS commit,
   they are not free after it *)
Corollary commit_cow_not_free s w nf npd l' np' tx' s' :
  PLInv s -> accept s (ECommit w nf npd l' np' tx') = Some s' ->
  forall x, In x (live s) -> ~ In x (free s').
Proof.
  intros Hinv H x Hx. pose proof (accept_inv _ _ _ Hinv H) as Hinv'. apply PLInv_facts in Hinv'.
  destruct (proj2 (commit_cow _ _ _ _ _ _ _ _ Hinv H) x Hx) as [Hl|Hp].
  - exact (if_live_free s' Hinv' x Hl).
  - intros Hf. exact (if_free_pend s' Hinv' x Hf Hp).
Qed.

Theorem release_no_readers s t f1 p1 :
  PLInv s -> readers s = [] -> writer_view s = (t, f1, p1) -> p1 = [].
Proof. intros Hinv Hr Hwv. exact (proj1 (release_all_no_readers s t f1 p1 Hinv Hr Hwv)). Qed.
Print Assumptions accept_BeginW_same.
Print Assumptions accept_Rollback_same.
Print Assumptions snapshot_retained_after_commit.
Print Assumptions commit_cow_not_free.
Print Assumptions release_exact.
Print Assumptions release_all_no_readers.
Print Assumptions release_no_readers.
Print Assumptions reopen_keeps.
Print Assumptions pinned_retained.

(* C05: live / free / pending partition [2, np) *)

Theorem partition : forall s, PLInv s -> forall x, 2 <= x < np s ->
  (In x (live s) /\ ~ In x (free s) /\ ~ In x (pend_all (pend s))) \/
  (~ In x (live s) /\ In x (free s) /\ ~ In x (pend_all (pend s))) \/
  (~ In x (live s) /\ ~ In x (free s) /\ In x (pend_all (pend s))).
Proof.
  intros s Hinv x Hx. apply PLInv_facts in Hinv.
  pose proof (if_live_free s Hinv x). pose proof (if_live_pend s Hinv x). pose proof (if_free_pend s Hinv x).
  destruct (if_cover s Hinv x Hx) as [H'|[H'|H']]; tauto.
Qed.

Theorem partition_NoDup : forall s, PLInv s ->
  NoDup (live s) /\ NoDup (free s) /\ NoDup (pend_all (pend s)).
Proof. intros s Hinv. apply PLInv_facts in Hinv. destruct Hinv. auto. Qed.

Theorem partition_only : forall s, PLInv s -> forall x,
  In x (live s) \/ In x (free s) \/ In x (pend_all (pend s)) -> 2 <= x < np s.
Proof.
  intros s Hinv x Hx. apply PLInv_facts in Hinv.
  destruct Hx as [H|[H|H]]; [apply (if_live_rng s Hinv) | apply (if_free_rng s Hinv) | apply (if_pend_rng s Hinv)]; exact H.
Qed.
Print Assumptions partition.
Print Assumptions partition_NoDup.

(* non-vacuity *)

(* run1: tx 1 rewrites both initial pages (2, 3) into 4, 5 by growth and frees 2, 3; a reader
   registers snapshot 1; tx 2 cannot reuse 2, 3 yet (release frees pending[u] only for
   u < min reader id, and reader 1 is registered) and grows to 6, 7; a second reader registers
   snapshot 2 and the first one ends; tx 3 now gets [2; 3] released and reuses the freed page 2. *)
Definition run1 : list event :=
  [ EBeginW [] [];
    ECommit [4; 5] [] [(1, [2; 3])] [4; 5] 6 1;
    EBeginR;
    EBeginW [] [(1, [2; 3])];
    ECommit [6; 7] [] [(1, [2; 3]); (2, [4; 5])] [6; 7] 8 2;
    EBeginR;
    EEndR 1;
    EBeginW [2; 3] [(2, [4; 5])];
    ECommit [2] [3] [(2, [4; 5]); (3, [6])] [2; 7] 8 3 ].

Example run1_accepted :
  accept_all init_pl run1 = Some (mkPl [2; 7] [3] [(2, [4; 5]); (3, [6])] 8 3 [(2, [6; 7])]).
Proof. vm_compute. reflexivity. Qed.

Example run1_inv : PLInv (mkPl [2; 7] [3] [(2, [4; 5]); (3, [6])] 8 3 [(2, [6; 7])]).
Proof. exact (reachable_inv run1 _ run1_accepted). Qed.

(* run2, shorter: begin, commit 1, commit 2 (no reader: pending[1] = [2; 3] is released, page 2 is
   reused), a reader registers snapshot 2, commit 3 reuses the free page 3 and frees page 2 of the
   reader's snapshot into pending[3] (which stays pending while the reader is registered). *)
Definition run2 : list event :=
  [ EBeginW [] [];
    ECommit [4; 5] [] [(1, [2; 3])] [4; 5] 6 1;
    ECommit [6; 2] [3] [(2, [4; 5])] [6; 2] 7 2;
    EBeginR;
    ECommit [3] [] [(2, [4; 5]); (3, [2])] [6; 3] 7 3 ].

Example run2_accepted :
  accept_all init_pl run2 = Some (mkPl [6; 3] [] [(2, [4; 5]); (3, [2])] 7 3 [(2, [6; 2])]).
Proof. vm_compute. reflexivity. Qed.

(* state after tx 1 with a reader of snapshot 1 registered *)
Definition s_pinned : pl := mkPl [4; 5] [] [(1, [2; 3])] 6 1 [(1, [4; 5])].

Example s_pinned_reachable :
  accept_all init_pl [EBeginW [] []; ECommit [4; 5] [] [(1, [2; 3])] [4; 5] 6 1; EBeginR] = Some s_pinned.
Proof. vm_compute. reflexivity. Qed.

(* a commit that writes page 4 of the registered snapshot in place is rejected *)
Example write_into_snapshot_rejected :
  accept s_pinned (ECommit [4] [] [(1, [2; 3])] [4; 5] 6 2) = None.
Proof. vm_compute. reflexivity. Qed.

(* ... also when it pretends to have freed and re-allocated it *)
Example write_into_snapshot_rejected' :
  accept s_pinned (ECommit [4; 6] [] [(1, [2; 3]); (2, [4])] [4; 5; 6] 7 2) = None.
Proof. vm_compute. reflexivity. Qed.

(* the same commit without the in-place write is accepted *)
Example no_write_accepted :
  accept s_pinned (ECommit [6] [] [(1, [2; 3]); (2, [4])] [5; 6] 7 2)
  = Some (mkPl [5; 6] [] [(1, [2; 3]); (2, [4])] 7 2 [(1, [4; 5])]).
Proof. vm_compute. reflexivity. Qed.

(* a writer that observes pages of pending[1] released while reader 1 is registered is rejected
   (release must keep pending[u] for u >= min reader id) *)
Example early_release_rejected :
  accept s_pinned (EBeginW [2; 3] []) = None.
Proof. vm_compute. reflexivity. Qed.
