(* The global half of ConcEngine.conc_engine_snapshots, quoted by props/C09.v: no commit is lost. *)
From Coq Require Import List NArith.
From Jamm Require Bytes Engine EngineAbs EngineR EngineReadersInv Conc ConcEngine.
Import ListNotations.

Theorem conc_engine_no_lost_update : forall (ops_of : nat -> list Engine.op * list Bytes.bytes) (c0 : nat)
    (ts : list Conc.thread) (st0 : Engine.db) (sched : list nat) (h' : EngineR.hstate),
  Conc.initial_threads ts -> EngineReadersInv.db_okr st0 -> Engine.d_tx st0 = N.of_nat c0 ->
  let s0 := Conc.init c0 ts in
  let es := ConcEngine.project ops_of s0 ConcEngine.ghost0 sched in
  let s := Conc.run true s0 sched in
  ConcEngine.g_ok (st0, nil) es -> ConcEngine.run_g (st0, nil) es = Engine.Ok h' ->
  EngineReadersInv.db_okr (fst h') /\ Engine.d_tx (fst h') = N.of_nat (Conc.cur s) /\
  Conc.cur s = c0 + length (ConcEngine.txs_of es) /\
  EngineAbs.abs_db (fst h') = ConcEngine.sem_commits (ConcEngine.txs_of es) (EngineAbs.abs_db st0).
Proof.
  intros ops_of c0 ts st0 sched h' Hi Hok Htx s0 es s Hg Hr.
  exact (proj2 (proj2 (ConcEngine.conc_engine_snapshots ops_of c0 ts st0 sched h' Hi Hok Htx Hg Hr))).
Qed.
Print Assumptions conc_engine_no_lost_update.
