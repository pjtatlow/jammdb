(* The in-transaction, path-addressed operations of the write-path model [Engine] on the OVERLAY of nested buckets
   refine the functional semantics [EngineAbs.sem_at] / [sem_op] / [sem_tx].

   [cwf] / [CAbs]: a committed (on-disk) nested bucket is well formed / has the meaning [abs_bucket n ...];
   [OvlAbs d b m]: the overlay bucket [b] means [m]; [ovl_wf d b]: the matching well-formedness.  Each operation
   refines its reference under the contract [op_refines] ([delb_refines] under [free_tree_ok]), [at_path] carries
   the contract down a path ([at_path_refines]), and [ops_refine] is the fold inside [run_tx], for operations whose
   path is shorter than at_path's fuel 8: a path of 8 names has no effect in the model ([long_path_no_effect],
   [run_tx_refines_stmt_false]). *)
From Coq Require Import List NArith Bool Arith Lia ZifyN ZifyNat ZifyBool.
From Coq.Strings Require Import Byte.
From Jamm Require Import ListFacts Bytes Tree Spec Cursor SearchFacts Engine EngineMergeFacts EngineFacts EngineModifyFacts EngineAbs.
Import ListNotations.
Import Coq.Strings.String.StringSyntax. Delimit Scope string_scope with string.
Local Open Scope list_scope. Local Open Scope nat_scope.
Set Warnings "-abstract-large-number".

(** * Association lists *)

Lemma assoc_map_snd : forall l, map snd (assoc l) = l.
Proof. intros l. unfold assoc. rewrite map_map. cbn [kv_of snd]. apply map_id. Qed.

Lemma bcmp_eq_ne : forall a b, bcmp a b = Gt \/ bcmp a b = Lt -> a <> b.
Proof. intros a b H E. subst b. rewrite OrderFacts.bcmp_refl in H. destruct H; discriminate. Qed.

Lemma alookup_assoc_key : forall l k e, Spec.alookup k (assoc l) = Some e -> lkey e = k /\ In e l.
Proof.
  intros l k e H. apply alookup_In in H. unfold assoc in H. apply in_map_iff in H.
  destruct H as (e0 & E & Hin). unfold kv_of in E. inversion E; subst. auto.
Qed.

Lemma sorted_tail_ne : forall (l : list leafent) a k,
  sorted_keys (a :: map lkey l) = true -> bcmp k a <> Gt -> forall e, In e l -> lkey e <> k.
Proof.
  intros l a k Hs Hk e Hin E. destruct (sorted_keys_cons _ _ Hs) as [Hall _].
  rewrite Forall_forall in Hall. specialize (Hall (lkey e) (in_map lkey _ _ Hin)). rewrite E in Hall.
  apply Hk. now apply OrderFacts.bcmp_lt_gt.
Qed.

(* a relation between stored entries and reference entries that keeps the key *)
Section KeyedRel.
  Variables R1 R2 : leafent -> bytes * snode -> Prop.
  Hypothesis key1 : forall e kv, R1 e kv -> fst kv = lkey e.

  Lemma F2_alookup : forall l ents k, Forall2 R1 l ents ->
    match Spec.alookup k (assoc l) with
    | Some e => exists x, Spec.alookup k ents = Some x /\ R1 e (k, x)
    | None => Spec.alookup k ents = None
    end.
  Proof.
    intros l ents k HF. induction HF as [|e [k' x] l ents HR HF IH]; [reflexivity|].
    pose proof (key1 _ _ HR) as Hk. cbn [fst] in Hk. subst k'.
    change (assoc (e :: l)) with ((lkey e, e) :: assoc l). cbn [Spec.alookup].
    destruct (bcmp k (lkey e)) eqn:E.
    - apply bcmp_eq in E. subst k. eauto.
    - reflexivity.
    - exact IH.
  Qed.

  (* what [R1] gives of the entries whose key is not [k] carries over to [R2]: [Himp] below.  In a sorted list
     whose head [e] is not below [k] this is the whole tail; and it is the head itself unless its key is [k]. *)
  Lemma F2_tail : forall e l ents k, sorted_keys (lkey e :: map lkey l) = true -> bcmp k (lkey e) <> Gt ->
    Forall2 R1 l ents -> (forall e0 kv, In e0 (e :: l) -> lkey e0 <> k -> R1 e0 kv -> R2 e0 kv) -> Forall2 R2 l ents.
  Proof.
    intros e l ents k Hs Hk HF Himp. eapply Forall2_impl_in; [|exact HF]. intros e1 kv1 Hin H1.
    apply Himp; [now right | | exact H1]. exact (sorted_tail_ne _ _ _ Hs Hk _ Hin).
  Qed.

  Lemma F2_head : forall e (l : list leafent) kv k, bcmp k (lkey e) <> Eq -> R1 e kv ->
    (forall e0 kv, In e0 (e :: l) -> lkey e0 <> k -> R1 e0 kv -> R2 e0 kv) -> R2 e kv.
  Proof.
    intros e l kv k Hk HR Himp. apply Himp; [now left | | exact HR]. intros E. apply Hk. rewrite E. apply OrderFacts.bcmp_refl.
  Qed.

  Lemma F2_ainsert : forall l ents k e' x, sorted_keys (map lkey l) = true -> Forall2 R1 l ents ->
    (forall e kv, In e l -> lkey e <> k -> R1 e kv -> R2 e kv) -> R2 e' (k, x) ->
    Forall2 R2 (map snd (Spec.ainsert k e' (assoc l))) (Spec.ainsert k x ents).
  Proof.
    intros l ents k e' x Hs HF. induction HF as [|e [k0 x0] l ents HR HF IH]; intros Himp He'.
    - cbn. constructor; [exact He' | constructor].
    - pose proof (key1 _ _ HR) as Hk. cbn [fst] in Hk. subst k0.
      change (assoc (e :: l)) with ((lkey e, e) :: assoc l). cbn [Spec.ainsert]. cbn [map] in Hs.
      destruct (bcmp k (lkey e)) eqn:E; cbn [map snd]; rewrite ?assoc_map_snd.
      + constructor; [exact He'|]. apply (F2_tail e _ _ k); auto. rewrite E. discriminate.
      + constructor; [exact He'|]. constructor.
        * apply (F2_head e l _ k); auto. rewrite E. discriminate.
        * apply (F2_tail e _ _ k); auto. rewrite E. discriminate.
      + constructor.
        * apply (F2_head e l _ k); auto. rewrite E. discriminate.
        * apply IH; [eapply sorted_keys_tl; eauto | | exact He'].
          intros e1 kv1 Hin. apply Himp. now right.
  Qed.

  Lemma F2_aremove : forall l ents k, sorted_keys (map lkey l) = true -> Forall2 R1 l ents ->
    (forall e kv, In e l -> lkey e <> k -> R1 e kv -> R2 e kv) ->
    Forall2 R2 (map snd (Spec.aremove k (assoc l))) (Spec.aremove k ents).
  Proof.
    intros l ents k Hs HF. induction HF as [|e [k0 x0] l ents HR HF IH]; intros Himp.
    - constructor.
    - pose proof (key1 _ _ HR) as Hk. cbn [fst] in Hk. subst k0.
      change (assoc (e :: l)) with ((lkey e, e) :: assoc l). cbn [Spec.aremove]. cbn [map] in Hs.
      destruct (bcmp k (lkey e)) eqn:E; cbn [map snd]; rewrite ?assoc_map_snd.
      + apply (F2_tail e _ _ k); auto. rewrite E. discriminate.
      + constructor.
        * apply (F2_head e l _ k); auto. rewrite E. discriminate.
        * apply (F2_tail e _ _ k); auto. rewrite E. discriminate.
      + constructor.
        * apply (F2_head e l _ k); auto. rewrite E. discriminate.
        * apply IH; [eapply sorted_keys_tl; eauto|]. intros e1 kv1 Hin. apply Himp. now right.
  Qed.
End KeyedRel.

(** * Committed nested buckets *)

(* [cwf n d r]: the bucket tree rooted at page [r] is well formed (search invariant, height <= fuel0), and so is
   every bucket nested in it, to a nesting depth < n (the bucket itself counts 1) *)
Fixpoint cwf (n : nat) (d : disk) (r : N) : Prop :=
  match n with
  | O => False
  | S n' => wf_page d r /\ exists l, PageView d fuel0 r l /\
      Forall (fun e => match e with LBk _ r' _ => cwf n' d r' | LKv _ _ => True end) l
  end.

(* the meaning of the committed bucket stored as (root, next): [EngineAbs.abs_bucket], at any nesting fuel that
   covers the bucket's nesting depth (see [abs_bucket_stable]: the value does not depend on the choice) *)
Definition CAbs (d : disk) (r nx : N) (m : snode) : Prop := exists n, cwf n d r /\ m = abs_bucket n d r nx.

(* committed-state well-formedness: every bucket root reachable from d_root is a well-formed tree of height
   <= fuel0, nesting depth <= 16 (the nesting fuel of abs_db) *)
Definition db_pages_wf (st : db) : Prop := cwf 16 (d_disk st) (d_root st).

From Jamm Require EngineBridgeFacts.

Definition ent_abs (n : nat) (d : disk) (e : leafent) : bytes * snode :=
  match e with LKv k v => (k, SVal v) | LBk k r nx => (k, abs_bucket n d r nx) end.

Lemma abs_bucket_S : forall n d r nx,
  abs_bucket (S n) d r nx = SBucket 0 nx (map (ent_abs n d) (page_ents 64 d r)).
Proof. reflexivity. Qed.

Lemma cwf_abs_bucket : forall n d r nx l, cwf (S n) d r -> PageView d fuel0 r l ->
  abs_bucket (S n) d r nx = SBucket 0 nx (map (ent_abs n d) l).
Proof.
  intros n d r nx l _ Hv. rewrite abs_bucket_S. f_equal. f_equal.
  apply (EngineBridgeFacts.PageView_page_ents d fuel0 r l Hv). unfold fuel0. lia.
Qed.

(* the nesting fuel is an upper bound: more of it changes neither the predicate nor the meaning *)
Lemma cwf_mono_stable : forall n d r, cwf n d r -> forall n', n <= n' ->
  cwf n' d r /\ forall nx, abs_bucket n' d r nx = abs_bucket n d r nx.
Proof.
  induction n as [|n IH]; intros d r H n' Hle; [destruct H|].
  destruct n' as [|n']; [lia|]. destruct H as (Hw & l & Hv & Hall).
  assert (Hch : Forall (fun e => match e with LBk _ r' _ => cwf n' d r' | LKv _ _ => True end) l /\
                map (ent_abs n' d) l = map (ent_abs n d) l).
  { clear Hv. induction Hall as [|e l He Hall IHl]; [split; [constructor | reflexivity]|].
    destruct IHl as [I1 I2]. destruct e as [k v|k r' nx'].
    - split; [constructor; auto|]. cbn [map ent_abs]. now rewrite I2.
    - destruct (IH d r' He n' ltac:(lia)) as [J1 J2].
      split; [constructor; auto|]. cbn [map ent_abs]. now rewrite I2, J2. }
  destruct Hch as [H1 H2]. split.
  - split; [exact Hw|]. exists l. auto.
  - intros nx. rewrite (cwf_abs_bucket n' d r nx l), (cwf_abs_bucket n d r nx l); try assumption.
    + now rewrite H2.
    + split; [exact Hw|]. exists l. auto.
    + split; [exact Hw|]. exists l. auto.
Qed.

Corollary cwf_mono : forall n n' d r, cwf n d r -> n <= n' -> cwf n' d r.
Proof. intros n n' d r H Hle. now apply (cwf_mono_stable n d r H n' Hle). Qed.

Corollary abs_bucket_stable : forall n n' d r nx, cwf n d r -> n <= n' ->
  abs_bucket n' d r nx = abs_bucket n d r nx.
Proof. intros n n' d r nx H Hle. now apply (cwf_mono_stable n d r H n' Hle). Qed.

(* hence the committed meaning is a function of (root, next), and under a depth bound it IS abs_bucket *)
Theorem CAbs_det : forall d r nx m m', CAbs d r nx m -> CAbs d r nx m' -> m = m'.
Proof.
  intros d r nx m m' (n & Hn & ->) (n' & Hn' & ->).
  destruct (Nat.le_ge_cases n n') as [Hle|Hle].
  - symmetry. now apply abs_bucket_stable.
  - now apply abs_bucket_stable.
Qed.

Theorem CAbs_abs_bucket : forall d r nx m n, CAbs d r nx m -> cwf n d r -> m = abs_bucket n d r nx.
Proof. intros d r nx m n H Hn. apply (CAbs_det d r nx); [exact H | exists n; auto]. Qed.

(** * The overlay: meaning and well-formedness *)

(* [OvlAbs d b m]: the overlay bucket [b] (its possibly materialised tree, and the sub-buckets opened in this
   transaction, which override the stored (root, next) of their entry) means [m] *)
Inductive OvlAbs (d : disk) : bucket -> snode -> Prop :=
| OvlAbs_intro : forall b l ents,
    bucket_view d b l -> Forall2 (OvlEnt d (b_subs b)) l ents ->
    OvlAbs d b (SBucket 0 (b_next b) ents)
with OvlEnt (d : disk) : list (bytes * bucket) -> leafent -> bytes * snode -> Prop :=
| OE_kv : forall subs k v, OvlEnt d subs (LKv k v) (k, SVal v)
| OE_sub : forall subs k r nx sb m,
    sub_find k subs = Some sb -> OvlAbs d sb m -> OvlEnt d subs (LBk k r nx) (k, m)
| OE_disk : forall subs k r nx m,
    sub_find k subs = None -> CAbs d r nx m -> OvlEnt d subs (LBk k r nx) (k, m).

(* [ovl_wf d b]: the tree satisfies the search invariant; the opened sub-buckets have distinct names, each names a
   bucket entry of the view, and is well formed in turn; the root page is 0 (created in this transaction) or a
   committed well-formed bucket root.  (The committed buckets NOT opened are covered by [CAbs] inside [OvlAbs].) *)
Inductive ovl_wf (d : disk) : bucket -> Prop :=
| ovl_wf_intro : forall b l,
    bucket_wf d b -> bucket_view d b l ->
    NoDup (map fst (b_subs b)) ->
    Forall (fun x => (exists r nx, Spec.alookup (fst x) (assoc l) = Some (LBk (fst x) r nx)) /\ ovl_wf d (snd x))
           (b_subs b) ->
    (b_root_page b = 0%N \/ exists n, cwf n d (b_root_page b)) ->
    ovl_wf d b.

Lemma OvlEnt_key : forall d subs e kv, OvlEnt d subs e kv -> fst kv = lkey e.
Proof. intros d subs e kv H. inversion H; reflexivity. Qed.

Lemma OvlAbs_bucket : forall d b m, OvlAbs d b m -> exists ents, m = SBucket 0 (b_next b) ents.
Proof. intros d b m H. inversion H; subst. eauto. Qed.

Lemma CAbs_bucket : forall d r nx m, CAbs d r nx m -> exists ents, m = SBucket 0 nx ents.
Proof.
  intros d r nx m (n & Hn & ->). destruct n as [|n]; [destruct Hn|]. rewrite abs_bucket_S. eauto.
Qed.

Lemma OvlEnt_bk_bucket : forall d subs k r nx kv, OvlEnt d subs (LBk k r nx) kv ->
  exists o x es, snd kv = SBucket o x es.
Proof.
  intros d subs k r nx kv H. inversion H as [| ? ? ? ? sb m Hs Hm | ? ? ? ? m Hs Hm]; subst; cbn [snd].
  - destruct (OvlAbs_bucket _ _ _ Hm) as [es ->]. eauto.
  - destruct (CAbs_bucket _ _ _ _ Hm) as [es ->]. eauto.
Qed.

Lemma bucket_view_det : forall d b l l', bucket_view d b l -> bucket_view d b l' -> l = l'.
Proof.
  intros d b l l' (h & _ & H) (h' & _ & H'). unfold BucketView in *. destruct (b_rootn b).
  - eapply NodeView_det; eauto.
  - eapply PageView_det; eauto.
Qed.

Lemma bucket_view_sorted' : forall d b l, bucket_wf d b -> bucket_view d b l -> sorted_keys (map lkey l) = true.
Proof. intros d b l Hw (h & _ & Hv). eapply bucket_view_sorted; eauto. Qed.

Lemma bucket_wf_tree : forall d b b', b_root_page b' = b_root_page b -> b_rootn b' = b_rootn b ->
  bucket_wf d b -> bucket_wf d b'.
Proof. intros d b b' H1 H2 H. unfold bucket_wf in *. now rewrite H1, H2. Qed.
Lemma bucket_view_tree : forall d b b' l, b_root_page b' = b_root_page b -> b_rootn b' = b_rootn b ->
  bucket_view d b l -> bucket_view d b' l.
Proof. intros d b b' l H1 H2 (h & Hh & H). exists h. split; [exact Hh|]. unfold BucketView in *. now rewrite H1, H2. Qed.

Lemma sub_find_In : forall name subs sb, sub_find name subs = Some sb -> In (name, sb) subs.
Proof.
  intros name subs sb H. unfold sub_find in H.
  destruct (find (fun x => beq (fst x) name) subs) as [[n' b']|] eqn:E; [|discriminate].
  cbn in H. inversion H; subst. apply find_some in E. destruct E as [Hin Hb]. cbn [fst] in Hb.
  apply beq_true in Hb. now subst.
Qed.

Lemma sub_find_None_In : forall name subs x, sub_find name subs = None -> In x subs -> fst x <> name.
Proof.
  intros name subs x H Hin E. unfold sub_find in H.
  destruct (find (fun x => beq (fst x) name) subs) eqn:Ef; [discriminate|].
  pose proof (find_none _ _ Ef x Hin) as Hb. cbn beta in Hb. rewrite E, beq_refl in Hb. discriminate.
Qed.

Lemma sub_find_cons : forall name n' b' r,
  sub_find name ((n', b') :: r) = if beq n' name then Some b' else sub_find name r.
Proof. intros. unfold sub_find. cbn [find fst]. destruct (beq n' name); reflexivity. Qed.

Lemma NoDup_In_sub_find : forall subs name sb, NoDup (map fst subs) -> In (name, sb) subs ->
  sub_find name subs = Some sb.
Proof.
  induction subs as [|[n' b'] subs IH]; intros name sb Hnd Hin; [destruct Hin|].
  cbn [map fst] in Hnd. inversion Hnd as [|? ? Hni Hnd']; subst. rewrite sub_find_cons.
  destruct Hin as [E|Hin].
  - inversion E; subst. now rewrite beq_refl.
  - destruct (beq n' name) eqn:Eb.
    + apply beq_true in Eb. subst n'. exfalso. apply Hni. apply (in_map fst) in Hin. exact Hin.
    + now apply IH.
Qed.

Lemma sub_find_put_same : forall name b subs, sub_find name (sub_put name b subs) = Some b.
Proof.
  intros name b. induction subs as [|[n' b'] r IH]; cbn [sub_put].
  - rewrite sub_find_cons. now rewrite beq_refl.
  - destruct (beq n' name) eqn:E; rewrite sub_find_cons.
    + now rewrite beq_refl.
    + now rewrite E.
Qed.

Lemma sub_find_put_other : forall name b subs k, k <> name -> sub_find k (sub_put name b subs) = sub_find k subs.
Proof.
  intros name b subs k Hk. induction subs as [|[n' b'] r IH]; cbn [sub_put].
  - rewrite sub_find_cons. destruct (beq name k) eqn:E; [apply beq_true in E; congruence | reflexivity].
  - destruct (beq n' name) eqn:E; rewrite !sub_find_cons.
    + apply beq_true in E. subst n'.
      destruct (beq name k) eqn:E'; [apply beq_true in E'; congruence | reflexivity].
    + now rewrite IH.
Qed.

Lemma sub_put_keys_In : forall name b subs k, In k (map fst (sub_put name b subs)) -> k = name \/ In k (map fst subs).
Proof.
  intros name b. induction subs as [|[n' b'] r IH]; intros k H; cbn [sub_put] in H.
  - destruct H as [<-|[]]. now left.
  - destruct (beq n' name) eqn:E; cbn [map fst] in *.
    + destruct H as [<-|H]; [now left | right; now right].
    + destruct H as [<-|H]; [right; now left|]. destruct (IH k H); [now left | right; now right].
Qed.

Lemma sub_put_NoDup : forall name b subs, NoDup (map fst subs) -> NoDup (map fst (sub_put name b subs)).
Proof.
  intros name b. induction subs as [|[n' b'] r IH]; intros Hnd; cbn [sub_put].
  - cbn. constructor; [intros [] | constructor].
  - cbn [map fst] in Hnd. inversion Hnd as [|? ? Hni Hnd']; subst.
    destruct (beq n' name) eqn:E; cbn [map fst].
    + apply beq_true in E. subst n'. constructor; assumption.
    + constructor; [|now apply IH]. intros Hin. apply sub_put_keys_In in Hin. destruct Hin as [->|Hin].
      * rewrite beq_refl in E. discriminate.
      * now apply Hni.
Qed.

Lemma sub_put_Forall : forall (P : bytes * bucket -> Prop) name b subs,
  Forall P subs -> P (name, b) -> Forall P (sub_put name b subs).
Proof.
  intros P name b. induction subs as [|[n' b'] r IH]; intros HF Hp; cbn [sub_put].
  - constructor; [exact Hp | constructor].
  - inversion HF; subst. destruct (beq n' name); constructor; auto.
Qed.

(* [take_sub] removes the (unique) binding that [sub_find] finds *)
Lemma take_sub_spec : forall name subs sb, NoDup (map fst subs) -> sub_find name subs = Some sb ->
  exists rest, take_sub name subs = Some (sb, rest) /\ sub_find name rest = None /\
    (forall k, k <> name -> sub_find k rest = sub_find k subs) /\
    NoDup (map fst rest) /\ (forall x, In x rest -> In x subs).
Proof.
  intros name. induction subs as [|[n' b'] r IH]; intros sb Hnd Hf; [discriminate|].
  cbn [map fst] in Hnd. inversion Hnd as [|? ? Hni Hnd']; subst. rewrite sub_find_cons in Hf. cbn [take_sub].
  destruct (beq n' name) eqn:E.
  - inversion Hf; subst b'. apply beq_true in E. subst n'. exists r. split; [reflexivity|]. split.
    + destruct (sub_find name r) as [sb'|] eqn:Es; [|reflexivity]. exfalso. apply Hni.
      apply sub_find_In in Es. apply (in_map fst) in Es. exact Es.
    + split.
      * intros k Hk. rewrite sub_find_cons. destruct (beq name k) eqn:E'; [apply beq_true in E'; congruence | reflexivity].
      * split; [exact Hnd' | intros x Hx; now right].
  - destruct (IH sb Hnd' Hf) as (rest & Ht & Hn & Ho & Hnd2 & Hin). rewrite Ht.
    exists ((n', b') :: rest). split; [reflexivity|]. split.
    + rewrite sub_find_cons, E. exact Hn.
    + split.
      * intros k Hk. rewrite !sub_find_cons. destruct (beq n' k); [reflexivity | now apply Ho].
      * split.
        -- cbn [map fst]. constructor; [|exact Hnd2]. intros Hi. apply Hni. apply in_map_iff in Hi.
           destruct Hi as (x & Ex & Hx). apply in_map_iff. exists x. split; [exact Ex | now apply Hin].
        -- intros x [<-|Hx]; [now left | right; now apply Hin].
Qed.

Lemma OvlEnt_kv_inv : forall d subs k v k' x, OvlEnt d subs (LKv k v) (k', x) -> k' = k /\ x = SVal v.
Proof. intros d subs k v k' x H. inversion H; subst. auto. Qed.

Lemma OvlEnt_bk_inv : forall d subs k r nx k' x, OvlEnt d subs (LBk k r nx) (k', x) ->
  k' = k /\ ((exists sb, sub_find k subs = Some sb /\ OvlAbs d sb x) \/ (sub_find k subs = None /\ CAbs d r nx x)).
Proof. intros d subs k r nx k' x H. inversion H; subst; split; eauto. Qed.

Lemma OvlEnt_subs_change : forall d subs subs' e kv,
  sub_find (lkey e) subs' = sub_find (lkey e) subs -> OvlEnt d subs e kv -> OvlEnt d subs' e kv.
Proof.
  intros d subs subs' e kv Hf H. inversion H as [| ? ? ? ? sb m Hs Hm | ? ? ? ? m Hs Hm]; subst; cbn [lkey] in Hf.
  - constructor.
  - eapply OE_sub; [|exact Hm]. congruence.
  - eapply OE_disk; [|exact Hm]. congruence.
Qed.

(* what the meaning holds under a key, by the kind of the stored entry *)
Lemma ovl_alookup : forall d subs l ents k, Forall2 (OvlEnt d subs) l ents ->
  match Spec.alookup k (assoc l) with
  | Some (LKv _ v) => Spec.alookup k ents = Some (SVal v)
  | Some (LBk _ _ _) => exists o nx es, Spec.alookup k ents = Some (SBucket o nx es)
  | None => Spec.alookup k ents = None
  end.
Proof.
  intros d subs l ents k HF. pose proof (F2_alookup _ (OvlEnt_key d subs) l ents k HF) as H.
  destruct (Spec.alookup k (assoc l)) as [[k0 v|k0 r nx]|]; [| |exact H]; destruct H as (x & Hx & He).
  - apply OvlEnt_kv_inv in He. destruct He as [_ ->]. exact Hx.
  - destruct (OvlEnt_bk_bucket _ _ _ _ _ _ He) as (o & nx' & es & Ex). cbn [snd] in Ex. subst x. eauto.
Qed.

Lemma beq_false_ne : forall a b, a <> b -> beq a b = false.
Proof. intros a b H. destruct (beq a b) eqn:E; [apply beq_true in E; contradiction | reflexivity]. Qed.

(* both readings of an overlay bucket, over the same view *)
Lemma ovl_both : forall d b m, ovl_wf d b -> OvlAbs d b m ->
  exists l ents, m = SBucket 0 (b_next b) ents /\ bucket_wf d b /\ bucket_view d b l /\
    sorted_keys (map lkey l) = true /\ NoDup (map fst (b_subs b)) /\
    Forall (fun x => (exists r nx, Spec.alookup (fst x) (assoc l) = Some (LBk (fst x) r nx)) /\ ovl_wf d (snd x))
           (b_subs b) /\
    Forall2 (OvlEnt d (b_subs b)) l ents /\
    (b_root_page b = 0%N \/ exists n, cwf n d (b_root_page b)).
Proof.
  intros d b m Hw Ha. inversion Hw as [? l Hbw Hbv Hnd Hsubs Hroot]; subst.
  inversion Ha as [? l' ents Hbv' HF]; subst.
  rewrite <- (bucket_view_det d b l l' Hbv Hbv') in HF.
  exists l, ents. split; [reflexivity|]. split; [exact Hbw|]. split; [exact Hbv|].
  split; [eapply bucket_view_sorted'; eauto|]. auto.
Qed.

(* a committed bucket, opened *)
Lemma open_committed : forall d r nx m, CAbs d r nx m ->
  ovl_wf d (Bucket r nx false None []) /\ OvlAbs d (Bucket r nx false None []) m.
Proof.
  intros d r nx m (n & Hn & ->). destruct n as [|n]; [destruct Hn|].
  pose proof Hn as (Hw & l & Hv & Hall).
  assert (Hbv : bucket_view d (Bucket r nx false None []) l).
  { exists fuel0. split; [apply le_n|]. exact Hv. }
  split.
  - apply (ovl_wf_intro d _ l); [exact Hw | exact Hbv | constructor | constructor |].
    right. exists (S n). exact Hn.
  - rewrite (cwf_abs_bucket n d r nx l Hn Hv).
    apply (OvlAbs_intro d (Bucket r nx false None []) l (map (ent_abs n d) l) Hbv). cbn [b_subs].
    clear Hv Hbv. induction Hall as [|e l He Hall IH]; cbn [map]; constructor; [|exact IH].
    destruct e as [k v|k r' nx']; cbn [ent_abs]; [constructor|].
    apply OE_disk; [reflexivity|]. exists n. auto.
Qed.

(* a bucket created in this transaction *)
Lemma new_bucket_meaning : forall d sq,
  ovl_wf d (Bucket 0 0 true (Some (Node 0 0 None sq (Leaves []) [])) []) /\
  OvlAbs d (Bucket 0 0 true (Some (Node 0 0 None sq (Leaves []) [])) []) (SBucket 0 0 []).
Proof.
  intros d sq.
  assert (Hbv : bucket_view d (Bucket 0 0 true (Some (Node 0 0 None sq (Leaves []) [])) []) []).
  { exists 1. split; [unfold fuel0; lia|]. apply NV_leaf. }
  split.
  - apply (ovl_wf_intro d _ []); [apply wfn_leaf; reflexivity | exact Hbv | constructor | constructor | now left].
  - apply (OvlAbs_intro d (Bucket 0 0 true (Some (Node 0 0 None sq (Leaves []) [])) []) [] [] Hbv). constructor.
Qed.

Lemma sub_meaning : forall d b m name sb, ovl_wf d b -> OvlAbs d b m -> sub_find name (b_subs b) = Some sb ->
  exists c, Spec.alookup name (Spec.b_ents m) = Some c /\ OvlAbs d sb c /\ ovl_wf d sb.
Proof.
  intros d b m name sb Hw Ha Hsf.
  destruct (ovl_both d b m Hw Ha) as (l & ents & -> & Hbw & Hbv & Hs & Hnd & Hsubs & HF & Hroot).
  rewrite Forall_forall in Hsubs. destruct (Hsubs _ (sub_find_In _ _ _ Hsf)) as [(r & nx & Hal) Hwsb].
  cbn [fst snd] in *.
  pose proof (F2_alookup _ (OvlEnt_key d (b_subs b)) l ents name HF) as Hlk. rewrite Hal in Hlk.
  destruct Hlk as (x & Hx & He). apply OvlEnt_bk_inv in He.
  destruct He as [_ [(sb' & Hsf' & Hab) | (Hsf' & _)]]; [|congruence].
  rewrite Hsf in Hsf'. inversion Hsf'; subst sb'. exists x. cbn [Spec.b_ents]. auto.
Qed.

(* opening the stored bucket [name] changes neither the meaning nor the well-formedness *)
Lemma open_sub_spec : forall d b m name r nx l, ovl_wf d b -> OvlAbs d b m -> bucket_view d b l ->
  sub_find name (b_subs b) = None -> Spec.alookup name (assoc l) = Some (LBk name r nx) ->
  ovl_wf d (Bucket (b_root_page b) (b_next b) (b_dirty b) (b_rootn b)
              (sub_put name (Bucket r nx false None []) (b_subs b))) /\
  OvlAbs d (Bucket (b_root_page b) (b_next b) (b_dirty b) (b_rootn b)
              (sub_put name (Bucket r nx false None []) (b_subs b))) m.
Proof.
  intros d b m name r nx l0 Hw Ha Hbv0 Hsf Hal.
  destruct (ovl_both d b m Hw Ha) as (l & ents & -> & Hbw & Hbv & Hs & Hnd & Hsubs & HF & Hroot).
  rewrite (bucket_view_det d b l0 l Hbv0 Hbv) in Hal. clear l0 Hbv0.
  pose proof (F2_alookup _ (OvlEnt_key d (b_subs b)) l ents name HF) as Hlk. rewrite Hal in Hlk.
  destruct Hlk as (x & Hx & He). apply OvlEnt_bk_inv in He.
  destruct He as [_ [(sb' & Hsf' & _) | (_ & Hc)]]; [congruence|].
  destruct (open_committed d r nx x Hc) as [Hw0 Ha0].
  set (b0 := Bucket (b_root_page b) (b_next b) (b_dirty b) (b_rootn b)
               (sub_put name (Bucket r nx false None []) (b_subs b))).
  split.
  - apply (ovl_wf_intro d b0 l).
    + apply (bucket_wf_tree d b); auto.
    + apply (bucket_view_tree d b); auto.
    + cbn [b0 b_subs]. now apply sub_put_NoDup.
    + cbn [b0 b_subs]. apply sub_put_Forall; [exact Hsubs|]. cbn [fst snd]. split; eauto.
    + exact Hroot.
  - apply (OvlAbs_intro d b0 l ents); [apply (bucket_view_tree d b); auto|]. cbn [b0 b_subs].
    pose proof (F2_ainsert (OvlEnt d (b_subs b)) (OvlEnt d (sub_put name (Bucket r nx false None []) (b_subs b)))
                  (OvlEnt_key d (b_subs b)) l ents name (LBk name r nx) x Hs HF) as H.
    rewrite (ainsert_same _ _ _ Hal), (ainsert_same _ _ _ Hx), assoc_map_snd in H. apply H.
    + intros e kv _ Hk. apply OvlEnt_subs_change. now apply sub_find_put_other.
    + eapply OE_sub; [apply sub_find_put_same | exact Ha0].
Qed.

(** * [b_get_or_create] *)

Lemma b_get_or_create_unfold : forall d b name s,
  b_get_or_create d b name s =
  match sub_find name (b_subs b) with
  | Some _ => Ok (b, s)
  | None =>
      bind (b_lookup d b name) (fun cur =>
        match cur with
        | Some (LBk _ r nx) =>
            Ok (Bucket (b_root_page b) (b_next b) (b_dirty b) (b_rootn b)
                  (sub_put name (Bucket r nx false None []) (b_subs b)), s)
        | Some (LKv _ _) => Err "IncompatibleValue"%string
        | None =>
            bind (b_modify d b (OpIns (LBk name 0 0)) (snd (next_seq s))) (fun r =>
              Ok (Bucket (b_root_page (fst r)) (b_next (fst r) + 1) true (b_rootn (fst r))
                    (sub_put name (Bucket 0 0 true (Some (Node 0 0 None (seqc s) (Leaves []) [])) [])
                       (b_subs (fst r))), snd r))
        end)
  end.
Proof.
  intros d b name s. unfold b_get_or_create. destruct (sub_find name (b_subs b)); [reflexivity|].
  destruct (b_lookup d b name) as [[[k v|k r nx]|]| |]; cbn [bind]; try reflexivity.
  unfold new_bucket, next_seq. cbn [snd].
  match goal with |- context [b_modify d b ?o ?s1] => destruct (b_modify d b o s1) as [[b' s']| |] end; reflexivity.
Qed.

Theorem b_get_or_create_refines : forall d b m name s, ovl_wf d b -> OvlAbs d b m ->
  match Spec.alookup name (Spec.b_ents m) with
  | Some (SVal _) => b_get_or_create d b name s = Err "IncompatibleValue"%string
  | Some (SBucket _ _ _) =>
      exists b' s' sb, b_get_or_create d b name s = Ok (b', s') /\ sub_find name (b_subs b') = Some sb /\
        ovl_wf d b' /\ OvlAbs d b' m /\ same_but_seqc s s'
  | None =>
      exists b' s' sb, b_get_or_create d b name s = Ok (b', s') /\ sub_find name (b_subs b') = Some sb /\
        ovl_wf d b' /\
        OvlAbs d b' (set_ents m (Spec.b_next m + 1) (Spec.ainsert name (SBucket 0 0 []) (Spec.b_ents m))) /\
        same_but_seqc s s'
  end.
Proof.
  intros d b m name s Hw Ha.
  destruct (ovl_both d b m Hw Ha) as (l & ents & Em & Hbw & Hbv & Hs & Hnd & Hsubs & HF & Hroot).
  pose proof (ovl_alookup d _ l ents name HF) as Hlk.
  pose proof (b_lookup_refines d b l name Hbw Hbv) as Hlook.
  rewrite b_get_or_create_unfold.
  destruct (sub_find name (b_subs b)) as [sb|] eqn:Hsf.
  - (* already opened *)
    destruct (sub_meaning d b m name sb Hw Ha Hsf) as (c & Hc & Hac & Hwc). rewrite Hc.
    destruct (OvlAbs_bucket _ _ _ Hac) as [es ->]. exists b, s, sb.
    split; [reflexivity|]. split; [exact Hsf|]. split; [exact Hw|]. split; [exact Ha | apply same_but_seqc_refl].
  - rewrite Hlook. cbn [bind]. subst m. cbn [Spec.b_ents Spec.b_next set_ents Spec.b_oid].
    destruct (Spec.alookup name (assoc l)) as [[k v|k r nx]|] eqn:Hal.
    + (* a plain value *)
      rewrite Hlk. reflexivity.
    + (* a stored bucket: open it *)
      destruct (alookup_assoc_key _ _ _ Hal) as [Ek _]. cbn [lkey] in Ek. subst k.
      destruct Hlk as (o & nx' & es & ->).
      destruct (open_sub_spec d b _ name r nx l Hw Ha Hbv Hsf Hal) as [Hw' Ha'].
      eexists _, s, _. split; [reflexivity|]. cbn [b_subs]. split; [apply sub_find_put_same|].
      split; [exact Hw'|]. split; [exact Ha' | apply same_but_seqc_refl].
    + (* absent: create *)
      rewrite Hlk. destruct Hbv as (h & Hh & Hv).
      destruct (b_modify_view d h b l (OpIns (LBk name 0 0)) (snd (next_seq s)) Hbw Hv Hh)
        as (b2 & s2 & Hm & Hw2 & Hv2 & Ha2 & Hs2 & Hr2 & Hn2 & Hsb2 & Hd2 & Hss2).
      cbn [aop lkey] in Ha2. rewrite Hm. cbn [bind fst snd].
      destruct (new_bucket_meaning d (seqc s)) as [Hwn Han].
      set (nb := Bucket 0 0 true (Some (Node 0 0 None (seqc s) (Leaves []) [])) []) in *.
      set (l2 := apply_lop (OpIns (LBk name 0 0)) l) in *.
      assert (Hbv2 : bucket_view d b2 l2) by (exists h; auto).
      eexists _, s2, _. split; [reflexivity|]. cbn [b_subs]. split; [apply sub_find_put_same|].
      rewrite Hsb2.
      split; [|split].
      * apply (ovl_wf_intro d _ l2).
        -- apply (bucket_wf_tree d b2); auto.
        -- apply (bucket_view_tree d b2); auto.
        -- cbn [b_subs]. now apply sub_put_NoDup.
        -- cbn [b_subs]. apply sub_put_Forall.
           ++ rewrite Forall_forall in Hsubs |- *. intros x Hx. destruct (Hsubs x Hx) as [(r & nx & Hrx) Hwx].
              split; [|exact Hwx]. exists r, nx. rewrite Ha2, alookup_ainsert.
              rewrite beq_false_ne; [exact Hrx|]. eapply sub_find_None_In; eauto.
           ++ cbn [fst snd]. split; [|exact Hwn]. exists 0%N, 0%N. rewrite Ha2, alookup_ainsert. now rewrite beq_refl.
        -- cbn [b_root_page]. rewrite Hr2. exact Hroot.
      * rewrite <- Hn2.
        apply (OvlAbs_intro d (Bucket (b_root_page b2) (b_next b2 + 1) true (b_rootn b2) (sub_put name nb (b_subs b)))
                 l2 (Spec.ainsert name (SBucket 0 0 []) ents)); [apply (bucket_view_tree d b2); auto|].
        cbn [b_subs]. replace l2 with (map snd (Spec.ainsert name (LBk name 0 0) (assoc l)))
          by (rewrite <- Ha2; apply assoc_map_snd).
        apply (F2_ainsert (OvlEnt d (b_subs b))); [apply OvlEnt_key | exact Hs | exact HF | |].
        -- intros e kv _ Hk. apply OvlEnt_subs_change. now apply sub_find_put_other.
        -- eapply OE_sub; [apply sub_find_put_same | exact Han].
      * eapply same_but_seqc_trans; [apply same_but_seqc_next | exact Hss2].
Qed.

(** * [at_path] *)

(* the contract of the operation applied at the end of the path: on every well-formed overlay bucket it returns Ok
   (run_tx wraps the final operation in [soft], so it never returns Err), the result is well formed and means
   [g m]; [T] is what it may do to the transaction state *)
Definition op_refines (d : disk) (T : txs -> txs -> Prop)
    (f : bucket -> txs -> res (bucket * txs)) (g : snode -> snode) : Prop :=
  forall b m s, ovl_wf d b -> OvlAbs d b m ->
    exists b' s', f b s = Ok (b', s') /\ ovl_wf d b' /\ OvlAbs d b' (g m) /\ T s s'.

(* storing the modified sub-bucket back into its parent *)
Lemma put_back : forall d b m name sb sb' c', ovl_wf d b -> OvlAbs d b m ->
  sub_find name (b_subs b) = Some sb -> ovl_wf d sb' -> OvlAbs d sb' c' ->
  ovl_wf d (Bucket (b_root_page b) (b_next b) (b_dirty b) (b_rootn b) (sub_put name sb' (b_subs b))) /\
  OvlAbs d (Bucket (b_root_page b) (b_next b) (b_dirty b) (b_rootn b) (sub_put name sb' (b_subs b)))
    (set_ents m (Spec.b_next m) (Spec.ainsert name c' (Spec.b_ents m))).
Proof.
  intros d b m name sb sb' c' Hw Ha Hsf Hw' Ha'.
  destruct (ovl_both d b m Hw Ha) as (l & ents & -> & Hbw & Hbv & Hs & Hnd & Hsubs & HF & Hroot).
  cbn [Spec.b_ents Spec.b_next set_ents Spec.b_oid].
  pose proof Hsubs as Hsubs'. rewrite Forall_forall in Hsubs'.
  destruct (Hsubs' _ (sub_find_In _ _ _ Hsf)) as [(r & nx & Hal) _]. cbn [fst] in Hal.
  set (b2 := Bucket (b_root_page b) (b_next b) (b_dirty b) (b_rootn b) (sub_put name sb' (b_subs b))).
  split.
  - apply (ovl_wf_intro d b2 l).
    + apply (bucket_wf_tree d b); auto.
    + apply (bucket_view_tree d b); auto.
    + cbn [b2 b_subs]. now apply sub_put_NoDup.
    + cbn [b2 b_subs]. apply sub_put_Forall; [exact Hsubs|]. cbn [fst snd]. split; eauto.
    + exact Hroot.
  - apply (OvlAbs_intro d b2 l (Spec.ainsert name c' ents)); [apply (bucket_view_tree d b); auto|].
    cbn [b2 b_subs].
    pose proof (F2_ainsert (OvlEnt d (b_subs b)) (OvlEnt d (sub_put name sb' (b_subs b)))
                  (OvlEnt_key d (b_subs b)) l ents name (LBk name r nx) c' Hs HF) as H.
    rewrite (ainsert_same _ _ _ Hal), assoc_map_snd in H. apply H.
    + intros e kv _ Hk. apply OvlEnt_subs_change. now apply sub_find_put_other.
    + eapply OE_sub; [apply sub_find_put_same | exact Ha'].
Qed.

Theorem at_path_refines : forall d T f g, op_refines d T f g ->
  forall path fuel b m s, length path < fuel -> ovl_wf d b -> OvlAbs d b m ->
  match sem_at path g m with
  | Some m' => exists b' s' s1, at_path fuel d b path f s = Ok (b', s') /\
                 ovl_wf d b' /\ OvlAbs d b' m' /\ same_but_seqc s s1 /\ T s1 s'
  | None => at_path fuel d b path f s = Err "IncompatibleValue"%string
  end.
Proof.
  intros d T f g Hfg. induction path as [|nm rest IH]; intros fuel b m s Hfuel Hw Ha;
    (destruct fuel as [|fu]; [cbn [length] in Hfuel; lia|]); cbn [at_path sem_at].
  - destruct (Hfg b m s Hw Ha) as (b' & s' & Hf & Hw' & Ha' & HT).
    exists b', s', s. split; [exact Hf|]. split; [exact Hw'|]. split; [exact Ha'|].
    split; [apply same_but_seqc_refl | exact HT].
  - cbn [length] in Hfuel. pose proof (b_get_or_create_refines d b m nm s Hw Ha) as Hg.
    destruct (Spec.alookup nm (Spec.b_ents m)) as [[v|o nx es]|] eqn:Hal.
    + rewrite Hg. reflexivity.
    + destruct Hg as (b1 & s1 & sb & Hg & Hsf & Hw1 & Ha1 & Hss). rewrite Hg. cbn [bind]. rewrite Hsf.
      destruct (sub_meaning d b1 m nm sb Hw1 Ha1 Hsf) as (c & Hc & Hac & Hwc).
      rewrite Hal in Hc. inversion Hc; subst c.
      specialize (IH fu sb (SBucket o nx es) s1 ltac:(lia) Hwc Hac).
      destruct (sem_at rest g (SBucket o nx es)) as [c'|].
      * destruct IH as (sb' & s2 & s1' & Hat & Hw' & Ha' & Hss' & HT). rewrite Hat. cbn [bind].
        destruct (put_back d b1 m nm sb sb' c' Hw1 Ha1 Hsf Hw' Ha') as [Hw2 Ha2].
        eexists _, s2, s1'. split; [reflexivity|]. split; [exact Hw2|]. split; [exact Ha2|].
        split; [eapply same_but_seqc_trans; eauto | exact HT].
      * rewrite IH. reflexivity.
    + destruct Hg as (b1 & s1 & sb & Hg & Hsf & Hw1 & Ha1 & Hss). rewrite Hg. cbn [bind]. rewrite Hsf.
      destruct (sub_meaning d b1 _ nm sb Hw1 Ha1 Hsf) as (c & Hc & Hac & Hwc).
      destruct (OvlAbs_bucket _ _ _ Ha) as [ents Em]. subst m.
      cbn [Spec.b_ents Spec.b_next set_ents Spec.b_oid] in *.
      rewrite alookup_ainsert, beq_refl in Hc. inversion Hc; subst c.
      specialize (IH fu sb (SBucket 0 0 []) s1 ltac:(lia) Hwc Hac).
      destruct (sem_at rest g (SBucket 0 0 [])) as [c'|].
      * destruct IH as (sb' & s2 & s1' & Hat & Hw' & Ha' & Hss' & HT). rewrite Hat. cbn [bind].
        destruct (put_back d b1 _ nm sb sb' c' Hw1 Ha1 Hsf Hw' Ha') as [Hw2 Ha2].
        cbn [Spec.b_ents Spec.b_next set_ents Spec.b_oid] in Ha2. rewrite ainsert_ainsert in Ha2.
        eexists _, s2, s1'. split; [reflexivity|]. split; [exact Hw2|]. split; [exact Ha2|].
        split; [eapply same_but_seqc_trans; eauto | exact HT].
      * rewrite IH. reflexivity.
Qed.

(** * The final operations *)

(* a change of the tree that keeps the bucket entries named by the opened sub-buckets *)
Lemma wf_view_change : forall d b b' l l', ovl_wf d b -> bucket_view d b l ->
  bucket_wf d b' -> bucket_view d b' l' -> b_subs b' = b_subs b -> b_root_page b' = b_root_page b ->
  (forall x r nx, In x (b_subs b) -> Spec.alookup (fst x) (assoc l) = Some (LBk (fst x) r nx) ->
                  Spec.alookup (fst x) (assoc l') = Some (LBk (fst x) r nx)) ->
  ovl_wf d b'.
Proof.
  intros d b b' l l' Hw Hbv Hbw' Hbv' Hsb Hr Hkeep.
  inversion Hw as [? l0 Hbw Hbv0 Hnd Hsubs Hroot]; subst.
  rewrite <- (bucket_view_det d b l l0 Hbv Hbv0) in Hsubs.
  apply (ovl_wf_intro d b' l'); [exact Hbw' | exact Hbv' | now rewrite Hsb | | now rewrite Hr].
  rewrite Hsb. rewrite Forall_forall in Hsubs |- *. intros x Hx.
  destruct (Hsubs x Hx) as [(r & nx & Hal) Hwx]. split; [|exact Hwx]. exists r, nx. now apply Hkeep.
Qed.

Lemma put_result : forall d b b' l l' ents k v, ovl_wf d b -> bucket_view d b l ->
  sorted_keys (map lkey l) = true -> Forall2 (OvlEnt d (b_subs b)) l ents ->
  (forall k0 r nx, Spec.alookup k (assoc l) <> Some (LBk k0 r nx)) ->
  bucket_wf d b' -> bucket_view d b' l' -> assoc l' = Spec.ainsert k (LKv k v) (assoc l) ->
  b_subs b' = b_subs b -> b_root_page b' = b_root_page b ->
  ovl_wf d b' /\ OvlAbs d b' (SBucket 0 (b_next b') (Spec.ainsert k (SVal v) ents)).
Proof.
  intros d b b' l l' ents k v Hw Hbv Hs HF Hnb Hbw' Hbv' Ha Hsb Hr. split.
  - apply (wf_view_change d b b' l l'); auto. intros x r nx _ Hal. rewrite Ha, alookup_ainsert.
    destruct (beq (fst x) k) eqn:E; [|exact Hal]. apply beq_true in E. rewrite E in Hal. now apply Hnb in Hal.
  - apply (OvlAbs_intro d b' l' _ Hbv'). rewrite Hsb.
    replace l' with (map snd (Spec.ainsert k (LKv k v) (assoc l))) by (rewrite <- Ha; apply assoc_map_snd).
    apply (F2_ainsert (OvlEnt d (b_subs b))); [apply OvlEnt_key | exact Hs | exact HF | auto | constructor].
Qed.

Theorem put_refines : forall d k v,
  op_refines d same_but_seqc (fun b s => soft (b, s) (b_put d b k v s)) (sem_put k v).
Proof.
  intros d k v b m s Hw Ha. cbn beta.
  destruct (ovl_both d b m Hw Ha) as (l & ents & -> & Hbw & Hbv & Hs & Hnd & Hsubs & HF & Hroot).
  pose proof (ovl_alookup d _ l ents k HF) as Hlk.
  pose proof Hbv as (h & Hh & Hv). pose proof (b_put_spec d h b l k v s Hbw Hv Hh) as Hp.
  unfold sem_put. cbn [Spec.b_ents Spec.b_next set_ents Spec.b_oid].
  destruct (Spec.alookup k (assoc l)) as [[k0 v0|k0 r nx]|] eqn:Hal.
  2: { destruct Hlk as (o & nx' & es & ->). rewrite Hp. cbn [soft]. exists b, s.
       split; [reflexivity|]. split; [exact Hw|]. split; [exact Ha | apply same_but_seqc_refl]. }
  (* a plain value under [k], or nothing: the same argument *)
  all: rewrite Hlk; destruct Hp as (b' & s' & l' & Hput & Hbw' & Hv' & Ha' & _ & Hn' & Hr' & Hsb' & _ & Hss).
  all: rewrite Hput; cbn [soft]; exists b', s'; (split; [reflexivity|]).
  all: destruct (put_result d b b' l l' ents k v Hw Hbv Hs HF) as [H1 H2]; auto;
         [intros ? ? ?; rewrite Hal; discriminate | exists h; auto | rewrite Hn' in H2; auto].
Qed.

Theorem del_refines : forall d k,
  op_refines d same_but_seqc (fun b s => soft (b, s) (b_delete d b k s)) (sem_del k).
Proof.
  intros d k b m s Hw Ha. cbn beta.
  destruct (ovl_both d b m Hw Ha) as (l & ents & -> & Hbw & Hbv & Hs & Hnd & Hsubs & HF & Hroot).
  pose proof (ovl_alookup d _ l ents k HF) as Hlk.
  pose proof Hbv as (h & Hh & Hv). pose proof (b_delete_spec d h b l k s Hbw Hv Hh) as Hp.
  unfold sem_del. cbn [Spec.b_ents Spec.b_next set_ents Spec.b_oid].
  destruct (Spec.alookup k (assoc l)) as [[k0 v0|k0 r nx]|] eqn:Hal.
  - rewrite Hlk.
    destruct Hp as (b' & s' & l' & Hdel & Hbw' & Hv' & Ha' & _ & Hn' & Hr' & Hsb' & _ & Hss).
    rewrite Hdel. cbn [soft]. exists b', s'. split; [reflexivity|].
    assert (Hbv' : bucket_view d b' l') by (exists h; auto).
    split; [|split; [|exact Hss]].
    + apply (wf_view_change d b b' l l'); auto. intros x r nx _ Hx'. rewrite Ha', alookup_aremove.
      * destruct (beq (fst x) k) eqn:E; [|exact Hx']. apply beq_true in E. rewrite E in Hx'. congruence.
      * now rewrite assoc_keys.
    + rewrite <- Hn'. apply (OvlAbs_intro d b' l' _ Hbv'). rewrite Hsb'.
      replace l' with (map snd (Spec.aremove k (assoc l))) by (rewrite <- Ha'; apply assoc_map_snd).
      apply (F2_aremove (OvlEnt d (b_subs b))); [apply OvlEnt_key | exact Hs | exact HF | auto].
  - destruct Hlk as (o & nx' & es & ->). rewrite Hp. cbn [soft]. exists b, s.
    split; [reflexivity|]. split; [exact Hw|]. split; [exact Ha | apply same_but_seqc_refl].
  - rewrite Hlk, Hp. cbn [soft]. exists b, s.
    split; [reflexivity|]. split; [exact Hw|]. split; [exact Ha | apply same_but_seqc_refl].
Qed.

Theorem touch_refines : forall d, op_refines d same_but_seqc (fun b s => Ok (b, s)) (fun m => m).
Proof.
  intros d b m s Hw Ha. exists b, s. split; [reflexivity|]. split; [exact Hw|]. split; [exact Ha|].
  apply same_but_seqc_refl.
Qed.

(* page p is recorded as freed by transaction t *)
Definition pmem (t p : N) (pd : list (N * list N)) : Prop := exists ps, In (t, ps) pd /\ In p ps.

(* what delete_bucket may do to the transaction state: [free], [np], [wr] (and txid, psz, flw) are unchanged,
   [seqc] grows, [pending] grows, and only under the current transaction id *)
Definition tx_frees (s s' : txs) : Prop :=
  free s' = free s /\ txid s' = txid s /\ np s' = np s /\ psz s' = psz s /\ wr s' = wr s /\ flw s' = flw s /\
  (seqc s <= seqc s')%N /\
  (forall t p, pmem t p (pending s) -> pmem t p (pending s')) /\
  (forall t p, pmem t p (pending s') -> pmem t p (pending s) \/ t = txid s).

Lemma tx_frees_refl : forall s, tx_frees s s.
Proof. intros s. unfold tx_frees. repeat split; auto. lia. Qed.

Lemma tx_frees_trans : forall s1 s2 s3, tx_frees s1 s2 -> tx_frees s2 s3 -> tx_frees s1 s3.
Proof.
  intros s1 s2 s3 (A1 & A2 & A3 & A4 & A5 & A6 & A7 & A8 & A9) (B1 & B2 & B3 & B4 & B5 & B6 & B7 & B8 & B9).
  unfold tx_frees. repeat split; try congruence; [lia | auto |].
  intros t p H. destruct (B9 t p H) as [H'|H']; [auto | right; congruence].
Qed.

Lemma same_but_seqc_frees : forall s s', same_but_seqc s s' -> tx_frees s s'.
Proof.
  intros s s' (A1 & A2 & A3 & A4 & A5 & A6 & A7 & A8). unfold tx_frees. rewrite A2.
  repeat split; auto.
Qed.

From Jamm Require FreelistFacts EngineAllocFacts.

(* [pmem] in the terms of [FreelistFacts] *)
Lemma pmem_pend_at : forall t p pd, pmem t p pd <-> In p (FreelistFacts.pend_at t pd).
Proof.
  intros t p pd. unfold pmem, FreelistFacts.pend_at. rewrite in_flat_map. split.
  - intros (ps & Hin & Hp). exists (t, ps). rewrite filter_In. cbn [fst snd]. rewrite N.eqb_refl. auto.
  - intros ([u ps] & Hin & Hp). apply filter_In in Hin. cbn [fst snd] in *. destruct Hin as [Hin E].
    apply N.eqb_eq in E. subst u. eauto.
Qed.

Lemma pend_add_mem : forall t p l u q, pmem u q (pend_add t p l) <-> pmem u q l \/ (u = t /\ q = p).
Proof.
  intros t p l u q. rewrite !pmem_pend_at, EngineAllocFacts.pend_add_fun_eq. destruct (N.eq_dec u t) as [->|Hne].
  - split.
    + intros H. apply (Permutation.Permutation_in _ (FreelistFacts.pend_add_at t p l)) in H.
      destruct H as [<-|H]; auto.
    + intros H. apply (Permutation.Permutation_in _ (Permutation.Permutation_sym (FreelistFacts.pend_add_at t p l))).
      destruct H as [H|[_ ->]]; [now right | now left].
  - rewrite (FreelistFacts.pend_add_other t u p l Hne). tauto.
Qed.

Lemma free_run_frees : forall n s p, tx_frees s (free_run s p n).
Proof.
  induction n as [|n IH]; intros s p; cbn [free_run]; [apply tx_frees_refl|].
  destruct (freed_in_tx s p); [apply IH|].
  eapply tx_frees_trans; [|apply IH]. unfold tx_frees, upd_pending. cbn.
  repeat split; auto; [lia | |].
  - intros t q H. apply pend_add_mem. now left.
  - intros t q H. apply pend_add_mem in H. destruct H as [H|[-> _]]; auto.
Qed.

Lemma free_tree_frees : forall fuel d stack s s1, free_tree fuel d stack s = Ok s1 -> tx_frees s s1.
Proof.
  induction fuel as [|f IH]; intros d stack s s1 H; cbn [free_tree] in H; [discriminate|].
  destruct stack as [|p rest]; [inversion H; apply tx_frees_refl|].
  destruct (dget d p) as [a|]; [|discriminate].
  eapply tx_frees_trans; [|eapply IH; exact H]. apply free_run_frees.
Qed.

(* the walk over the deleted bucket's committed pages completes (it has fuel 100000: this bounds the number of
   pages of a bucket that can be deleted; see [free_tree_cost_ok] for a sufficient condition) *)
Definition free_tree_ok (d : disk) : Prop :=
  forall n r s, cwf n d r -> exists s1, free_tree 100000 d [r] s = Ok s1.

(* delete_bucket once the bucket is opened *)
Definition delb_phase2 (d : disk) (b0 : bucket) (name : bytes) (s0 : txs) : res (bucket * txs) :=
  match take_sub name (b_subs b0) with
  | None => Panic "unreachable"%string
  | Some (sb, rest) =>
      bind (if (b_root_page sb =? 0)%N then Ok s0 else free_tree 100000 d [b_root_page sb] s0) (fun s1 =>
        bind (b_lookup d (Bucket (b_root_page b0) (b_next b0) (b_dirty b0) (b_rootn b0) rest) name) (fun cur =>
          match cur with
          | Some e => if is_kv e then Err "IncompatibleValue"%string
                      else b_modify d (Bucket (b_root_page b0) (b_next b0) (b_dirty b0) (b_rootn b0) rest) (OpDel name) s1
          | None => Panic "Did not find data for bucket we already deleted"%string
          end))
  end.

Lemma b_delete_bucket_unfold : forall d b name s,
  b_delete_bucket d b name s =
  bind (match sub_find name (b_subs b) with
        | Some _ => Ok (b, s)
        | None => bind (b_lookup d b name) (fun cur =>
            match cur with
            | Some (LBk _ r nx) =>
                Ok (Bucket (b_root_page b) (b_next b) (b_dirty b) (b_rootn b)
                      (sub_put name (Bucket r nx false None []) (b_subs b)), s)
            | Some (LKv _ _) => Err "IncompatibleValue"%string
            | None => Err "BucketMissing"%string
            end)
        end) (fun p => delb_phase2 d (fst p) name (snd p)).
Proof.
  intros d b name s. unfold b_delete_bucket, delb_phase2.
  match goal with |- bind ?X _ = _ => destruct X as [[b0 s0]| |] end; reflexivity.
Qed.

Lemma delb_phase2_spec : forall d b0 m name sb s0, free_tree_ok d -> ovl_wf d b0 -> OvlAbs d b0 m ->
  sub_find name (b_subs b0) = Some sb ->
  exists b' s', delb_phase2 d b0 name s0 = Ok (b', s') /\ ovl_wf d b' /\ OvlAbs d b' (sem_delb name m) /\
    tx_frees s0 s'.
Proof.
  intros d b0 m name sb s0 Hft Hw Ha Hsf.
  destruct (sub_meaning d b0 m name sb Hw Ha Hsf) as (c & Hc & Hac & Hwc).
  destruct (OvlAbs_bucket _ _ _ Hac) as [esc Ec]. subst c.
  destruct (ovl_both d b0 m Hw Ha) as (l & ents & -> & Hbw & Hbv & Hs & Hnd & Hsubs & HF & Hroot).
  unfold sem_delb. rewrite Hc. cbn [Spec.b_ents Spec.b_next set_ents Spec.b_oid].
  destruct (take_sub_spec name (b_subs b0) sb Hnd Hsf) as (rest & Ht & Hnone & Hother & Hnd' & Hin).
  rewrite Forall_forall in Hsubs.
  destruct (Hsubs _ (sub_find_In _ _ _ Hsf)) as [(r & nx & Hal) _]. cbn [fst] in Hal.
  unfold delb_phase2. rewrite Ht.
  (* the page walk *)
  assert (Hs1 : exists s1, (if (b_root_page sb =? 0)%N then Ok s0 else free_tree 100000 d [b_root_page sb] s0) = Ok s1
                          /\ tx_frees s0 s1).
  { destruct (N.eqb_spec (b_root_page sb) 0) as [E|E].
    - exists s0. split; [reflexivity | apply tx_frees_refl].
    - inversion Hwc as [? ? _ _ _ _ Hrsb]; subst. destruct Hrsb as [E0|[n Hn]]; [contradiction|].
      destruct (Hft n _ s0 Hn) as [s1 H1]. exists s1. split; [exact H1 | eapply free_tree_frees; eauto]. }
  destruct Hs1 as (s1 & -> & Hfr). cbn [bind].
  set (b1 := Bucket (b_root_page b0) (b_next b0) (b_dirty b0) (b_rootn b0) rest).
  assert (Hbw1 : bucket_wf d b1) by (apply (bucket_wf_tree d b0); auto).
  assert (Hbv1 : bucket_view d b1 l) by (apply (bucket_view_tree d b0); auto).
  rewrite (b_lookup_refines d b1 l name Hbw1 Hbv1), Hal. cbn [bind is_kv].
  destruct Hbv1 as (h & Hh & Hv1).
  destruct (b_modify_view d h b1 l (OpDel name) s1 Hbw1 Hv1 Hh)
    as (b2 & s2 & Hm & Hw2 & Hv2 & Ha2 & Hs2 & Hr2 & Hn2 & Hsb2 & Hd2 & Hss2).
  cbn [aop] in Ha2. set (l2 := apply_lop (OpDel name) l) in *.
  assert (Hbv2 : bucket_view d b2 l2) by (exists h; auto).
  exists b2, s2. split; [exact Hm|]. cbn [b1 b_subs b_next b_root_page] in Hsb2, Hn2, Hr2.
  split; [|split].
  - apply (ovl_wf_intro d b2 l2); [exact Hw2 | exact Hbv2 | now rewrite Hsb2 | | now rewrite Hr2].
    rewrite Hsb2. apply Forall_forall. intros x Hx. destruct (Hsubs x (Hin x Hx)) as [(r' & nx' & Hal') Hwx].
    split; [|exact Hwx]. exists r', nx'. rewrite Ha2, alookup_aremove by now rewrite assoc_keys.
    rewrite beq_false_ne; [exact Hal'|]. eapply sub_find_None_In; eauto.
  - rewrite <- Hn2. apply (OvlAbs_intro d b2 l2 _ Hbv2). rewrite Hsb2.
    replace l2 with (map snd (Spec.aremove name (assoc l))) by (rewrite <- Ha2; apply assoc_map_snd).
    apply (F2_aremove (OvlEnt d (b_subs b0))); [apply OvlEnt_key | exact Hs | exact HF |].
    intros e kv _ Hk. apply OvlEnt_subs_change. now apply Hother.
  - eapply tx_frees_trans; [exact Hfr | now apply same_but_seqc_frees].
Qed.

Theorem delb_refines : forall d nm, free_tree_ok d ->
  op_refines d tx_frees (fun b s => soft (b, s) (b_delete_bucket d b nm s)) (sem_delb nm).
Proof.
  intros d nm Hft b m s Hw Ha. cbn beta. rewrite b_delete_bucket_unfold.
  destruct (sub_find nm (b_subs b)) as [sb|] eqn:Hsf.
  - cbn [bind fst snd].
    destruct (delb_phase2_spec d b m nm sb s Hft Hw Ha Hsf) as (b' & s' & H1 & H2 & H3 & H4).
    rewrite H1. cbn [soft]. eauto 6.
  - destruct (ovl_both d b m Hw Ha) as (l & ents & Em & Hbw & Hbv & Hs & Hnd & Hsubs & HF & Hroot).
    pose proof (ovl_alookup d _ l ents nm HF) as Hlk.
    rewrite (b_lookup_refines d b l nm Hbw Hbv). cbn [bind].
    destruct (Spec.alookup nm (assoc l)) as [[k v|k r nx]|] eqn:Hal.
    + cbn [bind soft]. exists b, s. unfold sem_delb. subst m. cbn [Spec.b_ents]. rewrite Hlk.
      split; [reflexivity|]. split; [exact Hw|]. split; [exact Ha | apply tx_frees_refl].
    + destruct (alookup_assoc_key _ _ _ Hal) as [Ek _]. cbn [lkey] in Ek. subst k.
      destruct (open_sub_spec d b m nm r nx l Hw Ha Hbv Hsf Hal) as [Hw0 Ha0]. cbn [bind fst snd].
      destruct (delb_phase2_spec d _ m nm (Bucket r nx false None []) s Hft Hw0 Ha0) as (b' & s' & H1 & H2 & H3 & H4).
      { cbn [b_subs]. apply sub_find_put_same. }
      rewrite H1. cbn [soft]. eauto 6.
    + cbn [bind soft]. exists b, s. unfold sem_delb. subst m. cbn [Spec.b_ents]. rewrite Hlk.
      split; [reflexivity|]. split; [exact Hw|]. split; [exact Ha | apply tx_frees_refl].
Qed.

(* a sufficient condition for [free_tree_ok]: fewer than 100000 pages *)
Definition ft_kids (a : apage) : list N :=
  match ap_body a with
  | Branches es => map snd es
  | Leaves l => flat_map (fun e => match e with LBk _ r _ => [r] | _ => [] end) l
  end.
Fixpoint sum_opt (l : list (option nat)) : option nat :=
  match l with
  | [] => Some 0
  | x :: l' => match x, sum_opt l' with Some a, Some b => Some (a + b) | _, _ => None end
  end.
(* the number of pages [free_tree] visits from page p (nested buckets included; a page reachable twice counts twice) *)
Fixpoint tree_cost (fuel : nat) (d : disk) (p : N) : option nat :=
  match fuel with
  | O => None
  | S f => match dget d p with
           | None => None
           | Some a => option_map S (sum_opt (map (tree_cost f d) (rev (ft_kids a))))
           end
  end.

Lemma free_tree_step : forall f d p rest s a, dget d p = Some a ->
  free_tree (S f) d (p :: rest) s = free_tree f d (rev (ft_kids a) ++ rest) (free_pages s p (ap_over a + 1)).
Proof. intros f d p rest s a H. cbn [free_tree]. rewrite H. reflexivity. Qed.

Lemma free_tree_cost : forall f d p c, tree_cost f d p = Some c ->
  forall fuel' rest s, exists s', free_tree (c + fuel') d (p :: rest) s = free_tree fuel' d rest s'.
Proof.
  induction f as [|f IH]; intros d p c H fuel' rest s; cbn [tree_cost] in H; [discriminate|].
  destruct (dget d p) as [a|] eqn:Hg; [|discriminate].
  destruct (sum_opt (map (tree_cost f d) (rev (ft_kids a)))) as [c0|] eqn:Hc; [|discriminate].
  cbn [option_map] in H. inversion H; subst c. cbn [Nat.add]. rewrite (free_tree_step _ _ _ _ _ _ Hg).
  generalize (free_pages s p (ap_over a + 1)). clear H Hg s.
  revert c0 Hc. generalize (rev (ft_kids a)). intros st.
  induction st as [|q st IHst]; intros c0 Hc s; cbn [map sum_opt] in Hc.
  - inversion Hc; subst c0. exists s. reflexivity.
  - destruct (tree_cost f d q) as [cq|] eqn:Hq; [|discriminate].
    destruct (sum_opt (map (tree_cost f d) st)) as [cs|] eqn:Hs; [|discriminate].
    inversion Hc; subst c0. cbn [app]. rewrite <- Nat.add_assoc.
    destruct (IH d q cq Hq (cs + fuel') (st ++ rest) s) as [s1 H1]. rewrite H1. apply (IHst cs eq_refl).
Qed.

Definition free_tree_cost_ok (d : disk) : Prop :=
  forall n r, cwf n d r -> exists f c, tree_cost f d r = Some c /\ c < 100000.

Theorem free_tree_cost_ok_ok : forall d, free_tree_cost_ok d -> free_tree_ok d.
Proof.
  intros d H n r s Hn. destruct (H n r Hn) as (f & c & Hc & Hlt). revert Hlt. generalize 100000. intros F Hlt.
  replace F with (c + S (F - c - 1)) by lia.
  destruct (free_tree_cost f d r c Hc (S (F - c - 1)) [] s) as [s' H']. rewrite H'. exists s'. reflexivity.
Qed.

(** * The operation fold of [run_tx] *)

Definition tx_step (d : disk) (acc : bucket * txs) (o : Engine.op) : res (bucket * txs) :=
  let '(rb, s) := acc in
  match o with
  | Put p k v => soft (rb, s) (at_path 8 d rb p (fun b s => soft (b, s) (b_put d b k v s)) s)
  | Del p k => soft (rb, s) (at_path 8 d rb p (fun b s => soft (b, s) (b_delete d b k s)) s)
  | DelB p nm => soft (rb, s) (at_path 8 d rb p (fun b s => soft (b, s) (b_delete_bucket d b nm s)) s)
  | Touch p => soft (rb, s) (at_path 8 d rb p (fun b s => Ok (b, s)) s)
  end.
Definition tx_fold (st : db) (ops : list Engine.op) (acc : bucket * txs) : res (bucket * txs) :=
  fold_res (tx_step (d_disk st)) ops acc.

Lemma run_tx_fold : forall st ops ord,
  run_tx st ops ord =
  bind (tx_fold st ops (root_bucket st, begin_w st)) (fun p => commit st (fst p) (snd p) ord).
Proof.
  intros st ops ord. unfold run_tx, tx_fold, tx_step.
  match goal with |- bind ?X _ = bind ?Y _ => change Y with X; destruct X as [[r s]| |] end; reflexivity.
Qed.

(** * Successful runs of the operations, inverted *)

Lemma soft_ok_inv : forall {A} (dflt : A) r x, soft dflt r = Ok x -> r = Ok x \/ (x = dflt /\ exists e, r = Err e).
Proof. intros A dflt [a|m|e] x H; cbn [soft] in H; [now left | discriminate | inversion H; right; eauto]. Qed.

Lemma b_modify_ok_inv : forall d b o s b' s', b_modify d b o s = Ok (b', s') ->
  exists n', b' = Bucket (b_root_page b) (b_next b) true (Some n') (b_subs b).
Proof.
  intros d b o s b' s' H. unfold b_modify in H.
  apply bind_ok_inv in H. destruct H as ([n s1] & _ & H). apply bind_ok_inv in H. destruct H as ([n' s2] & _ & H).
  inversion H. eauto.
Qed.

(* what a successful put or delete under [soft] did, [o] being its leaf operation: nothing (the operation returned
   Err), or [b_modify] ran, on a key that names no bucket; only a put of a new key changes the counter *)
Definition kv_done (d : disk) (b : bucket) (o : lop) (s : txs) (b' : bucket) (s' : txs) : Prop :=
  (b' = b /\ s' = s) \/
  exists cur b2 nx', b_lookup d b (lop_key o) = Ok cur /\ (forall k r nx, cur <> Some (LBk k r nx)) /\
    (forall k r nx, o <> OpIns (LBk k r nx)) /\
    b_modify d b o s = Ok (b2, s') /\ b' = Bucket (b_root_page b2) nx' true (b_rootn b2) (b_subs b).

Lemma soft_put_inv : forall d b k v s b' s', soft (b, s) (b_put d b k v s) = Ok (b', s') ->
  kv_done d b (OpIns (LKv k v)) s b' s'.
Proof.
  intros d b k v s b' s' H. apply soft_ok_inv in H. destruct H as [H | [E _]]; [right | inversion E; now left].
  unfold b_put in H. apply bind_ok_inv in H. destruct H as (cur & Hl & H). exists cur.
  destruct cur as [[k0 v0|k0 r nx]|]; cbn [is_kv] in H; try discriminate.
  - destruct (b_modify_ok_inv _ _ _ _ _ _ H) as [n' ->]. eexists _, (b_next b).
    split; [exact Hl|]. split; [discriminate|]. split; [discriminate|]. split; [exact H | reflexivity].
  - apply bind_ok_inv in H. destruct H as ([b2 s2] & Hm & H). inversion H; subst b' s'.
    destruct (b_modify_ok_inv _ _ _ _ _ _ Hm) as [n' ->]. eexists _, _.
    split; [exact Hl|]. split; [discriminate|]. split; [discriminate|]. split; [exact Hm | reflexivity].
Qed.

Lemma soft_delete_inv : forall d b k s b' s', soft (b, s) (b_delete d b k s) = Ok (b', s') -> kv_done d b (OpDel k) s b' s'.
Proof.
  intros d b k s b' s' H. apply soft_ok_inv in H. destruct H as [H | [E _]]; [right | inversion E; now left].
  unfold b_delete in H. apply bind_ok_inv in H. destruct H as (cur & Hl & H). exists cur.
  destruct cur as [[k0 v0|k0 r nx]|]; cbn [is_kv] in H; try discriminate.
  destruct (b_modify_ok_inv _ _ _ _ _ _ H) as [n' ->]. eexists _, _.
  split; [exact Hl|]. split; [discriminate|]. split; [discriminate|]. split; [exact H | reflexivity].
Qed.

(* [opened d b name b0]: [b0] is [b] with the sub-bucket [name] open: it was already, or its stored entry is
   opened now (get_bucket in the source) *)
Inductive opened (d : disk) (b : bucket) (name : bytes) : bucket -> Prop :=
| opened_sub : forall sb, sub_find name (b_subs b) = Some sb -> opened d b name b
| opened_entry : forall k r nx, sub_find name (b_subs b) = None -> b_lookup d b name = Ok (Some (LBk k r nx)) ->
    opened d b name (Bucket (b_root_page b) (b_next b) (b_dirty b) (b_rootn b)
                       (sub_put name (Bucket r nx false None []) (b_subs b))).

Lemma opened_sub_find : forall d b name b0, opened d b name b0 -> exists sb, sub_find name (b_subs b0) = Some sb.
Proof. intros d b name b0 [sb H | k r nx _ _]; [eauto|]. cbn [b_subs]. rewrite sub_find_put_same. eauto. Qed.

Lemma b_get_or_create_ok_inv : forall d b name s b' s', b_get_or_create d b name s = Ok (b', s') ->
  (opened d b name b' /\ s' = s) \/
  (sub_find name (b_subs b) = None /\ b_lookup d b name = Ok None /\
   exists b2, b_modify d b (OpIns (LBk name 0 0)) (snd (next_seq s)) = Ok (b2, s') /\
     b' = Bucket (b_root_page b2) (b_next b2 + 1) true (b_rootn b2)
            (sub_put name (Bucket 0 0 true (Some (Node 0 0 None (seqc s) (Leaves []) [])) []) (b_subs b))).
Proof.
  intros d b name s b' s' H. rewrite b_get_or_create_unfold in H.
  destruct (sub_find name (b_subs b)) as [sb|] eqn:Hsf.
  { inversion H; subst. left. split; [eapply opened_sub; eauto | reflexivity]. }
  apply bind_ok_inv in H. destruct H as (cur & Hl & H). destruct cur as [[k0 v0|k0 r nx]|]; [discriminate | |].
  - inversion H; subst. left. split; [eapply opened_entry; eauto | reflexivity].
  - right. apply bind_ok_inv in H. destruct H as ([b2 s2] & Hm & H). cbn [fst snd] in H. inversion H; subst b' s'.
    destruct (b_modify_ok_inv _ _ _ _ _ _ Hm) as [n' E]. split; [reflexivity|]. split; [exact Hl|]. exists b2.
    split; [exact Hm|]. rewrite E. reflexivity.
Qed.

Lemma soft_delete_bucket_inv : forall d b name s b' s', soft (b, s) (b_delete_bucket d b name s) = Ok (b', s') ->
  (b' = b /\ s' = s) \/
  exists b0 sb, opened d b name b0 /\ sub_find name (b_subs b0) = Some sb /\ delb_phase2 d b0 name s = Ok (b', s').
Proof.
  intros d b name s b' s' H. apply soft_ok_inv in H. destruct H as [H | [E _]]; [right | inversion E; now left].
  rewrite b_delete_bucket_unfold in H. apply bind_ok_inv in H. destruct H as ([b0 s0] & Hopen & H). cbn [fst snd] in H.
  assert (Ho : opened d b name b0 /\ s0 = s).
  { destruct (sub_find name (b_subs b)) as [sb|] eqn:Hsf; [inversion Hopen; subst; split; [eapply opened_sub; eauto | reflexivity]|].
    apply bind_ok_inv in Hopen. destruct Hopen as (cur & Hl & Hopen).
    destruct cur as [[k0 v0|k0 r nx]|]; try discriminate. inversion Hopen; subst.
    split; [eapply opened_entry; eauto | reflexivity]. }
  destruct Ho as [Ho ->]. destruct (opened_sub_find _ _ _ _ Ho) as [sb Hsf]. eauto.
Qed.

Lemma delb_phase2_ok_inv : forall d b0 name s0 b' s', delb_phase2 d b0 name s0 = Ok (b', s') ->
  exists sb rest s1 e, take_sub name (b_subs b0) = Some (sb, rest) /\
    (if (b_root_page sb =? 0)%N then Ok s0 else free_tree 100000 d [b_root_page sb] s0) = Ok s1 /\
    b_lookup d (Bucket (b_root_page b0) (b_next b0) (b_dirty b0) (b_rootn b0) rest) name = Ok (Some e) /\ is_kv e = false /\
    b_modify d (Bucket (b_root_page b0) (b_next b0) (b_dirty b0) (b_rootn b0) rest) (OpDel name) s1 = Ok (b', s').
Proof.
  intros d b0 name s0 b' s' H. unfold delb_phase2 in H.
  destruct (take_sub name (b_subs b0)) as [[sb rest]|]; [|discriminate].
  apply bind_ok_inv in H. destruct H as (s1 & Hft & H). apply bind_ok_inv in H. destruct H as (cur & Hl & H).
  destruct cur as [e|]; [|discriminate]. destruct (is_kv e) eqn:Ek; [discriminate|]. exists sb, rest, s1, e. auto.
Qed.

(* rule induction over the successful runs of [at_path] *)
Lemma at_path_ok_ind : forall d f (P : list bytes -> bucket -> txs -> bucket -> txs -> Prop),
  (forall b s b' s', f b s = Ok (b', s') -> P [] b s b' s') ->
  (forall nm rest b s b1 s1 sb sb' s2, b_get_or_create d b nm s = Ok (b1, s1) -> sub_find nm (b_subs b1) = Some sb ->
     P rest sb s1 sb' s2 ->
     P (nm :: rest) b s (Bucket (b_root_page b1) (b_next b1) (b_dirty b1) (b_rootn b1) (sub_put nm sb' (b_subs b1))) s2) ->
  forall path fuel b s b' s', at_path fuel d b path f s = Ok (b', s') -> P path b s b' s'.
Proof.
  intros d f P H0 HS. induction path as [|nm rest IH]; intros fuel b s b' s' H;
    (destruct fuel as [|fu]; [discriminate|]); cbn [at_path] in H; [now apply H0|].
  apply bind_ok_inv in H. destruct H as ([b1 s1] & Hg & H).
  destruct (sub_find nm (b_subs b1)) as [sb|] eqn:Hsf; [|discriminate].
  apply bind_ok_inv in H. destruct H as ([sb' s2] & Hat & H). inversion H; subst b' s'. eapply HS; eauto.
Qed.

Lemma at_path_fuel : forall d f path fuel b s r, at_path fuel d b path f s = Ok r -> length path < fuel.
Proof.
  intros d f. induction path as [|nm rest IH]; intros fuel b s r H;
    (destruct fuel as [|fu]; [discriminate|]); cbn [at_path length] in *; [lia|].
  apply bind_ok_inv in H. destruct H as ([b1 s1] & _ & H). destruct (sub_find nm (b_subs b1)) as [sb|]; [|discriminate].
  apply bind_ok_inv in H. destruct H as (r' & Hat & _). apply IH in Hat. lia.
Qed.

(* the operation of [o], applied at the end of its path *)
Definition op_run (d : disk) (o : Engine.op) (b : bucket) (s : txs) : res (bucket * txs) :=
  match o with
  | Put _ k v => soft (b, s) (b_put d b k v s)
  | Del _ k => soft (b, s) (b_delete d b k s)
  | DelB _ nm => soft (b, s) (b_delete_bucket d b nm s)
  | Touch _ => Ok (b, s)
  end.

Lemma tx_step_ok_inv : forall d rb s o rb' s', tx_step d (rb, s) o = Ok (rb', s') ->
  (rb' = rb /\ s' = s) \/
  (length (op_path o) < 8 /\ at_path 8 d rb (op_path o) (op_run d o) s = Ok (rb', s')).
Proof.
  intros d rb s o rb' s' H.
  assert (E : tx_step d (rb, s) o = soft (rb, s) (at_path 8 d rb (op_path o) (op_run d o) s)) by (destruct o; reflexivity).
  rewrite E in H. apply soft_ok_inv in H. destruct H as [H | [E' _]]; [right | inversion E'; now left].
  split; [eapply at_path_fuel; eauto | exact H].
Qed.

Lemma tx_fold_inv : forall st (I : bucket -> txs -> Prop),
  (forall o rb s rb' s', I rb s -> tx_step (d_disk st) (rb, s) o = Ok (rb', s') -> I rb' s') ->
  forall ops rb s root' s', I rb s -> tx_fold st ops (rb, s) = Ok (root', s') -> I root' s'.
Proof.
  intros st I Hstep ops rb s root' s' H0 H.
  apply (fold_res_inv (tx_step (d_disk st)) (fun _ a => I (fst a) (snd a))) with (3 := H); [|exact H0].
  intros o _ [rb1 s1] [rb2 s2]. apply Hstep.
Qed.

(* the path must be shorter than at_path's fuel (8); delete_bucket needs the page walk to complete *)
Definition op_ok (d : disk) (o : Engine.op) : Prop :=
  length (op_path o) < 8 /\ match o with DelB _ _ => free_tree_ok d | _ => True end.

(* a test for [op_ok] that does not look at the disk: it refuses every delete_bucket *)
Definition op_okb (o : op) : bool :=
  (length (op_path o) <? 8) && match o with DelB _ _ => false | _ => true end.
Lemma op_okb_ok : forall d ops, forallb op_okb ops = true -> Forall (op_ok d) ops.
Proof.
  intros d ops H. apply Forall_forall. intros o Ho. apply (proj1 (forallb_forall _ _) H) in Ho. unfold op_okb in Ho.
  apply andb_true_iff in Ho. destruct Ho as [Hl Hd]. split; [now apply Nat.ltb_lt|]. destruct o; [exact I | exact I | discriminate | exact I].
Qed.

Lemma soft_at_path : forall d T f g p rb m s, op_refines d T f g -> (forall s s', T s s' -> tx_frees s s') ->
  length p < 8 -> ovl_wf d rb -> OvlAbs d rb m ->
  exists rb' s', soft (rb, s) (at_path 8 d rb p f s) = Ok (rb', s') /\ ovl_wf d rb' /\
    OvlAbs d rb' (match sem_at p g m with Some r => r | None => m end) /\ tx_frees s s'.
Proof.
  intros d T f g p rb m s Hfg HT Hp Hw Ha.
  pose proof (at_path_refines d T f g Hfg p 8 rb m s Hp Hw Ha) as H.
  destruct (sem_at p g m) as [m'|].
  - destruct H as (b' & s' & s1 & Hat & Hw' & Ha' & Hss & Hts). rewrite Hat. cbn [soft].
    exists b', s'. split; [reflexivity|]. split; [exact Hw'|]. split; [exact Ha'|].
    eapply tx_frees_trans; [apply same_but_seqc_frees; exact Hss | now apply HT].
  - rewrite H. cbn [soft]. exists rb, s. split; [reflexivity|]. split; [exact Hw|]. split; [exact Ha|].
    apply tx_frees_refl.
Qed.

Theorem tx_step_refines : forall d o rb m s, op_ok d o -> ovl_wf d rb -> OvlAbs d rb m ->
  exists rb' s', tx_step d (rb, s) o = Ok (rb', s') /\ ovl_wf d rb' /\ OvlAbs d rb' (sem_op o m) /\ tx_frees s s'.
Proof.
  intros d o rb m s [Hp Hft] Hw Ha. unfold sem_op.
  destruct o as [p k v|p k|p nm|p]; cbn [tx_step op_path op_fun] in *.
  - apply (soft_at_path d same_but_seqc); auto using put_refines, same_but_seqc_frees.
  - apply (soft_at_path d same_but_seqc); auto using del_refines, same_but_seqc_frees.
  - apply (soft_at_path d tx_frees); auto using delb_refines.
  - apply (soft_at_path d same_but_seqc _ (fun m => m)); auto using touch_refines, same_but_seqc_frees.
Qed.

Lemma sem_tx_snoc : forall ops o m, sem_tx (ops ++ [o]) m = sem_op o (sem_tx ops m).
Proof. intros ops o m. unfold sem_tx. now rewrite fold_left_app. Qed.

Theorem ops_refine_gen : forall st ops rb m s, Forall (op_ok (d_disk st)) ops ->
  ovl_wf (d_disk st) rb -> OvlAbs (d_disk st) rb m ->
  exists root' s', tx_fold st ops (rb, s) = Ok (root', s') /\
    ovl_wf (d_disk st) root' /\ OvlAbs (d_disk st) root' (sem_tx ops m) /\ tx_frees s s'.
Proof.
  intros st. induction ops as [|o ops IH]; intros rb m s Hok Hw Ha.
  - exists rb, s. split; [reflexivity|]. split; [exact Hw|]. split; [exact Ha | apply tx_frees_refl].
  - inversion Hok as [|? ? Ho Hok']; subst. unfold tx_fold, sem_tx. cbn [fold_res fold_left].
    destruct (tx_step_refines (d_disk st) o rb m s Ho Hw Ha) as (rb1 & s1 & Hst & Hw1 & Ha1 & Hf1).
    rewrite Hst. cbn [bind].
    destruct (IH rb1 (sem_op o m) s1 Hok' Hw1 Ha1) as (root' & s' & Hfold & Hw' & Ha' & Hf').
    exists root', s'. split; [exact Hfold|]. split; [exact Hw'|]. split; [exact Ha'|].
    eapply tx_frees_trans; eauto.
Qed.

(* the root bucket of a fresh write transaction means the committed state *)
Theorem root_bucket_meaning : forall st, db_pages_wf st ->
  ovl_wf (d_disk st) (root_bucket st) /\ OvlAbs (d_disk st) (root_bucket st) (abs_db st).
Proof.
  intros st H. unfold root_bucket, abs_db. apply open_committed. exists 16. split; [exact H | reflexivity].
Qed.

Theorem ops_refine : forall st ops, db_pages_wf st -> Forall (op_ok (d_disk st)) ops ->
  exists root' s', tx_fold st ops (root_bucket st, begin_w st) = Ok (root', s') /\
    ovl_wf (d_disk st) root' /\ OvlAbs (d_disk st) root' (sem_tx ops (abs_db st)) /\
    tx_frees (begin_w st) s'.
Proof.
  intros st ops Hdb Hok. destruct (root_bucket_meaning st Hdb) as [Hw Ha]. now apply ops_refine_gen.
Qed.

(* in terms of run_tx: the operation phase never fails, and what is committed means sem_tx *)
Corollary run_tx_ops : forall st ops ord, db_pages_wf st -> Forall (op_ok (d_disk st)) ops ->
  exists root' s', run_tx st ops ord = commit st root' s' ord /\
    ovl_wf (d_disk st) root' /\ OvlAbs (d_disk st) root' (sem_tx ops (abs_db st)) /\
    tx_frees (begin_w st) s'.
Proof.
  intros st ops ord Hdb Hok. destruct (ops_refine st ops Hdb Hok) as (root' & s' & Hf & H).
  exists root', s'. split; [|exact H]. rewrite run_tx_fold, Hf. reflexivity.
Qed.

(** * The meaning of an overlay bucket is unique *)

Fixpoint bdepth (b : bucket) : nat :=
  match b with
  | Bucket _ _ _ _ subs =>
      S ((fix go (l : list (bytes * bucket)) : nat :=
            match l with [] => 0 | x :: l' => Nat.max (bdepth (snd x)) (go l') end) subs)
  end.

Lemma bdepth_sub : forall b x, In x (b_subs b) -> bdepth (snd x) < bdepth b.
Proof.
  intros [r n dt rn subs] x Hin. cbn [b_subs] in Hin. cbn [bdepth].
  induction subs as [|y subs IH]; [destruct Hin|].
  destruct Hin as [->|Hin]; [lia|]. specialize (IH Hin). lia.
Qed.

Theorem OvlAbs_det : forall d b m m', OvlAbs d b m -> OvlAbs d b m' -> m = m'.
Proof.
  intros d b. remember (bdepth b) as n eqn:En. assert (Hn : bdepth b <= n) by lia. clear En.
  revert b Hn. induction n as [|n IH]; intros b Hn m m' H H'.
  - destruct b; cbn [bdepth] in Hn; lia.
  - inversion H as [? l ents Hv HF]; subst. inversion H' as [? l' ents' Hv' HF']; subst.
    rewrite <- (bucket_view_det d b l l' Hv Hv') in HF'. f_equal.
    clear H H' Hv Hv'. revert ents' HF'.
    induction HF as [|e kv l ents HR HF IHF]; intros ents' HF'; inversion HF' as [|? kv' ? ents0 HR' HF0]; subst;
      [reflexivity|]. f_equal; [|now apply IHF].
    destruct e as [k v|k r nx]; destruct kv as [k1 x1], kv' as [k2 x2].
    + apply OvlEnt_kv_inv in HR, HR'. destruct HR as [-> ->], HR' as [-> ->]. reflexivity.
    + apply OvlEnt_bk_inv in HR, HR'.
      destruct HR as [-> [(sb & Hs & Hm) | (Hs & Hm)]], HR' as [-> [(sb' & Hs' & Hm') | (Hs' & Hm')]]; try congruence.
      * rewrite Hs in Hs'. inversion Hs'; subst sb'. f_equal. apply (IH sb); [|exact Hm | exact Hm'].
        pose proof (bdepth_sub b _ (sub_find_In _ _ _ Hs)) as Hlt. cbn [snd] in Hlt. lia.
      * f_equal. eapply CAbs_det; eauto.
Qed.

(** * Non-vacuity, and where the stated target fails *)

Lemma cwf_leaf : forall n d r a l, dget d r = Some a -> ap_body a = Leaves l ->
  sorted_keys (map lkey l) = true ->
  Forall (fun e => match e with LBk _ r' _ => cwf n d r' | LKv _ _ => True end) l -> cwf (S n) d r.
Proof.
  intros n d r a l Hg Hb Hs Hall. split; [eapply wfp_leaf; eauto|]. exists l.
  split; [unfold fuel0; eapply PV_leaf; eauto | exact Hall].
Qed.

(* a committed state: root page 3 holds "a" and the nested bucket "b" (root page 4, which holds "e") *)
Definition ex2_disk : disk :=
  [ (3%N, {| ap_over := 0; ap_body := Leaves [LKv kA [x01]; LBk kB 4 1] |});
    (4%N, {| ap_over := 0; ap_body := Leaves [LKv kE [x02]] |}) ].
Definition ex2_db : db :=
  {| d_disk := ex2_disk; d_root := 3; d_next := 2; d_np := 5; d_fl := 2; d_fln := 1; d_flids := [];
     d_tx := 1; d_free := []; d_pending := []; d_psz := 4096 |}.

Example ex2_db_wf : db_pages_wf ex2_db.
Proof.
  unfold db_pages_wf. cbn [d_disk d_root ex2_db].
  eapply cwf_leaf; [reflexivity | reflexivity | reflexivity |].
  constructor; [exact I|]. constructor; [|constructor].
  eapply cwf_leaf; [reflexivity | reflexivity | reflexivity |]. constructor; [exact I | constructor].
Qed.

Lemma ex2_dget : forall r a, dget ex2_disk r = Some a -> r = 3%N \/ r = 4%N.
Proof.
  intros r a H. unfold dget, ex2_disk in H. cbn [find fst] in H.
  destruct (N.eqb_spec 3 r); [now left|]. destruct (N.eqb_spec 4 r); [now right | discriminate].
Qed.

Example ex2_free_tree_ok : free_tree_ok ex2_disk.
Proof.
  apply free_tree_cost_ok_ok. intros n r Hn. destruct n as [|n]; [destruct Hn|]. destruct Hn as (Hw & _).
  apply wf_page_inv in Hw. destruct Hw as (a & Hg & _).
  destruct (ex2_dget _ _ Hg) as [-> | ->].
  - exists 3, 2. split; [vm_compute; reflexivity | apply Nat.ltb_lt; vm_compute; reflexivity].
  - exists 3, 1. split; [vm_compute; reflexivity | apply Nat.ltb_lt; vm_compute; reflexivity].
Qed.

(* the overlay after  put c/d := 03 (creates bucket "c")  and  put b/f := 04 (opens the stored bucket "b") *)
Definition ex2_ops0 : list Engine.op := [Put [kC] kD [x03]; Put [kB] kF [x04]].
Definition ex2_root1 : bucket :=
  Eval vm_compute in
    match tx_fold ex2_db ex2_ops0 (root_bucket ex2_db, begin_w ex2_db) with Ok (r, _) => r | _ => root_bucket ex2_db end.
Definition ex2_s1 : txs :=
  Eval vm_compute in
    match tx_fold ex2_db ex2_ops0 (root_bucket ex2_db, begin_w ex2_db) with Ok (_, s) => s | _ => begin_w ex2_db end.
Definition ex2_m1 : snode := Eval vm_compute in sem_tx ex2_ops0 (abs_db ex2_db).

Lemma ex2_ops0_ok : Forall (op_ok ex2_disk) ex2_ops0.
Proof. repeat constructor; cbn; lia. Qed.

(* the hypotheses of all theorems hold of this overlay: one nested bucket from disk (opened and modified),
   one created in the transaction *)
Example ex2_root1_ok :
  ovl_wf ex2_disk ex2_root1 /\ OvlAbs ex2_disk ex2_root1 ex2_m1 /\
  ex2_m1 = SBucket 0 3 [(kA, SVal [x01]); (kB, SBucket 0 2 [(kE, SVal [x02]); (kF, SVal [x04])]);
                        (kC, SBucket 0 1 [(kD, SVal [x03])])] /\
  map fst (b_subs ex2_root1) = [kC; kB] /\
  option_map b_root_page (sub_find kC (b_subs ex2_root1)) = Some 0%N /\
  option_map b_root_page (sub_find kB (b_subs ex2_root1)) = Some 4%N.
Proof.
  destruct (ops_refine ex2_db ex2_ops0 ex2_db_wf ex2_ops0_ok) as (root' & s' & Hf & Hw & Ha & _).
  vm_compute in Hf. inversion Hf; subst root' s'.
  split; [exact Hw|]. split; [exact Ha|]. repeat split; reflexivity.
Qed.

Ltac reduce_scrutinee H :=
  match type of H with
  | match ?X with _ => _ end => let v := eval vm_compute in X in change X with v in H; cbv beta iota in H
  end.

Example ex2_get_or_create :
  (* "c": created in this transaction, already open *)
  (exists b' s' sb, b_get_or_create ex2_disk ex2_root1 kC ex2_s1 = Ok (b', s') /\ sub_find kC (b_subs b') = Some sb /\
     ovl_wf ex2_disk b' /\ OvlAbs ex2_disk b' ex2_m1 /\ same_but_seqc ex2_s1 s') /\
  (* "a": a plain value *)
  b_get_or_create ex2_disk ex2_root1 kA ex2_s1 = Err "IncompatibleValue"%string /\
  (* "g": absent, created *)
  (exists b' s' sb, b_get_or_create ex2_disk ex2_root1 kG ex2_s1 = Ok (b', s') /\ sub_find kG (b_subs b') = Some sb /\
     ovl_wf ex2_disk b' /\
     OvlAbs ex2_disk b' (set_ents ex2_m1 4 (Spec.ainsert kG (SBucket 0 0 []) (Spec.b_ents ex2_m1))) /\
     same_but_seqc ex2_s1 s') /\
  (* "b" in a fresh transaction: stored on disk, opened by the call *)
  (exists b' s' sb, b_get_or_create ex2_disk (root_bucket ex2_db) kB (begin_w ex2_db) = Ok (b', s') /\
     sub_find kB (b_subs b') = Some sb /\ ovl_wf ex2_disk b' /\ OvlAbs ex2_disk b' (abs_db ex2_db) /\
     same_but_seqc (begin_w ex2_db) s').
Proof.
  destruct ex2_root1_ok as (Hw & Ha & _). destruct (root_bucket_meaning ex2_db ex2_db_wf) as [Hw0 Ha0].
  pose proof (b_get_or_create_refines ex2_disk ex2_root1 ex2_m1 kC ex2_s1 Hw Ha) as H1. reduce_scrutinee H1.
  pose proof (b_get_or_create_refines ex2_disk ex2_root1 ex2_m1 kA ex2_s1 Hw Ha) as H2. reduce_scrutinee H2.
  pose proof (b_get_or_create_refines ex2_disk ex2_root1 ex2_m1 kG ex2_s1 Hw Ha) as H3. reduce_scrutinee H3.
  pose proof (b_get_or_create_refines ex2_disk (root_bucket ex2_db) (abs_db ex2_db) kB (begin_w ex2_db) Hw0 Ha0) as H4.
  reduce_scrutinee H4.
  split; [exact H1|]. split; [exact H2|]. split; [exact H3 | exact H4].
Qed.

Example ex2_at_path :
  (* put b/g/a := 05 : "b" is open, "g" is created inside it *)
  (exists b' s' m', sem_at [kB; kG] (sem_put kA [x05]) ex2_m1 = Some m' /\
     at_path 8 ex2_disk ex2_root1 [kB; kG] (fun b s => soft (b, s) (b_put ex2_disk b kA [x05] s)) ex2_s1 = Ok (b', s') /\
     ovl_wf ex2_disk b' /\ OvlAbs ex2_disk b' m' /\
     Spec.get_at [kB; kG; kA] m' = Some (SVal [x05])) /\
  (* a path through the plain value "a" *)
  sem_at [kA; kB] (sem_put kA [x05]) ex2_m1 = None /\
  at_path 8 ex2_disk ex2_root1 [kA; kB] (fun b s => soft (b, s) (b_put ex2_disk b kA [x05] s)) ex2_s1
    = Err "IncompatibleValue"%string.
Proof.
  destruct ex2_root1_ok as (Hw & Ha & _).
  pose proof (at_path_refines ex2_disk _ _ _ (put_refines ex2_disk kA [x05]) [kB; kG] 8 ex2_root1 ex2_m1 ex2_s1
                ltac:(cbn; lia) Hw Ha) as H1.
  pose proof (at_path_refines ex2_disk _ _ _ (put_refines ex2_disk kA [x05]) [kA; kB] 8 ex2_root1 ex2_m1 ex2_s1
                ltac:(cbn; lia) Hw Ha) as H2.
  split; [|split; [vm_compute; reflexivity|]].
  - destruct (sem_at [kB; kG] (sem_put kA [x05]) ex2_m1) as [m'|] eqn:E; [|vm_compute in E; discriminate].
    destruct H1 as (b' & s' & s1 & Hat & Hw' & Ha' & _). exists b', s', m'.
    split; [reflexivity|]. split; [exact Hat|]. split; [exact Hw'|]. split; [exact Ha'|].
    vm_compute in E. inversion E. vm_compute. reflexivity.
  - reduce_scrutinee H2. exact H2.
Qed.

Example ex2_final_ops :
  (exists b' s', soft (ex2_root1, ex2_s1) (b_put ex2_disk ex2_root1 kD [x06] ex2_s1) = Ok (b', s') /\
     ovl_wf ex2_disk b' /\ OvlAbs ex2_disk b' (sem_put kD [x06] ex2_m1) /\ same_but_seqc ex2_s1 s') /\
  (exists b' s', soft (ex2_root1, ex2_s1) (b_delete ex2_disk ex2_root1 kA ex2_s1) = Ok (b', s') /\
     ovl_wf ex2_disk b' /\ OvlAbs ex2_disk b' (sem_del kA ex2_m1) /\ same_but_seqc ex2_s1 s') /\
  (exists b' s', soft (ex2_root1, ex2_s1) (b_delete_bucket ex2_disk ex2_root1 kB ex2_s1) = Ok (b', s') /\
     ovl_wf ex2_disk b' /\ OvlAbs ex2_disk b' (sem_delb kB ex2_m1) /\ tx_frees ex2_s1 s' /\
     sem_delb kB ex2_m1 = SBucket 0 3 [(kA, SVal [x01]); (kC, SBucket 0 1 [(kD, SVal [x03])])] /\
     pending s' = [(2%N, [4%N])]).
Proof.
  destruct ex2_root1_ok as (Hw & Ha & _).
  split; [exact (put_refines ex2_disk kD [x06] ex2_root1 ex2_m1 ex2_s1 Hw Ha)|].
  split; [exact (del_refines ex2_disk kA ex2_root1 ex2_m1 ex2_s1 Hw Ha)|].
  destruct (delb_refines ex2_disk kB ex2_free_tree_ok ex2_root1 ex2_m1 ex2_s1 Hw Ha) as (b' & s' & H1 & H2 & H3 & H4).
  exists b', s'. split; [exact H1|]. split; [exact H2|]. split; [exact H3|]. split; [exact H4|].
  split; [vm_compute; reflexivity|]. vm_compute in H1. inversion H1. reflexivity.
Qed.

(* all four kinds of operation, on stored, opened, created and deleted-then-recreated buckets *)
Definition ex2_ops : list Engine.op :=
  ex2_ops0 ++ [Del [] kA; DelB [] kB; Touch [kG; kG]; Put [kA] kA [x07]; Put [kC; kD] kA [x08]; Del [kC] kG;
               DelB [kG] kG; Put [kB; kB] kB [x09]].
Definition ex2_m2 : snode := Eval vm_compute in sem_tx ex2_ops (abs_db ex2_db).

Example ex2_ops_refine :
  exists root' s', tx_fold ex2_db ex2_ops (root_bucket ex2_db, begin_w ex2_db) = Ok (root', s') /\
    ovl_wf ex2_disk root' /\ OvlAbs ex2_disk root' ex2_m2 /\ tx_frees (begin_w ex2_db) s' /\
    ex2_m2 = SBucket 0 6
      [(kA, SBucket 0 1 [(kA, SVal [x07])]);
       (kB, SBucket 0 1 [(kB, SBucket 0 1 [(kB, SVal [x09])])]);
       (kC, SBucket 0 1 [(kD, SVal [x03])]);
       (kG, SBucket 0 1 [])].
Proof.
  destruct (ops_refine ex2_db ex2_ops ex2_db_wf) as (root' & s' & H1 & H2 & H3 & H4).
  { repeat constructor; cbn; try lia; exact ex2_free_tree_ok. }
  exists root', s'. split; [exact H1|]. split; [exact H2|]. split; [exact H3|]. split; [exact H4 | reflexivity].
Qed.

Example init_db_wf : forall P, db_pages_wf (init_db P).
Proof.
  intros P. unfold db_pages_wf. cbn [d_disk d_root init_db].
  eapply cwf_leaf; [reflexivity | reflexivity | reflexivity | constructor].
Qed.

(* The path-length restriction in [op_ok] is necessary.  at_path runs with fuel 8: on a path of 8 names it creates the 8 buckets and then returns Err "fuel", which the
   outer [soft] of run_tx turns into "no effect"; sem_op creates the buckets and performs the put *)
Definition ex_p8 : list bytes := repeat kA 8.

Example long_path_no_effect :
  tx_fold (init_db 4096) [Put ex_p8 kB [x01]] (root_bucket (init_db 4096), begin_w (init_db 4096))
    = Ok (root_bucket (init_db 4096), begin_w (init_db 4096)) /\
  at_path 8 (d_disk (init_db 4096)) (root_bucket (init_db 4096)) ex_p8
    (fun b s => soft (b, s) (b_put (d_disk (init_db 4096)) b kB [x01] s)) (begin_w (init_db 4096)) = Err "fuel"%string /\
  sem_tx [Put ex_p8 kB [x01]] (abs_db (init_db 4096)) <> abs_db (init_db 4096) /\
  Spec.get_at (ex_p8 ++ [kB]) (sem_tx [Put ex_p8 kB [x01]] (abs_db (init_db 4096))) = Some (SVal [x01]).
Proof.
  split; [vm_compute; reflexivity|]. split; [vm_compute; reflexivity|].
  split; [vm_compute; discriminate | vm_compute; reflexivity].
Qed.

(* hence the tier-B target as stated in EngineAbs (all operation lists) fails for every predicate that holds of the
   empty database: it needs the restriction to paths shorter than 8 (or at_path needs fuel > length path) *)
Theorem run_tx_refines_stmt_false : forall db_wf : db -> Prop,
  db_wf (init_db 4096) -> ~ run_tx_refines_unrestricted_stmt db_wf.
Proof.
  intros db_wf H0 H.
  destruct (run_tx (init_db 4096) [Put ex_p8 kB [x01]] []) as [st'| |] eqn:E; try (vm_compute in E; discriminate).
  destruct (H _ _ _ _ H0 E) as [_ Habs]. vm_compute in E. inversion E; subst st'.
  vm_compute in Habs. discriminate.
Qed.

Print Assumptions CAbs_det.
Print Assumptions abs_bucket_stable.
Print Assumptions open_committed.
Print Assumptions sub_meaning.
Print Assumptions b_get_or_create_refines.
Print Assumptions put_back.
Print Assumptions at_path_refines.
Print Assumptions put_refines.
Print Assumptions del_refines.
Print Assumptions touch_refines.
Print Assumptions free_tree_frees.
Print Assumptions free_tree_cost_ok_ok.
Print Assumptions delb_refines.
Print Assumptions tx_step_refines.
Print Assumptions ops_refine_gen.
Print Assumptions root_bucket_meaning.
Print Assumptions ops_refine.
Print Assumptions run_tx_ops.
Print Assumptions OvlAbs_det.
Print Assumptions ex2_db_wf.
Print Assumptions ex2_free_tree_ok.
Print Assumptions ex2_root1_ok.
Print Assumptions ex2_get_or_create.
Print Assumptions ex2_at_path.
Print Assumptions ex2_final_ops.
Print Assumptions ex2_ops_refine.
Print Assumptions long_path_no_effect.
Print Assumptions run_tx_refines_stmt_false.
