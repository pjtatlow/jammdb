(* Spill: allocation freshness, reading back what a transaction wrote, and the pages produced by
   [spill_node] / [spill_root] of model/Engine.v. [apply_wr] is the disk built by [commit]; [frame] and [outcome]
   say what a stretch of the spill does to the allocator state; [spill_node_spec] / [spill_root_spec] say that the
   pages written read back, in any later write set of the transaction, as the leaves the overlay stood for. *)
From Coq Require Import List NArith PeanoNat Bool Lia ZifyN ZifyNat ZifyBool Sorted Permutation.
From Coq.Strings Require Import Byte.
From Jamm Require PL Freelist FreelistFacts EngineAllocFacts EngineFacts.
From Jamm Require Import ListFacts Bytes Tree SearchFacts Engine EngineAbs EngineMergeFacts.
Import ListNotations.
Import Coq.Strings.String.StringSyntax. Delimit Scope string_scope with string.
Local Open Scope list_scope. Local Open Scope N_scope.

Notation asc := FreelistFacts.asc.
Notation ge2 := FreelistFacts.ge2.
Notation pages_for := Freelist.pages_for.
Notation pend_all := PL.pend_all.
Notation pend_at := FreelistFacts.pend_at.

(** * Projections of the record updates *)

Section Proj.
  Variable s : txs.
  Lemma free_upd_free f : free (upd_free s f) = f. Proof. reflexivity. Qed.
  Lemma pending_upd_free f : pending (upd_free s f) = pending s. Proof. reflexivity. Qed.
  Lemma txid_upd_free f : txid (upd_free s f) = txid s. Proof. reflexivity. Qed.
  Lemma np_upd_free f : np (upd_free s f) = np s. Proof. reflexivity. Qed.
  Lemma psz_upd_free f : psz (upd_free s f) = psz s. Proof. reflexivity. Qed.
  Lemma wr_upd_free f : wr (upd_free s f) = wr s. Proof. reflexivity. Qed.
  Lemma flw_upd_free f : flw (upd_free s f) = flw s. Proof. reflexivity. Qed.
  Lemma seqc_upd_free f : seqc (upd_free s f) = seqc s. Proof. reflexivity. Qed.

  Lemma free_upd_pending f : free (upd_pending s f) = free s. Proof. reflexivity. Qed.
  Lemma pending_upd_pending f : pending (upd_pending s f) = f. Proof. reflexivity. Qed.
  Lemma txid_upd_pending f : txid (upd_pending s f) = txid s. Proof. reflexivity. Qed.
  Lemma np_upd_pending f : np (upd_pending s f) = np s. Proof. reflexivity. Qed.
  Lemma psz_upd_pending f : psz (upd_pending s f) = psz s. Proof. reflexivity. Qed.
  Lemma wr_upd_pending f : wr (upd_pending s f) = wr s. Proof. reflexivity. Qed.
  Lemma flw_upd_pending f : flw (upd_pending s f) = flw s. Proof. reflexivity. Qed.
  Lemma seqc_upd_pending f : seqc (upd_pending s f) = seqc s. Proof. reflexivity. Qed.

  Lemma free_upd_np f : free (upd_np s f) = free s. Proof. reflexivity. Qed.
  Lemma pending_upd_np f : pending (upd_np s f) = pending s. Proof. reflexivity. Qed.
  Lemma txid_upd_np f : txid (upd_np s f) = txid s. Proof. reflexivity. Qed.
  Lemma np_upd_np f : np (upd_np s f) = f. Proof. reflexivity. Qed.
  Lemma psz_upd_np f : psz (upd_np s f) = psz s. Proof. reflexivity. Qed.
  Lemma wr_upd_np f : wr (upd_np s f) = wr s. Proof. reflexivity. Qed.
  Lemma flw_upd_np f : flw (upd_np s f) = flw s. Proof. reflexivity. Qed.
  Lemma seqc_upd_np f : seqc (upd_np s f) = seqc s. Proof. reflexivity. Qed.

  Lemma free_upd_wr f : free (upd_wr s f) = free s. Proof. reflexivity. Qed.
  Lemma pending_upd_wr f : pending (upd_wr s f) = pending s. Proof. reflexivity. Qed.
  Lemma txid_upd_wr f : txid (upd_wr s f) = txid s. Proof. reflexivity. Qed.
  Lemma np_upd_wr f : np (upd_wr s f) = np s. Proof. reflexivity. Qed.
  Lemma psz_upd_wr f : psz (upd_wr s f) = psz s. Proof. reflexivity. Qed.
  Lemma wr_upd_wr f : wr (upd_wr s f) = f. Proof. reflexivity. Qed.
  Lemma flw_upd_wr f : flw (upd_wr s f) = flw s. Proof. reflexivity. Qed.
  Lemma seqc_upd_wr f : seqc (upd_wr s f) = seqc s. Proof. reflexivity. Qed.

  Lemma free_upd_flw f : free (upd_flw s f) = free s. Proof. reflexivity. Qed.
  Lemma pending_upd_flw f : pending (upd_flw s f) = pending s. Proof. reflexivity. Qed.
  Lemma txid_upd_flw f : txid (upd_flw s f) = txid s. Proof. reflexivity. Qed.
  Lemma np_upd_flw f : np (upd_flw s f) = np s. Proof. reflexivity. Qed.
  Lemma psz_upd_flw f : psz (upd_flw s f) = psz s. Proof. reflexivity. Qed.
  Lemma wr_upd_flw f : wr (upd_flw s f) = wr s. Proof. reflexivity. Qed.
  Lemma flw_upd_flw f : flw (upd_flw s f) = f. Proof. reflexivity. Qed.
  Lemma seqc_upd_flw f : seqc (upd_flw s f) = seqc s. Proof. reflexivity. Qed.

  Lemma free_next_seq : free (snd (next_seq s)) = free s. Proof. reflexivity. Qed.
  Lemma pending_next_seq : pending (snd (next_seq s)) = pending s. Proof. reflexivity. Qed.
  Lemma txid_next_seq : txid (snd (next_seq s)) = txid s. Proof. reflexivity. Qed.
  Lemma np_next_seq : np (snd (next_seq s)) = np s. Proof. reflexivity. Qed.
  Lemma psz_next_seq : psz (snd (next_seq s)) = psz s. Proof. reflexivity. Qed.
  Lemma wr_next_seq : wr (snd (next_seq s)) = wr s. Proof. reflexivity. Qed.
  Lemma flw_next_seq : flw (snd (next_seq s)) = flw s. Proof. reflexivity. Qed.
End Proj.

(** * The disk built by commit; allocation freshness *)

(* the page image written for (size, data): [ap_over] is the number of pages of a node of [size] bytes, less one *)
Definition mk_apage (P : N) (v : N * ndata) : apage :=
  {| ap_over := (if fst v mod P =? 0 then fst v / P else fst v / P + 1) - 1; ap_body := snd v |}.

(* exactly the fold of [commit] *)
Definition apply_wr (w : list (N * (N * ndata))) (P : N) (d : disk) : disk :=
  fold_left (fun dk w => let '(p, (size, dd)) := w in
               dput dk p {| ap_over := (if size mod P =? 0 then size / P else size / P + 1) - 1; ap_body := dd |})
            (rev w) d.

(* [commit] with the fold named *)
Definition commit_with_apply_wr (st : db) (b : bucket) (s : txs) (ord : list bytes) : res db :=
  '(b1, s1) <- rebalance fuel0 (d_disk st) b s ;;
  '(r, nx, s2, _) <- spill_bucket fuel0 (d_disk st) b1 s1 ord ;;
  let s3 := free_pages s2 (d_fl st) (d_fln st) in
  let flsize := 40 + 8 * llen (all_pages s3) in
  let '(flp, fln, s4) := tx_allocate s3 flsize in
  Ok {| d_disk := apply_wr (wr s4) (psz s4) (d_disk st); d_root := r; d_next := nx; d_np := np s4; d_fl := flp;
        d_fln := fln; d_flids := all_pages s4; d_tx := txid s4; d_free := free s4; d_pending := pending s4;
        d_psz := psz s4 |}.

Theorem commit_apply_wr : commit = commit_with_apply_wr.
Proof. reflexivity. Qed.

Lemma apply_wr_nil P d : apply_wr [] P d = d.
Proof. reflexivity. Qed.

Lemma apply_wr_cons p v w P d :
  apply_wr ((p, v) :: w) P d = dput (apply_wr w P d) p (mk_apage P v).
Proof.
  unfold apply_wr. cbn [rev]. rewrite fold_left_app. cbn [fold_left]. destruct v as [size dd]. reflexivity.
Qed.

Definition nrun (p n : N) : list N := map (fun i => p + N.of_nat i) (seq 0 (N.to_nat n)).

Lemma In_nrun p n x : In x (nrun p n) <-> p <= x < p + n.
Proof.
  unfold nrun. rewrite in_map_iff. split.
  - intros (i & <- & Hi). apply in_seq in Hi. lia.
  - intros H. exists (N.to_nat (x - p)). split; [lia|]. apply in_seq. lia.
Qed.

(* [live]: pages that must not be handed out *)
Record fresh_inv (live : list N) (s : txs) : Prop := {
  fi_psz : 0 < psz s;
  fi_np : 2 <= np s;
  fi_asc : asc (free s);
  fi_ge2 : ge2 (free s);
  fi_free_lt : forall x, In x (free s) -> x < np s;
  fi_live : forall x, In x live -> x < np s /\ ~ In x (free s) }.

Definition pend_ok (live : list N) (s : txs) : Prop :=
  forall x, In x (pend_all (pending s)) -> x < np s /\ ~ In x (free s) /\ ~ In x live.

Lemma fresh_inv_sub live live' s :
  (forall x, In x live' -> In x live) -> fresh_inv live s -> fresh_inv live' s.
Proof.
  intros Hsub [H1 H2 H3 H4 H5 H6]. constructor; try assumption. intros x Hx. apply H6, Hsub, Hx.
Qed.

Lemma fresh_inv_ext live s s' :
  free s' = free s -> np s' = np s -> psz s' = psz s -> fresh_inv live s -> fresh_inv live s'.
Proof.
  intros E1 E2 E3 [H1 H2 H3 H4 H5 H6]. constructor; rewrite ?E1, ?E2, ?E3; assumption.
Qed.

Lemma node_size_pos n : 0 < node_size n.
Proof. unfold node_size. lia. Qed.

Theorem tx_allocate_fresh live s b p n s' :
  fresh_inv live s -> 0 < b -> tx_allocate s b = (p, n, s') ->
  n = pages_for (psz s) b /\ 0 < n /\ 2 <= p /\
  (forall x, p <= x < p + n -> ~ In x live) /\
  (forall x, p <= x < p + n -> x < np s' /\ ~ In x (free s')) /\
  fresh_inv (nrun p n ++ live) s' /\
  wr s' = wr s /\ pending s' = pending s /\ txid s' = txid s /\ psz s' = psz s /\
  flw s' = flw s /\ seqc s' = seqc s /\
  np s <= np s' /\ (forall x, In x (free s') -> In x (free s)) /\
  (forall x, p <= x < p + n -> In x (free s) \/ np s <= x).
Proof.
  intros [H1 H2 H3 H4 H5 H6] Hb Hal.
  destruct (EngineAllocFacts.engine_alloc_spec s b p n s' H3 H4 H1 Hb Hal)
    as (Hn & Hn0 & Etx & Epsz & Epd & Ewr & Eflw & Eseq & _ & Hcase).
  assert (Hrun : forall x, p <= x < p + n -> exists i, i < n /\ x = p + i).
  { clear. intros x Hx. exists (x - p). lia. }
  destruct Hcase as [(Enp & Hin & Hfree' & Hasc' & Hge' & _) | (Ep & Enp & Efree & _)].
  - (* from the free set *)
    assert (Hp2 : 2 <= p).
    { specialize (Hin 0 Hn0). rewrite N.add_0_r in Hin.
      unfold FreelistFacts.ge2 in H4. rewrite Forall_forall in H4. apply H4, Hin. }
    assert (Hrf : forall x, p <= x < p + n -> In x (free s)).
    { intros x Hx. destruct (Hrun x Hx) as (i & Hi & ->). apply Hin, Hi. }
    repeat (split; [assumption|]).
    split. { intros x Hx Hl. apply (proj2 (H6 x Hl)), Hrf, Hx. }
    split. { intros x Hx. rewrite Enp. split; [apply H5, Hrf, Hx|]. intros Hf. apply Hfree' in Hf. tauto. }
    split.
    { constructor; rewrite ?Epsz, ?Enp; try assumption.
      - intros x Hx. apply Hfree' in Hx. apply H5, Hx.
      - intros x Hx. apply in_app_or in Hx. destruct Hx as [Hx|Hx].
        + apply In_nrun in Hx. split; [apply H5, Hrf, Hx|]. intros Hf. apply Hfree' in Hf. tauto.
        + destruct (H6 x Hx) as [A B]. split; [exact A|]. intros Hf. apply Hfree' in Hf. tauto. }
    repeat (split; [assumption|]). split; [rewrite Enp; apply N.le_refl|]. split.
    + intros x Hx. apply Hfree' in Hx. apply Hx.
    + intros x Hx. left. apply Hrf, Hx.
  - (* growth *)
    subst p.
    repeat (split; [assumption|]).
    split. { intros x Hx Hl. destruct (H6 x Hl) as [A _]. clear - Hx A. lia. }
    split. { intros x Hx. rewrite Enp, Efree. split; [clear - Hx; lia|]. intros Hf. apply H5 in Hf. clear - Hx Hf. lia. }
    split.
    { constructor; rewrite ?Epsz, ?Enp, ?Efree; try assumption; [clear - H2; lia| |].
      - intros x Hx. apply H5 in Hx. clear - Hx. lia.
      - intros x Hx. apply in_app_or in Hx. destruct Hx as [Hx|Hx].
        + apply In_nrun in Hx. split; [clear - Hx; lia|]. intros Hf. apply H5 in Hf. clear - Hx Hf. lia.
        + destruct (H6 x Hx) as [A B]. split; [clear - A; lia|exact B]. }
    repeat (split; [assumption|]). split; [clear - Enp; lia|]. split.
    + intros x. rewrite Efree. tauto.
    + intros x Hx. right. exact (proj1 Hx).
Qed.

Theorem free_pages_fields s p n :
  free (free_pages s p n) = free s /\ np (free_pages s p n) = np s /\ wr (free_pages s p n) = wr s /\
  txid (free_pages s p n) = txid s /\ psz (free_pages s p n) = psz s /\
  flw (free_pages s p n) = flw s /\ seqc (free_pages s p n) = seqc s.
Proof.
  unfold free_pages. generalize (N.to_nat n) as k. intros k. revert s p.
  induction k as [|k IH]; intros s p; cbn [free_run]; [repeat split|].
  destruct (freed_in_tx s p); [apply IH|].
  destruct (IH (upd_pending s (pend_add (txid s) p (pending s))) (p + 1)) as (A & B & C & D & E & F & G).
  rewrite A, B, C, D, E, F, G. repeat split.
Qed.

Theorem free_pages_fresh live s p n : fresh_inv live s -> fresh_inv live (free_pages s p n).
Proof.
  destruct (free_pages_fields s p n) as (A & B & _ & _ & E & _). apply fresh_inv_ext; assumption.
Qed.

(* the freed pages leave [live] *)
Theorem free_pages_pend_ok live live' s p n :
  pend_ok live s ->
  (forall x, p <= x < p + n -> x < np s /\ ~ In x (free s)) ->
  (forall x, In x live' -> In x live /\ ~ (p <= x < p + n)) ->
  pend_ok live' (free_pages s p n).
Proof.
  intros Hpo Hrun Hsub x Hx. destruct (free_pages_fields s p n) as (A & B & _). rewrite A, B.
  apply EngineAllocFacts.engine_free_pend_all in Hx. destruct Hx as [Hx|Hx].
  - destruct (Hpo x Hx) as (H1 & H2 & H3). repeat split; try assumption. intros Hl. apply H3, Hsub, Hl.
  - destruct (Hrun x Hx) as (H1 & H2). repeat split; try assumption. intros Hl. apply Hsub in Hl. tauto.
Qed.

Theorem free_pages_freed s p n x :
  freed_in_tx (free_pages s p n) x = true <-> freed_in_tx s x = true \/ p <= x < p + n.
Proof. apply EngineAllocFacts.engine_free_freed. Qed.

Lemma freed_in_tx_pend_at s x : freed_in_tx s x = true <-> In x (pend_at (txid s) (pending s)).
Proof. apply EngineAllocFacts.freed_in_tx_iff. Qed.

Definition old_run (n : node) (x : N) : Prop := n_page n <> 0 /\ n_page n <= x < n_page n + n_np n.

Lemma free_node_page_fields s n :
  free (free_node_page s n) = free s /\ np (free_node_page s n) = np s /\ wr (free_node_page s n) = wr s /\
  txid (free_node_page s n) = txid s /\ psz (free_node_page s n) = psz s /\
  flw (free_node_page s n) = flw s /\ seqc (free_node_page s n) = seqc s.
Proof.
  unfold free_node_page. destruct (n_page n =? 0); [repeat split|apply free_pages_fields].
Qed.

Lemma free_node_page_freed s n x :
  freed_in_tx (free_node_page s n) x = true <-> freed_in_tx s x = true \/ old_run n x.
Proof.
  unfold free_node_page, old_run. destruct (N.eqb_spec (n_page n) 0) as [E|E].
  - split; [tauto|]. intros [H|[H _]]; [exact H|contradiction].
  - rewrite free_pages_freed. tauto.
Qed.

Lemma free_node_page_fresh live s n : fresh_inv live s -> fresh_inv live (free_node_page s n).
Proof.
  destruct (free_node_page_fields s n) as (A & B & _ & _ & E & _). apply fresh_inv_ext; assumption.
Qed.

Definition wr_get (w : list (N * (N * ndata))) (p : N) : option (N * ndata) :=
  option_map snd (find (fun x => N.eqb (fst x) p) w).

(* [wr_put] and [dput] are the same update of an association list *)
Lemma find_put {V} (w : list (N * V)) p v q :
  option_map snd (find (fun x => fst x =? q) ((p, v) :: filter (fun x => negb (fst x =? p)) w)) =
  if p =? q then Some v else option_map snd (find (fun x => fst x =? q) w).
Proof.
  cbn [find fst]. destruct (N.eqb_spec p q) as [E|E]; [reflexivity|].
  f_equal. induction w as [|[a b] w IH]; [reflexivity|]. cbn [filter find fst].
  destruct (N.eqb_spec a p) as [E1|E1]; cbn [negb].
  - subst a. destruct (N.eqb_spec p q); [contradiction|exact IH].
  - cbn [find fst]. destruct (a =? q); [reflexivity|exact IH].
Qed.

Lemma wr_get_put w p v q : wr_get (wr_put w p v) q = if p =? q then Some v else wr_get w q.
Proof. apply find_put. Qed.

Lemma write_node_inv s n n' s' :
  write_node s n = (n', s') ->
  exists s2, tx_allocate (free_node_page s n) (node_size n) = (n_page n', n_np n', s2) /\
             n' = set_page n (n_page n') (n_np n') /\
             s' = upd_wr s2 (wr_put (wr s2) (n_page n') (node_size n, n_data n)).
Proof.
  unfold write_node. destruct (tx_allocate (free_node_page s n) (node_size n)) as [[p k] s2].
  intros H. inversion H; subst n' s'. exists s2. destruct n. repeat split.
Qed.

Theorem write_node_spec live s n n' s' :
  fresh_inv live s -> write_node s n = (n', s') ->
  let p := n_page n' in let k := n_np n' in
  n' = set_page n p k /\ k = pages_for (psz s) (node_size n) /\ 0 < k /\ 2 <= p /\
  (forall x, p <= x < p + k -> ~ In x live) /\
  fresh_inv (nrun p k ++ live) s' /\
  wr s' = wr_put (wr s) p (node_size n, n_data n) /\
  txid s' = txid s /\ psz s' = psz s /\ flw s' = flw s /\ seqc s' = seqc s /\
  np s <= np s' /\ (forall x, In x (free s') -> In x (free s)) /\
  (forall x, freed_in_tx s' x = true <-> freed_in_tx s x = true \/ old_run n x) /\
  (forall x, old_run n x -> In x (pend_at (txid s') (pending s'))) /\
  pending s' = pending (free_node_page s n).
Proof.
  intros Hfi Hw. destruct (write_node_inv _ _ _ _ Hw) as (s2 & Hal & En & ->).
  destruct (free_node_page_fields s n) as (F1 & F2 & F3 & F4 & F5 & F6 & F7).
  pose proof (free_node_page_fresh live s n Hfi) as Hfi1.
  destruct (tx_allocate_fresh _ _ _ _ _ _ Hfi1 (node_size_pos n) Hal)
    as (Hk & Hk0 & Hp2 & Hnl & _ & Hfi2 & Ewr & Epd & Etx & Epsz & Eflw & Eseq & Hnp & Hfr & _).
  cbv zeta. cbn [free pending txid np psz wr flw seqc upd_wr].
  assert (Hfreed : forall x, freed_in_tx (upd_wr s2 (wr_put (wr s2) (n_page n') (node_size n, n_data n))) x = true <->
                             freed_in_tx s x = true \/ old_run n x).
  { intros x. rewrite <- free_node_page_freed. unfold freed_in_tx. cbn [free pending txid np psz wr flw seqc upd_wr].
    rewrite Epd, Etx. reflexivity. }
  split; [exact En|]. split; [rewrite Hk, F5; reflexivity|]. split; [exact Hk0|]. split; [exact Hp2|].
  split; [exact Hnl|].
  split. { eapply fresh_inv_ext; [| | |exact Hfi2]; reflexivity. }
  split; [rewrite Ewr, F3; reflexivity|]. split; [congruence|]. split; [congruence|].
  split; [congruence|]. split; [congruence|]. split; [lia|].
  split. { intros x Hx. rewrite <- F1. apply Hfr, Hx. }
  split; [exact Hfreed|]. split; [|exact Epd].
  intros x Hx.
  pose proof (proj2 (Hfreed x) (or_intror Hx)) as Hf. apply freed_in_tx_pend_at in Hf.
  cbn [free pending txid np psz wr flw seqc upd_wr] in Hf. exact Hf.
Qed.

(** * Reading back what was written *)

Lemma dget_dput d p a q : dget (dput d p a) q = if p =? q then Some a else dget d q.
Proof. apply find_put. Qed.

(* the page image of p after commit: the most recent entry of the write set for p (the write set is searched
   from its head: [wr_put] conses, and [commit] applies the reversed list), the old disk otherwise *)
Theorem dget_apply_wr w P d p :
  dget (apply_wr w P d) p = match wr_get w p with Some v => Some (mk_apage P v) | None => dget d p end.
Proof.
  induction w as [|[q v] w IH]; [reflexivity|].
  rewrite apply_wr_cons, dget_dput. unfold wr_get. cbn [find fst].
  destruct (q =? p); [reflexivity|exact IH].
Qed.

Corollary dget_apply_wr_some w P d p v :
  wr_get w p = Some v -> dget (apply_wr w P d) p = Some (mk_apage P v).
Proof. intros H. rewrite dget_apply_wr, H. reflexivity. Qed.

Corollary dget_apply_wr_none w P d p :
  wr_get w p = None -> dget (apply_wr w P d) p = dget d p.
Proof. intros H. rewrite dget_apply_wr, H. reflexivity. Qed.

Definition wr_agree (ps : list N) (w w' : list (N * (N * ndata))) : Prop :=
  forall q, In q ps -> wr_get w' q = wr_get w q.

(** ** frames: what a stretch of the spill does to the allocator state *)
(* [alloc]: every page handed out between s and s' (whole runs; also pages that were freed again);
   [dead]: every page freed between s and s' *)
Record frame (live : list N) (s s' : txs) (alloc dead : list N) : Prop := {
  fr_src : forall x, In x alloc -> In x (free s) \/ np s <= x;
  fr_fresh : fresh_inv (alloc ++ live) s';
  fr_wr : forall q, ~ In q alloc -> wr_get (wr s') q = wr_get (wr s) q;
  fr_txid : txid s' = txid s;
  fr_psz : psz s' = psz s;
  fr_np : np s <= np s';
  fr_free : forall x, In x (free s') -> In x (free s);
  fr_pend : forall x, In x (pend_all (pending s')) <-> In x (pend_all (pending s)) \/ In x dead;
  fr_freed : forall x, freed_in_tx s' x = true <-> freed_in_tx s x = true \/ In x dead }.

Lemma frame_refl live s : fresh_inv live s -> frame live s s [] [].
Proof.
  intros H. constructor; try reflexivity; try tauto; try lia.
  - intros x [].
  - intros x. cbn [In]. tauto.
  - intros x. cbn [In]. tauto.
Qed.

Lemma frame_new live s s' alloc dead x :
  fresh_inv live s -> frame live s s' alloc dead -> In x alloc -> ~ In x live.
Proof.
  intros Hfi Hfr Hx Hl. destruct (fi_live _ _ Hfi x Hl) as [A B].
  destruct (fr_src _ _ _ _ _ Hfr x Hx) as [C|C]; [exact (B C)|lia].
Qed.

Lemma frame_trans live s s1 s2 a1 d1 a2 d2 :
  frame live s s1 a1 d1 -> frame (a1 ++ live) s1 s2 a2 d2 -> frame live s s2 (a2 ++ a1) (d1 ++ d2).
Proof.
  intros F1 F2. constructor.
  - intros x Hx. apply in_app_or in Hx. destruct Hx as [Hx|Hx].
    + destruct (fr_src _ _ _ _ _ F2 x Hx) as [A|A].
      * left. apply (fr_free _ _ _ _ _ F1), A.
      * right. pose proof (fr_np _ _ _ _ _ F1). lia.
    + apply (fr_src _ _ _ _ _ F1), Hx.
  - eapply fresh_inv_sub; [|exact (fr_fresh _ _ _ _ _ F2)].
    intros x Hx. rewrite <- app_assoc in Hx. exact Hx.
  - intros q Hq. rewrite (fr_wr _ _ _ _ _ F2), (fr_wr _ _ _ _ _ F1); [reflexivity| |];
      intros Hi; apply Hq, in_or_app; tauto.
  - rewrite (fr_txid _ _ _ _ _ F2). apply (fr_txid _ _ _ _ _ F1).
  - rewrite (fr_psz _ _ _ _ _ F2). apply (fr_psz _ _ _ _ _ F1).
  - pose proof (fr_np _ _ _ _ _ F1). pose proof (fr_np _ _ _ _ _ F2). lia.
  - intros x Hx. apply (fr_free _ _ _ _ _ F1), (fr_free _ _ _ _ _ F2), Hx.
  - intros x. rewrite (fr_pend _ _ _ _ _ F2), (fr_pend _ _ _ _ _ F1), in_app_iff. tauto.
  - intros x. rewrite (fr_freed _ _ _ _ _ F2), (fr_freed _ _ _ _ _ F1), in_app_iff. tauto.
Qed.

Lemma frame_sub live live' s s' alloc dead :
  (forall x, In x live' -> In x live) -> frame live s s' alloc dead -> frame live' s s' alloc dead.
Proof.
  intros Hsub [A B C D E F G H I]. constructor; try assumption.
  eapply fresh_inv_sub; [|exact B]. intros x Hx. apply in_app_or in Hx. apply in_or_app.
  destruct Hx; [left; assumption|right; apply Hsub; assumption].
Qed.

Lemma frame_keeps live s s' alloc dead q :
  fresh_inv live s -> frame live s s' alloc dead -> In q live -> wr_get (wr s') q = wr_get (wr s) q.
Proof. intros Hfi Hfr Hq. apply (fr_wr _ _ _ _ _ Hfr). intros Hi. exact (frame_new _ _ _ _ _ _ Hfi Hfr Hi Hq). Qed.

(* A stretch of the spill with the pages [good] of the subtrees it built: they were handed out here, and every
   page freed was live before or handed out here and is not good. Which live pages are freed depends on the
   overlay: [C L] says that the page runs of the nodes spilled in this stretch lie in L. *)
Record outcome (live : list N) (s s' : txs) (alloc dead good : list N) (C : list N -> Prop) : Prop := {
  oc_frame : frame live s s' alloc dead;
  oc_good : forall q, In q good -> In q alloc;
  oc_dead : forall L, (forall x, In x L -> In x live) -> C L ->
            forall x, In x dead -> (In x L \/ In x alloc) /\ ~ In x good }.

Lemma outcome_weaken live s s' alloc dead good (C C' : list N -> Prop) :
  (forall L, C' L -> C L) -> outcome live s s' alloc dead good C -> outcome live s s' alloc dead good C'.
Proof. intros HC [A B D]. constructor; [exact A|exact B|]. intros L HL HC'. apply D; [exact HL|apply HC, HC']. Qed.

Lemma outcome_refl live s (C : list N -> Prop) : fresh_inv live s -> outcome live s s [] [] [] C.
Proof. intros H. constructor; [apply frame_refl, H|intros q []|intros L _ _ x []]. Qed.

(* the second stretch hands out pages that are neither live nor handed out by the first: a page freed in one
   stretch is not a good page of the other *)
Lemma outcome_trans live s s1 s2 a1 d1 g1 a2 d2 g2 (C1 C2 : list N -> Prop) :
  fresh_inv live s ->
  outcome live s s1 a1 d1 g1 C1 -> outcome (a1 ++ live) s1 s2 a2 d2 g2 C2 ->
  outcome live s s2 (a2 ++ a1) (d1 ++ d2) (g2 ++ g1) (fun L => C1 L /\ C2 L).
Proof.
  intros Hfi [F1 G1 D1] [F2 G2 D2]. pose proof (fr_fresh _ _ _ _ _ F1) as Hfi1.
  constructor; [exact (frame_trans _ _ _ _ _ _ _ _ F1 F2)| |].
  - intros q Hq. apply in_app_or in Hq. apply in_or_app. destruct Hq as [Hq|Hq]; [left; apply G2|right; apply G1]; exact Hq.
  - intros L HL [HC1 HC2] x Hx. rewrite !in_app_iff. apply in_app_or in Hx. destruct Hx as [Hx|Hx].
    + destruct (D1 L HL HC1 x Hx) as [Ha Hb]. split; [tauto|]. intros [Hg|Hg]; [|exact (Hb Hg)].
      apply (frame_new _ _ _ _ _ x Hfi1 F2 (G2 x Hg)). apply in_or_app. destruct Ha as [Ha|Ha]; [right; apply HL|left]; exact Ha.
    + destruct (D2 L (fun y Hy => in_or_app _ _ _ (or_intror (HL y Hy))) HC2 x Hx) as [Ha Hb]. split; [tauto|].
      intros [Hg|Hg]; [exact (Hb Hg)|]. destruct Ha as [Ha|Ha].
      * exact (frame_new _ _ _ _ _ x Hfi F1 (G1 x Hg) (HL x Ha)).
      * apply (frame_new _ _ _ _ _ x Hfi1 F2 Ha). apply in_or_app. left. apply G1, Hg.
Qed.

Lemma outcome_keeps live s s1 s2 a1 d1 g1 a2 d2 (C : list N -> Prop) q :
  outcome live s s1 a1 d1 g1 C -> frame (a1 ++ live) s1 s2 a2 d2 -> In q g1 -> wr_get (wr s2) q = wr_get (wr s1) q.
Proof.
  intros [F1 G1 _] F2 Hq. apply (frame_keeps _ _ _ _ _ _ (fr_fresh _ _ _ _ _ F1) F2). apply in_or_app. left. apply G1, Hq.
Qed.

(* the pending pages stay dead; a page freed in the stretch was in use: below the high-water mark and not free,
   or handed out here *)
Lemma frame_pend_ok_dead live live' s s' alloc dead :
  pend_ok live s -> frame live s s' alloc dead ->
  (forall x, In x dead -> x < np s /\ ~ In x (free s) \/ In x alloc) ->
  (forall x, In x live' -> (In x live \/ In x alloc) /\ ~ In x dead) ->
  pend_ok live' s'.
Proof.
  intros Hpo Hfr Hdead Hsub x Hx. pose proof (fr_np _ _ _ _ _ Hfr) as Hnp.
  apply (fr_pend _ _ _ _ _ Hfr) in Hx. destruct Hx as [Hx|Hx].
  - destruct (Hpo x Hx) as (A & B & C). split; [lia|].
    split; [intros Hf; apply B, (fr_free _ _ _ _ _ Hfr), Hf|].
    intros Hl. destruct (Hsub x Hl) as [[D|D] _]; [exact (C D)|].
    destruct (fr_src _ _ _ _ _ Hfr x D); [tauto|lia].
  - assert (Hx' : x < np s' /\ ~ In x (free s')).
    { destruct (Hdead x Hx) as [[A B]|A].
      - split; [lia|]. intros Hf. apply B, (fr_free _ _ _ _ _ Hfr), Hf.
      - apply (fi_live _ _ (fr_fresh _ _ _ _ _ Hfr)), in_or_app. left. exact A. }
    split; [apply Hx'|]. split; [apply Hx'|]. intros Hl. apply (proj2 (Hsub x Hl)), Hx.
Qed.

Theorem frame_pend_ok live live' s s' alloc dead :
  fresh_inv live s -> pend_ok live s -> frame live s s' alloc dead ->
  (forall x, In x dead -> In x live \/ In x alloc) ->
  (forall x, In x live' -> (In x live \/ In x alloc) /\ ~ In x dead) ->
  pend_ok live' s'.
Proof.
  intros Hfi Hpo Hfr Hdead. apply (frame_pend_ok_dead live live' s s' alloc dead Hpo Hfr).
  intros x Hx. destruct (Hdead x Hx) as [A|A]; [left; apply (fi_live _ _ Hfi), A|right; exact A].
Qed.

Lemma free_pages_frame : forall live s p n, fresh_inv live s -> frame live s (free_pages s p n) [] (nrun p n).
Proof.
  intros live s p n Hfi. destruct (free_pages_fields s p n) as (A & B & C & D & E & _).
  constructor; rewrite ?A, ?B, ?C, ?D, ?E; try reflexivity; try tauto; try (apply N.le_refl).
  - intros x [].
  - cbn [app]. now apply free_pages_fresh.
  - intros x. unfold free_pages. rewrite In_nrun. apply EngineAllocFacts.engine_free_pend_all.
  - intros x. rewrite In_nrun. apply free_pages_freed.
Qed.

Lemma tx_allocate_frame : forall live s bts p n s', fresh_inv live s -> (0 < bts)%N -> tx_allocate s bts = (p, n, s') ->
  frame live s s' (nrun p n) [] /\ (forall x, (p <= x < p + n)%N -> ~ In x live).
Proof.
  intros live s bts p n s' Hfi Hb Hal.
  destruct (tx_allocate_fresh _ _ _ _ _ _ Hfi Hb Hal)
    as (_ & _ & _ & Hnl & _ & Hfi' & Ewr & Epd & Etx & Epsz & _ & _ & Hnp & Hfr & Hsrc).
  split; [|exact Hnl]. constructor; try assumption.
  - intros x Hx. apply In_nrun in Hx. apply Hsrc, Hx.
  - intros q _. now rewrite Ewr.
  - intros x. rewrite Epd. cbn [In]. tauto.
  - intros x. unfold freed_in_tx. rewrite Epd, Etx. cbn [In]. tauto.
Qed.

Theorem tx_allocate_pend_ok live s b p n s' :
  fresh_inv live s -> pend_ok live s -> 0 < b -> tx_allocate s b = (p, n, s') ->
  pend_ok (nrun p n ++ live) s'.
Proof.
  intros Hfi Hpo Hb Hal. destruct (tx_allocate_frame _ _ _ _ _ _ Hfi Hb Hal) as [Hfr _].
  apply (frame_pend_ok live _ s s' (nrun p n) [] Hfi Hpo Hfr); [intros x []|].
  intros x Hx. apply in_app_or in Hx. tauto.
Qed.

(* the page run of a node that has one *)
Definition old_pages (n : node) : list N := if n_page n =? 0 then [] else nrun (n_page n) (n_np n).

Lemma In_old_pages n x : In x (old_pages n) <-> old_run n x.
Proof.
  unfold old_pages, old_run. destruct (N.eqb_spec (n_page n) 0) as [E|E].
  - cbn [In]. tauto.
  - rewrite In_nrun. tauto.
Qed.

Lemma free_node_page_pend_all s n x :
  In x (pend_all (pending (free_node_page s n))) <-> In x (pend_all (pending s)) \/ old_run n x.
Proof.
  unfold free_node_page, old_run. destruct (N.eqb_spec (n_page n) 0) as [E|E].
  - tauto.
  - rewrite EngineAllocFacts.engine_free_pend_all. tauto.
Qed.

Theorem write_node_frame live s n n' s' :
  fresh_inv live s -> write_node s n = (n', s') ->
  frame live s s' (nrun (n_page n') (n_np n')) (old_pages n) /\
  n' = set_page n (n_page n') (n_np n') /\ 2 <= n_page n' /\ 0 < n_np n' /\
  n_np n' = pages_for (psz s) (node_size n) /\
  wr_get (wr s') (n_page n') = Some (node_size n, n_data n).
Proof.
  intros Hfi Hw. pose proof (write_node_spec _ _ _ _ _ Hfi Hw) as H. cbv zeta in H.
  destruct H as (En & Ek & Hk0 & Hp2 & Hnl & Hfi' & Ewr & Etx & Epsz & _ & _ & Hnp & Hfr & Hfreed & _ & Epd).
  assert (Hsrc : forall x, In x (nrun (n_page n') (n_np n')) -> In x (free s) \/ np s <= x).
  { destruct (write_node_inv _ _ _ _ Hw) as (s2 & Hal & _).
    destruct (free_node_page_fields s n) as (F1 & F2 & _).
    destruct (tx_allocate_fresh _ _ _ _ _ _ (free_node_page_fresh live s n Hfi) (node_size_pos n) Hal)
      as (_ & _ & _ & _ & _ & _ & _ & _ & _ & _ & _ & _ & _ & _ & Hs).
    intros x Hx. rewrite <- F1, <- F2. apply Hs, In_nrun, Hx. }
  split; [|repeat (split; [assumption|]); rewrite Ewr, wr_get_put, N.eqb_refl; reflexivity].
  constructor; try assumption.
  - intros q Hq. rewrite Ewr, wr_get_put. destruct (N.eqb_spec (n_page n') q) as [E|E]; [|reflexivity].
    exfalso. apply Hq, In_nrun. lia.
  - intros x. rewrite Epd, free_node_page_pend_all, In_old_pages. reflexivity.
  - intros x. rewrite Hfreed, In_old_pages. reflexivity.
Qed.

(* the pending pages stay dead: the old page run of n leaves [live], the new run enters it *)
Theorem write_node_pend_ok live live' s n n' s' :
  fresh_inv live s -> pend_ok live s -> write_node s n = (n', s') ->
  (forall x, old_run n x -> x < np s /\ ~ In x (free s)) ->
  (forall x, In x live' -> (In x live /\ ~ old_run n x) \/ n_page n' <= x < n_page n' + n_np n') ->
  pend_ok live' s'.
Proof.
  intros Hfi Hpo Hw Hold Hsub. destruct (write_node_frame _ _ _ _ _ Hfi Hw) as [Hfr _].
  apply (frame_pend_ok_dead live live' s s' _ _ Hpo Hfr).
  - intros x Hx. left. apply Hold, In_old_pages, Hx.
  - intros x Hx. rewrite In_old_pages. destruct (Hsub x Hx) as [[A B]|B]; [tauto|].
    apply In_nrun in B. split; [tauto|]. intros Ho. destruct (Hold x Ho) as [C D].
    destruct (fr_src _ _ _ _ _ Hfr x B); [tauto|lia].
Qed.

(** ** the tail of [spill_node]: split, write (twice when the node is split), write the siblings *)
Definition spill_sib_step (acc : list (bytes * N) * txs) (dd : ndata) : res (list (bytes * N) * txs) :=
  let '(l, s0) := acc in
  fk <- first_key dd ;;
  let '(sn, s') := write_node s0 (Node 0 0 (Some fk) 0 dd []) in Ok (l ++ [(fk, n_page sn)], s').

Definition spill_tail (n : node) (d1 : ndata) (s1 : txs) : res (spill_out * txs) :=
  let '(d0, rest) := split s1 d1 in
  let n0 := set_kids (set_data n d0) [] in
  let '(n1, s2) := write_node s1 n0 in
  let '(n2, s3) := match rest with [] => (n1, s2) | _ => write_node s2 n1 end in
  '(sibs, s4) <- fold_res spill_sib_step rest ([], s3) ;;
  fk0 <- first_key (n_data n2) ;;
  Ok ((n_orig n, (fk0, n_page n2), sibs), s4).

Definition spill_kid_step (f : nat) (acc : ndata * txs) (k : node) : res (ndata * txs) :=
  let '(dd, s0) := acc in
  '(out, s') <- spill_node f k s0 ;;
  let '(ko, kb, sibs) := out in
  match dd with Leaves _ => Panic "CANNOT INSERT BRANCH INTO A LEAF NODE"%string | Branches es =>
    es1 <- insert_branch es ko kb ;;
    es2 <- fold_res (fun e sb => insert_branch e None sb) sibs es1 ;;
    Ok (Branches es2, s') end.

Definition kid_keys (ks : list node) : res (list (bytes * node)) :=
  fold_res (fun acc k => fk <- first_key (n_data k) ;; Ok (acc ++ [(fk, k)])) ks [].

Lemma spill_node_unfold f n s :
  spill_node (S f) n s =
  (ks <- kid_keys (n_kids n) ;;
   '(d1, s1) <- fold_res (spill_kid_step f) (map snd (isort_by fst ks)) (n_data n, s) ;;
   spill_tail n d1 s1).
Proof. reflexivity. Qed.

Definition piece_written (w : list (N * (N * ndata))) (sb : bytes * N) (dd : ndata) : Prop :=
  first_key dd = Ok (fst sb) /\ wr_get w (snd sb) = Some (40 + dsize dd, dd).

Lemma sibs_fold_spec : forall rest live l s0 sibs s',
  fresh_inv live s0 -> fold_res spill_sib_step rest (l, s0) = Ok (sibs, s') ->
  exists new alloc,
    sibs = l ++ new /\ Forall2 (piece_written (wr s')) new rest /\
    NoDup (map snd new) /\ (forall q, In q (map snd new) -> In q alloc /\ 2 <= q) /\
    frame live s0 s' alloc [].
Proof.
  induction rest as [|dd rest IH]; intros live l s0 sibs s' Hfi H; cbn [fold_res] in H.
  - inversion H; subst. exists [], []. rewrite app_nil_r.
    split; [reflexivity|]. split; [constructor|]. split; [constructor|]. split; [intros q []|].
    apply frame_refl, Hfi.
  - destruct (spill_sib_step (l, s0) dd) as [[l1 s1]| |] eqn:Hstep; try discriminate. cbn [bind] in H.
    unfold spill_sib_step, bind in Hstep.
    destruct (first_key dd) as [fk| |] eqn:Efk; try discriminate.
    destruct (write_node s0 (Node 0 0 (Some fk) 0 dd [])) as [sn s1'] eqn:Hw.
    inversion Hstep; subst l1 s1'; clear Hstep.
    destruct (write_node_frame _ _ _ _ _ Hfi Hw) as (Hfr1 & Esn & Hp2 & Hk0 & _ & Hget).
    change (old_pages (Node 0 0 (Some fk) 0 dd [])) with (@nil N) in Hfr1.
    cbn [n_data node_size] in Hget. unfold node_size in Hget. cbn [n_data] in Hget.
    set (a1 := nrun (n_page sn) (n_np sn)) in *.
    destruct (IH (a1 ++ live) _ _ _ _ (fr_fresh _ _ _ _ _ Hfr1) H) as (new & alloc & Es & Hpw & Hnd & Hin & Hfr2).
    assert (Hpa : In (n_page sn) a1) by (apply In_nrun; lia).
    assert (Hnotin : ~ In (n_page sn) alloc).
    { intros Hi. apply (frame_new _ _ _ _ _ _ (fr_fresh _ _ _ _ _ Hfr1) Hfr2 Hi). apply in_or_app. left. exact Hpa. }
    exists ((fk, n_page sn) :: new), (alloc ++ a1). split; [rewrite Es, <- app_assoc; reflexivity|].
    split.
    { constructor; [|exact Hpw]. split; [exact Efk|]. cbn [snd].
      rewrite (fr_wr _ _ _ _ _ Hfr2 _ Hnotin). exact Hget. }
    split.
    { cbn [map snd]. constructor; [|exact Hnd]. intros Hi. apply Hnotin, (Hin _ Hi). }
    split.
    { intros q Hq. cbn [map snd In] in Hq. destruct Hq as [<-|Hq].
      - split; [apply in_or_app; right; exact Hpa|exact Hp2].
      - destruct (Hin q Hq) as [A B]. split; [apply in_or_app; left; exact A|exact B]. }
    apply (frame_trans _ _ _ _ _ _ _ _ Hfr1 Hfr2).
Qed.

(* the data is split in the pieces d0 :: rest, written to the returned pages; [stale]: the first copy of d0 when
   the node is split *)
Definition tail_post (live : list N) (n : node) (d1 : ndata) (s1 : txs) (orig : option bytes) (fk : bytes) (p : N)
                     (sibs : list (bytes * N)) (s' : txs) (d0 : ndata) (rest : list ndata) (alloc stale : list N) : Prop :=
  split s1 d1 = (d0, rest) /\ orig = n_orig n /\
  Forall2 (piece_written (wr s')) ((fk, p) :: sibs) (d0 :: rest) /\
  NoDup (p :: map snd sibs) /\
  (forall q, In q (p :: map snd sibs) -> In q alloc /\ 2 <= q /\ ~ In q stale) /\
  frame live s1 s' alloc (old_pages n ++ stale) /\
  (forall x, In x stale -> In x alloc) /\ (rest = [] -> stale = []) /\ (rest <> [] -> stale <> []).

Theorem spill_tail_spec live n d1 s1 orig fk p sibs s' :
  fresh_inv live s1 -> spill_tail n d1 s1 = Ok ((orig, (fk, p), sibs), s') ->
  exists d0 rest alloc stale, tail_post live n d1 s1 orig fk p sibs s' d0 rest alloc stale.
Proof.
  unfold tail_post.
  intros Hfi H. unfold spill_tail in H.
  destruct (split s1 d1) as [d0 rest] eqn:Esp.
  destruct (write_node s1 (set_kids (set_data n d0) [])) as [n1 s2] eqn:Hw1.
  destruct (write_node_frame _ _ _ _ _ Hfi Hw1) as (Hfr1 & En1 & Hp1 & Hk1 & _ & Hget1).
  assert (Eold : old_pages (set_kids (set_data n d0) []) = old_pages n) by (destruct n; reflexivity).
  assert (Edata0 : n_data (set_kids (set_data n d0) []) = d0) by (destruct n; reflexivity).
  rewrite Eold in Hfr1. unfold node_size in Hget1. rewrite Edata0 in Hget1.
  assert (Edata1 : n_data n1 = d0).
  { rewrite En1. destruct n; reflexivity. }
  set (a1 := nrun (n_page n1) (n_np n1)) in *.
  assert (Hp1a : In (n_page n1) a1) by (apply In_nrun; lia).
  exists d0, rest.
  destruct rest as [|r0 rest'].
  - (* no split: one write *)
    cbn [fold_res] in H. unfold bind in H.
    destruct (first_key (n_data n1)) as [fk0| |] eqn:Efk; try discriminate.
    inversion H; subst orig fk p sibs s'. clear H.
    exists a1, []. split; [reflexivity|]. split; [reflexivity|].
    split. { constructor; [|constructor]. split; [rewrite <- Edata1; exact Efk|exact Hget1]. }
    split. { cbn [map]. constructor; [intros []|constructor]. }
    split. { intros q [<-|[]]. split; [exact Hp1a|]. split; [exact Hp1|intros []]. }
    split. { rewrite app_nil_r. exact Hfr1. }
    split; [intros x []|]. split; [reflexivity|]. intros Hne. exfalso. apply Hne. reflexivity.
  - (* split: the node is written a second time, the first page is freed again *)
    destruct (write_node s2 n1) as [n2 s3] eqn:Hw2.
    pose proof (fr_fresh _ _ _ _ _ Hfr1) as Hfi2.
    destruct (write_node_frame _ _ _ _ _ Hfi2 Hw2) as (Hfr2 & En2 & Hp2 & Hk2 & _ & Hget2).
    unfold node_size in Hget2. rewrite Edata1 in Hget2.
    assert (Edata2 : n_data n2 = d0). { rewrite En2. rewrite <- Edata1. destruct n1; reflexivity. }
    assert (Eold1 : old_pages n1 = a1).
    { unfold old_pages. destruct (N.eqb_spec (n_page n1) 0); [lia|reflexivity]. }
    rewrite Eold1 in Hfr2.
    set (a2 := nrun (n_page n2) (n_np n2)) in *.
    assert (Hp2a : In (n_page n2) a2) by (apply In_nrun; lia).
    pose proof (frame_trans _ _ _ _ _ _ _ _ Hfr1 Hfr2) as Hfr12.
    unfold bind in H.
    destruct (fold_res spill_sib_step (r0 :: rest') ([], s3)) as [[sibs0 s4]| |] eqn:Hsibs; try discriminate.
    destruct (first_key (n_data n2)) as [fk0| |] eqn:Efk; try discriminate.
    inversion H; subst orig fk p sibs0 s4. clear H.
    pose proof (fr_fresh _ _ _ _ _ Hfr2) as Hfi3.
    destruct (sibs_fold_spec _ _ _ _ _ _ Hfi3 Hsibs) as (new & alloc & Es & Hpw & Hnd & Hin & Hfr3).
    cbn [app] in Es. subst new.
    assert (Hfr3' : frame ((a2 ++ a1) ++ live) s3 s' alloc []).
    { eapply frame_sub; [|exact Hfr3]. intros x Hx. rewrite <- app_assoc in Hx. exact Hx. }
    pose proof (frame_trans _ _ _ _ _ _ _ _ Hfr12 Hfr3') as Hfr.
    assert (Hdisj12 : forall x, In x a2 -> ~ In x a1).
    { intros x Hx Hx1. apply (frame_new _ _ _ _ _ _ Hfi2 Hfr2 Hx). apply in_or_app. left. exact Hx1. }
    assert (Hdisj3 : forall x, In x alloc -> ~ In x a2 /\ ~ In x a1).
    { intros x Hx. pose proof (frame_new _ _ _ _ _ _ Hfi3 Hfr3 Hx) as Hn.
      split; intros Hi; apply Hn; apply in_or_app; [left; exact Hi|right; apply in_or_app; left; exact Hi]. }
    exists (alloc ++ a2 ++ a1), a1. split; [reflexivity|]. split; [reflexivity|].
    split.
    { constructor; [|exact Hpw]. split; [rewrite <- Edata2; exact Efk|]. cbn [snd].
      rewrite (fr_wr _ _ _ _ _ Hfr3); [exact Hget2|]. intros Hi. apply (proj1 (Hdisj3 _ Hi)), Hp2a. }
    split.
    { constructor; [|exact Hnd]. intros Hi. apply (proj1 (Hdisj3 _ (proj1 (Hin _ Hi)))), Hp2a. }
    split.
    { intros q [<-|Hq].
      - split; [apply in_or_app; right; apply in_or_app; left; exact Hp2a|]. split; [exact Hp2|].
        apply Hdisj12, Hp2a.
      - destruct (Hin q Hq) as [A B]. split; [apply in_or_app; left; exact A|]. split; [exact B|].
        apply (Hdisj3 _ A). }
    split.
    { replace (old_pages n ++ a1) with ((old_pages n ++ a1) ++ []) by apply app_nil_r. exact Hfr. }
    split. { intros x Hx. apply in_or_app. right. apply in_or_app. right. exact Hx. }
    split; [discriminate|]. intros _ E. rewrite E in Hp1a. destruct Hp1a.
Qed.

Lemma tail_outcome live n d1 s1 orig fk p sibs s' d0 rest alloc stale :
  fresh_inv live s1 -> tail_post live n d1 s1 orig fk p sibs s' d0 rest alloc stale ->
  outcome live s1 s' alloc (old_pages n ++ stale) (p :: map snd sibs) (fun L => forall x, old_run n x -> In x L).
Proof.
  intros Hfi (_ & _ & _ & _ & Hin & Hfr & Hst & _). constructor; [exact Hfr|intros q Hq; apply (Hin q Hq)|].
  intros L HL Ho x Hx. apply in_app_or in Hx. destruct Hx as [Hx|Hx].
  - apply In_old_pages in Hx. split; [left; apply Ho, Hx|]. intros Hg.
    apply (frame_new _ _ _ _ _ x Hfi Hfr (proj1 (Hin x Hg))), HL, Ho, Hx.
  - split; [right; apply Hst, Hx|]. intros Hg. apply (proj2 (proj2 (Hin x Hg))), Hx.
Qed.

(** ** from the write set to the committed disk *)
Lemma pieces_on_disk w w' P d : forall sbs dds,
  Forall2 (piece_written w) sbs dds -> wr_agree (map snd sbs) w w' ->
  Forall2 (fun sb dd => dget (apply_wr w' P d) (snd sb) = Some (mk_apage P (40 + dsize dd, dd))) sbs dds.
Proof.
  induction 1 as [|sb dd sbs dds [_ Hg] _ IH]; intros Hag; constructor.
  - apply dget_apply_wr_some. rewrite Hag; [exact Hg|]. left. reflexivity.
  - apply IH. intros q Hq. apply Hag. right. exact Hq.
Qed.

Lemma Forall2_map_r {A B C} (R : A -> C -> Prop) (f : B -> C) : forall la lb,
  Forall2 R la (map f lb) <-> Forall2 (fun a b => R a (f b)) la lb.
Proof.
  intros la lb. split.
  - revert la. induction lb as [|b lb IH]; intros la H; inversion H; subst; constructor; auto.
  - induction 1; cbn [map]; constructor; auto.
Qed.

Lemma page_ents_leaf f d p a l : dget d p = Some a -> ap_body a = Leaves l -> page_ents (S f) d p = l.
Proof. intros H1 H2. cbn [page_ents]. rewrite H1, H2. reflexivity. Qed.

Lemma page_ents_branch f d p a es : dget d p = Some a -> ap_body a = Branches es ->
  page_ents (S f) d p = flat_map (fun e => page_ents f d (snd e)) es.
Proof. intros H1 H2. cbn [page_ents]. rewrite H1, H2. reflexivity. Qed.

Lemma concat_Forall2 {A B} (g : A -> list B) : forall la lb,
  Forall2 (fun a b => g a = b) la lb -> concat (map g la) = concat lb.
Proof. induction 1; cbn [map concat]; [reflexivity|]. congruence. Qed.

Theorem spill_leaf_spec live fuel n s l orig fk p sibs s' :
  fresh_inv live s -> n_kids n = [] -> n_data n = Leaves l -> l <> [] ->
  spill_node fuel n s = Ok ((orig, (fk, p), sibs), s') ->
  exists l0 ls alloc stale,
    split s (Leaves l) = (Leaves l0, map Leaves ls) /\ l0 ++ concat ls = l /\
    orig = n_orig n /\
    (exists e r, l = e :: r /\ fk = lkey e) /\
    Forall2 (fun sb piece => exists e r, piece = e :: r /\ fst sb = lkey e) ((fk, p) :: sibs) (l0 :: ls) /\
    NoDup (p :: map snd sibs) /\
    (forall q, In q (p :: map snd sibs) -> In q alloc /\ 2 <= q /\ ~ In q stale /\ ~ In q live) /\
    frame live s s' alloc (old_pages n ++ stale) /\
    (forall x, old_run n x -> freed_in_tx s' x = true) /\
    (forall x, In x stale -> In x alloc /\ freed_in_tx s' x = true) /\
    (ls = [] -> stale = []) /\ (ls <> [] -> stale <> []) /\
    (forall w' P d, wr_agree (p :: map snd sibs) (wr s') w' ->
       let d' := apply_wr w' P d in
       Forall2 (fun sb piece => page_ents 1 d' (snd sb) = piece) ((fk, p) :: sibs) (l0 :: ls) /\
       page_ents 1 d' p ++ concat (map (fun sb => page_ents 1 d' (snd sb)) sibs) = l).
Proof.
  intros Hfi Hk Hd Hne H. destruct fuel as [|f]; [discriminate|].
  rewrite spill_node_unfold, Hk, Hd in H. cbn [kid_keys fold_res bind isort_by map] in H.
  destruct (spill_tail_spec _ _ _ _ _ _ _ _ _ Hfi H)
    as (d0 & rest & alloc & stale & Esp & Eo & Hpw & Hnd & Hin & Hfr & Hst & Hst0 & Hst1).
  destruct (split_leaves s l) as (l0 & ls & Esp' & Hcat & _ & _ & Hlen).
  rewrite Esp' in Esp. inversion Esp; subst d0 rest. clear Esp.
  change (Leaves l0 :: map Leaves ls) with (map Leaves (l0 :: ls)) in Hpw.
  apply (proj1 (Forall2_map_r _ Leaves _ (l0 :: ls))) in Hpw.
  assert (Hkeys : Forall2 (fun sb piece => exists e r, piece = e :: r /\ fst sb = lkey e) ((fk, p) :: sibs) (l0 :: ls)).
  { eapply Forall2_impl; [|exact Hpw]. intros sb piece [Hf _]. destruct piece as [|e r]; [discriminate|].
    cbn [first_key] in Hf. inversion Hf. exists e, r. split; reflexivity. }
  exists l0, ls, alloc, stale. split; [exact Esp'|]. split; [exact Hcat|]. split; [exact Eo|].
  split.
  { inversion Hkeys as [|? ? ? ? (e & r & E1 & E2) _]; subst. exists e, (r ++ concat ls).
    split; [reflexivity|exact E2]. }
  split; [exact Hkeys|]. split; [exact Hnd|].
  split.
  { intros q Hq. destruct (Hin q Hq) as (A & B & C). repeat split; try assumption.
    apply (frame_new _ _ _ _ _ _ Hfi Hfr A). }
  split; [exact Hfr|].
  split. { intros x Hx. apply (fr_freed _ _ _ _ _ Hfr). right. apply in_or_app. left. apply In_old_pages, Hx. }
  split. { intros x Hx. split; [apply Hst, Hx|]. apply (fr_freed _ _ _ _ _ Hfr). right. apply in_or_app. right. exact Hx. }
  split. { intros E. apply Hst0. rewrite E. reflexivity. }
  split. { intros E. apply Hst1. destruct ls; [contradiction|discriminate]. }
  intros w' P d Hag. cbv zeta.
  assert (Hpw' : Forall2 (piece_written (wr s')) ((fk, p) :: sibs) (map Leaves (l0 :: ls))).
  { apply Forall2_map_r. exact Hpw. }
  pose proof (pieces_on_disk _ _ P d _ _ Hpw' Hag) as Hdisk.
  apply (proj1 (Forall2_map_r _ Leaves _ (l0 :: ls))) in Hdisk.
  assert (Hpe : Forall2 (fun sb piece => page_ents 1 (apply_wr w' P d) (snd sb) = piece) ((fk, p) :: sibs) (l0 :: ls)).
  { eapply Forall2_impl; [|exact Hdisk]. intros sb piece Hg. eapply page_ents_leaf; [exact Hg|reflexivity]. }
  split; [exact Hpe|].
  rewrite <- Hcat. inversion Hpe as [|? ? ? ? E1 E2]. cbn [snd] in E1. rewrite E1. f_equal.
  apply concat_Forall2 with (g := fun sb => page_ents 1 (apply_wr w' P d) (snd sb)). exact E2.
Qed.

(** ** Instances: allocation, [write_node], a leaf that splits in three *)
Definition ex_live : list N := [3; 6; 8; 9; 10; 11].
Definition ex_s : txs :=
  {| free := [4; 5; 7]; pending := []; txid := 6; np := 12; psz := 1024; wr := []; flw := None; seqc := 1 |}.
(* six entries with 300-byte keys: splits in three pieces of two entries at page size 1024 *)
Definition ex_leaf6 : list leafent := EngineFacts.leaf6.
Definition ex_n : node := Node 3 1 (Some (EngineFacts.k300 x01)) 1 (Leaves ex_leaf6) [].

Ltac in_cases H := cbn [In] in H; repeat (destruct H as [<-|H]; [|]); try contradiction.

Example ex_fresh : fresh_inv ex_live ex_s /\ pend_ok ex_live ex_s.
Proof.
  split; [constructor|]; cbn [ex_s free np psz pending].
  - lia.
  - lia.
  - repeat constructor; lia.
  - repeat constructor; lia.
  - intros x Hx. in_cases Hx; lia.
  - intros x Hx. unfold ex_live in Hx. in_cases Hx; (split; [lia|]); intros Hf; in_cases Hf; lia.
  - intros x [].
Qed.

(* [tx_allocate] from both sources: the free set, growth *)
Example ex_alloc_free : tx_allocate ex_s 1500 = (4, 2, upd_free ex_s [7]).
Proof. vm_compute. reflexivity. Qed.
Example ex_alloc_grow : tx_allocate ex_s 2500 = (12, 3, upd_np ex_s 15).
Proof. vm_compute. reflexivity. Qed.

(* write_node: the old page 3 goes to pending under txid 6, the node lands on free page 4 *)
Example ex_write_node :
  let '(n', s') := write_node ex_s ex_n in
  n_page n' = 4 /\ n_np n' = 2 /\ pending s' = [(6, [3])] /\ free s' = [7] /\
  map fst (wr s') = [4] /\ wr_get (wr s') 4 = Some (node_size ex_n, n_data ex_n).
Proof. rewrite (surjective_pairing (write_node ex_s ex_n)). repeat split. Qed.

(* The runs of the examples are evaluated once each: the final state is a constant, and the equation below
   gives the result. *)
Definition ex_leaf_s' : txs :=
  Eval vm_compute in match spill_node 1 ex_n ex_s with Ok (_, s') => s' | _ => ex_s end.
Lemma ex_leaf_run :
  spill_node 1 ex_n ex_s =
  Ok ((Some (EngineFacts.k300 x01), (EngineFacts.k300 x01, 5), [(EngineFacts.k300 x03, 7); (EngineFacts.k300 x05, 12)]),
      ex_leaf_s').
Proof. vm_compute. reflexivity. Qed.

(* the write set after spilling the leaf: the first piece was written to page 4 first, then again to page 5;
   page 4 is pending (freed) but its entry is still in the write set *)
Example ex_spill_leaf :
  n_kids ex_n = [] /\ n_data ex_n = Leaves ex_leaf6 /\ ex_leaf6 <> [] /\
  match spill_node 1 ex_n ex_s with
  | Ok ((orig, (fk, p), sibs), s') =>
      orig = Some (EngineFacts.k300 x01) /\ fk = EngineFacts.k300 x01 /\ p = 5 /\
      sibs = [(EngineFacts.k300 x03, 7); (EngineFacts.k300 x05, 12)] /\
      map fst (wr s') = [12; 7; 5; 4] /\ pending s' = [(6, [3; 4])] /\ free s' = [] /\ np s' = 13 /\
      let d' := apply_wr (wr s') (psz s') [(3, {| ap_over := 0; ap_body := Leaves [] |})] in
      map (page_ents 1 d') [5; 7; 12] = [firstn 2 ex_leaf6; firstn 2 (skipn 2 ex_leaf6); skipn 4 ex_leaf6] /\
      page_ents 1 d' 4 = firstn 2 ex_leaf6
  | _ => False end.
Proof.
  split; [reflexivity|]. split; [reflexivity|]. split; [discriminate|].
  rewrite ex_leaf_run. cbv beta iota zeta. repeat split; reflexivity.
Qed.

Example ex_spill_leaf_thm :
  exists orig fk p sibs s', spill_node 1 ex_n ex_s = Ok ((orig, (fk, p), sibs), s') /\
    forall d, let d' := apply_wr (wr s') 1024 d in
      page_ents 1 d' p ++ concat (map (fun sb => page_ents 1 d' (snd sb)) sibs) = ex_leaf6.
Proof.
  eexists _, _, _, _, _. split; [exact ex_leaf_run|]. intros d.
  assert (Hne : ex_leaf6 <> []) by discriminate.
  destruct (spill_leaf_spec ex_live 1 ex_n ex_s ex_leaf6 _ _ _ _ _ (proj1 ex_fresh) eq_refl eq_refl Hne ex_leaf_run)
    as (l0 & ls & alloc & stale & _ & _ & _ & _ & _ & _ & _ & _ & _ & _ & _ & _ & Hd).
  apply (Hd (wr ex_leaf_s') 1024 d). intros q _. reflexivity.
Qed.

(** * [spill_node] on an overlay node, [spill_root] *)

(** ** binary search and [insert_branch] at a known position *)
Lemma sorted_mid : forall a t b, sorted_keys (a ++ t :: b) = true ->
  Forall (fun x => bcmp x t = Lt) a /\ Forall (fun x => bcmp t x = Lt) b.
Proof.
  induction a as [|x a IH]; intros t b H.
  - split; [constructor|]. apply (sorted_keys_cons _ _ H).
  - cbn [app] in H. destruct (sorted_keys_cons _ _ H) as [Hx Hs]. destruct (IH _ _ Hs) as [A B].
    split; [|exact B]. constructor; [|exact A].
    rewrite Forall_forall in Hx. apply Hx. apply in_or_app. right. left. reflexivity.
Qed.

Lemma sorted_drop_mid : forall a b c, sorted_keys (a ++ b ++ c) = true -> sorted_keys (a ++ c) = true.
Proof.
  induction a as [|x a IH]; intros b c H.
  - cbn [app] in *. apply (sorted_keys_app b c H).
  - cbn [app] in *. destruct (sorted_keys_cons _ _ H) as [Hx Hs]. apply sorted_keys_cons_intro.
    + rewrite Forall_forall in *. intros y Hy. apply Hx. apply in_app_or in Hy. apply in_or_app.
      destruct Hy; [left; assumption|right; apply in_or_app; right; assumption].
    + apply (IH b c Hs).
Qed.

Lemma bsearch_pos_found k1 t k2 :
  sorted_keys (k1 ++ t :: k2) = true -> bsearch (k1 ++ t :: k2) t = (true, N.of_nat (List.length k1)).
Proof.
  intros Hs. destruct (EngineFacts.ebsearch_complete _ t Hs) as [i Hi].
  { apply in_or_app. right. left. reflexivity. }
  rewrite Hi. f_equal. pose proof (EngineFacts.ebsearch_found _ _ _ Hs Hi) as Hn.
  assert (Hn2 : nth_error (k1 ++ t :: k2) (List.length k1) = Some t).
  { rewrite nth_error_app2 by lia. rewrite Nat.sub_diag. reflexivity. }
  pose proof (sorted_NoDup _ Hs) as Hnd.
  assert (E : N.to_nat i = List.length k1).
  { eapply (proj1 (NoDup_nth_error _) Hnd); [|congruence]. apply nth_error_Some. congruence. }
  lia.
Qed.

Lemma bsearch_pos_missing k1 k2 t :
  sorted_keys (k1 ++ k2) = true ->
  Forall (fun x => bcmp x t = Lt) k1 -> Forall (fun x => bcmp t x = Lt) k2 ->
  bsearch (k1 ++ k2) t = (false, N.of_nat (List.length k1)).
Proof.
  intros Hs H1 H2. rewrite Forall_forall in H1, H2.
  destruct (bsearch (k1 ++ k2) t) as [[|] i] eqn:E.
  - exfalso. pose proof (EngineFacts.ebsearch_found _ _ _ Hs E) as Hn. apply nth_error_In in Hn.
    apply in_app_or in Hn. destruct Hn as [Hn|Hn]; [apply H1 in Hn|apply H2 in Hn];
      rewrite bcmp_refl in Hn; discriminate.
  - f_equal. destruct (EngineFacts.ebsearch_missing _ _ _ Hs E) as (Hle & Hlt & Hgt).
    rewrite app_length in Hle.
    destruct (Nat.lt_trichotomy (N.to_nat i) (List.length k1)) as [Hc|[Hc|Hc]]; [| lia |].
    + exfalso. specialize (Hgt (N.to_nat i)). rewrite app_length in Hgt.
      rewrite app_nth1 in Hgt by lia. specialize (Hgt ltac:(lia)).
      rewrite (H1 (nth (N.to_nat i) k1 [])) in Hgt; [discriminate|]. apply nth_In. lia.
    + exfalso. specialize (Hlt (List.length k1) Hc). rewrite app_nth2, Nat.sub_diag in Hlt by lia.
      assert (Hin : In (nth 0 k2 []) k2) by (apply nth_In; lia).
      apply H2, bcmp_lt_gt in Hin. congruence.
Qed.

Lemma replace_at_mid {A} (x : list A) e y v : replace_at (x ++ e :: y) (List.length x) v = x ++ v :: y.
Proof. induction x as [|a x IH]; cbn [app List.length replace_at]; [reflexivity|]. now rewrite IH. Qed.

Lemma insert_at_mid {A} (x y : list A) v : insert_at (x ++ y) (List.length x) v = x ++ v :: y.
Proof. induction x as [|a x IH]; cbn [app List.length insert_at]; [destruct y; reflexivity|]. now rewrite IH. Qed.

Lemma insert_branch_replace (X Y : list (bytes * N)) ko q kb :
  sorted_keys (map fst (X ++ (ko, q) :: Y)) = true ->
  insert_branch (X ++ (ko, q) :: Y) (Some ko) kb = Ok (X ++ kb :: Y).
Proof.
  intros Hs. unfold insert_branch. rewrite map_app in *. cbn [map fst] in *.
  rewrite (bsearch_pos_found _ _ _ Hs), Nat2N.id, map_length, replace_at_mid. reflexivity.
Qed.

Lemma insert_branch_new (X Y : list (bytes * N)) sb :
  sorted_keys (map fst (X ++ sb :: Y)) = true ->
  insert_branch (X ++ Y) None sb = Ok (X ++ sb :: Y).
Proof.
  intros Hs. unfold insert_branch. rewrite map_app in *. cbn [map] in Hs.
  destruct (sorted_mid _ _ _ Hs) as [H1 H2].
  rewrite (bsearch_pos_missing _ _ _ (sorted_drop_mid _ [fst sb] _ Hs) H1 H2), Nat2N.id, map_length, insert_at_mid.
  reflexivity.
Qed.

Lemma insert_branch_sibs : forall (sibs X D Y : list (bytes * N)),
  sorted_keys (map fst (X ++ (D ++ sibs) ++ Y)) = true ->
  fold_res (fun e sb => insert_branch e None sb) sibs (X ++ D ++ Y) = Ok (X ++ (D ++ sibs) ++ Y).
Proof.
  induction sibs as [|sb sibs IH]; intros X D Y Hs; cbn [fold_res].
  - rewrite app_nil_r. reflexivity.
  - replace (X ++ D ++ Y) with ((X ++ D) ++ Y) by (rewrite app_assoc; reflexivity).
    rewrite insert_branch_new.
    + cbn [bind]. replace ((X ++ D) ++ sb :: Y) with (X ++ (D ++ [sb]) ++ Y)
        by (rewrite <- !app_assoc; reflexivity).
      rewrite IH; [rewrite <- !app_assoc; reflexivity|].
      rewrite <- !app_assoc in *. exact Hs.
    + replace ((X ++ D) ++ sb :: Y) with (X ++ (D ++ [sb]) ++ Y) by (rewrite <- !app_assoc; reflexivity).
      replace (X ++ (D ++ sb :: sibs) ++ Y) with ((X ++ D ++ [sb]) ++ sibs ++ Y) in Hs
        by (rewrite <- !app_assoc; reflexivity).
      rewrite map_app, (map_app _ sibs Y) in Hs. apply sorted_drop_mid in Hs. rewrite <- map_app in Hs.
      rewrite <- !app_assoc in *. exact Hs.
Qed.

(* the whole effect of one kid on its parent's entries *)
Lemma insert_outs (X Y : list (bytes * N)) ko q kb sibs :
  sorted_keys (map fst (X ++ (ko, q) :: Y)) = true ->
  sorted_keys (map fst (X ++ (kb :: sibs) ++ Y)) = true ->
  (es1 <- insert_branch (X ++ (ko, q) :: Y) (Some ko) kb ;;
   fold_res (fun e sb => insert_branch e None sb) sibs es1) = Ok (X ++ (kb :: sibs) ++ Y).
Proof.
  intros H1 H2. rewrite (insert_branch_replace _ _ _ _ _ H1). cbn [bind].
  apply (insert_branch_sibs sibs X [kb] Y). exact H2.
Qed.

(** ** key ranges, the hypotheses on an overlay node *)
Definition in_range (lo hi : option bytes) (k : bytes) : Prop :=
  match lo with Some l => bcmp l k <> Gt | None => True end /\
  match hi with Some h => bcmp k h = Lt | None => True end.

Definition keys_ok (lo hi : option bytes) (ks : list bytes) : Prop :=
  ks <> [] /\ sorted_keys ks = true /\ forall k, In k ks -> in_range lo hi k.

(* the key range of each child: child 0 inherits the lower bound of the node, child i > 0 starts at its own
   separator; every child ends at the next separator, the last one at the upper bound of the node *)
Fixpoint chb (lo hi : option bytes) (es : list (bytes * N)) : list (option bytes * option bytes * (bytes * N)) :=
  match es with
  | [] => []
  | e :: es' => let h := match es' with [] => hi | e' :: _ => Some (fst e') end in (lo, h, e) :: chb h hi es'
  end.

Lemma chb_In lo hi es e : In e es -> exists l h, In (l, h, e) (chb lo hi es).
Proof.
  revert lo. induction es as [|e0 es IH]; intros lo H; [destruct H|]. cbn [chb]. destruct H as [->|H].
  - eexists _, _. left. reflexivity.
  - destruct (IH (match es with [] => hi | e' :: _ => Some (fst e') end) H) as (l & h & Hi).
    exists l, h. right. exact Hi.
Qed.

Lemma chb_In_inv lo hi es l h e : In (l, h, e) (chb lo hi es) -> In e es.
Proof.
  revert lo. induction es as [|e0 es IH]; intros lo H; [destruct H|]. cbn [chb] in H. destruct H as [H|H].
  - inversion H. left. reflexivity.
  - right. apply (IH _ H).
Qed.

(* replacing every entry by a non-empty sorted run of entries within the entry's range keeps the whole sorted
   and within the range of the node *)
Lemma segs_sorted (g : bytes * N -> list (bytes * N)) : forall es lo hi,
  sorted_keys (map fst es) = true -> (forall k, In k (map fst es) -> in_range lo hi k) ->
  (forall l h e, In (l, h, e) (chb lo hi es) -> keys_ok l h (map fst (g e))) ->
  sorted_keys (map fst (flat_map g es)) = true /\
  forall k, In k (map fst (flat_map g es)) -> in_range lo hi k.
Proof.
  induction es as [|e es IH]; intros lo hi Hs Hr Hg; [split; [reflexivity|intros k []]|].
  cbn [flat_map]. rewrite map_app. cbn [chb] in Hg.
  destruct es as [|e' es''].
  - cbn [flat_map map]. rewrite app_nil_r. destruct (Hg lo hi e (or_introl eq_refl)) as (_ & A & B). split; assumption.
  - set (es' := e' :: es'') in *.
    assert (Hs' : sorted_keys (map fst es') = true) by (cbn [map] in Hs; apply (sorted_keys_tl _ _ Hs)).
    assert (Hk' : in_range lo hi (fst e')) by (apply Hr; right; left; reflexivity).
    assert (Hr' : forall k, In k (map fst es') -> in_range (Some (fst e')) hi k).
    { intros k Hk. split; [|apply (Hr k); right; exact Hk].
      cbn [es' map] in Hk. destruct Hk as [<-|Hk]; [rewrite bcmp_refl; discriminate|].
      cbn [es' map] in Hs'. destruct (sorted_keys_cons _ _ Hs') as [Hall _]. rewrite Forall_forall in Hall.
      rewrite (Hall k Hk). discriminate. }
    destruct (IH (Some (fst e')) hi Hs' Hr') as [IH1 IH2].
    { intros l h e0 Hi. apply Hg. right. exact Hi. }
    destruct (Hg lo (Some (fst e')) e (or_introl eq_refl)) as (_ & A & B).
    split.
    + apply sorted_app_intro; [exact A|exact IH1|]. intros x y Hx Hy.
      destruct (B x Hx) as [_ Bx]. destruct (IH2 y Hy) as [By _]. cbn in Bx, By.
      eapply bcmp_lt_le_trans; eassumption.
    + intros k Hk. apply in_app_or in Hk. destruct Hk as [Hk|Hk].
      * destruct (B k Hk) as [B1 B2]. split; [exact B1|]. destruct Hk' as [_ Hh].
        destruct hi as [h|]; [|exact I]. cbn in B2. eapply bcmp_lt_trans; eassumption.
      * destruct (IH2 k Hk) as [C1 C2]. split; [|exact C2]. destruct Hk' as [Hl _].
        destruct lo as [l|]; [|exact I]. cbn in C1. eapply bcmp_le_trans; eassumption.
Qed.

Lemma heads_sorted : forall (pieces : list (list bytes)) (ks : list bytes),
  Forall2 (fun k piece => exists r, piece = k :: r) ks pieces ->
  sorted_keys (concat pieces) = true ->
  sorted_keys ks = true /\ forall k, In k ks -> In k (concat pieces).
Proof.
  intros pieces ks H. induction H as [|k piece ks pieces (r & ->) _ IH]; intros Hs; [split; [reflexivity|intros k []]|].
  cbn [concat] in *. cbn [app] in Hs. destruct (sorted_keys_cons _ _ Hs) as [Hall Hs1].
  destruct (sorted_keys_app _ _ Hs1) as [_ Hs2]. destruct (IH Hs2) as [IH1 IH2]. split.
  - apply sorted_keys_cons_intro; [|exact IH1]. rewrite Forall_forall in *. intros x Hx. apply Hall.
    apply in_or_app. right. apply IH2, Hx.
  - intros x [<-|Hx]; [left; reflexivity|]. right. apply in_or_app. right. apply IH2, Hx.
Qed.

(* the outputs of the spilled kids, by the kid's old page *)
Definition find_out (outs : list (N * list (bytes * N))) (q : N) : option (list (bytes * N)) :=
  option_map snd (find (fun x => N.eqb (fst x) q) outs).
Definition seg_of (outs : list (N * list (bytes * N))) (e : bytes * N) : list (bytes * N) :=
  match find_out outs (snd e) with Some o => o | None => [e] end.

Lemma find_out_cons outs q o q' : find_out ((q, o) :: outs) q' = if q =? q' then Some o else find_out outs q'.
Proof. unfold find_out. cbn [find fst]. destruct (q =? q'); reflexivity. Qed.

(* on-disk subtree below page q: every page is in [keep], and [fuel] is enough to read it *)
Fixpoint stable (fuel : nat) (d : disk) (keep : list N) (q : N) : Prop :=
  match fuel with
  | O => False
  | S f => In q keep /\
           match dget d q with
           | None => True
           | Some a => match ap_body a with
                       | Leaves _ => True
                       | Branches es => forall e, In e es -> stable f d keep (snd e) end end
  end.

Lemma stable_ents d d' keep : (forall x, In x keep -> dget d' x = dget d x) ->
  forall fuel q F, stable fuel d keep q -> (fuel <= F)%nat -> page_ents F d' q = page_leaves fuel d q.
Proof.
  intros Hk. induction fuel as [|f IH]; intros q F Hst HF; [destruct Hst|].
  destruct F as [|F]; [lia|]. cbn [stable] in Hst. destruct Hst as [Hq Hst].
  cbn [page_ents page_leaves]. rewrite (Hk q Hq). destruct (dget d q) as [a|]; [|reflexivity].
  destruct (ap_body a) as [l|es]; [reflexivity|]. apply flat_map_ext_in. intros e He. apply IH; [apply Hst, He|lia].
Qed.

Fixpoint ndepth (n : node) : nat :=
  match n with
  | Node _ _ _ _ _ kids =>
      S ((fix go (ks : list node) : nat := match ks with [] => O | k :: ks' => Nat.max (ndepth k) (go ks') end) kids)
  end.

Lemma ndepth_kid n k : In k (n_kids n) -> (ndepth k < ndepth n)%nat.
Proof.
  destruct n as [p np o sq dd kids]. cbn [n_kids ndepth].
  induction kids as [|k0 kids IH]; intros H; [destruct H|]. destruct H as [->|H]; [lia|].
  specialize (IH H). lia.
Qed.

(* the hypotheses on an overlay node that is about to be spilled, with the key range [lo, hi) it is
   responsible for; kids are found by page ([find_kid]), the children without a kid are read from disk d *)
Inductive swf (fuel : nat) (d : disk) (keep : list N) : option bytes -> option bytes -> node -> Prop :=
| swf_leaf lo hi pg npg o sq l :
    keys_ok lo hi (map lkey l) ->
    swf fuel d keep lo hi (Node pg npg o sq (Leaves l) [])
| swf_branch lo hi pg npg o sq es kids :
    keys_ok lo hi (map fst es) ->
    NoDup (map snd es) -> NoDup (map n_page kids) ->
    (forall kd, In kd kids -> exists k, n_orig kd = Some k /\ In (k, n_page kd) es) ->
    (forall l h e kd, In (l, h, e) (chb lo hi es) -> find_kid (snd e) kids = Some kd -> swf fuel d keep l h kd) ->
    (forall e, In e es -> find_kid (snd e) kids = None -> stable fuel d keep (snd e)) ->
    swf fuel d keep lo hi (Node pg npg o sq (Branches es) kids).

(* the page runs of the overlay nodes (the pages the spill frees) all lie in L *)
Inductive old_in (L : list N) : node -> Prop :=
| old_in_node n : (forall x, old_run n x -> In x L) -> (forall k, In k (n_kids n) -> old_in L k) -> old_in L n.

(* reading the output entries [out] of a spilled node in any later write set that keeps the pages [good]
   and leaves [keep] alone gives [target] *)
Definition ents_ok (d : disk) (keep good : list N) (s' : txs) (fmin : nat)
                   (out : list (bytes * N)) (target : list leafent) : Prop :=
  forall w' P, wr_agree good (wr s') w' -> (forall x, In x keep -> wr_get w' x = None) ->
  forall F, (fmin <= F)%nat ->
    flat_map (fun sb => page_ents F (apply_wr w' P d) (snd sb)) out = target.

Lemma ents_ok_mono d keep good good2 s' s2 fmin out target :
  ents_ok d keep good s' fmin out target ->
  (forall q, In q good -> In q good2) ->
  (forall q, In q good -> wr_get (wr s2) q = wr_get (wr s') q) ->
  ents_ok d keep good2 s2 fmin out target.
Proof.
  intros H Hsub Hwr w' P Hag Hk F HF. apply H; try assumption.
  intros q Hq. rewrite (Hag q (Hsub q Hq)). apply Hwr, Hq.
Qed.

(** ** the pieces written by the tail, for any kind of node *)
Lemma first_key_dkeys dd k : first_key dd = Ok k -> exists r, dkeys dd = k :: r.
Proof.
  destruct dd as [[|e l]|[|e es]]; cbn [first_key dkeys map]; intros H; try discriminate; inversion H; eexists; reflexivity.
Qed.

Lemma split_dkeys s dd d0 rest : split s dd = (d0, rest) -> concat (map dkeys (d0 :: rest)) = dkeys dd.
Proof.
  intros H. destruct dd as [l|es].
  - destruct (split_leaves s l) as (l0 & ls & E & Hc & _). rewrite E in H. inversion H; subst d0 rest.
    cbn [map dkeys concat]. rewrite map_map. cbn [dkeys]. rewrite <- Hc, map_app, concat_map. reflexivity.
  - destruct (split_branches s es) as (e0 & ess & E & Hc & _). rewrite E in H. inversion H; subst d0 rest.
    cbn [map dkeys concat]. rewrite map_map. cbn [dkeys]. rewrite <- Hc, map_app, concat_map. reflexivity.
Qed.

Lemma tail_keys_ok lo hi w outs pieces dd :
  Forall2 (piece_written w) outs pieces -> concat (map dkeys pieces) = dkeys dd -> outs <> [] ->
  sorted_keys (dkeys dd) = true -> (forall k, In k (dkeys dd) -> in_range lo hi k) ->
  keys_ok lo hi (map fst outs).
Proof.
  intros Hpw Hc Hne Hs Hr.
  assert (H2 : Forall2 (fun k piece => exists r, piece = k :: r) (map fst outs) (map dkeys pieces)).
  { clear Hc Hne. induction Hpw as [|sb p0 outs pieces [Hf _] _ IH]; cbn [map]; constructor; [|exact IH].
    apply first_key_dkeys, Hf. }
  rewrite <- Hc in Hs. destruct (heads_sorted _ _ H2 Hs) as [A B]. split; [|split].
  - destruct outs; [contradiction|discriminate].
  - exact A.
  - intros k Hk. apply Hr. rewrite <- Hc. apply B, Hk.
Qed.

Lemma read_pieces_leaves P d' F : forall (sbs : list (bytes * N)) ls,
  Forall2 (fun sb dd => dget d' (snd sb) = Some (mk_apage P (40 + dsize dd, dd))) sbs (map Leaves ls) ->
  flat_map (fun sb => page_ents (S F) d' (snd sb)) sbs = concat ls.
Proof.
  intros sbs ls H. apply (proj1 (Forall2_map_r _ Leaves _ ls)) in H.
  induction H as [|sb l sbs ls Hg _ IH]; [reflexivity|]. cbn [flat_map concat]. rewrite IH. f_equal.
  eapply page_ents_leaf; [exact Hg|reflexivity].
Qed.

Lemma read_pieces_branches P d' F : forall (sbs : list (bytes * N)) ess,
  Forall2 (fun sb dd => dget d' (snd sb) = Some (mk_apage P (40 + dsize dd, dd))) sbs (map Branches ess) ->
  flat_map (fun sb => page_ents (S F) d' (snd sb)) sbs = flat_map (fun e => page_ents F d' (snd e)) (concat ess).
Proof.
  intros sbs ess H. apply (proj1 (Forall2_map_r _ Branches _ ess)) in H.
  induction H as [|sb es sbs ess Hg _ IH]; [reflexivity|]. cbn [flat_map concat]. rewrite IH, flat_map_app. f_equal.
  eapply page_ents_branch; [exact Hg|reflexivity].
Qed.

Lemma tail_read_leaves w w' P d s l d0 rest (out : list (bytes * N)) F :
  split s (Leaves l) = (d0, rest) -> Forall2 (piece_written w) out (d0 :: rest) -> wr_agree (map snd out) w w' ->
  flat_map (fun sb => page_ents (S F) (apply_wr w' P d) (snd sb)) out = l.
Proof.
  intros Esp Hpw Hag. pose proof (pieces_on_disk _ _ P d _ _ Hpw Hag) as Hdisk.
  destruct (split_leaves s l) as (l0 & ls & Esp' & Hcat & _). rewrite Esp' in Esp. inversion Esp; subst d0 rest.
  change (Leaves l0 :: map Leaves ls) with (map Leaves (l0 :: ls)) in Hdisk.
  rewrite (read_pieces_leaves _ _ _ _ _ Hdisk). exact Hcat.
Qed.

Lemma tail_read_branches w w' P d s es d0 rest (out : list (bytes * N)) F :
  split s (Branches es) = (d0, rest) -> Forall2 (piece_written w) out (d0 :: rest) -> wr_agree (map snd out) w w' ->
  flat_map (fun sb => page_ents (S F) (apply_wr w' P d) (snd sb)) out =
  flat_map (fun e => page_ents F (apply_wr w' P d) (snd e)) es.
Proof.
  intros Esp Hpw Hag. pose proof (pieces_on_disk _ _ P d _ _ Hpw Hag) as Hdisk.
  destruct (split_branches s es) as (e0 & ess & Esp' & Hcat & _). rewrite Esp' in Esp. inversion Esp; subst d0 rest.
  change (Branches e0 :: map Branches ess) with (map Branches (e0 :: ess)) in Hdisk.
  rewrite (read_pieces_branches _ _ _ _ _ Hdisk). cbn [concat]. rewrite Hcat. reflexivity.
Qed.

(** ** the fold over the kids *)
Lemma kid_keys_snd : forall kids ks, kid_keys kids = Ok ks -> map snd ks = kids.
Proof.
  unfold kid_keys.
  assert (G : forall kids acc ks,
    fold_res (fun acc k => fk <- first_key (n_data k) ;; Ok (acc ++ [(fk, k)])) kids acc = Ok ks ->
    map snd ks = map snd acc ++ kids).
  { induction kids as [|k kids IH]; intros acc ks H; cbn [fold_res] in H.
    - inversion H. rewrite app_nil_r. reflexivity.
    - destruct (first_key (n_data k)) as [fk| |]; cbn [bind] in H; try discriminate.
      rewrite (IH _ _ H), map_app, <- app_assoc. reflexivity. }
  intros kids ks H. apply (G kids [] ks H).
Qed.

(* the kids are spilled in the order of their first keys *)
Lemma kid_keys_todo kids ks : kid_keys kids = Ok ks -> NoDup (map n_page kids) ->
  Permutation (map snd (isort_by fst ks)) kids /\ NoDup (map n_page (map snd (isort_by fst ks))).
Proof.
  intros Hkk Hnd. assert (Hperm : Permutation (map snd (isort_by fst ks)) kids).
  { rewrite <- (kid_keys_snd _ _ Hkk). apply Permutation_map, isort_by_perm. }
  split; [exact Hperm|].
  apply (Permutation_NoDup (l := map n_page kids)); [apply Permutation_map; symmetry; exact Hperm|exact Hnd].
Qed.

Lemma chb_self : forall es lo hi,
  sorted_keys (map fst es) = true -> (forall k, In k (map fst es) -> in_range lo hi k) ->
  forall l h e, In (l, h, e) (chb lo hi es) -> in_range l h (fst e).
Proof.
  induction es as [|e0 es IH]; intros lo hi Hs Hr l h e Hi; [destruct Hi|].
  cbn [chb] in Hi. destruct es as [|e' es''].
  - destruct Hi as [Hi|[]]. inversion Hi; subst. apply Hr. left. reflexivity.
  - set (es' := e' :: es'') in *.
    assert (Hs' : sorted_keys (map fst es') = true) by (cbn [map] in Hs; apply (sorted_keys_tl _ _ Hs)).
    destruct Hi as [Hi|Hi].
    + inversion Hi; subst. split; [apply (Hr (fst e)); left; reflexivity|]. cbn.
      cbn [map] in Hs. destruct (sorted_keys_cons _ _ Hs) as [Hall _]. rewrite Forall_forall in Hall.
      apply Hall. left. reflexivity.
    + apply (IH (Some (fst e')) hi Hs'); [|exact Hi]. intros k Hk. split; [|apply (Hr k); right; exact Hk].
      cbn [es' map] in Hk. destruct Hk as [<-|Hk]; [rewrite bcmp_refl; discriminate|].
      cbn [es' map] in Hs'. destruct (sorted_keys_cons _ _ Hs') as [Hall _]. rewrite Forall_forall in Hall.
      rewrite (Hall k Hk). discriminate.
Qed.

Lemma flat_map_flat_map {A B C} (g : B -> list C) (h : A -> list B) l :
  flat_map g (flat_map h l) = flat_map (fun x => flat_map g (h x)) l.
Proof. induction l as [|x l IH]; [reflexivity|]. cbn [flat_map]. rewrite flat_map_app, IH. reflexivity. Qed.

Lemma flat_map_single {A} (l : list A) : flat_map (fun e => [e]) l = l.
Proof. induction l as [|x l IH]; [reflexivity|]. cbn [flat_map app]. rewrite IH. reflexivity. Qed.

Lemma keep_dget w' P d keep : (forall x, In x keep -> wr_get w' x = None) ->
  forall x, In x keep -> dget (apply_wr w' P d) x = dget d x.
Proof. intros H x Hx. apply dget_apply_wr_none, H, Hx. Qed.

Section Kids.
  Variables (f : nat) (lo hi : option bytes) (es : list (bytes * N)).
  Hypothesis Hes : keys_ok lo hi (map fst es).
  Hypothesis Hnd_es : NoDup (map snd es).

  (* with every entry replaced by the output of its kid, where [outs] has one, the keys stay in the entry's range *)
  Definition segs_ok (outs : list (N * list (bytes * N))) : Prop :=
    forall l h e, In (l, h, e) (chb lo hi es) -> keys_ok l h (map fst (seg_of outs e)).

  Lemma segs_ok_nil : segs_ok [].
  Proof.
    destruct Hes as (_ & Hs & Hr). intros l h e Hi. cbn [seg_of find_out find option_map map].
    split; [discriminate|]. split; [reflexivity|]. intros k [<-|[]]. apply (chb_self es lo hi Hs Hr _ _ _ Hi).
  Qed.

  (* one step of the fold, evaluated: the entry of the kid is replaced by the kid's output *)
  Lemma kid_step_eval kd outs s k fk p sibs sk :
    In (k, n_page kd) es -> find_out outs (n_page kd) = None -> segs_ok outs ->
    (forall l h, In (l, h, (k, n_page kd)) (chb lo hi es) -> keys_ok l h (map fst ((fk, p) :: sibs))) ->
    spill_node f kd s = Ok ((Some k, (fk, p), sibs), sk) ->
    spill_kid_step f (Branches (flat_map (seg_of outs) es), s) kd =
      Ok (Branches (flat_map (seg_of ((n_page kd, (fk, p) :: sibs) :: outs)) es), sk) /\
    segs_ok ((n_page kd, (fk, p) :: sibs) :: outs).
  Proof.
    intros Hin_es Hq_none Hsegs HK Hsp. unfold spill_kid_step. rewrite Hsp. cbn [bind].
    set (q := n_page kd) in *. set (K := (fk, p) :: sibs) in *. set (outs1 := (q, K) :: outs).
    assert (Hseg_same : forall e, In e es -> e <> (k, q) -> seg_of outs1 e = seg_of outs e).
    { intros e He Hne. unfold seg_of, outs1. rewrite find_out_cons.
      destruct (N.eqb_spec q (snd e)) as [E|E]; [|reflexivity].
      exfalso. apply Hne. apply (NoDup_map_inj snd es _ _ Hnd_es He Hin_es). cbn [snd]. congruence. }
    assert (Hseg_q : seg_of outs1 (k, q) = K).
    { unfold seg_of, outs1. rewrite find_out_cons. cbn [snd]. rewrite N.eqb_refl. reflexivity. }
    assert (Hseg_q0 : seg_of outs (k, q) = [(k, q)]).
    { unfold seg_of. cbn [snd]. rewrite Hq_none. reflexivity. }
    assert (Hsegs1 : segs_ok outs1).
    { intros l' h' e Hc. destruct (N.eq_dec (snd e) q) as [E|E].
      - assert (e = (k, q)).
        { apply (NoDup_map_inj snd es _ _ Hnd_es (chb_In_inv _ _ _ _ _ _ Hc) Hin_es). exact E. }
        subst e. rewrite Hseg_q. apply HK, Hc.
      - rewrite Hseg_same; [apply Hsegs, Hc|apply (chb_In_inv _ _ _ _ _ _ Hc)|].
        intros E'. apply E. rewrite E'. reflexivity. }
    split; [|exact Hsegs1].
    destruct Hes as (_ & Hes_s & Hes_r).
    destruct (segs_sorted (seg_of outs) es lo hi Hes_s Hes_r Hsegs) as [Hsort0 _].
    destruct (segs_sorted (seg_of outs1) es lo hi Hes_s Hes_r Hsegs1) as [Hsort1 _].
    destruct (in_split _ _ Hin_es) as (A & B & EAB).
    assert (Hnot : ~ In (k, q) (A ++ B)).
    { apply NoDup_remove_2. rewrite <- EAB. apply (NoDup_map_inv snd), Hnd_es. }
    assert (HA : forall e, In e A -> seg_of outs1 e = seg_of outs e).
    { intros e He. apply Hseg_same; [rewrite EAB; apply in_or_app; left; exact He|].
      intros ->. apply Hnot, in_or_app. left. exact He. }
    assert (HB : forall e, In e B -> seg_of outs1 e = seg_of outs e).
    { intros e He. apply Hseg_same; [rewrite EAB; apply in_or_app; right; right; exact He|].
      intros ->. apply Hnot, in_or_app. right. exact He. }
    assert (E0 : flat_map (seg_of outs) es = flat_map (seg_of outs) A ++ (k, q) :: flat_map (seg_of outs) B).
    { rewrite EAB at 1. rewrite flat_map_app. cbn [flat_map]. rewrite Hseg_q0. reflexivity. }
    assert (E1 : flat_map (seg_of outs1) es = flat_map (seg_of outs) A ++ K ++ flat_map (seg_of outs) B).
    { rewrite EAB at 1. rewrite flat_map_app. cbn [flat_map]. rewrite Hseg_q.
      rewrite (flat_map_ext_in _ _ A HA), (flat_map_ext_in _ _ B HB). reflexivity. }
    rewrite E0 in Hsort0. rewrite E1 in Hsort1. rewrite E0.
    rewrite (insert_branch_replace _ _ _ _ (fk, p) Hsort0). cbn [bind].
    change (flat_map (seg_of outs) A ++ (fk, p) :: flat_map (seg_of outs) B)
      with (flat_map (seg_of outs) A ++ [(fk, p)] ++ flat_map (seg_of outs) B).
    rewrite (insert_branch_sibs sibs _ [(fk, p)] _ Hsort1). cbn [bind]. rewrite E1. reflexivity.
  Qed.
End Kids.

(** ** the specification of [spill_node] *)
Section Spill.
  Variables (fuel : nat) (d : disk) (keep : list N).

  (* what is promised about [spill_node f n s = Ok ((orig, (fk, p), sibs), s')], for given page sets *)
  Definition node_post (live : list N) (lo hi : option bytes) (n : node) (s : txs) (orig : option bytes) (fk : bytes)
                       (p : N) (sibs : list (bytes * N)) (s' : txs) (alloc dead good : list N) : Prop :=
    outcome live s s' alloc dead good (fun L => old_in L n) /\
    (forall q, In q (p :: map snd sibs) -> In q good) /\
    orig = n_orig n /\
    keys_ok lo hi (map fst ((fk, p) :: sibs)) /\
    NoDup (p :: map snd sibs) /\ (forall x, old_run n x -> In x dead) /\
    ents_ok d keep good s' (ndepth n + fuel) ((fk, p) :: sibs) (view_leaves fuel d n).

  Definition spill_spec (f : nat) : Prop :=
    forall live lo hi n s orig fk p sibs s',
      fresh_inv live s -> swf fuel d keep lo hi n ->
      spill_node f n s = Ok ((orig, (fk, p), sibs), s') ->
      exists alloc dead good, node_post live lo hi n s orig fk p sibs s' alloc dead good.

  (* ... and about the fold over the kids [todo] from s to s1, with the outputs [outs'] *)
  Definition kids_post (todo : list node) (outs' : list (N * list (bytes * N))) (live : list N) (s s1 : txs)
                       (alloc dead good : list N) : Prop :=
    outcome live s s1 alloc dead good (fun L => forall kd, In kd todo -> old_in L kd) /\
    forall kd, In kd todo -> exists out, find_out outs' (n_page kd) = Some out /\
      ents_ok d keep good s1 (ndepth kd + fuel) out (view_leaves fuel d kd).

  Lemma kids_post_nil outs live s : fresh_inv live s -> kids_post [] outs live s s [] [] [].
  Proof. intros Hfi. split; [apply outcome_refl, Hfi|intros kd []]. Qed.

  Lemma kids_post_cons kd todo outs' live lo hi s orig fk p sibs sk s1 a1 dd1 g1 a2 dd2 g2 :
    fresh_inv live s -> node_post live lo hi kd s orig fk p sibs sk a1 dd1 g1 ->
    find_out outs' (n_page kd) = Some ((fk, p) :: sibs) ->
    kids_post todo outs' (a1 ++ live) sk s1 a2 dd2 g2 ->
    kids_post (kd :: todo) outs' live s s1 (a2 ++ a1) (dd1 ++ dd2) (g2 ++ g1).
  Proof.
    intros Hfi (Hoc1 & _ & _ & _ & _ & _ & Hents1) Hfound (Hoc2 & Hdone). split.
    { eapply outcome_weaken; [|exact (outcome_trans _ _ _ _ _ _ _ _ _ _ _ _ Hfi Hoc1 Hoc2)].
      intros L HL. split; [apply HL; left; reflexivity|intros kd' Hk'; apply HL; right; exact Hk']. }
    intros kd' [<-|Hk'].
    - exists ((fk, p) :: sibs). split; [exact Hfound|]. eapply ents_ok_mono; [exact Hents1| |].
      + intros x Hx. apply in_or_app. right. exact Hx.
      + intros x Hx. exact (outcome_keeps _ _ _ _ _ _ _ _ _ _ x Hoc1 (oc_frame _ _ _ _ _ _ _ Hoc2) Hx).
    - destruct (Hdone kd' Hk') as (out & Ho & He). exists out. split; [exact Ho|].
      eapply ents_ok_mono; [exact He| |reflexivity]. intros x Hx. apply in_or_app. left. exact Hx.
  Qed.

  (* a leaf: the tail alone *)
  Lemma leaf_post live lo hi pg npg o sq l s orig fk p sibs s' d0 rest alloc stale :
    let n := Node pg npg o sq (Leaves l) [] in
    fresh_inv live s -> keys_ok lo hi (map lkey l) ->
    tail_post live n (Leaves l) s orig fk p sibs s' d0 rest alloc stale ->
    node_post live lo hi n s orig fk p sibs s' alloc (old_pages n ++ stale) (p :: map snd sibs).
  Proof.
    intros n Hfi (_ & Hks & Hkr) Ht. pose proof Ht as (Esp & Eo & Hpw & Hnd & _).
    split.
    { eapply outcome_weaken; [|exact (tail_outcome _ _ _ _ _ _ _ _ _ _ _ _ _ Hfi Ht)].
      intros L Ho. inversion Ho as [? Ho' _]. exact Ho'. }
    split; [tauto|]. split; [exact Eo|].
    split.
    { eapply tail_keys_ok; [exact Hpw|apply (split_dkeys _ _ _ _ Esp)|discriminate|exact Hks|exact Hkr]. }
    split; [exact Hnd|]. split; [intros x Hx; apply in_or_app; left; apply In_old_pages, Hx|].
    intros w' P Hag _ F HF. destruct F as [|F]; [unfold n in HF; cbn [ndepth] in HF; lia|].
    exact (tail_read_leaves _ _ P d _ _ _ _ _ F Esp Hpw Hag).
  Qed.

  (* a branch: the kids, then the tail on the entries with the kids' outputs in place *)
  Lemma branch_post live lo hi pg npg o sq es kids todo outs s s1 orig fk p sibs s' a1 dd1 g1 d0 rest a2 stale :
    let n := Node pg npg o sq (Branches es) kids in
    fresh_inv live s -> keys_ok lo hi (map fst es) ->
    (forall e, In e es -> find_kid (snd e) kids = None -> stable fuel d keep (snd e)) ->
    Permutation todo kids -> segs_ok lo hi es outs ->
    (forall e : bytes * N, find_kid (snd e) kids = None -> find_out outs (snd e) = None) ->
    kids_post todo outs live s s1 a1 dd1 g1 ->
    tail_post (a1 ++ live) n (Branches (flat_map (seg_of outs) es)) s1 orig fk p sibs s' d0 rest a2 stale ->
    node_post live lo hi n s orig fk p sibs s' (a2 ++ a1) (dd1 ++ old_pages n ++ stale) ((p :: map snd sibs) ++ g1).
  Proof.
    intros n Hfi (_ & Hes_s & Hes_r) Hstab Hperm Hsegs Hnokid (Hoc1 & Hkd) Ht.
    pose proof Ht as (Esp & Eo & Hpw & Hnd & _ & Hfr2 & _).
    destruct (segs_sorted (seg_of outs) es lo hi Hes_s Hes_r Hsegs) as [Hfin_s Hfin_r].
    pose proof (fr_fresh _ _ _ _ _ (oc_frame _ _ _ _ _ _ _ Hoc1)) as Hfi1.
    split.
    { eapply outcome_weaken;
        [|exact (outcome_trans _ _ _ _ _ _ _ _ _ _ _ _ Hfi Hoc1 (tail_outcome _ _ _ _ _ _ _ _ _ _ _ _ _ Hfi1 Ht))].
      intros L Ho. inversion Ho as [? Ho' Hok]. split; [|exact Ho'].
      intros kd Hk. apply Hok, (Permutation_in _ Hperm Hk). }
    split; [intros q Hq; apply in_or_app; left; exact Hq|]. split; [exact Eo|].
    split.
    { eapply tail_keys_ok; [exact Hpw|apply (split_dkeys _ _ _ _ Esp)|discriminate|exact Hfin_s|exact Hfin_r]. }
    split; [exact Hnd|].
    split; [intros x Hx; apply in_or_app; right; apply in_or_app; left; apply In_old_pages, Hx|].
    intros w' P Hag Hkeep F HF. destruct F as [|F]; [unfold n in HF; cbn [ndepth] in HF; lia|].
    rewrite (tail_read_branches _ _ P d _ _ _ _ _ F Esp Hpw) by (intros q Hq; apply Hag, in_or_app; left; exact Hq).
    rewrite flat_map_flat_map, view_leaves_eq. cbn [n n_data n_kids].
    apply flat_map_ext_in. intros e He. unfold child_view, seg_of.
    destruct (find_kid (snd e) kids) as [kd|] eqn:Hfk.
    - destruct (find_kid_In _ _ _ Hfk) as [Hkd' Epg].
      destruct (Hkd kd (Permutation_in _ (Permutation_sym Hperm) Hkd')) as (out & Ho & Hents). rewrite <- Epg, Ho.
      apply (Hents w' P).
      + intros q Hq. rewrite (Hag q) by (apply in_or_app; right; exact Hq).
        exact (outcome_keeps _ _ _ _ _ _ _ _ _ _ q Hoc1 Hfr2 Hq).
      + exact Hkeep.
      + pose proof (ndepth_kid n kd Hkd') as Hd. clear - HF Hd. lia.
    - rewrite (Hnokid e Hfk). cbn [flat_map]. rewrite app_nil_r.
      apply (stable_ents d _ keep (keep_dget w' P d keep Hkeep)); [apply Hstab; assumption|].
      unfold n in HF. cbn [ndepth] in HF. clear - HF. lia.
  Qed.

  Section Fold.
    Variables (f : nat) (lo hi : option bytes) (es : list (bytes * N)) (kids : list node).
    Hypothesis IHf : spill_spec f.
    Hypothesis Hes : keys_ok lo hi (map fst es).
    Hypothesis Hnd_es : NoDup (map snd es).
    Hypothesis Hnd_kids : NoDup (map n_page kids).
    Hypothesis Horig : forall kd, In kd kids -> exists k, n_orig kd = Some k /\ In (k, n_page kd) es.
    Hypothesis Hkids : forall l h e kd, In (l, h, e) (chb lo hi es) -> find_kid (snd e) kids = Some kd ->
                                        swf fuel d keep l h kd.

    Lemma kid_swf kd k : In kd kids -> In (k, n_page kd) es ->
      exists l h, In (l, h, (k, n_page kd)) (chb lo hi es) /\ swf fuel d keep l h kd.
    Proof.
      intros Hkd Hin. destruct (chb_In lo hi es _ Hin) as (l & h & Hc). exists l, h. split; [exact Hc|].
      exact (Hkids l h _ kd Hc (find_kid_NoDup kids kd Hnd_kids Hkd)).
    Qed.

    (* Rule induction over a successful fold. [P todo outs s outs' s1]: spilling the kids [todo] from state s
       with the outputs [outs] so far ends in state s1 with the outputs [outs']. *)
    Lemma kids_fold_ind (P : list node -> list (N * list (bytes * N)) -> txs -> list (N * list (bytes * N)) -> txs -> Prop) :
      (forall outs s, P [] outs s outs s) ->
      (forall kd todo outs s k fk p sibs sk outs' s1,
         In kd kids -> (forall kd', In kd' todo -> In kd' kids) -> ~ In (n_page kd) (map n_page todo) ->
         n_orig kd = Some k -> In (k, n_page kd) es ->
         spill_node f kd s = Ok ((Some k, (fk, p), sibs), sk) ->
         find_out outs' (n_page kd) = Some ((fk, p) :: sibs) ->
         P todo ((n_page kd, (fk, p) :: sibs) :: outs) sk outs' s1 -> P (kd :: todo) outs s outs' s1) ->
      forall todo outs live s d1 s1,
        fresh_inv live s -> NoDup (map n_page todo) -> (forall kd, In kd todo -> In kd kids) ->
        (forall kd, In kd todo -> find_out outs (n_page kd) = None) -> segs_ok lo hi es outs ->
        fold_res (spill_kid_step f) todo (Branches (flat_map (seg_of outs) es), s) = Ok (d1, s1) ->
        exists outs',
          d1 = Branches (flat_map (seg_of outs') es) /\ segs_ok lo hi es outs' /\
          (forall q, ~ In q (map n_page todo) -> find_out outs' q = find_out outs q) /\
          P todo outs s outs' s1.
    Proof.
      intros Pnil Pcons. induction todo as [|kd todo IH]; intros outs live s d1 s1 Hfi Hnd Hsub Hnone Hsegs H;
        cbn [fold_res] in H.
      - inversion H; subst d1 s1. exists outs. split; [reflexivity|]. split; [exact Hsegs|]. split; [reflexivity|apply Pnil].
      - destruct (spill_kid_step f (Branches (flat_map (seg_of outs) es), s) kd) as [[d2 s2]| |] eqn:Hstep;
          try discriminate.
        cbn [bind] in H.
        assert (Hsp : exists ko fk p sibs sk, spill_node f kd s = Ok ((ko, (fk, p), sibs), sk)).
        { unfold spill_kid_step in Hstep. destruct (spill_node f kd s) as [[[[ko [fk p]] sibs] sk]| |]; try discriminate.
          exists ko, fk, p, sibs, sk. reflexivity. }
        destruct Hsp as (ko & fk & p & sibs & sk & Hsp).
        assert (Hkd : In kd kids) by (apply Hsub; left; reflexivity).
        destruct (Horig kd Hkd) as (k & Eorig & Hin_es).
        (* the range of the kid's output, for every range attached to its entry *)
        assert (HK : forall l h, In (l, h, (k, n_page kd)) (chb lo hi es) ->
                       ko = Some k /\ keys_ok l h (map fst ((fk, p) :: sibs)) /\
                       exists a1, fresh_inv (a1 ++ live) sk).
        { intros l h Hc. pose proof (Hkids l h _ kd Hc (find_kid_NoDup kids kd Hnd_kids Hkd)) as Hswf.
          destruct (IHf _ _ _ _ _ _ _ _ _ _ Hfi Hswf Hsp) as (a1 & dd1 & g1 & Hoc & _ & Eko & Hk & _).
          split; [congruence|]. split; [exact Hk|]. exists a1. exact (fr_fresh _ _ _ _ _ (oc_frame _ _ _ _ _ _ _ Hoc)). }
        destruct (chb_In lo hi es _ Hin_es) as (l0 & h0 & Hc0). destruct (HK l0 h0 Hc0) as (-> & _ & a1 & Hfik).
        destruct (kid_step_eval f lo hi es Hes Hnd_es kd outs s k fk p sibs sk Hin_es (Hnone kd (or_introl eq_refl)) Hsegs
                    (fun l h Hc => proj1 (proj2 (HK l h Hc))) Hsp) as [Hev Hsegs1].
        rewrite Hev in Hstep. inversion Hstep; subst d2 s2. clear Hstep.
        inversion Hnd as [|? ? Hq_notin Hnd']; subst.
        destruct (IH ((n_page kd, (fk, p) :: sibs) :: outs) (a1 ++ live) sk d1 s1 Hfik Hnd'
                     (fun kd' Hk' => Hsub kd' (or_intror Hk')))
          as (outs' & Ed1 & Hsegs' & Hother & HP); [|exact Hsegs1|exact H|].
        { intros kd' Hk'. rewrite find_out_cons. destruct (N.eqb_spec (n_page kd) (n_page kd')) as [E|E].
          - exfalso. apply Hq_notin. rewrite E. apply in_map, Hk'.
          - apply Hnone. right. exact Hk'. }
        exists outs'. split; [exact Ed1|]. split; [exact Hsegs'|]. split.
        { intros x Hx. rewrite Hother; [|intros Hi; apply Hx; right; exact Hi].
          rewrite find_out_cons. destruct (N.eqb_spec (n_page kd) x) as [E|E]; [|reflexivity].
          exfalso. apply Hx. left. exact E. }
        apply (Pcons kd todo outs s k fk p sibs sk outs' s1 Hkd (fun kd' Hk' => Hsub kd' (or_intror Hk')) Hq_notin Eorig Hin_es Hsp);
          [|exact HP].
        rewrite Hother by exact Hq_notin. rewrite find_out_cons, N.eqb_refl. reflexivity.
    Qed.

    (* the same for the whole branch node: all kids, in the order of their keys, then the tail *)
    Lemma spill_branch_inv (P : list node -> list (N * list (bytes * N)) -> txs -> list (N * list (bytes * N)) -> txs -> Prop)
                           pg npg o sq live s r :
      (forall outs s, P [] outs s outs s) ->
      (forall kd todo outs s k fk p sibs sk outs' s1,
         In kd kids -> (forall kd', In kd' todo -> In kd' kids) -> ~ In (n_page kd) (map n_page todo) ->
         n_orig kd = Some k -> In (k, n_page kd) es ->
         spill_node f kd s = Ok ((Some k, (fk, p), sibs), sk) ->
         find_out outs' (n_page kd) = Some ((fk, p) :: sibs) ->
         P todo ((n_page kd, (fk, p) :: sibs) :: outs) sk outs' s1 -> P (kd :: todo) outs s outs' s1) ->
      fresh_inv live s ->
      spill_node (S f) (Node pg npg o sq (Branches es) kids) s = Ok r ->
      exists todo outs s1,
        Permutation todo kids /\ segs_ok lo hi es outs /\
        (forall e : bytes * N, find_kid (snd e) kids = None -> find_out outs (snd e) = None) /\
        P todo [] s outs s1 /\
        spill_tail (Node pg npg o sq (Branches es) kids) (Branches (flat_map (seg_of outs) es)) s1 = Ok r.
    Proof.
      intros Pnil Pcons Hfi H. rewrite spill_node_unfold in H. cbn [n_kids n_data] in H.
      destruct (kid_keys kids) as [ks| |] eqn:Hkk; try discriminate. cbn [bind] in H.
      destruct (kid_keys_todo kids ks Hkk Hnd_kids) as [Hperm Hndt].
      set (todo := map snd (isort_by fst ks)) in *.
      destruct (fold_res (spill_kid_step f) todo (Branches es, s)) as [[d1 s1]| |] eqn:Hfold; try discriminate.
      cbn [bind] in H.
      assert (E0 : es = flat_map (seg_of []) es) by (symmetry; apply flat_map_single).
      rewrite E0 in Hfold at 1.
      destruct (kids_fold_ind P Pnil Pcons todo [] live s d1 s1 Hfi Hndt (fun kd Hk => Permutation_in _ Hperm Hk)
                  (fun _ _ => eq_refl) (segs_ok_nil lo hi es Hes) Hfold) as (outs & -> & Hsegs & Hother & HP).
      exists todo, outs, s1. split; [exact Hperm|]. split; [exact Hsegs|]. split; [|split; [exact HP|exact H]].
      intros e Hfk. rewrite Hother; [reflexivity|]. intros Hi. apply (find_kid_none _ _ Hfk).
      apply (Permutation_in _ (Permutation_map n_page Hperm) Hi).
    Qed.

    Definition kids_done (todo : list node) (outs : list (N * list (bytes * N))) (s : txs)
                         (outs' : list (N * list (bytes * N))) (s1 : txs) : Prop :=
      forall live, fresh_inv live s -> exists alloc dead good, kids_post todo outs' live s s1 alloc dead good.

    Lemma spill_branch_done pg npg o sq live s r :
      fresh_inv live s -> spill_node (S f) (Node pg npg o sq (Branches es) kids) s = Ok r ->
      exists todo outs s1,
        Permutation todo kids /\ segs_ok lo hi es outs /\
        (forall e : bytes * N, find_kid (snd e) kids = None -> find_out outs (snd e) = None) /\
        kids_done todo [] s outs s1 /\
        spill_tail (Node pg npg o sq (Branches es) kids) (Branches (flat_map (seg_of outs) es)) s1 = Ok r.
    Proof.
      apply spill_branch_inv.
      - intros outs0 s0 live0 Hfi0. exists [], [], []. apply kids_post_nil, Hfi0.
      - intros kd todo outs0 s0 k fk p sibs sk outs' s1 Hkd _ _ _ Hin Hsp Hfound Hrest live0 Hfi0.
        destruct (kid_swf kd k Hkd Hin) as (l & h & _ & Hswf).
        destruct (IHf _ _ _ _ _ _ _ _ _ _ Hfi0 Hswf Hsp) as (a1 & dd1 & g1 & Hpost).
        destruct (Hrest (a1 ++ live0) (fr_fresh _ _ _ _ _ (oc_frame _ _ _ _ _ _ _ (proj1 Hpost)))) as (a2 & dd2 & g2 & Hk2).
        exists (a2 ++ a1), (dd1 ++ dd2), (g2 ++ g1). exact (kids_post_cons _ _ _ _ _ _ _ _ _ _ _ _ _ _ _ _ _ _ _ Hfi0 Hpost Hfound Hk2).
    Qed.
  End Fold.
End Spill.

Theorem spill_node_spec fuel d keep : forall f, spill_spec fuel d keep f.
Proof.
  induction f as [|f IHf]; intros live lo hi n s orig fk p sibs s' Hfi Hswf H; [discriminate|].
  inversion Hswf as [lo0 hi0 pg npg o sq l Hkeys | lo0 hi0 pg npg o sq es kids Hes Hnd_es Hnd_kids Horig Hkids Hstab];
    subst lo0 hi0 n.
  - rewrite spill_node_unfold in H. cbn [n_kids n_data kid_keys fold_res bind isort_by map] in H.
    destruct (spill_tail_spec _ _ _ _ _ _ _ _ _ Hfi H) as (d0 & rest & alloc & stale & Ht).
    eexists _, _, _. exact (leaf_post fuel d keep _ _ _ _ _ _ _ _ _ _ _ _ _ _ _ _ _ _ Hfi Hkeys Ht).
  - destruct (spill_branch_done fuel d keep f lo hi es kids IHf Hes Hnd_es Hnd_kids Horig Hkids pg npg o sq live s _ Hfi H)
      as (todo & outs & s1 & Hperm & Hsegs & Hnokid & Hdone & H1).
    destruct (Hdone live Hfi) as (a1 & dd1 & g1 & Hk).
    destruct (spill_tail_spec _ _ _ _ _ _ _ _ _ (fr_fresh _ _ _ _ _ (oc_frame _ _ _ _ _ _ _ (proj1 Hk))) H1)
      as (d0 & rest & a2 & stale & Ht).
    eexists _, _, _.
    exact (branch_post fuel d keep _ _ _ _ _ _ _ _ _ _ _ _ _ _ _ _ _ _ _ _ _ _ _ _ _ Hfi Hes Hstab Hperm Hsegs Hnokid Hk Ht).
Qed.

Corollary spill_node_overlay fuel d keep f live lo hi n s orig fk p sibs s' :
  fresh_inv live s -> swf fuel d keep lo hi n ->
  spill_node f n s = Ok ((orig, (fk, p), sibs), s') ->
  exists alloc dead good,
    frame live s s' alloc dead /\ (forall q, In q good -> In q alloc) /\
    (forall q, In q (p :: map snd sibs) -> In q good) /\
    orig = n_orig n /\
    keys_ok lo hi (map fst ((fk, p) :: sibs)) /\
    NoDup (p :: map snd sibs) /\ (forall x, old_run n x -> In x dead) /\
    (forall w' P, wr_agree good (wr s') w' -> (forall x, In x keep -> wr_get w' x = None) ->
       forall F, (ndepth n + fuel <= F)%nat ->
         let d' := apply_wr w' P d in
         page_ents F d' p ++ concat (map (fun sb => page_ents F d' (snd sb)) sibs) = view_leaves fuel d n) /\
    (forall L, (forall x, In x L -> In x live) -> old_in L n ->
       forall x, In x dead -> (In x L \/ In x alloc) /\ ~ In x good).
Proof.
  intros Hfi Hswf H.
  destruct (spill_node_spec fuel d keep f _ _ _ _ _ _ _ _ _ _ Hfi Hswf H)
    as (alloc & dead & good & [A1 A2 A9] & A3 & A4 & A5 & A6 & A7 & A8).
  exists alloc, dead, good. repeat (split; [assumption|]). split; [|exact A9].
  intros w' P Hag Hk F HF. cbv zeta. specialize (A8 w' P Hag Hk F HF). cbn [flat_map snd] in A8.
  rewrite flat_map_concat_map in A8. exact A8.
Qed.

(** ** [spill_root]: new root levels until a single page is left *)
Lemma spill_node_nokids f n s : n_kids n = [] -> spill_node (S f) n s = spill_tail n (n_data n) s.
Proof. intros E. rewrite spill_node_unfold, E. reflexivity. Qed.

(* the first step of [spill_root] on a root that is not the empty leaf; one more root level *)
Lemma spill_root_inv fuel d keep lo hi f n s p s' :
  swf fuel d keep lo hi n -> spill_root (S f) n s = Ok (p, s') ->
  exists o fk p1 sibs s1, spill_node fuel0 n s = Ok ((o, (fk, p1), sibs), s1) /\
    match sibs with [] => Ok (p1, s1)
    | _ => spill_root f (Node 0 0 (Some fk) 0 (Branches ((fk, p1) :: sibs)) []) s1 end = Ok (p, s').
Proof.
  intros Hswf H. cbn [spill_root] in H.
  assert (E : (match n_data n with
               | Leaves [] => let '(n1, s'0) := write_node s (set_kids n []) in Ok ((n_orig n, ([], n_page n1), []), s'0)
               | _ => spill_node fuel0 n s end) = spill_node fuel0 n s).
  { inversion Hswf as [? ? ? ? ? ? l Hk|]; subst; cbn [n_data]; [|reflexivity].
    destruct l as [|e l]; [destruct Hk as [Hk _]; exfalso; apply Hk; reflexivity|reflexivity]. }
  rewrite E in H. destruct (spill_node fuel0 n s) as [[[[o [fk p1]] sibs] s1]| |]; try discriminate.
  cbn [bind] in H. exists o, fk, p1, sibs, s1. split; [reflexivity|exact H].
Qed.

Lemma root_level_inv f fk K s p' s' :
  let nr := Node 0 0 (Some fk) 0 (Branches K) [] in
  spill_root (S f) nr s = Ok (p', s') ->
  exists o1 fk1 p1 sibs1 s1, spill_tail nr (Branches K) s = Ok ((o1, (fk1, p1), sibs1), s1) /\
    match sibs1 with [] => Ok (p1, s1)
    | _ => spill_root f (Node 0 0 (Some fk1) 0 (Branches ((fk1, p1) :: sibs1)) []) s1 end = Ok (p', s').
Proof.
  intros nr H. cbn [spill_root nr n_data] in H. fold nr in H.
  change fuel0 with (S 63) in H. rewrite spill_node_nokids in H by reflexivity. cbn [nr n_data] in H. fold nr in H.
  destruct (spill_tail nr (Branches K) s) as [[[[o1 [fk1 p1]] sibs1] s1]| |]; try discriminate.
  cbn [bind] in H. exists o1, fk1, p1, sibs1, s1. split; [reflexivity|exact H].
Qed.

(* the loop over the root levels from state s with the entries of the level below on the pages [good0] (live
   by now) to the single root page p' in state s'; [new]: the pages of the lv levels written here *)
Definition root_post (d : disk) (keep live : list N) (s s' : txs) (good0 : list N) (m : nat) (target : list leafent)
                     (p' : N) (alloc dead new : list N) (lv : nat) : Prop :=
  outcome live s s' alloc dead new (fun _ => True) /\ In p' (new ++ good0) /\
  forall w' P, wr_agree (new ++ good0) (wr s') w' -> (forall x, In x keep -> wr_get w' x = None) ->
    forall F, (lv + m <= F)%nat -> page_ents F (apply_wr w' P d) p' = target.

Lemma root_post_nil d keep live s fk p target m good0 :
  fresh_inv live s -> In p good0 -> ents_ok d keep good0 s m [(fk, p)] target ->
  root_post d keep live s s good0 m target p [] [] [] 0.
Proof.
  intros Hfi Hp Hents. split; [apply outcome_refl, Hfi|]. split; [exact Hp|].
  intros w' P Hag Hk F HF. specialize (Hents w' P Hag Hk F HF). cbn [flat_map snd] in Hents.
  rewrite app_nil_r in Hents. exact Hents.
Qed.

(* one more level: the entries K are written by the tail; the rest of the loop starts from its pages *)
Lemma root_post_step d keep live s fk K target m good0 s1 o1 fk1 p1 sibs1 d0 rest a1 stale :
  let nr := Node 0 0 (Some fk) 0 (Branches K) [] in
  let good1 := (p1 :: map snd sibs1) ++ good0 in
  fresh_inv live s -> (forall q, In q good0 -> In q live) -> ents_ok d keep good0 s m K target ->
  tail_post live nr (Branches K) s o1 fk1 p1 sibs1 s1 d0 rest a1 stale ->
  ents_ok d keep good1 s1 (S m) ((fk1, p1) :: sibs1) target /\
  (forall q, In q good1 -> In q (a1 ++ live)) /\
  forall s' p' a2 dd2 new2 lv,
    root_post d keep (a1 ++ live) s1 s' good1 (S m) target p' a2 dd2 new2 lv ->
    root_post d keep live s s' good0 m target p' (a2 ++ a1) ((old_pages nr ++ stale) ++ dd2)
              (new2 ++ p1 :: map snd sibs1) (S lv).
Proof.
  intros nr good1 Hfi Hg0 Hents Ht. pose proof (tail_outcome _ _ _ _ _ _ _ _ _ _ _ _ _ Hfi Ht) as Hoc1.
  destruct Ht as (Esp & _ & Hpw & _ & Hin & Hfr1 & _).
  split; [|split].
  - intros w' P Hag Hk F HF. destruct F as [|F]; [lia|].
    rewrite (tail_read_branches _ _ P d _ _ _ _ _ F Esp Hpw) by (intros q Hq; apply Hag, in_or_app; left; exact Hq).
    apply (Hents w' P); [|exact Hk|lia].
    intros q Hq. rewrite (Hag q) by (apply in_or_app; right; exact Hq).
    exact (frame_keeps _ _ _ _ _ _ Hfi Hfr1 (Hg0 q Hq)).
  - intros q Hq. apply in_app_or in Hq. apply in_or_app.
    destruct Hq as [Hq|Hq]; [left; apply (Hin q Hq)|right; apply Hg0, Hq].
  - intros s' p' a2 dd2 new2 lv (Hoc2 & Hp' & Hfin). unfold good1 in *. unfold root_post. rewrite <- (app_assoc new2).
    split; [|split].
    + eapply outcome_weaken; [|exact (outcome_trans _ _ _ _ _ _ _ _ _ _ _ _ Hfi Hoc1 Hoc2)].
      intros L _. split; [intros x [Hx _]; exfalso; apply Hx; reflexivity|exact I].
    + exact Hp'.
    + intros w' P Hag Hk F HF. apply (Hfin w' P Hag Hk). lia.
Qed.

Lemma root_loop d keep : forall f live s fk p sibs target m good0 p' s',
  fresh_inv live s -> (forall q, In q good0 -> In q live) -> In p good0 ->
  ents_ok d keep good0 s m ((fk, p) :: sibs) target ->
  match sibs with
  | [] => Ok (p, s)
  | _ => spill_root f (Node 0 0 (Some fk) 0 (Branches ((fk, p) :: sibs)) []) s
  end = Ok (p', s') ->
  exists alloc dead new lv, (lv <= f)%nat /\ root_post d keep live s s' good0 m target p' alloc dead new lv.
Proof.
  induction f as [|f IH]; intros live s fk p sibs target m good0 p' s' Hfi Hg0 Hp Hents H;
    destruct sibs as [|sb sibs]; [|discriminate| |].
  1,2: inversion H; subst p' s'; exists [], [], [], 0%nat; split; [lia|exact (root_post_nil _ _ _ _ _ _ _ _ _ Hfi Hp Hents)].
  destruct (root_level_inv f fk _ s p' s' H) as (o1 & fk1 & p1 & sibs1 & s1 & Hsp & Hloop).
  destruct (spill_tail_spec _ _ _ _ _ _ _ _ _ Hfi Hsp) as (d0 & rest & a1 & stale & Ht).
  destruct (root_post_step d keep _ _ _ _ _ _ _ _ _ _ _ _ _ _ _ _ Hfi Hg0 Hents Ht) as (Hents1 & Hg1 & Hstep).
  destruct (IH (a1 ++ live) s1 fk1 p1 sibs1 target (S m) _ p' s'
               (fr_fresh _ _ _ _ _ (proj1 (proj2 (proj2 (proj2 (proj2 (proj2 Ht))))))) Hg1
               ltac:(left; reflexivity) Hents1 Hloop)
    as (a2 & dd2 & new2 & lv & Hlv & Hpost).
  eexists _, _, _, (S lv). split; [clear - Hlv; lia|exact (Hstep _ _ _ _ _ _ Hpost)].
Qed.

Theorem spill_root_spec fuel d keep live f n s p s' :
  fresh_inv live s -> (n_data n = Leaves [] \/ swf fuel d keep None None n) ->
  spill_root f n s = Ok (p, s') ->
  exists alloc dead good lv,
    frame live s s' alloc dead /\ (forall q, In q good -> In q alloc) /\ In p good /\ (lv <= f)%nat /\
    (forall x, old_run n x -> In x dead) /\
    (forall L, (forall x, In x L -> In x live) -> old_in L n ->
       forall x, In x dead -> (In x L \/ In x alloc) /\ ~ In x good) /\
    forall w' P, wr_agree good (wr s') w' -> (forall x, In x keep -> wr_get w' x = None) ->
      forall F, (lv + ndepth n + fuel <= F)%nat -> page_ents F (apply_wr w' P d) p = view_leaves fuel d n.
Proof.
  intros Hfi Hn H. destruct f as [|f]; [discriminate|].
  destruct Hn as [Hn|Hswf].
  - (* the empty root leaf *)
    cbn [spill_root] in H.
    rewrite Hn in H. destruct (write_node s (set_kids n [])) as [n1 s1] eqn:Hw. cbn [bind] in H.
    inversion H; subst p s'. clear H.
    destruct (write_node_frame _ _ _ _ _ Hfi Hw) as (Hfr & _ & Hp2 & Hk0 & _ & Hget).
    assert (Ed : n_data (set_kids n []) = Leaves []) by (destruct n; exact Hn). rewrite Ed in Hget.
    exists (nrun (n_page n1) (n_np n1)), (old_pages (set_kids n [])), [n_page n1], 0%nat.
    split; [exact Hfr|]. split; [intros q [<-|[]]; apply In_nrun; lia|]. split; [left; reflexivity|]. split; [lia|].
    split. { intros x Hx. apply In_old_pages. destruct n; exact Hx. }
    split.
    { intros L HL Hold x Hx. inversion Hold as [? Ho _].
      assert (Hx' : old_run n x) by (apply In_old_pages in Hx; destruct n; exact Hx).
      split; [left; apply Ho, Hx'|]. intros [<-|[]].
      apply (frame_new _ _ _ _ _ (n_page n1) Hfi Hfr); [apply In_nrun; lia|apply HL, Ho, Hx']. }
    intros w' P Hag _ F HF. destruct F as [|F]; [destruct n; cbn [ndepth] in HF; lia|].
    rewrite view_leaves_eq, Hn.
    eapply page_ents_leaf; [apply dget_apply_wr_some; rewrite (Hag _ (or_introl eq_refl)); exact Hget|reflexivity].
  - destruct (spill_root_inv _ _ _ _ _ _ _ _ _ _ Hswf H) as (o & fk & p1 & sibs & s1 & Hsp & Hloop).
    destruct (spill_node_spec fuel d keep fuel0 _ _ _ _ _ _ _ _ _ _ Hfi Hswf Hsp)
      as (a1 & dd1 & g1 & Hoc1 & Hg1p & _ & _ & _ & Hold & Hents).
    assert (Hg1 : forall q, In q g1 -> In q (a1 ++ live)).
    { intros q Hq. apply in_or_app. left. apply (oc_good _ _ _ _ _ _ _ Hoc1), Hq. }
    destruct (root_loop d keep f (a1 ++ live) s1 fk p1 sibs _ _ g1 p s' (fr_fresh _ _ _ _ _ (oc_frame _ _ _ _ _ _ _ Hoc1)) Hg1
                (Hg1p _ (or_introl eq_refl)) Hents Hloop)
      as (a2 & dd2 & new & lv & Hlv & Hoc2 & Hp' & Hfin).
    destruct (outcome_trans _ _ _ _ _ _ _ _ _ _ _ _ Hfi Hoc1 Hoc2) as [Hfr Hga Hdead].
    exists (a2 ++ a1), (dd1 ++ dd2), (new ++ g1), lv.
    split; [exact Hfr|]. split; [exact Hga|]. split; [exact Hp'|]. split; [clear - Hlv; lia|].
    split; [intros x Hx; apply in_or_app; left; apply Hold, Hx|].
    split; [intros L HL Hol; exact (Hdead L HL (conj Hol I))|].
    intros w' P Hag Hk F HF. apply (Hfin w' P Hag Hk). clear - HF. lia.
Qed.

(** ** using the theorems at commit time: the write set of any later state of the transaction qualifies *)
Theorem frame_later_ok live s s' alloc dead good keep s'' a2 d2 :
  fresh_inv live s -> frame live s s' alloc dead ->
  (forall q, In q good -> In q alloc) -> (forall x, In x keep -> In x live) ->
  (forall x, In x keep -> wr_get (wr s) x = None) ->
  frame (alloc ++ live) s' s'' a2 d2 ->
  wr_agree good (wr s') (wr s'') /\ (forall x, In x keep -> wr_get (wr s'') x = None).
Proof.
  intros Hfi Hfr Hg Hk Hk0 Hfr2. pose proof (fr_fresh _ _ _ _ _ Hfr) as Hfi'. split.
  - intros q Hq. apply (fr_wr _ _ _ _ _ Hfr2). intros Hi. apply (frame_new _ _ _ _ _ _ Hfi' Hfr2 Hi).
    apply in_or_app. left. apply Hg, Hq.
  - intros x Hx. rewrite (fr_wr _ _ _ _ _ Hfr2), (fr_wr _ _ _ _ _ Hfr); [apply Hk0, Hx| |].
    + intros Hi. apply (frame_new _ _ _ _ _ _ Hfi Hfr Hi), Hk, Hx.
    + intros Hi. apply (frame_new _ _ _ _ _ _ Hfi' Hfr2 Hi). apply in_or_app. right. apply Hk, Hx.
Qed.

(* the root page of a bucket after a later state s'' of the same transaction is committed *)
Corollary spill_root_committed fuel d keep live f n s p s' s'' a2 d2 :
  fresh_inv live s -> (n_data n = Leaves [] \/ swf fuel d keep None None n) ->
  (forall x, In x keep -> In x live) -> (forall x, In x keep -> wr_get (wr s) x = None) ->
  spill_root f n s = Ok (p, s') ->
  exists alloc dead lv,
    frame live s s' alloc dead /\ In p alloc /\ ~ In p live /\ (lv <= f)%nat /\
    (forall x, old_run n x -> freed_in_tx s' x = true) /\
    (frame (alloc ++ live) s' s'' a2 d2 ->
     forall P F, (lv + ndepth n + fuel <= F)%nat ->
       page_ents F (apply_wr (wr s'') P d) p = view_leaves fuel d n) /\
    (* the pending pages stay dead, and the new root is not one of them *)
    (old_in live n -> ~ In p dead /\
       (pend_ok live s -> forall live', (forall x, In x live' -> (In x live \/ In x alloc) /\ ~ In x dead) ->
          pend_ok live' s')).
Proof.
  intros Hfi Hn Hk Hk0 H.
  destruct (spill_root_spec fuel d keep live f n s p s' Hfi Hn H)
    as (alloc & dead & good & lv & Hfr & Hga & Hp & Hlv & Hold & Hdead & Hfin).
  exists alloc, dead, lv. split; [exact Hfr|]. split; [apply Hga, Hp|].
  split; [apply (frame_new _ _ _ _ _ _ Hfi Hfr), Hga, Hp|]. split; [exact Hlv|].
  split; [intros x Hx; apply (fr_freed _ _ _ _ _ Hfr); right; apply Hold, Hx|].
  split.
  { intros Hfr2 P F HF.
    destruct (frame_later_ok _ _ _ _ _ _ _ _ _ _ Hfi Hfr Hga Hk Hk0 Hfr2) as [A B].
    apply (Hfin (wr s'') P A B F HF). }
  intros Hol. pose proof (Hdead live (fun x Hx => Hx) Hol) as Hd. split.
  - intros Hi. apply (proj2 (Hd p Hi)), Hp.
  - intros Hpo live' Hl'. apply (frame_pend_ok live live' s s' alloc dead Hfi Hpo Hfr); [|exact Hl'].
    intros x Hx. apply (proj1 (Hd x Hx)).
Qed.

(** ** Instances: a branch over a materialised leaf and a page read from disk *)
Definition kM : bytes := [x01].
Definition kN : bytes := [x02].
(* committed: branch page 9 over leaf pages 3 and 10; the transaction has materialised 9 and 3 (with six big
   entries now), page 10 is read from disk *)
Definition ex_d : disk :=
  [(10, {| ap_over := 0; ap_body := Leaves [LKv kM [x0a]; LKv kN [x0b]] |});
   (9, {| ap_over := 0; ap_body := Branches [(EngineFacts.k300 x01, 3); (kM, 10)] |});
   (3, {| ap_over := 0; ap_body := Leaves [LKv (EngineFacts.k300 x01) [x01]] |})].
Definition ex_br : node :=
  Node 9 1 (Some (EngineFacts.k300 x01)) 0 (Branches [(EngineFacts.k300 x01, 3); (kM, 10)]) [ex_n].

Lemma ex_keys_ok : keys_ok None (Some kM) (map lkey ex_leaf6).
Proof.
  split; [discriminate|]. split; [vm_compute; reflexivity|].
  intros k Hk. split; [exact I|]. unfold ex_leaf6, EngineFacts.leaf6 in Hk. rewrite map_map in Hk. cbn [map lkey] in Hk.
  repeat (destruct Hk as [<-|Hk]; [vm_compute; reflexivity|]). destruct Hk.
Qed.

Example ex_swf_leaf : swf 1 ex_d [10] None (Some kM) ex_n.
Proof. apply swf_leaf, ex_keys_ok. Qed.

Example ex_swf : swf 1 ex_d [10] None None ex_br.
Proof.
  apply swf_branch.
  - split; [discriminate|]. split; [vm_compute; reflexivity|]. intros k _. split; exact I.
  - cbn [map snd]. repeat constructor; cbn [In]; intuition discriminate.
  - cbn [map n_page ex_n]. repeat constructor; cbn [In]; intuition discriminate.
  - intros kd [<-|[]]. exists (EngineFacts.k300 x01). split; [reflexivity|left; reflexivity].
  - intros l h e kd Hi Hf. apply find_kid_In in Hf. destruct Hf as [[<-|[]] Hp].
    cbn [chb fst] in Hi. destruct Hi as [Hi|[Hi|[]]]; inversion Hi; subst l h e; [exact ex_swf_leaf|discriminate Hp].
  - intros e [<-|[<-|[]]] Hf; [discriminate Hf|].
    cbn [stable snd]. split; [left; reflexivity|]. vm_compute. exact I.
Qed.

Definition ex_branch_s' : txs :=
  Eval vm_compute in match spill_node 2 ex_br ex_s with Ok (_, s') => s' | _ => ex_s end.
Lemma ex_branch_run :
  spill_node 2 ex_br ex_s = Ok ((Some (EngineFacts.k300 x01), (EngineFacts.k300 x01, 13), []), ex_branch_s').
Proof. vm_compute. reflexivity. Qed.
Lemma ex_root_run : spill_root 3 ex_br ex_s = Ok (13, ex_branch_s').
Proof. vm_compute. reflexivity. Qed.
Definition ex_levels_s' : txs :=
  Eval vm_compute in match spill_root 3 ex_n ex_s with Ok (_, s') => s' | _ => ex_s end.
Lemma ex_levels_run : spill_root 3 ex_n ex_s = Ok (13, ex_levels_s').
Proof. vm_compute. reflexivity. Qed.

(* spill_node: the kid on page 3 is split in three (pages 5, 7, 12; 4 is stale), the branch gets four entries *)
Example ex_spill_branch :
  match spill_node 2 ex_br ex_s with
  | Ok ((orig, (fk, p), sibs), s') =>
      orig = Some (EngineFacts.k300 x01) /\ fk = EngineFacts.k300 x01 /\ p = 13 /\ sibs = [] /\
      map fst (wr s') = [13; 12; 7; 5; 4] /\ pending s' = [(6, [3; 4; 9])] /\ np s' = 15 /\
      wr_get (wr s') 13 = Some (1037, Branches [(EngineFacts.k300 x01, 5); (EngineFacts.k300 x03, 7);
                                                 (EngineFacts.k300 x05, 12); (kM, 10)]) /\
      let d' := apply_wr (wr s') (psz s') ex_d in
      page_ents 2 d' 13 = view_leaves 1 ex_d ex_br /\ List.length (page_ents 2 d' 13) = 8%nat
  | _ => False end.
Proof. rewrite ex_branch_run. cbv beta iota zeta. repeat split; reflexivity. Qed.

Lemma ex_keep_live x : In x [10] -> In x ex_live.
Proof. intros [<-|[]]. cbn. tauto. Qed.
Lemma ex_keep_wr x : In x [10] -> wr_get (wr ex_s) x = None.
Proof. reflexivity. Qed.

(* spill_root on the same node: one page, no new level *)
Example ex_spill_root_thm :
  match spill_root 3 ex_br ex_s with
  | Ok (p, s') => forall F, (6 <= F)%nat -> page_ents F (apply_wr (wr s') 1024 ex_d) p = view_leaves 1 ex_d ex_br
  | _ => False end.
Proof.
  rewrite ex_root_run.
  destruct (spill_root_committed 1 ex_d [10] ex_live 3 ex_br ex_s _ _ ex_branch_s' [] []
              (proj1 ex_fresh) (or_intror ex_swf) ex_keep_live ex_keep_wr ex_root_run)
    as (alloc & dead & lv & Hfr & _ & _ & Hlv & _ & Hfin & _).
  intros F HF. apply Hfin; [apply frame_refl, (fr_fresh _ _ _ _ _ Hfr)|].
  change (ndepth ex_br) with 2%nat. lia.
Qed.

(* spill_root on the six-entry leaf as a root: three leaf pages and a new branch level above them *)
Example ex_spill_root_levels :
  swf 0 [] [] None None ex_n /\
  match spill_root 3 ex_n ex_s with
  | Ok (p, s') =>
      p = 13 /\ map fst (wr s') = [13; 12; 7; 5; 4] /\
      wr_get (wr s') 13 = Some (1012, Branches [(EngineFacts.k300 x01, 5); (EngineFacts.k300 x03, 7);
                                                 (EngineFacts.k300 x05, 12)]) /\
      page_ents 2 (apply_wr (wr s') 1024 []) p = ex_leaf6 /\ page_ents 1 (apply_wr (wr s') 1024 []) p = []
  | _ => False end.
Proof.
  split.
  - apply swf_leaf. destruct ex_keys_ok as (A & B & _). split; [exact A|]. split; [exact B|]. intros k _. split; exact I.
  - rewrite ex_levels_run. repeat split; reflexivity.
Qed.

(* the pages the spill frees are live before: the last hypothesis of [spill_root_committed]; and indeed none of
   the pages of the new tree is pending afterwards *)
Example ex_old_in : old_in ex_live ex_br.
Proof.
  constructor.
  - intros x [_ Hx]. cbn [ex_br n_page n_np] in Hx. assert (x = 9) by lia. subst x. vm_compute. tauto.
  - intros k [<-|[]]. constructor; [|intros k []].
    intros x [_ Hx]. cbn [ex_n n_page n_np] in Hx. assert (x = 3) by lia. subst x. vm_compute. tauto.
Qed.

Example ex_spill_root_pend :
  match spill_root 3 ex_br ex_s with
  | Ok (p, s') => pending s' = [(6, [3; 4; 9])] /\ p = 13 /\ free s' = [] /\ np s' = 15 /\
                  map fst (wr s') = [13; 12; 7; 5; 4]
  | _ => False end.
Proof. rewrite ex_root_run. repeat split. Qed.

Example ex_spill_root_pend_thm :
  match spill_root 3 ex_br ex_s with
  | Ok (p, s') => pend_ok [p; 6; 8; 10; 11] s'
  | _ => False end.
Proof.
  rewrite ex_root_run.
  destruct (spill_root_committed 1 ex_d [10] ex_live 3 ex_br ex_s _ _ ex_branch_s' [] []
              (proj1 ex_fresh) (or_intror ex_swf) ex_keep_live ex_keep_wr ex_root_run)
    as (alloc & dead & lv & Hfr & Hpa & _ & _ & Hold & _ & Hpend).
  destruct (Hpend ex_old_in) as [Hp Hpo]. apply (Hpo (proj2 ex_fresh)).
  intros x [<-|Hx]; [split; [right; exact Hpa|exact Hp]|].
  split; [left; cbn in Hx |- *; tauto|].
  (* 6, 8, 10, 11 are not freed: the freed pages are exactly the pending ones *)
  intros Hd. assert (Hf : freed_in_tx ex_branch_s' x = true) by (apply (fr_freed _ _ _ _ _ Hfr); right; exact Hd).
  repeat (destruct Hx as [<-|Hx]; [discriminate Hf|]). destruct Hx.
Qed.

(* the key-range hypothesis of [swf] is needed: here the kid on page 3 holds keys up to k300 6, beyond the next
   separator k300 4 of its parent. The third piece of the kid is inserted AFTER the entry of page 10, so the
   committed pages list the entries in a different order than the transaction saw them. *)
Definition bad_d : disk :=
  [(10, {| ap_over := 0; ap_body := Leaves [LKv (EngineFacts.k300 x04 ++ [x01]) [x0a]] |})].
Definition bad_br : node :=
  Node 9 1 (Some (EngineFacts.k300 x01)) 0 (Branches [(EngineFacts.k300 x01, 3); (EngineFacts.k300 x04, 10)]) [ex_n].
Example ex_range_needed :
  match spill_node 2 bad_br ex_s with
  | Ok ((_, (_, p), sibs), s') =>
      let d' := apply_wr (wr s') 1024 bad_d in
      sibs = [] /\
      option_map (fun v => match snd v with Branches es => map snd es | _ => [] end) (wr_get (wr s') p)
        = Some [5; 7; 10; 12] /\
      map (fun e => last (lkey e) x00) (page_ents 2 d' p) = [x01; x02; x03; x04; x01; x05; x06] /\
      map (fun e => last (lkey e) x00) (view_leaves 1 bad_d bad_br) = [x01; x02; x03; x04; x05; x06; x01]
  | _ => False end.
Proof. vm_compute. repeat split. Qed.

(* [dget_apply_wr]: the head-most entry for a page wins, an unwritten page keeps its committed image *)
Example ex_dget_apply_wr :
  let w := [(5, (10, Leaves [])); (5, (2000, Branches [])); (7, (2048, Leaves []))] in
  let d := [(5, {| ap_over := 3; ap_body := Branches [] |}); (8, {| ap_over := 0; ap_body := Leaves [] |})] in
  dget (apply_wr w 1024 d) 5 = Some {| ap_over := 0; ap_body := Leaves [] |} /\
  dget (apply_wr w 1024 d) 7 = Some {| ap_over := 1; ap_body := Leaves [] |} /\
  dget (apply_wr w 1024 d) 8 = Some {| ap_over := 0; ap_body := Leaves [] |} /\
  dget (apply_wr w 1024 d) 9 = None.
Proof. vm_compute. repeat split. Qed.

Print Assumptions commit_apply_wr.
Print Assumptions tx_allocate_fresh.
Print Assumptions tx_allocate_pend_ok.
Print Assumptions free_pages_fresh.
Print Assumptions free_pages_pend_ok.
Print Assumptions write_node_spec.
Print Assumptions write_node_pend_ok.
Print Assumptions write_node_frame.
Print Assumptions frame_pend_ok.
Print Assumptions dget_apply_wr.
Print Assumptions spill_tail_spec.
Print Assumptions spill_leaf_spec.
Print Assumptions spill_node_spec.
Print Assumptions spill_node_overlay.
Print Assumptions spill_root_spec.
Print Assumptions frame_later_ok.
Print Assumptions spill_root_committed.
