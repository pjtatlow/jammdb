(* An instance of the theorems of EngineTxScan, by computation: the hypotheses are satisfiable and the conclusion is
   not trivial. The committed state [exS_st] is what [init_db 1024] becomes after one transaction (six 300-byte
   values: the root bucket's tree is a branch over three leaves; a nested bucket "g"). The running transaction
   [exS_ops] deletes both keys of the middle leaf (the overlay keeps the EMPTY LEAF until commit), overwrites a key,
   writes into the stored nested bucket, creates a bucket inside it, and has one put refused. *)
From Coq Require Import List NArith Bool Arith Lia.
From Coq.Strings Require Import Byte.
From Jamm Require Import Bytes Tree Spec Cursor Engine EngineFacts EngineModifyFacts EngineAbs EnginePathFacts.
From Jamm Require Import EngineTxInvFacts EngineRefines EngineOwnSpill EngineAllocInv EngineReadBridge EngineScan EngineTxScan.
From Jamm Require EngineCfgReads.
Import ListNotations.
Import Coq.Strings.String.StringSyntax. Delimit Scope string_scope with string.
Local Open Scope list_scope. Local Open Scope nat_scope.
Set Warnings "-abstract-large-number".

Definition big (b : byte) : bytes := repeat b 300.
Definition exS_tx0 : list op * list bytes :=
  ([Put [] kA (big x01); Put [] kB (big x02); Put [] kC (big x03); Put [] kD (big x04); Put [] kE (big x05);
    Put [] kF (big x06); Put [kG] kA [x07]], [kG]).
Definition exS_run := Eval vm_compute in run_txs (init_db 1024) [exS_tx0].
Definition exS_st : db := match exS_run with Ok st => st | _ => init_db 1024 end.

Example exS_run_ok : run_txs (init_db 1024) [exS_tx0] = Ok exS_st.
Proof. vm_compute. reflexivity. Qed.

Example exS_hist_ok : txs_ok' (init_db 1024) [exS_tx0].
Proof. apply txs_okb'_ok. vm_compute. reflexivity. Qed.

(* a reachable state: the invariant of the theorems holds of it *)
Example exS_pages_wf : db_pages_wf exS_st.
Proof. exact (EngineCfgReads.reachable_pages_wf 1024 [exS_tx0] exS_st eq_refl exS_hist_ok exS_run_ok). Qed.

(* the committed root bucket: branch page 9 over the leaves 6 [a b], 7 [c d], 8 [e f g] *)
Example exS_shape :
  d_root exS_st = 9%N /\
  option_map ap_body (dget (d_disk exS_st) 9) = Some (Branches [(kA, 6%N); (kC, 7%N); (kE, 8%N)]) /\
  option_map (fun a => match ap_body a with Leaves l => map lkey l | _ => [] end) (dget (d_disk exS_st) 7) = Some [kC; kD].
Proof. vm_compute. repeat split; reflexivity. Qed.

Definition exS_ops : list op :=
  [Del [] kC; Del [] kD;            (* empties leaf 7 *)
   Put [] kE [x09];                 (* overwrite *)
   Put [kG] kB [x08];               (* into the stored nested bucket *)
   Put [kG; kC] kA [x01];           (* creates g/c *)
   Put [kB] kA [x01]].              (* refused: "b" is a plain value *)

Example exS_ops_ok : Forall (op_ok (d_disk exS_st)) exS_ops.
Proof. repeat constructor; cbn; lia. Qed.

(* the overlay tree of the root bucket has an empty leaf in the middle *)
Example exS_empty_leaf :
  match tx_state exS_st exS_ops with
  | Ok (rb, _) =>
      match ovl_tree (d_disk exS_st) rb [] with
      | Ok (TB 9 0 [(_, TL 6 0 [_; _]); (_, TL 7 0 []); (_, TL 8 0 [_; _; _])]) => True
      | _ => False
      end
  | _ => False
  end.
Proof. vm_compute. exact I. Qed.

(* what the executable model answers *)
Example exS_computed :
  tx_scan exS_st exS_ops [] = Ok (CVal [IKv kA (big x01); IKv kB (big x02); IKv kE [x09]; IKv kF (big x06); IBk kG]) /\
  tx_scan exS_st exS_ops [kG] = Ok (CVal [IKv kA [x07]; IKv kB [x08]; IBk kC]) /\
  tx_scan exS_st exS_ops [kG; kC] = Ok (CVal [IKv kA [x01]]) /\
  tx_scan exS_st exS_ops [kA] = Err "IncompatibleValue"%string /\
  tx_scan exS_st exS_ops [kC] = Err "BucketMissing"%string /\
  tx_cget exS_st exS_ops [] kE = Ok (Some (IKv kE [x09])) /\
  tx_cget exS_st exS_ops [] kC = Ok None /\
  tx_range exS_st exS_ops [] (BIncl kB) (BExcl kF) = Ok (CVal [IKv kB (big x02); IKv kE [x09]]) /\
  (* a seek of the deleted "c" lands in the empty leaf and iterates from the successor *)
  tx_seek exS_st exS_ops [] kC = Ok (false, CVal [IKv kE [x09]; IKv kF (big x06); IBk kG]).
Proof. vm_compute. repeat split; reflexivity. Qed.

(* the same through the theorems: the reference's buckets after [exS_ops], and the reads *)
Definition exS_ref : snode := Eval vm_compute in sem_tx exS_ops (abs_db exS_st).

Example exS_by_theorem :
  tx_scan exS_st exS_ops [] = Ok (CVal [IKv kA (big x01); IKv kB (big x02); IKv kE [x09]; IKv kF (big x06); IBk kG]) /\
  tx_scan exS_st exS_ops [kG] = Ok (CVal [IKv kA [x07]; IKv kB [x08]; IBk kC]) /\
  tx_scan exS_st exS_ops [kA] = Err "IncompatibleValue"%string /\
  (forall lo hi, exists l, tx_range exS_st exS_ops [kG] lo hi = Ok (CVal l)).
Proof.
  assert (Eref : sem_tx exS_ops (abs_db exS_st) = exS_ref) by (vm_compute; reflexivity).
  pose proof (tx_scan_spec exS_st exS_ops [] exS_pages_wf exS_ops_ok) as H0.
  pose proof (tx_scan_spec exS_st exS_ops [kG] exS_pages_wf exS_ops_ok) as H1.
  pose proof (tx_scan_spec exS_st exS_ops [kA] exS_pages_wf exS_ops_ok) as H2.
  rewrite Eref in H0, H1, H2.
  split; [exact H0|]. split; [exact H1|]. split; [exact H2|].
  intros lo hi.
  assert (Eg : exists o x es, get_at [kG] (sem_tx exS_ops (abs_db exS_st)) = Some (SBucket o x es))
    by (rewrite Eref; vm_compute; eexists _, _, _; reflexivity).
  destruct Eg as (o & x & es & Eg).
  destruct (tx_reads_cursor exS_st exS_ops [kG] o x es exS_pages_wf exS_ops_ok Eg) as (_ & _ & Hr & _).
  eexists. apply Hr.
Qed.

Print Assumptions exS_pages_wf.
Print Assumptions exS_empty_leaf.
Print Assumptions exS_computed.
Print Assumptions exS_by_theorem.
