(* REBALANCE preserves the completeness invariant [Cov]: the page of every node that try_merge / merge_nodes drops
   from the overlay tree is handed back ([EngineOwnReb.merge_nodes_own], the converse of its accounting). *)
From Coq Require Import List NArith Bool Arith Lia ZifyN ZifyNat ZifyBool Permutation.
From Coq.Strings Require Import Byte.
From Jamm Require Spec.
From Jamm Require Import Bytes BytesFacts Tree Cursor SearchFacts Engine EngineAbs EngineFacts EngineMergeFacts.
From Jamm Require Import EngineModifyFacts EngineSpillFacts EnginePathFacts EngineBridgeFacts EngineRebalanceFacts.
From Jamm Require FreelistFacts EngineAllocFacts EngineSpillWfFacts.
From Jamm Require Import EngineTxInvFacts EngineSpillBucketFacts EngineRefines.
From Jamm Require Import EngineOwnDefs EngineOwnWr EngineOwnOps EngineOwnReb EngineOwnSpill.
From Jamm Require Import EngineNoLeakWr EngineNoLeakNode EngineNoLeakCov.
Import ListNotations.
Import Coq.Strings.String.StringSyntax. Delimit Scope string_scope with string.
Local Open Scope list_scope. Local Open Scope nat_scope.
Set Warnings "-abstract-large-number".

Definition RC_IH (d : disk) (f : nat) : Prop :=
  forall fv n s b r0 b' s', SDeepF fv d s b -> OwnI d n s b r0 -> pst s -> Cov d n s b r0 ->
    rebalance f d b s = Ok (b', s') ->
    Cov d n s' b' r0 /\ (forall x, freed_in_tx s x = true -> freed_in_tx s' x = true).

(* the fold over the opened sub-buckets of a bucket with view [l] *)
Definition SubKC (d : disk) (n' : nat) (s : txs) (l : list leafent)
  (acc rest : list (bytes * bucket)) (s0 : txs) : Prop :=
  (forall x, freed_in_tx s x = true -> freed_in_tx s0 x = true) /\
  (forall y r nx, In y (acc ++ rest) -> In (LBk (fst y) r nx) l -> Cov d n' s0 (snd y) r).

Theorem rebalance_cov_gen : forall d, dget d 0%N = None -> forall f, RC_IH d f.
Proof.
  intros d Hz0. pose proof (zero_ok_missing d Hz0) as Hz.
  induction f as [|f IH]; intros fv n s b r0 b' s' HD HO Hst HCv H; [discriminate|].
  rewrite rebalance_S in H. destruct (negb (is_dirty fuel0 b)) eqn:Edirty.
  { inversion H; subst b' s'. auto. }
  destruct fv as [|fv]; [destruct HD|]. destruct n as [|n']; [destruct HO|].
  cbn [SDeepF] in HD. destruct HD as (h & l & HL & (Hnd & H2 & H3)).
  pose proof (BLoc_sorted _ _ _ _ _ HL) as Hsorted.
  rewrite OwnI_S in HO. destruct HO as (A & B & C & l' & V & ND & Hown & Hent & Hun & Hsub).
  assert (El : l' = l) by (eapply bucket_view_det; [exact V | eapply BLoc_bucket_view; eauto]). subst l'.
  rewrite Cov_S in HCv. destruct (HCv l V) as (C1 & C2 & C3).
  apply bind_ok_inv in H. destruct H as ([subs' s1] & Ef & H).
  (* the sub-buckets *)
  set (K := fun acc rest s0 => SubK d fv n' s l (map fst (b_subs b)) acc rest s0 /\ SubKC d n' s l acc rest s0).
  assert (K0 : K [] (b_subs b) s).
  { split.
    - unfold SubK. cbn [app]. split; [lia|]. split; [exact Hst|]. split; [exact Hnd|]. split; [reflexivity|].
      split; [|split; [|intros; now left]].
      + intros [k sb] Hy. exact (Hsub k sb Hy).
      + intros y Hy. rewrite Forall_forall in H2. apply (H2 y Hy).
    - unfold SubKC. cbn [app]. split; [auto|]. intros [k sb] r nx Hy Hl. cbn [fst snd] in *. eapply C3; eauto. }
  assert (Kstep : forall acc x rest s0 bx sx, K acc (x :: rest) s0 -> rebalance f d (snd x) s0 = Ok (bx, sx) ->
            K (acc ++ [(fst x, bx)]) rest sx).
  { intros acc x rest s0 bx sx [KO KC] Ex. split; [eapply (subk_step d f fv n' s l _ r0 Hz (rebalance_own_gen d Hz f) B Hent); eauto|].
    destruct KO as (K1 & K2 & K3 & K4 & K5 & K6 & K7). destruct KC as [M1 M2].
    assert (Hxin : In x (acc ++ x :: rest)) by (apply in_or_app; right; now left).
    destruct (K5 x Hxin) as (rx & nxx & Hlx & Hox).
    assert (Dx : SDeepF fv d s0 (snd x)) by (eapply SDeepF_seqc_mono; [exact K1 | apply K6; now left]).
    destruct (IH fv n' s0 (snd x) rx bx sx Dx Hox K2 (M2 x rx nxx Hxin Hlx) Ex) as (Hcx & Hmx).
    split; [intros z Hz1; apply Hmx, M1, Hz1|].
    intros y r nx Hy Hl. rewrite <- app_assoc in Hy. apply in_app_or in Hy. cbn [app] in Hy.
    assert (Hother : In y (acc ++ rest) -> Cov d n' sx (snd y) r).
    { intros Hy'. eapply Cov_mono; [exact Hmx|]. apply (M2 y r nx); [|exact Hl].
      apply in_app_or in Hy'. apply in_or_app. destruct Hy'; [now left | right; now right]. }
    destruct Hy as [Hy | [<- | Hy]].
    - apply Hother. apply in_or_app. now left.
    - cbn [fst snd] in *. assert (E : LBk (fst x) r nx = LBk (fst x) rx nxx) by (eapply same_key_same_entry; eauto).
      inversion E; subst r nx. exact Hcx.
    - apply Hother. apply in_or_app. now right. }
  destruct (reb_fold_inv f d K Kstep (b_subs b) [] s subs' s1 K0 Ef) as [(K1 & K2 & K3 & K4 & K5 & _ & K7) (M1 & M2)].
  rewrite app_nil_r in K3, K4, K5, M2.
  (* the bucket's own tree *)
  destruct HL as (Hh & HB & _ & _ & HV).
  set (b0 := Bucket (b_root_page b) (b_next b) true (b_rootn b) subs') in *.
  assert (HB0 : BInv h d s1 b0) by (exact (BInv_seqc_mono _ _ _ _ _ K1 HB)).
  assert (HV0 : BucketView d h b0 l) by exact HV.
  assert (C0 : bpg_ok d b0) by exact C.
  destruct (merge_nodes_own h d s1 b0 l b' s' HB0 HV0 Hh C0 K2 H) as (F & HPF & _ & _ & _ & HMF & HGF).
  change (bheads d b0) with (bheads d b) in HPF.
  destruct (merge_nodes_bucket_view h d s1 b0 l b' s' HB0 HV0 Hh H) as (V' & _).
  destruct (merge_nodes_fields _ _ _ _ _ H) as (_ & Es & _). cbn [b0 b_subs] in Es.
  assert (Hm : forall x, freed_in_tx s x = true -> freed_in_tx s' x = true) by (intros x Hx; apply HMF, M1, Hx).
  split; [|exact Hm].
  rewrite Cov_S. intros l2 V2. assert (l2 = l) by (eapply bucket_view_det; eauto). subst l2.
  split; [|split].
  - intros Hr0 q Hq. destruct (C1 Hr0 q Hq) as [X|X]; [|right; eapply gone_mono; eauto].
    assert (Hq' : In q (F ++ bheads d b')) by (eapply Permutation_in; eauto).
    apply in_app_or in Hq'. destruct Hq' as [Hq'|Hq']; [right | now left].
    destruct A as [A|A]; [contradiction|]. refine (HGF q Hq' _). eapply heads_nz; eauto.
  - intros Hr0 k r nx He. destruct (C2 Hr0 k r nx He) as [X|X]; [now left | right; intros x Hx; apply Hm, X, Hx].
  - rewrite Es. intros k sb' r nx Hin Hl. eapply Cov_mono; [exact HMF|]. exact (M2 (k, sb') r nx Hin Hl).
Qed.

Theorem rebalance_cov : forall d f fv n s b r0 b' s', dget d 0%N = None ->
  SDeepF fv d s b -> OwnI d n s b r0 -> pend_ids_ok s -> pend_cur s -> Cov d n s b r0 ->
  rebalance f d b s = Ok (b', s') ->
  Cov d n s' b' r0 /\ (forall x, freed_in_tx s x = true -> freed_in_tx s' x = true).
Proof.
  intros d f fv n s b r0 b' s' Hz HD HO H1 H2 HCv H.
  exact (rebalance_cov_gen d Hz f fv n s b r0 b' s' HD HO (conj H1 H2) HCv H).
Qed.

Print Assumptions rebalance_cov.
