(* Seek and range specifications of the cursor machine (model/Cursor.v): where [search] lands in the flattened tree,
   what iteration from there delivers ([seek_scan]), and [range_scan] as a filter, for all bound kinds. The theorems
   named [_gen] assume [wf_sep] and global key order only (what the engine proofs have of a tree whose children
   may differ in height); those without the suffix are their instances for [wf_tree]. *)
From Coq Require Import List NArith Bool Arith Lia.
From Coq.Strings Require Import Byte.
From Jamm Require Import Bytes Codec Tree Spec Cursor SearchFacts CursorFacts.
Import ListNotations.
Local Open Scope list_scope. Local Open Scope nat_scope.

Lemma wf_shape_neb : forall t, wf_shape t = true -> no_empty_branch t = true.
Proof. intros t H. apply wf_sep_neb, wf_shape_sep, H. Qed.

Lemma wf_tree_sep : forall t, wf_tree t = true ->
  wf_sep t = true /\ sorted_keys (map lent_key (flatten t)) = true.
Proof.
  intros t H. unfold wf_tree in H. apply andb_true_iff in H. destruct H as [H1 H2].
  split; [now apply wf_shape_sep | exact H2].
Qed.

Lemma item_key_to_item : forall e, item_key (Cursor.to_item e) = lent_key e.
Proof. intros [k v | k r n]; reflexivity. Qed.

Lemma filter_none : forall {A} (f : A -> bool) l, (forall x, In x l -> f x = false) -> filter f l = [].
Proof.
  intros A f l H. induction l as [|x l IH]; [reflexivity|]. cbn [filter].
  rewrite (H x (or_introl eq_refl)). apply IH. intros y Hy. apply H. now right.
Qed.
Lemma filter_all : forall {A} (f : A -> bool) l, (forall x, In x l -> f x = true) -> filter f l = l.
Proof.
  intros A f l H. induction l as [|x l IH]; [reflexivity|]. cbn [filter].
  rewrite (H x (or_introl eq_refl)). f_equal. apply IH. intros y Hy. apply H. now right.
Qed.
Lemma filter_split : forall {A} (f : A -> bool) a g,
  (forall x, In x a -> f x = false) -> (forall x, In x g -> f x = true) -> filter f (a ++ g) = g.
Proof. intros A f a g Ha Hg. now rewrite filter_app, (filter_none f a Ha), (filter_all f g Hg). Qed.
Lemma filter_filter : forall {A} (f g : A -> bool) l,
  filter g (filter f l) = filter (fun x => f x && g x) l.
Proof.
  intros A f g l. induction l as [|x l IH]; [reflexivity|]. cbn [filter].
  destruct (f x); cbn [andb filter]; [destruct (g x)|]; now rewrite IH.
Qed.
Lemma filter_len : forall {A} (f : A -> bool) l, length (filter f l) <= length l.
Proof.
  intros A f l. induction l as [|x l IH]; [reflexivity|]. cbn [filter].
  destruct (f x); cbn [length]; lia.
Qed.
Lemma filter_map_to_item : forall (f : bytes -> bool) l,
  filter (fun i => f (item_key i)) (map Cursor.to_item l)
  = map Cursor.to_item (filter (fun e => f (lent_key e)) l).
Proof.
  intros f l. induction l as [|e l IH]; [reflexivity|]. cbn [map filter].
  rewrite item_key_to_item. destruct (f (lent_key e)); cbn [map]; now rewrite IH.
Qed.

Lemma sorted_filter : forall (f : lent -> bool) l,
  sorted_keys (map lent_key l) = true -> sorted_keys (map lent_key (filter f l)) = true.
Proof.
  intros f l. induction l as [|a l IH]; intros H; [reflexivity|].
  cbn [map] in H. destruct (sorted_keys_cons _ _ H) as [Hall Hs]. cbn [filter].
  destruct (f a); [|auto]. cbn [map]. apply sorted_keys_cons_intro; [|auto].
  rewrite Forall_forall in *. intros x Hx. apply in_map_iff in Hx. destruct Hx as (e & <- & He).
  apply filter_In in He. destruct He as [He _]. apply Hall. now apply in_map.
Qed.

Definition dlent : lent := EKv [] [].
Lemma key_nth : forall L j, nth j (map lent_key L) [] = lent_key (nth j L dlent).
Proof. intros L j. change (@nil byte) with (lent_key dlent). apply map_nth. Qed.

Lemma wf_stack_snoc : forall c st t s, wf_stack c st -> child_at t s = Some c ->
  wf_stack t (st ++ [(t, s)]).
Proof.
  intros c st t s H Hc. induction H as [i | c' j p i rest Hwf IH Hc'].
  - cbn [app]. apply wf_push; [apply wf_root | exact Hc].
  - cbn [app] in *. apply wf_push; [exact IH | exact Hc'].
Qed.

Lemma descent_wf_stack : forall k t st, descent k t st -> wf_stack t st.
Proof.
  intros k t st H. induction H as [t | t c st Hc Hd IH]; [apply wf_root|].
  eapply wf_stack_snoc; eauto.
Qed.

(* the position inside the leaf: on the exact match or, failing that, on the last entry < k; at 0 if there is none *)
Lemma leaf_pos : forall p o L k i ex,
  sorted_keys (map lent_key L) = true -> index_of (TL p o L) k = (i, ex) ->
  (exists e, nth_error L i = Some e /\ bcmp (lent_key e) k = (if ex then Eq else Lt) /\
             keys_lt (firstn i L) k /\ keys_gt (skipn (S i) L) k) \/
  (ex = false /\ i = 0 /\ keys_gt L k).
Proof.
  intros p o L k i ex Hs Hidx. unfold index_of in Hidx. cbn [keys_of] in Hidx.
  destruct (bsearch (map lent_key L) k) as [[|] ip] eqn:Eb; inversion Hidx; subst; clear Hidx.
  - left. apply bsearch_found in Eb; [|exact Hs].
    assert (Hi : i < length L).
    { rewrite <- (map_length lent_key). apply nth_error_Some. congruence. }
    assert (Hki : nth i (map lent_key L) [] = k) by (now apply nth_error_nth).
    exists (nth i L dlent). split; [now apply nth_error_nth'|].
    split; [rewrite <- key_nth, Hki; apply bcmp_refl|]. split.
    + intros e He. destruct (In_firstn_nth dlent i L e He) as (j & Hji & Hjl & <-).
      rewrite <- key_nth, <- Hki. apply sorted_keys_nth; [exact Hs|]. rewrite map_length. lia.
    + intros e He. destruct (In_skipn_nth dlent (S i) L e He) as (j & Hji & Hjl & <-).
      rewrite <- key_nth, <- Hki. apply bcmp_lt_gt. apply sorted_keys_nth; [exact Hs|].
      rewrite map_length. lia.
  - destruct (bsearch_missing _ _ _ Hs Eb) as (Hip & Hlt & Hgt). rewrite map_length in Hip, Hgt.
    destruct ip as [|i].
    + right. split; [reflexivity|]. split; [reflexivity|].
      intros e He. destruct (In_nth L e dlent He) as (j & Hj & <-).
      rewrite <- key_nth. apply Hgt. lia.
    + left. cbn [pred].
      exists (nth i L dlent). split; [apply nth_error_nth'; lia|].
      split; [rewrite <- key_nth; apply Hlt; lia|]. split.
      * intros e He. destruct (In_firstn_nth dlent i L e He) as (j & Hji & Hjl & <-).
        rewrite <- key_nth. apply Hlt. lia.
      * intros e He. destruct (In_skipn_nth dlent (S i) L e He) as (j & Hji & Hjl & <-).
        rewrite <- key_nth. apply Hgt. lia.
Qed.

(* where [search] lands: on an entry [e] of the leaf reached (the exact match, or else the predecessor of k), or,
   when every key of that leaf is > k, on the position of the successor *)
Inductive seek_pos (t : tree) (k : bytes) (lf : tree) (ex : bool) (st : stack) : Prop :=
| sp_at : forall A e G,
    bcmp (lent_key e) k = (if ex then Eq else Lt) -> In e (flatten lf) ->
    keys_lt A k -> keys_gt G k -> flatten t = A ++ e :: G -> from_e st = e :: G ->
    current st = CVal (Some (Cursor.to_item e)) -> seek_pos t k lf ex st
| sp_succ : forall A G,
    ex = false -> keys_gt (flatten lf) k ->
    keys_lt A k -> keys_gt G k -> flatten t = A ++ G -> from_e st = G ->
    (current st = CVal None \/
     exists e0, current st = CVal (Some (Cursor.to_item e0)) /\ bcmp (lent_key e0) k = Gt) ->
    seek_pos t k lf ex st.

Theorem search_pos : forall t k ex st,
  wf_sep t = true -> sorted_keys (map lent_key (flatten t)) = true ->
  search (S (nodes t)) t k [] = (ex, st) ->
  exists lf i pre, st = (lf, i) :: pre /\ is_leaf lf = true /\
    wf_stack t st /\ settled st /\ top_ok st /\ seek_pos t k lf ex st.
Proof.
  intros t k ex st Hsh Hsorted Hs.
  destruct (search_path_api k t ex st Hsh Hs) as (lf & i & pre & B & Hst & Hd & Hlf & Hidx & Hfl & HB & HA).
  exists lf, i, pre. split; [exact Hst|]. split; [exact Hlf|].
  split; [eapply descent_wf_stack; eauto|].
  destruct lf as [p o L|]; [|discriminate]. cbn [flatten] in Hfl.
  assert (HsL : sorted_keys (map lent_key L) = true)
    by (rewrite Hfl in Hsorted; now apply sorted_leaf_part in Hsorted).
  subst st. split; [reflexivity|].
  assert (Hfrom : from_e ((TL p o L, i) :: pre) = skipn i L ++ after_e pre) by reflexivity.
  assert (Hcur : current ((TL p o L, i) :: pre) = CVal (option_map Cursor.to_item (nth_error L i)))
    by reflexivity.
  destruct (leaf_pos p o L k i ex HsL Hidx) as [(e & Hn & Hk & Hf & Hg) | (-> & -> & Hg)].
  - split.
    { cbn [top_ok]. right. rewrite tlen_TL. apply nth_error_Some. congruence. }
    apply (sp_at _ _ _ _ _ (B ++ firstn i L) e (skipn (S i) L ++ after_e pre)); auto.
    + cbn [flatten]. eapply nth_error_In; eauto.
    + apply keys_lt_app; assumption.
    + apply keys_gt_app; assumption.
    + rewrite Hfl. rewrite <- (firstn_skipn i L) at 1. rewrite (skipn_nth_error _ _ _ Hn).
      now rewrite <- !app_assoc.
    + rewrite Hfrom, (skipn_nth_error _ _ _ Hn). reflexivity.
    + rewrite Hcur, Hn. reflexivity.
  - split; [cbn [top_ok]; now left|].
    apply (sp_succ _ _ _ _ _ B (L ++ after_e pre)); auto.
    + apply keys_gt_app; assumption.
    + rewrite Hcur. destruct L as [|e0 L']; [now left|]. right. exists e0.
      split; [reflexivity|]. apply Hg. now left.
Qed.

Lemma from_e_bound : forall root st, wf_stack root st -> length (from_e st) <= nodes root.
Proof.
  intros root st Hwf.
  assert (Hle : forall l i, length (lp_e l i) <= length (lp_e l 0)).
  { intros l i. unfold lp_e. cbn [skipn]. rewrite skipn_length. lia. }
  pose proof (from_bound lp_e Hle root st Hwf) as H. rewrite gflat_e in H.
  pose proof (flatten_le_nodes root). lia.
Qed.

Lemma ble_of_gt : forall k x, bcmp x k = Gt -> ble k x = true.
Proof. intros k x H. apply ble_true. apply bcmp_lt_gt in H. rewrite H. discriminate. Qed.
Lemma ble_of_lt : forall k x, bcmp x k = Lt -> ble k x = false.
Proof. intros k x H. unfold ble. apply bcmp_lt_gt in H. now rewrite H. Qed.
Lemma ble_refl : forall k, ble k k = true.
Proof. intros k. unfold ble. now rewrite bcmp_refl. Qed.
Lemma blt_of_gt : forall k x, bcmp x k = Gt -> blt k x = true.
Proof. intros k x H. apply blt_true. now apply bcmp_lt_gt. Qed.
Lemma blt_of_lt : forall k x, bcmp x k = Lt -> blt k x = false.
Proof. intros k x H. unfold blt. apply bcmp_lt_gt in H. now rewrite H. Qed.
Lemma blt_irrefl : forall k, blt k k = false.
Proof. intros k. unfold blt. now rewrite bcmp_refl. Qed.

Lemma from_succ_split : forall k A G,
  keys_lt A k -> (forall e, In e G -> ble k (lent_key e) = true) ->
  from_succ k (map Cursor.to_item (A ++ G)) = map Cursor.to_item G.
Proof.
  intros k A G HA HG. unfold from_succ.
  rewrite (filter_map_to_item (fun x => ble k x)). f_equal.
  apply filter_split; [|exact HG]. intros x Hx. apply ble_of_lt. now apply HA.
Qed.

Lemma from_pred_split : forall k A e G,
  keys_lt A k -> bcmp (lent_key e) k = Lt -> keys_gt G k ->
  from_pred k (map Cursor.to_item (A ++ e :: G)) = map Cursor.to_item (e :: G).
Proof.
  intros k A e G HA He HG. induction A as [|a A IH].
  - cbn [app map]. destruct G as [|g G]; [reflexivity|]. cbn [map from_pred].
    rewrite item_key_to_item. unfold blt. now rewrite (HG g (or_introl eq_refl)).
  - cbn [app map]. rewrite <- map_cons.
    assert (IH' : from_pred k (map Cursor.to_item (A ++ e :: G)) = map Cursor.to_item (e :: G)).
    { apply IH. intros x Hx. apply HA. now right. }
    assert (Hhd : exists j rest, A ++ e :: G = j :: rest /\ bcmp (lent_key j) k = Lt).
    { destruct A as [|a' A']; [exists e, G; auto|].
      exists a', (A' ++ e :: G). split; [reflexivity|]. apply HA. right; now left. }
    destruct Hhd as (j & rest & Hjr & Hj). rewrite Hjr in *.
    cbn [map from_pred] in *. rewrite item_key_to_item. unfold blt at 1. rewrite Hj. exact IH'.
Qed.

Lemma seek_scan_unfold : forall t k ex st,
  search (S (nodes t)) t k [] = (ex, st) ->
  seek_scan t k = (ex, iterate (S (nodes t)) (S (nodes t)) (mkCursor t st false)).
Proof.
  intros t k ex st H. unfold seek_scan, seek. cbn [c_root new_cursor]. now rewrite H.
Qed.

Definition leaf_has_lt (lf : tree) (k : bytes) : bool :=
  existsb (fun e => blt (lent_key e) k) (flatten lf).

Lemma key_notin : forall l k, (forall e, In e l -> bcmp (lent_key e) k <> Eq) -> ~ In k (map lent_key l).
Proof.
  intros l k H Hin. apply in_map_iff in Hin. destruct Hin as (e & <- & He).
  apply (H e He), bcmp_refl.
Qed.

(* which neighbour of an absent key iteration starts at: the predecessor when the leaf reached has a key < k,
   the successor otherwise ([gap_tree_checks] shows both) *)
Theorem seek_spec_precise_gen : forall t k,
  wf_sep t = true -> sorted_keys (map lent_key (flatten t)) = true ->
  let items := map Cursor.to_item (flatten t) in
  exists ex lf i pre l,
    search (S (nodes t)) t k [] = (ex, (lf, i) :: pre) /\ is_leaf lf = true /\
    seek_scan t k = (ex, CVal l) /\
    (ex = true <-> In k (map lent_key (flatten t))) /\
    l = (if ex then from_succ k items
         else if leaf_has_lt lf k then from_pred k items else from_succ k items).
Proof.
  intros t k Hsh Hsorted items. pose proof (wf_sep_neb t Hsh) as Hneb.
  destruct (search (S (nodes t)) t k []) as [ex st] eqn:Es.
  destruct (search_pos t k ex st Hsh Hsorted Es) as (lf & i & pre & Hst & Hlf & Hwfs & Hset & Htop & Hpos).
  pose proof (next_seek_spec t (S (nodes t)) st Hneb (Nat.lt_succ_diag_r _) Hwfs Hset Htop) as Hy.
  pose proof (from_e_bound t st Hwfs) as Hb.
  pose proof (iterate_yields t (S (nodes t)) Hneb (Nat.lt_succ_diag_r _) _ _ (S (nodes t)) Hy
                ltac:(lia)) as Hit.
  exists ex, lf, i, pre, (map Cursor.to_item (from_e st)).
  split; [now rewrite Hst|]. split; [exact Hlf|].
  split; [rewrite (seek_scan_unfold t k ex st Es), Hit; reflexivity|].
  subst items.
  destruct Hpos as [A e G Hk Hin HA HG Hfl Hfrom _ | A G Hex Hlfgt HA HG Hfl Hfrom _]; [destruct ex | subst ex].
  - apply bcmp_eq in Hk. split.
    + split; [intros _|reflexivity]. rewrite Hfl, map_app. apply in_or_app. right. left. exact Hk.
    + rewrite Hfrom, Hfl. symmetry. apply from_succ_split; [exact HA|].
      intros x [<- | Hx]; [rewrite Hk; apply ble_refl | apply ble_of_gt; now apply HG].
  - split.
    + split; [discriminate|]. intros Hink. exfalso. revert Hink. apply key_notin. intros x Hx.
      rewrite Hfl in Hx. apply in_app_or in Hx.
      destruct Hx as [Hx | [<- | Hx]]; [rewrite (HA x Hx) | rewrite Hk | rewrite (HG x Hx)]; discriminate.
    + assert (Hl : leaf_has_lt lf k = true).
      { unfold leaf_has_lt. apply existsb_exists. exists e. split; [exact Hin|]. now apply blt_true. }
      rewrite Hl, Hfrom, Hfl. symmetry. now apply from_pred_split.
  - split.
    + split; [discriminate|]. intros Hink. exfalso. revert Hink. apply key_notin. intros x Hx.
      rewrite Hfl in Hx. apply in_app_or in Hx.
      destruct Hx as [Hx | Hx]; [rewrite (HA x Hx) | rewrite (HG x Hx)]; discriminate.
    + assert (Hl : leaf_has_lt lf k = false).
      { unfold leaf_has_lt. destruct (existsb _ (flatten lf)) eqn:E; [|reflexivity].
        apply existsb_exists in E. destruct E as (x & Hx & Hlt). apply blt_true in Hlt.
        rewrite (Hlfgt x Hx) in Hlt. discriminate. }
      rewrite Hl, Hfrom, Hfl. symmetry. apply from_succ_split; [exact HA|].
      intros x Hx. apply ble_of_gt. now apply HG.
Qed.

Theorem seek_spec_precise : forall t k, wf_tree t = true ->
  let items := map Cursor.to_item (flatten t) in
  exists ex lf i pre l,
    search (S (nodes t)) t k [] = (ex, (lf, i) :: pre) /\ is_leaf lf = true /\
    seek_scan t k = (ex, CVal l) /\
    (ex = true <-> In k (map lent_key (flatten t))) /\
    l = (if ex then from_succ k items
         else if leaf_has_lt lf k then from_pred k items else from_succ k items).
Proof. intros t k Hwf. destruct (wf_tree_sep t Hwf) as [Hsh Hs]. exact (seek_spec_precise_gen t k Hsh Hs). Qed.

Theorem seek_spec_gen : forall t k,
  wf_sep t = true -> sorted_keys (map lent_key (flatten t)) = true ->
  let items := map Cursor.to_item (flatten t) in
  exists ex l,
    seek_scan t k = (ex, CVal l) /\
    (ex = true <-> In k (map lent_key (flatten t))) /\
    (ex = true -> l = from_succ k items) /\
    (ex = false -> l = from_pred k items \/ l = from_succ k items).
Proof.
  intros t k Hsh Hs items.
  destruct (seek_spec_precise_gen t k Hsh Hs) as (ex & lf & i & pre & l & _ & _ & Hss & Hex & Hl).
  exists ex, l. split; [exact Hss|]. split; [exact Hex|]. fold items in Hl. split.
  - intros ->. exact Hl.
  - intros ->. destruct (leaf_has_lt lf k); auto.
Qed.

Theorem seek_spec : forall t k, wf_tree t = true ->
  let items := map Cursor.to_item (flatten t) in
  exists ex l,
    seek_scan t k = (ex, CVal l) /\
    (ex = true <-> In k (map lent_key (flatten t))) /\
    (ex = true -> l = from_succ k items) /\
    (ex = false -> l = from_pred k items \/ l = from_succ k items).
Proof. intros t k Hwf. destruct (wf_tree_sep t Hwf) as [Hsh Hs]. exact (seek_spec_gen t k Hsh Hs). Qed.

Definition lo_f (lo : bound) (e : lent) : bool := lo_ok lo (lent_key e).
Definition hi_f (hi : bound) (e : lent) : bool := hi_ok hi (lent_key e).

Lemma hi_ok_mono : forall hi a b, bcmp a b = Lt -> hi_ok hi a = false -> hi_ok hi b = false.
Proof.
  intros [e|e|] a b Hab H; cbn [hi_ok] in *; [| |discriminate].
  - unfold ble in *. destruct (bcmp a e) eqn:Ea; try discriminate.
    apply bcmp_lt_gt in Hab.
    assert (Hbe : bcmp b e = Gt) by (eapply bcmp_gt_trans; eauto). now rewrite Hbe.
  - unfold blt in *. destruct (bcmp b e) eqn:Eb; try reflexivity.
    rewrite (bcmp_lt_trans a b e Hab Eb) in H. discriminate.
Qed.

Lemma hi_filter_stop : forall hi d l,
  sorted_keys (map lent_key (d :: l)) = true -> hi_f hi d = false -> filter (hi_f hi) (d :: l) = [].
Proof.
  intros hi d l Hs Hd. apply filter_none. intros x [<- | Hx]; [exact Hd|].
  cbn [map] in Hs. destruct (sorted_keys_cons _ _ Hs) as [Hall _]. rewrite Forall_forall in Hall.
  unfold hi_f in *. eapply hi_ok_mono; [|exact Hd]. apply Hall. now apply in_map.
Qed.

Lemma range_start_started : forall F c lo, c_next_called c = true -> range_start F c lo = CVal c.
Proof. intros F c lo H. unfold range_start. now rewrite H. Qed.

(* once [range_start] has positioned the cursor just before R: a plain filter with early stop *)
Lemma range_iterate_spec : forall root F lo hi,
  no_empty_branch root = true -> nodes root < F ->
  forall R c c1 n, range_start F c lo = CVal c1 -> yields root (next F c1) R ->
  sorted_keys (map lent_key R) = true -> length R <= n ->
  range_iterate n F c lo hi = CVal (map Cursor.to_item (filter (hi_f hi) R)).
Proof.
  intros root F lo hi Hr HF. induction R as [|d l IH]; intros c c1 n Hstart (c' & Hnx & Hc' & Hcalled & Hrem) Hs Hn.
  - destruct n as [|n]; [reflexivity|]. cbn [range_iterate]. unfold range_next. now rewrite Hstart, Hnx.
  - destruct n as [|n]; [cbn [length] in Hn; lia|]. cbn [range_iterate]. unfold range_next.
    rewrite Hstart, Hnx. cbn [hd_error option_map]. rewrite item_key_to_item.
    destruct (hi_ok hi (lent_key d)) eqn:Eh.
    + cbn [map tl] in Hs, Hrem.
      rewrite (IH c' c' n (range_start_started F c' lo Hcalled)); [| | exact (sorted_keys_tl _ _ Hs) | cbn [length] in Hn; lia].
      * cbn [filter]. change (hi_f hi d) with (hi_ok hi (lent_key d)). rewrite Eh. reflexivity.
      * rewrite <- Hrem. now apply next_spec.
    + rewrite (hi_filter_stop hi d l Hs Eh). reflexivity.
Qed.

(* the positioning step of [range_start] after its seek: step once if [skip] holds of the entry the cursor stands on *)
Definition start_at (F : nat) (c : cursor) (skip : bytes -> bool) : cur_res cursor :=
  match current (c_stack c) with
  | CPanic => CPanic
  | CVal (Some d) => if skip (item_key d) then
                       match next F c with CPanic => CPanic | CVal (c2, _) => CVal c2 end
                     else CVal c
  | CVal None => CVal c
  end.

Lemma range_start_incl : forall F c s, c_next_called c = false ->
  range_start F c (BIncl s)
  = let '(ex, c1) := seek F c s in if ex then CVal c1 else start_at F c1 (fun x => blt x s).
Proof. intros F c s H. unfold range_start. now rewrite H. Qed.

Lemma range_start_excl : forall F c s, c_next_called c = false ->
  range_start F c (BExcl s) = let '(_, c1) := seek F c s in start_at F c1 (fun x => ble x s).
Proof. intros F c s H. unfold range_start. now rewrite H. Qed.

(* [skip] and [keep] are complementary tests that agree with the order around k: stepping over a skipped entry
   leaves the cursor just before the first kept one *)
Lemma start_at_spec : forall t F st k lf ex (skip keep : bytes -> bool),
  no_empty_branch t = true -> nodes t < F -> wf_stack t st -> settled st -> top_ok st ->
  seek_pos t k lf ex st ->
  (forall x, bcmp x k = Lt -> skip x = true /\ keep x = false) ->
  (forall x, bcmp x k = Gt -> skip x = false /\ keep x = true) ->
  keep k = negb (skip k) ->
  exists c1, start_at F (mkCursor t st false) skip = CVal c1 /\
    yields t (next F c1) (filter (fun e => keep (lent_key e)) (flatten t)).
Proof.
  intros t F st k lf ex skip keep Hneb HF Hwfs Hset Htop Hpos Hlt Hgt Hk.
  pose proof (next_seek_spec t F st Hneb HF Hwfs Hset Htop) as Hy.
  unfold start_at. cbn [c_stack].
  assert (HA : forall A, keys_lt A k -> filter (fun e => keep (lent_key e)) A = [])
    by (intros A HA; apply filter_none; intros x Hx; apply Hlt, HA, Hx).
  assert (HG : forall G, keys_gt G k -> filter (fun e => keep (lent_key e)) G = G)
    by (intros G HG; apply filter_all; intros x Hx; apply Hgt, HG, Hx).
  destruct Hpos as [A e G He Hin HAk HGk Hfl Hfrom Hcur | A G Hex Hlfgt HAk HGk Hfl Hfrom Hcur];
    rewrite Hfrom in Hy; rewrite Hfl, filter_app, (HA A HAk).
  - rewrite Hcur, item_key_to_item. cbn [filter app]. rewrite (HG G HGk).
    assert (Hke : keep (lent_key e) = negb (skip (lent_key e))).
    { destruct ex; [apply bcmp_eq in He; now rewrite He | destruct (Hlt _ He) as [-> ->]; reflexivity]. }
    rewrite Hke. destruct (skip (lent_key e)); cbn [negb].
    + destruct Hy as (c' & Hnx & Hc' & _ & Hrem). rewrite Hnx.
      exists c'. split; [reflexivity|]. cbn [tl] in Hrem. rewrite <- Hrem. now apply next_spec.
    + eexists. split; [reflexivity | exact Hy].
  - rewrite (HG G HGk). cbn [app].
    destruct Hcur as [Hcur | (e0 & Hcur & He0)]; rewrite Hcur.
    + eexists. split; [reflexivity | exact Hy].
    + rewrite item_key_to_item, (proj1 (Hgt _ He0)). eexists. split; [reflexivity | exact Hy].
Qed.

Lemma start_at_exact : forall t F st k lf skip, seek_pos t k lf true st -> skip k = false ->
  start_at F (mkCursor t st false) skip = CVal (mkCursor t st false).
Proof.
  intros t F st k lf skip Hpos Hk. destruct Hpos as [A e G He _ _ _ _ _ Hcur | A G Hex]; [|discriminate].
  apply bcmp_eq in He. unfold start_at. cbn [c_stack]. now rewrite Hcur, item_key_to_item, He, Hk.
Qed.

Lemma range_start_spec : forall t lo,
  wf_sep t = true -> sorted_keys (map lent_key (flatten t)) = true ->
  exists c1, range_start (S (nodes t)) (new_cursor t) lo = CVal c1 /\
             yields t (next (S (nodes t)) c1) (filter (lo_f lo) (flatten t)).
Proof.
  intros t lo Hsh Hsorted. pose proof (wf_sep_neb t Hsh) as Hneb.
  set (F := S (nodes t)). assert (HF : nodes t < F) by (unfold F; lia).
  destruct lo as [s|s|].
  - rewrite range_start_incl by reflexivity. unfold seek, new_cursor. cbn [c_root].
    destruct (search F t s []) as [ex st] eqn:Es.
    destruct (search_pos t s ex st Hsh Hsorted Es) as (lf & i & pre & _ & _ & Hwfs & Hset & Htop & Hpos).
    destruct (start_at_spec t F st s lf ex (fun x => blt x s) (fun x => ble s x) Hneb HF Hwfs Hset Htop Hpos)
      as (c1 & Hc1 & Hy).
    + intros x Hx. split; [now apply blt_true | now apply ble_of_lt].
    + intros x Hx. split; [now apply blt_of_lt, bcmp_lt_gt | now apply ble_of_gt].
    + now rewrite ble_refl, blt_irrefl.
    + exists c1. split; [|exact Hy]. destruct ex; [|exact Hc1].
      rewrite <- Hc1. symmetry. eapply start_at_exact; [exact Hpos | apply blt_irrefl].
  - rewrite range_start_excl by reflexivity. unfold seek, new_cursor. cbn [c_root].
    destruct (search F t s []) as [ex st] eqn:Es.
    destruct (search_pos t s ex st Hsh Hsorted Es) as (lf & i & pre & _ & _ & Hwfs & Hset & Htop & Hpos).
    apply (start_at_spec t F st s lf ex (fun x => ble x s) (fun x => blt s x) Hneb HF Hwfs Hset Htop Hpos).
    + intros x Hx. split; [now apply ble_of_gt, bcmp_lt_gt | now apply blt_of_lt].
    + intros x Hx. split; [now apply ble_of_lt, bcmp_lt_gt | now apply blt_of_gt].
    + now rewrite ble_refl, blt_irrefl.
  - eexists. split; [reflexivity|].
    replace (filter (lo_f BUnb) (flatten t)) with (rem (new_cursor t)).
    + apply next_spec; auto. apply cinv_new.
    + symmetry. apply filter_all. reflexivity.
Qed.

Theorem range_spec_gen : forall t lo hi,
  wf_sep t = true -> sorted_keys (map lent_key (flatten t)) = true ->
  range_scan t lo hi
  = CVal (filter (fun i => in_bounds lo hi (item_key i)) (map Cursor.to_item (flatten t))).
Proof.
  intros t lo hi Hsh Hsorted.
  destruct (range_start_spec t lo Hsh Hsorted) as (c1 & Hstart & Hy).
  unfold range_scan.
  rewrite (range_iterate_spec t (S (nodes t)) lo hi (wf_sep_neb t Hsh) (Nat.lt_succ_diag_r _)
             (filter (lo_f lo) (flatten t)) (new_cursor t) c1 (S (nodes t)) Hstart Hy).
  - f_equal. rewrite (filter_map_to_item (fun x => in_bounds lo hi x)). f_equal.
    rewrite filter_filter. reflexivity.
  - now apply sorted_filter.
  - pose proof (filter_len (lo_f lo) (flatten t)). pose proof (flatten_le_nodes t). lia.
Qed.

Theorem range_spec : forall t lo hi, wf_tree t = true ->
  range_scan t lo hi
  = CVal (filter (fun i => in_bounds lo hi (item_key i)) (map Cursor.to_item (flatten t))).
Proof. intros t lo hi Hwf. destruct (wf_tree_sep t Hwf) as [Hsh Hs]. exact (range_spec_gen t lo hi Hsh Hs). Qed.

Corollary range_spec_empty : forall t lo hi, wf_tree t = true ->
  (forall k, in_bounds lo hi k = false) -> range_scan t lo hi = CVal [].
Proof.
  intros t lo hi Hwf He. rewrite (range_spec t lo hi Hwf). f_equal.
  apply filter_none. intros x _. apply He.
Qed.

Definition is_bucket_item (i : item) : bool := match i with IBk _ => true | IKv _ _ => false end.
Definition is_pair_item (i : item) : bool := match i with IKv _ _ => true | IBk _ => false end.
Definition cur_map {A B} (f : A -> B) (r : cur_res A) : cur_res B :=
  match r with CPanic => CPanic | CVal a => CVal (f a) end.

Theorem scan_spec : forall t, wf_tree t = true -> scan t = CVal (map Cursor.to_item (flatten t)).
Proof. intros t Hwf. apply cursor_all, wf_sep_neb, (wf_tree_sep t Hwf). Qed.

Corollary buckets_spec : forall t, wf_tree t = true ->
  cur_map (filter is_bucket_item) (scan t)
  = CVal (filter is_bucket_item (map Cursor.to_item (flatten t))).
Proof. intros t Hwf. now rewrite (scan_spec t Hwf). Qed.

Corollary pairs_spec : forall t, wf_tree t = true ->
  cur_map (filter is_pair_item) (scan t)
  = CVal (filter is_pair_item (map Cursor.to_item (flatten t))).
Proof. intros t Hwf. now rewrite (scan_spec t Hwf). Qed.

(* a tree with an empty leaf in the middle (it is wf, so the theorems above are not vacuous) *)
Definition bk (c : byte) : bytes := [c].
Definition kv (c : byte) : lent := EKv [c] [].
Definition gap_tree : tree :=
  TB 9%N 0%N [ (bk "b", TL 1%N 0%N [kv "a"; kv "c"]);
               (bk "d", TL 2%N 0%N []);
               (bk "f", TL 3%N 0%N [kv "f"; kv "h"]) ].
Example gap_tree_checks :
  wf_tree gap_tree = true /\
  (* absent key routed to the empty leaf: iteration starts at the successor, NOT the predecessor *)
  seek_scan gap_tree (bk "e") = (false, CVal [IKv (bk "f") []; IKv (bk "h") []]) /\
  from_pred (bk "e") (map Cursor.to_item (flatten gap_tree))
    = [IKv (bk "c") []; IKv (bk "f") []; IKv (bk "h") []] /\
  (* absent key inside a non-empty leaf, above its first key: starts at the predecessor *)
  seek_scan gap_tree (bk "g") = (false, CVal [IKv (bk "f") []; IKv (bk "h") []]) /\
  (* absent key above every key: the last entry (predecessor) *)
  seek_scan gap_tree (bk "i") = (false, CVal [IKv (bk "h") []]) /\
  (* a key equal to the empty leaf's separator is routed to the empty leaf as well *)
  seek_scan gap_tree (bk "d") = (false, CVal [IKv (bk "f") []; IKv (bk "h") []]) /\
  range_scan gap_tree (BExcl (bk "c")) (BIncl (bk "f")) = CVal [IKv (bk "f") []] /\
  range_scan gap_tree (BIncl (bk "h")) (BIncl (bk "a")) = CVal [].
Proof. repeat split; vm_compute; reflexivity. Qed.

Print Assumptions wf_shape_neb.
Print Assumptions search_pos.
Print Assumptions seek_spec_precise.
Print Assumptions seek_spec.
Print Assumptions range_start_spec.
Print Assumptions range_spec.
Print Assumptions range_spec_empty.
Print Assumptions buckets_spec.
Print Assumptions pairs_spec.
