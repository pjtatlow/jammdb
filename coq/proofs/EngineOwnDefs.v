(* Shared definitions of the allocation-invariant layer (EngineAllocInv): footprints of committed bucket trees,
   the no-sharing invariant, the strengthened committed-state invariant [db_ok'], and the ownership invariant
   [OwnI] of the transaction overlay. *)
From Coq Require Import List NArith Bool Arith Lia ZifyN ZifyNat ZifyBool.
From Coq.Strings Require Import Byte.
From Jamm Require Spec.
From Jamm Require Import ListFacts Bytes BytesFacts Tree Cursor SearchFacts Engine EngineAbs EngineFacts EngineMergeFacts.
From Jamm Require Import EngineModifyFacts EngineSpillFacts EnginePathFacts EngineBridgeFacts EngineRebalanceFacts.
From Jamm Require FreelistFacts EngineAllocFacts EngineSpillWfFacts.
From Jamm Require Import EngineTxInvFacts EngineSpillBucketFacts EngineRefines.
Import ListNotations.
Import Coq.Strings.String.StringSyntax. Delimit Scope string_scope with string.
Local Open Scope list_scope. Local Open Scope nat_scope.
Set Warnings "-abstract-large-number".

(* the page runs (head and overflow pages) of a list of head pages *)
Definition runs (d : disk) (ps : list N) : list N := flat_map (prun d) ps.

(* head pages of the bucket tree rooted at r, nested buckets included, to nesting depth n *)
Fixpoint fpg (n : nat) (d : disk) (r : N) : list N :=
  match n with
  | O => []
  | S n' => (r :: ppages fuel0 d r) ++
            flat_map (fun e => match e with LBk _ r' _ => fpg n' d r' | LKv _ _ => [] end) (page_ents fuel0 d r)
  end.

(* the pages (runs) of the tree of ONE committed bucket / of the bucket with everything nested in it;
   the root page 0 stands for "no committed bucket" (a bucket created by the running transaction) *)
Definition region (d : disk) (r0 : N) : list N :=
  if (r0 =? 0)%N then [] else runs d (r0 :: ppages fuel0 d r0).
Definition foot (d : disk) (n : nat) (r0 : N) : list N :=
  if (r0 =? 0)%N then [] else runs d (fpg n d r0).

(* the canonical allocated set of a committed state *)
Definition Rof (st : db) : list N := fpg 16 (d_disk st) (d_root st).

(* every pending batch belongs to a committed transaction: the next [begin_w] releases all of them *)
Definition pend_le (st : db) : Prop := Forall (fun b : N * list N => (fst b <= d_tx st)%N) (d_pending st).

(* the strengthened invariant of committed states: strict trees; the allocation invariant for the canonical
   set; NO SHARING: the page runs of all reachable pages and the free-list run are pairwise disjoint;
   no pending batch of a future transaction *)
Definition db_ok' (st : db) : Prop :=
  db_strict st /\ alloc_ok st (Rof st) /\ NoDup (live_of st (Rof st)) /\ pend_le st.

Lemma db_ok'_db_ok : forall st, db_ok' st -> db_ok st.
Proof. intros st (A & B & _). split; [exact A | exists (Rof st); exact B]. Qed.

Fixpoint nodupb (l : list N) : bool :=
  match l with [] => true | x :: l' => negb (memb x l') && nodupb l' end.
Lemma nodupb_ok : forall l, nodupb l = true -> NoDup l.
Proof.
  induction l as [|x l IH]; intros H; [constructor|]. cbn [nodupb] in H. apply andb_true_iff in H. destruct H as [H1 H2].
  constructor; [apply memb_false; now apply negb_true_iff | now apply IH].
Qed.

Definition pend_leb (st : db) : bool := forallb (fun b : N * list N => (fst b <=? d_tx st)%N) (d_pending st).
Lemma pend_leb_ok : forall st, pend_leb st = true -> pend_le st.
Proof.
  intros st H. unfold pend_leb in H. rewrite forallb_forall in H. apply Forall_forall. intros b Hb.
  specialize (H b Hb). lia.
Qed.

Definition db_ok'b (st : db) : bool :=
  alloc_okb st (Rof st) && nodupb (live_of st (Rof st)) && pend_leb st.
Lemma db_ok'b_ok : forall st, db_strict st -> db_ok'b st = true -> db_ok' st.
Proof.
  intros st Hs H. unfold db_ok'b in H. apply andb_true_iff in H. destruct H as [H H3].
  apply andb_true_iff in H. destruct H as [H1 H2].
  split; [exact Hs|]. split; [now apply alloc_okb_ok|]. split; [now apply nodupb_ok | now apply pend_leb_ok].
Qed.

(* the head pages an overlay bucket's own tree refers to: the page its root node was read from (if any) and
   every page named by a branch entry at or below the root (materialised or not); for a bucket whose root was
   not loaded, the committed pages of its tree *)
Definition bheads (d : disk) (b : bucket) : list N :=
  match b_rootn b with
  | Some n => (if (n_page n =? 0)%N then [] else [n_page n]) ++ npages fuel0 d n
  | None => b_root_page b :: ppages fuel0 d (b_root_page b)
  end.
Definition bown (d : disk) (b : bucket) : list N := runs d (bheads d b).

(* every materialised node that has a page carries exactly the run of that page on the committed disk *)
Inductive pg_ok (d : disk) : node -> Prop :=
| pg_ok_node : forall n,
    (n_page n <> 0%N -> exists a, dget d (n_page n) = Some a /\ n_np n = (ap_over a + 1)%N) ->
    (forall k, In k (n_kids n) -> pg_ok d k) -> pg_ok d n.
Definition bpg_ok (d : disk) (b : bucket) : Prop :=
  match b_rootn b with Some n => pg_ok d n | None => True end.

(* [OwnI d n s b r0]: the overlay bucket [b] stems from the committed bucket rooted at page [r0] (0: created by
   this transaction); [n] bounds the nesting depth below. The committed bucket is strict and has no shared page;
   the pages [b]'s own tree refers to are distinct pages of the committed tree of [r0], none handed back by this
   transaction; a nested-bucket entry of [b] either was created by this transaction (root 0) or is an entry of the
   committed bucket; the committed trees of the entries that are not opened are untouched; the opened
   sub-buckets satisfy the same, each relative to the root its entry names. *)
Fixpoint OwnI (d : disk) (n : nat) (s : txs) (b : bucket) (r0 : N) : Prop :=
  match n with
  | O => False
  | S n' =>
      (r0 = 0%N \/ sbk (S n') d r0) /\ NoDup (foot d (S n') r0) /\ bpg_ok d b /\
      exists l, bucket_view d b l /\
        NoDup (bown d b) /\
        (forall x, In x (bown d b) -> In x (region d r0) /\ freed_in_tx s x = false) /\
        (forall k r nx, In (LBk k r nx) l -> r = 0%N \/ In (LBk k r nx) (page_ents fuel0 d r0)) /\
        (forall k r nx, In (LBk k r nx) l -> sub_find k (b_subs b) = None ->
           forall x, In x (foot d n' r) -> freed_in_tx s x = false) /\
        (forall k sb, In (k, sb) (b_subs b) -> exists r nx, In (LBk k r nx) l /\ OwnI d n' s sb r)
  end.

(* a boolean rendering, for sanity checks on concrete overlays (the view is computed with [view_leaves] /
   [page_ents]; [sbk] and [pg_ok] are not checked) *)
Definition bview_of (d : disk) (b : bucket) : list leafent :=
  match b_rootn b with Some n => view_leaves fuel0 d n | None => page_ents fuel0 d (b_root_page b) end.
Definition lbk_eqb (k : bytes) (r nx : N) (e : leafent) : bool :=
  match e with LBk k' r' nx' => beq k k' && (r =? r')%N && (nx =? nx')%N | LKv _ _ => false end.
Fixpoint ownib (d : disk) (n : nat) (s : txs) (b : bucket) (r0 : N) : bool :=
  match n with
  | O => false
  | S n' =>
      let l := bview_of d b in
      nodupb (foot d (S n') r0) && nodupb (bown d b) &&
      forallb (fun x => memb x (region d r0) && negb (freed_in_tx s x)) (bown d b) &&
      forallb (fun e => match e with
                        | LKv _ _ => true
                        | LBk k r nx =>
                            ((r =? 0)%N || existsb (lbk_eqb k r nx) (page_ents fuel0 d r0)) &&
                            match sub_find k (b_subs b) with
                            | None => forallb (fun x => negb (freed_in_tx s x)) (foot d n' r)
                            | Some sb => ownib d n' s sb r
                            end
                        end) l &&
      forallb (fun x => existsb (fun e => match e with LBk k _ _ => beq k (fst x) | _ => false end) l) (b_subs b)
  end.

(* the page run of the page image written for (size, data) at q: [prun] of q on the disk built by [commit] *)
Definition wrun (P : N) (q : N) (v : N * ndata) : list N := nrun q (ap_over (mk_apage P v) + 1).

(* pending pages are below the high-water mark and not free (they MAY be live: the old pages this transaction
   hands back stay in [live_of st R]) *)
Definition pend_ok0 (s : txs) : Prop :=
  forall x, In x (pend_all (pending s)) -> (x < np s)%N /\ ~ In x (free s).

(* every page run written by the transaction so far is allocated (in range, not free, not live); two written
   pages do not overlap; a run is handed back as a whole, head included *)
Record wr_ok (live : list N) (s : txs) : Prop := {
  wo_range : forall q v x, wr_get (wr s) q = Some v -> In x (wrun (psz s) q v) ->
               (2 <= x < np s)%N /\ ~ In x (free s) /\ ~ In x live;
  wo_disj : forall q1 v1 q2 v2 x, wr_get (wr s) q1 = Some v1 -> wr_get (wr s) q2 = Some v2 ->
               In x (wrun (psz s) q1 v1) -> In x (wrun (psz s) q2 v2) -> q1 = q2;
  wo_freed : forall q v x, wr_get (wr s) q = Some v -> In x (wrun (psz s) q v) ->
               freed_in_tx s x = true -> freed_in_tx s q = true }.

Lemma wr_ok_nil : forall live s, wr s = [] -> wr_ok live s.
Proof. intros live s E. constructor; intros; rewrite E in *; discriminate. Qed.

Lemma prun_written : forall w P d q v, wr_get w q = Some v -> prun (apply_wr w P d) q = wrun P q v.
Proof. intros w P d q v H. unfold prun, wrun. rewrite (dget_apply_wr_some _ _ _ _ _ H). reflexivity. Qed.

Lemma prun_unwritten : forall w P d q, wr_get w q = None -> prun (apply_wr w P d) q = prun d q.
Proof. intros w P d q H. unfold prun. rewrite (dget_apply_wr_none _ _ _ _ H). reflexivity. Qed.

Lemma In_runs : forall d ps x, In x (runs d ps) <-> exists q, In q ps /\ In x (prun d q).
Proof. intros d ps x. unfold runs. apply in_flat_map. Qed.

Lemma runs_app : forall d a b, runs d (a ++ b) = runs d a ++ runs d b.
Proof. intros. unfold runs. apply flat_map_app. Qed.

Lemma fpg_S : forall n d r, fpg (S n) d r = (r :: ppages fuel0 d r) ++
  flat_map (fun e => match e with LBk _ r' _ => fpg n d r' | LKv _ _ => [] end) (page_ents fuel0 d r).
Proof. reflexivity. Qed.

Lemma runs_flat_map : forall {A} d (g : A -> list N) l, runs d (flat_map g l) = flat_map (fun a => runs d (g a)) l.
Proof.
  intros A d g l. induction l as [|a l IH]; [reflexivity|]. cbn [flat_map]. rewrite runs_app, IH. reflexivity.
Qed.

Lemma foot_zero : forall d n, foot d n 0 = [].
Proof. reflexivity. Qed.

Lemma foot_nz : forall d n r, r <> 0%N -> foot d n r = runs d (fpg n d r).
Proof. intros d n r H. unfold foot. destruct (N.eqb_spec r 0); [contradiction | reflexivity]. Qed.

(* the runs of the nested bucket under a committed entry; its footprint [efoot] is the same unless the entry names
   page 0 *)
Definition eruns (d : disk) (n : nat) (e : leafent) : list N :=
  match e with LBk _ r _ => runs d (fpg n d r) | LKv _ _ => [] end.
Definition efoot (d : disk) (n : nat) (e : leafent) : list N :=
  match e with LBk _ r _ => foot d n r | LKv _ _ => [] end.

(* the footprint of a committed bucket: its own tree, then the nested buckets *)
Lemma foot_S_gen : forall d n r0, r0 <> 0%N ->
  foot d (S n) r0 = region d r0 ++ flat_map (eruns d n) (page_ents fuel0 d r0).
Proof.
  intros d n r0 Hr. unfold foot, region. destruct (N.eqb_spec r0 0) as [E|_]; [contradiction|].
  rewrite fpg_S, runs_app, runs_flat_map. f_equal. apply flat_map_ext. intros [k v|k r nx]; reflexivity.
Qed.

Lemma efoot_eruns : forall d n e, efoot d n e = [] \/ efoot d n e = eruns d n e.
Proof.
  intros d n [k v|k r nx]; [now left|]. cbn [efoot eruns]. destruct (N.eq_dec r 0) as [->|Hr]; [now left|].
  right. now apply foot_nz.
Qed.

Lemma unfreed_frame : forall s s' x, (freed_in_tx s' x = true -> freed_in_tx s x = true) ->
  freed_in_tx s x = false -> freed_in_tx s' x = false.
Proof. intros s s' x H E. destruct (freed_in_tx s' x); [|reflexivity]. rewrite H in E by reflexivity. discriminate. Qed.

Definition frees (s s' : txs) (F : list N) : Prop :=
  forall x, freed_in_tx s' x = true -> freed_in_tx s x = true \/ In x F.

Lemma frees_refl : forall s F, frees s s F.
Proof. intros s F x H. now left. Qed.

Lemma frees_trans : forall s1 s2 s3 F, frees s1 s2 F -> frees s2 s3 F -> frees s1 s3 F.
Proof. intros s1 s2 s3 F H1 H2 x Hx. destruct (H2 x Hx) as [Hc|Hc]; [exact (H1 x Hc) | now right]. Qed.

Lemma frees_unfreed : forall s s' F x, frees s s' F -> ~ In x F -> freed_in_tx s x = false -> freed_in_tx s' x = false.
Proof.
  intros s s' F x H Hn. apply unfreed_frame. intros Hx. destruct (H x Hx) as [Hc|Hc]; [exact Hc | contradiction].
Qed.

Lemma region_foot : forall d n r0 x, In x (region d r0) -> In x (foot d (S n) r0).
Proof.
  intros d n r0 x. unfold region, foot. destruct (r0 =? 0)%N; [intros []|]. rewrite fpg_S, runs_app.
  intros H. apply in_or_app. now left.
Qed.

Lemma sub_foot : forall d n r0 k r nx x, r0 <> 0%N -> In (LBk k r nx) (page_ents fuel0 d r0) ->
  In x (foot d n r) -> In x (foot d (S n) r0).
Proof.
  intros d n r0 k r nx x Hr He Hx. unfold foot in *. destruct (N.eqb_spec r0 0) as [E|_]; [contradiction|].
  destruct (r =? 0)%N; [destruct Hx|]. rewrite fpg_S, runs_app, runs_flat_map. apply in_or_app. right.
  apply in_flat_map. exists (LBk k r nx). split; [exact He | exact Hx].
Qed.

(* a page read from the committed disk, and [modify], which reads pages on its way down *)
Lemma pg_ok_node_of_page : forall d q a sq, dget d q = Some a -> pg_ok d (node_of_page q a sq).
Proof.
  intros d q a sq Hg. constructor; unfold node_of_page; cbn [n_page n_np n_kids]; [|intros k []]. intros _. eauto.
Qed.

Lemma modify_pg_ok : forall f d n o s n' s', pg_ok d n -> modify f d n o s = Ok (n', s') -> pg_ok d n'.
Proof.
  induction f as [|f IH]; intros d n o s n' s' Hpg H; [discriminate|].
  inversion Hpg as [? Hp Hk]; subst. destruct n as [p np og sq [l|es] ks]; cbn [n_page n_np n_kids] in *.
  - cbn [modify] in H. inversion H; subst. constructor; cbn [n_page n_np n_kids]; assumption.
  - rewrite modify_branch in H. destruct (index_of (Branches es) (lop_key o)) as [i ex].
    destruct (nthN es i) as [[sep q]|]; [|discriminate]. destruct (find_kid q ks) as [kd|] eqn:Ef.
    + apply bind_ok_inv in H. destruct H as ([kd' s1] & Em & H). inversion H; subst. cbn [fst].
      constructor; cbn [n_page n_np n_kids]; [exact Hp|]. intros k Hin. apply replace_kid_In in Hin.
      destruct Hin as [->|Hin]; [|now apply Hk]. eapply IH; [|exact Em]. apply Hk. eapply find_kid_In; eauto.
    + destruct (dget d q) as [a|] eqn:Hg; [|discriminate].
      apply bind_ok_inv in H. destruct H as ([kd' s1] & Em & H). inversion H; subst. cbn [fst].
      constructor; cbn [n_page n_np n_kids]; [exact Hp|]. intros k Hin. apply in_app_or in Hin.
      destruct Hin as [Hin|[<-|[]]]; [now apply Hk|]. eapply IH; [|exact Em]. now apply pg_ok_node_of_page.
Qed.

Definition pend_ids_ok (s : txs) : Prop := Forall (fun b : N * list N => (fst b <= txid s)%N) (pending s).

Lemma pend_add_ids : forall t p l (Q : N -> Prop), Q t -> Forall (fun b : N * list N => Q (fst b)) l ->
  Forall (fun b : N * list N => Q (fst b)) (pend_add t p l).
Proof.
  intros t p l Q Ht. induction l as [|[u ps] l IH]; intros H; cbn [pend_add].
  - constructor; [exact Ht | constructor].
  - inversion H as [|? ? H1 H2]; subst. destruct (u =? t)%N; [constructor; assumption|].
    destruct (t <? u)%N; [constructor; [exact Ht | exact H] | constructor; [exact H1 | now apply IH]].
Qed.

Lemma free_run_pend_ids : forall k s p, pend_ids_ok s -> pend_ids_ok (free_run s p k).
Proof.
  induction k as [|k IH]; intros s p H; cbn [free_run]; [exact H|].
  destruct (freed_in_tx s p); [now apply IH|]. apply IH. unfold pend_ids_ok in *. cbn [pending txid upd_pending].
  apply (pend_add_ids (txid s) p (pending s) (fun u => (u <= txid s)%N)); [lia | exact H].
Qed.

Lemma free_pages_pend_ids : forall s p n, pend_ids_ok s -> pend_ids_ok (free_pages s p n).
Proof. intros s p n H. unfold free_pages. now apply free_run_pend_ids. Qed.

Lemma free_node_page_pend_ids : forall s n, pend_ids_ok s -> pend_ids_ok (free_node_page s n).
Proof. intros s n H. unfold free_node_page. destruct (n_page n =? 0)%N; [exact H | now apply free_pages_pend_ids]. Qed.

Lemma pend_ids_ok_ext : forall s s', pending s' = pending s -> txid s' = txid s -> pend_ids_ok s -> pend_ids_ok s'.
Proof. intros s s' E1 E2 H. unfold pend_ids_ok in *. now rewrite E1, E2. Qed.

(* what [db_ok'] says, clause by clause *)
Record ok'_facts (st : db) : Prop := {
  ok_strict : db_strict st;
  ok_psz : (0 < d_psz st)%N;
  ok_np : (2 <= d_np st)%N;
  ok_asc : asc (d_free st);
  ok_ge2 : ge2 (d_free st);
  ok_free_lt : forall x, In x (d_free st) -> (x < d_np st)%N;
  ok_pend_rng : Forall (fun x => (2 <= x < d_np st)%N) (pend_all (d_pending st));
  ok_root : In (d_root st) (Rof st);
  ok_closed : closedR (d_disk st) (Rof st);
  ok_live : forall x, In x (live_of st (Rof st)) ->
    (2 <= x < d_np st)%N /\ ~ In x (d_free st) /\ ~ In x (pend_all (d_pending st));
  ok_nodup : NoDup (live_of st (Rof st));
  ok_pend_le : pend_le st }.

Lemma db_ok'_facts : forall st, db_ok' st -> ok'_facts st.
Proof. intros st (Hs & (H1 & H2 & H3 & H4 & H5 & H6 & H7 & H8 & H9) & Hnd & Hpl). now constructor. Qed.
