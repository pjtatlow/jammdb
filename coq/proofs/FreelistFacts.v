(* The free-list model (model/Freelist.v, freelist.rs transliterated) against set-level specifications:
   insert, release, first-fit allocation, free-once-per-transaction, the page list written at commit.
   A writer begun with it observes the free list the page-lifecycle machine (model/PL.v) expects. *)
From Coq Require Import List NArith PeanoNat Bool Lia ZifyN ZifyBool Sorted Permutation.
From Jamm Require Import Bytes PL PLFacts Freelist.
Import ListNotations.
Local Open Scope list_scope. Local Open Scope N_scope.
Arguments N.add : simpl never.
Arguments N.sub : simpl never.
Arguments N.ltb : simpl never.
Arguments N.leb : simpl never.
Arguments N.eqb : simpl never.
Arguments N.div : simpl never.
Arguments N.modulo : simpl never.

Definition asc (l : list N) : Prop := StronglySorted N.lt l.
(* pages 0 and 1 are the two header slots: no page that can be freed or allocated has an id below 2 *)
Definition ge2 (l : list N) : Prop := Forall (fun x => 2 <= x) l.
Definition asc_keys (pd : pending) : Prop := StronglySorted N.lt (map fst pd).
(* [q, q+n) is contained in l *)
Definition has_run (n : N) (l : list N) (q : N) : Prop := forall i, i < n -> In (q + i) l.

Lemma asc_nil : asc [].
Proof. constructor. Qed.

Lemma asc_cons_inv x l : asc (x :: l) -> asc l /\ forall y, In y l -> x < y.
Proof.
  intros H. apply StronglySorted_inv in H. destruct H as [H1 H2].
  split; [exact H1|]. rewrite Forall_forall in H2. exact H2.
Qed.

Lemma asc_cons x l : asc l -> (forall y, In y l -> x < y) -> asc (x :: l).
Proof. intros H1 H2. constructor; [exact H1|]. apply Forall_forall. exact H2. Qed.

Lemma asc_app_inv a b :
  asc (a ++ b) -> asc a /\ asc b /\ forall x y, In x a -> In y b -> x < y.
Proof.
  induction a as [|h a IH]; cbn [app]; intros H.
  - split; [constructor|]. split; [exact H|]. intros x y [].
  - apply asc_cons_inv in H. destruct H as [Ha Hh].
    destruct (IH Ha) as (A1 & A2 & A3).
    split.
    + apply asc_cons; [exact A1|]. intros y Hy. apply Hh. apply in_or_app. left; exact Hy.
    + split; [exact A2|]. intros x y [Hx|Hx] Hy.
      * subst x. apply Hh. apply in_or_app. right; exact Hy.
      * apply A3; assumption.
Qed.

Lemma asc_filter (f : N -> bool) l : asc l -> asc (filter f l).
Proof.
  induction l as [|h l IH]; cbn [filter]; intros H; [constructor|].
  apply asc_cons_inv in H. destruct H as [Hl Hh].
  destruct (f h).
  - apply asc_cons; [apply IH; exact Hl|].
    intros y Hy. apply filter_In in Hy. apply Hh. apply Hy.
  - apply IH; exact Hl.
Qed.

Lemma asc_NoDup l : asc l -> NoDup l.
Proof.
  induction l as [|h l IH]; intros H; [constructor|].
  apply asc_cons_inv in H. destruct H as [Hl Hh].
  constructor; [|apply IH; exact Hl].
  intros Hin. apply Hh in Hin. lia.
Qed.

Lemma asc_le_sorted l : asc l -> StronglySorted N.le l.
Proof.
  induction 1 as [|h l Hl IH Hh]; constructor; [exact IH|].
  rewrite Forall_forall in *. intros y Hy. apply Hh in Hy. lia.
Qed.

Lemma sins_In x l y : In y (sins x l) <-> y = x \/ In y l.
Proof.
  induction l as [|a l IH]; cbn [sins In].
  - intuition.
  - destruct (N.ltb_spec x a) as [Hlt|Hge].
    + cbn [In]. intuition.
    + destruct (N.eqb_spec x a) as [Heq|Hne].
      * subst a. cbn [In]. intuition.
      * cbn [In]. rewrite IH. intuition.
Qed.

Lemma sins_asc x l : asc l -> asc (sins x l).
Proof.
  induction l as [|a l IH]; cbn [sins]; intros H.
  - apply asc_cons; [constructor|]. intros y [].
  - pose proof (asc_cons_inv _ _ H) as [Hl Ha].
    destruct (N.ltb_spec x a) as [Hlt|Hge].
    + apply asc_cons; [exact H|]. intros y [Hy|Hy]; [subst; exact Hlt|].
      apply Ha in Hy. lia.
    + destruct (N.eqb_spec x a) as [Heq|Hne]; [exact H|].
      apply asc_cons; [apply IH; exact Hl|].
      intros y Hy. apply sins_In in Hy. destruct Hy as [Hy|Hy]; [subst; lia|].
      apply Ha; exact Hy.
Qed.

Lemma sins_ge2 x l : 2 <= x -> ge2 l -> ge2 (sins x l).
Proof.
  unfold ge2. rewrite !Forall_forall. intros Hx H y Hy.
  apply sins_In in Hy. destruct Hy as [->|Hy]; [exact Hx|apply H; exact Hy].
Qed.

Theorem sins_spec x l :
  asc l -> asc (sins x l) /\ forall y, In y (sins x l) <-> y = x \/ In y l.
Proof. intros H. split; [apply sins_asc; exact H|intros y; apply sins_In]. Qed.

(* folding inserts (used by release and fl_init) *)
Lemma fold_sins_asc ps : forall fr, asc fr -> asc (fold_left (fun f p => sins p f) ps fr).
Proof.
  induction ps as [|p ps IH]; cbn [fold_left]; intros fr H; [exact H|].
  apply IH. apply sins_asc. exact H.
Qed.

Lemma fold_sins_In ps : forall fr x,
  In x (fold_left (fun f p => sins p f) ps fr) <-> In x fr \/ In x ps.
Proof.
  induction ps as [|p ps IH]; cbn [fold_left In]; intros fr x; [tauto|].
  rewrite IH, sins_In. intuition.
Qed.

Corollary fl_init_spec ids :
  asc (fl_free (fl_init ids)) /\ (forall x, In x (fl_free (fl_init ids)) <-> In x ids) /\
  fl_pending (fl_init ids) = [].
Proof.
  unfold fl_init; cbn [fl_free fl_pending]. split; [apply fold_sins_asc; constructor|].
  split; [|reflexivity]. intros x. rewrite fold_sins_In. cbn [In]. intuition.
Qed.

Lemma pend_filter_all_ge t (pd : pending) :
  (forall e, In e pd -> t <= fst e) ->
  filter (fun x => fst x <? t) pd = [] /\ pend_ge t pd = pd.
Proof.
  unfold pend_ge. induction pd as [|e pd IH]; intros H; [split; reflexivity|].
  cbn [filter].
  assert (He : t <= fst e) by (apply H; left; reflexivity).
  destruct (N.ltb_spec (fst e) t) as [Hlt|Hge]; [lia|]. cbn [negb].
  destruct IH as [I1 I2]; [intros e' He'; apply H; right; exact He'|].
  rewrite I1, I2. split; reflexivity.
Qed.

Theorem release_spec t : forall pd fr fr' pd',
  asc fr -> asc_keys pd -> release t fr pd = (fr', pd') ->
  asc fr' /\ (forall x, In x fr' <-> In x fr \/ In x (pend_lt t pd)) /\ pd' = pend_ge t pd.
Proof.
  unfold asc_keys, pend_lt.
  induction pd as [|[u ps] pd IH]; intros fr fr' pd' Hfr Hk Hr; cbn [release] in Hr.
  - inversion Hr; subst. cbn. split; [exact Hfr|]. split; [intuition|reflexivity].
  - cbn [map fst] in Hk. apply asc_cons_inv in Hk. destruct Hk as [Hk Hu].
    destruct (N.ltb_spec u t) as [Hlt|Hge].
    + apply IH in Hr; [|apply fold_sins_asc; exact Hfr|exact Hk].
      destruct Hr as (R1 & R2 & R3). split; [exact R1|]. split.
      * intros x. rewrite R2, fold_sins_In. unfold pend_ge. cbn [filter fst].
        destruct (N.ltb_spec u t) as [_|?]; [|lia].
        cbn [flat_map snd]. rewrite in_app_iff. intuition.
      * rewrite R3. unfold pend_ge. cbn [filter fst].
        destruct (N.ltb_spec u t) as [_|?]; [|lia]. reflexivity.
    + inversion Hr; subst fr' pd'. clear Hr.
      destruct (pend_filter_all_ge t ((u, ps) :: pd)) as [F1 F2].
      { intros e [He|He]; [subst e; exact Hge|].
        assert (u < fst e) by (apply Hu; apply in_map; exact He). lia. }
      rewrite F1, F2. cbn. split; [exact Hfr|]. split; [intuition|reflexivity].
Qed.

Lemma release_ge2 t : forall pd fr fr' pd',
  ge2 fr -> Forall (fun x => 2 <= x) (pend_all pd) -> release t fr pd = (fr', pd') -> ge2 fr'.
Proof.
  induction pd as [|[u ps] pd IH]; intros fr fr' pd' Hfr Hp Hr; cbn [release] in Hr.
  - inversion Hr; subst; exact Hfr.
  - unfold pend_all in Hp. cbn [flat_map snd] in Hp. apply Forall_app in Hp. destruct Hp as [Hps Hp].
    destruct (u <? t).
    + apply IH in Hr; [exact Hr| |exact Hp].
      unfold ge2. apply Forall_forall. intros x Hx. apply fold_sins_In in Hx.
      unfold ge2 in Hfr. rewrite Forall_forall in Hfr, Hps. destruct Hx; auto.
    + inversion Hr; subst; exact Hfr.
Qed.

(* loop invariant of alloc_scan: [pre] is the part of the set already consumed, [start, prev] the run of
   consecutive ids that ends it (shorter than n, not extensible to the left); prev = 0 before the first
   element.  0 doubles as "none" in alloc_scan, hence the ids must be positive. *)
Inductive scan_inv (n : N) (pre : list N) (start prev : N) : Prop :=
| SI_nil : pre = [] -> prev = 0 -> scan_inv n pre start prev
| SI_run :
    In prev pre -> 0 < prev -> (forall x, In x pre -> x <= prev) ->
    0 < start -> start <= prev ->
    (forall x, start <= x <= prev -> In x pre) ->
    ~ In (start - 1) pre ->
    prev - start + 1 < n ->
    scan_inv n pre start prev.

Lemma alloc_scan_spec n (Hn : 0 < n) : forall l pre start prev,
  asc (pre ++ l) -> Forall (fun x => 0 < x) (pre ++ l) ->
  scan_inv n pre start prev -> (forall q, ~ has_run n pre q) ->
  let f := alloc_scan l n start prev in
  (f = 0 /\ forall q, ~ has_run n (pre ++ l) q) \/
  (0 < f /\ has_run n (pre ++ l) f /\ forall q, has_run n (pre ++ l) q -> f <= q).
Proof.
  induction l as [|id l IH]; intros pre start prev Hasc Hpos Hinv Hnorun; cbv zeta.
  - cbn [alloc_scan]. left. rewrite app_nil_r. split; [reflexivity|exact Hnorun].
  - cbn [alloc_scan].
    set (start' := if (prev =? 0) || negb (id - prev =? 1) then id else start).
    destruct (asc_app_inv _ _ Hasc) as (Hpre & Hidl & Hcross).
    destruct (asc_cons_inv _ _ Hidl) as [Hl Hgt].
    assert (Hlt : forall x, In x pre -> x < id).
    { intros x Hx. apply Hcross; [exact Hx|left; reflexivity]. }
    assert (Hid : 0 < id).
    { rewrite Forall_forall in Hpos. apply Hpos. apply in_or_app. right. left. reflexivity. }
    (* elements of the whole set below id are in pre *)
    assert (Hbelow : forall x, In x (pre ++ id :: l) -> x < id -> In x pre).
    { intros x Hx Hxid. apply in_app_or in Hx. destruct Hx as [Hx|[Hx|Hx]]; [exact Hx|lia|].
      apply Hgt in Hx. lia. }
    assert (Hbelow' : forall x, In x (pre ++ [id]) -> x < id -> In x pre).
    { intros x Hx Hxid. apply in_app_or in Hx. destruct Hx as [Hx|[Hx|[]]]; [exact Hx|lia]. }
    (* properties of the updated run start *)
    assert (A : 0 < start' /\ start' <= id /\
                (forall x, start' <= x <= id -> In x (pre ++ [id])) /\
                ~ In (start' - 1) (pre ++ [id]) /\
                id - start' + 1 <= n).
    { subst start'. destruct Hinv as [Hp0 Hprev0 | Hprev Hprevpos Hmax Hspos Hsle Hrun Hnb Hlen].
      - subst pre prev. cbn [app]. replace (0 =? 0) with true by reflexivity. cbn [orb].
        split; [exact Hid|]. split; [lia|]. split.
        + intros x Hx. left. lia.
        + split; [|lia]. intros [Hx|[]]. lia.
      - destruct (N.eqb_spec prev 0) as [?|_]; [lia|]. cbn [orb].
        pose proof (Hlt _ Hprev) as Hpid.
        destruct (N.eqb_spec (id - prev) 1) as [H1|H1]; cbn [negb].
        + split; [exact Hspos|]. split; [lia|]. split.
          * intros x Hx. apply in_or_app.
            destruct (N.eq_dec x id) as [->|Hne]; [right; left; reflexivity|].
            left. apply Hrun. lia.
          * split; [|lia]. intros Hx. apply in_app_or in Hx.
            destruct Hx as [Hx|[Hx|[]]]; [exact (Hnb Hx)|lia].
        + split; [exact Hid|]. split; [lia|]. split.
          * intros x Hx. apply in_or_app. right. left. lia.
          * split; [|lia]. intros Hx. apply in_app_or in Hx.
            destruct Hx as [Hx|[Hx|[]]]; [|lia].
            apply Hmax in Hx. lia. }
    clearbody start'. destruct A as (As0 & Asle & Arun & Anb & Alen).
    destruct (N.eqb_spec (id - start' + 1) n) as [Hfire|Hnofire].
    + (* the run reaches length n at id *)
      right. split; [exact As0|]. split.
      * intros i Hi. assert (Hx : In (start' + i) (pre ++ [id])) by (apply Arun; lia).
        apply in_app_or in Hx. apply in_or_app.
        destruct Hx as [Hx|[Hx|[]]]; [left; exact Hx|right; left; exact Hx].
      * intros q Hq. destruct (N.le_gt_cases start' q) as [Hle|Hqlt]; [exact Hle|].
        exfalso. apply (Hnorun q). intros i Hi. apply Hbelow; [apply Hq; exact Hi|lia].
    + (* continue with pre ++ [id] *)
      assert (Hassoc : pre ++ id :: l = (pre ++ [id]) ++ l) by (rewrite <- app_assoc; reflexivity).
      rewrite Hassoc in *. apply IH; [exact Hasc|exact Hpos| |].
      * apply SI_run; [apply in_or_app; right; left; reflexivity|exact Hid| |exact As0|exact Asle
                       |exact Arun|exact Anb|lia].
        intros x Hx. apply in_app_or in Hx. destruct Hx as [Hx|[Hx|[]]]; [apply Hlt in Hx; lia|lia].
      * intros q Hq.
        assert (Hlast : In (q + (n - 1)) (pre ++ [id])) by (apply Hq; lia).
        assert (Hlast_le : q + (n - 1) <= id).
        { apply in_app_or in Hlast. destruct Hlast as [Hx|[Hx|[]]]; [apply Hlt in Hx; lia|lia]. }
        destruct (N.eq_dec (q + (n - 1)) id) as [Heq|Hne].
        -- (* the run ends at id: then start' <= q and the loop would have fired *)
           destruct (N.le_gt_cases start' q) as [Hle|Hqlt]; [lia|].
           apply Anb. replace (start' - 1) with (q + (start' - 1 - q)) by lia.
           apply Hq. lia.
        -- apply (Hnorun q). intros i Hi. apply Hbelow'; [apply Hq; exact Hi|lia].
Qed.

Lemma ge2_pos l : ge2 l -> Forall (fun x => 0 < x) l.
Proof. unfold ge2. apply Forall_impl. intros; lia. Qed.

Lemma fl_allocate_cases fr n :
  asc fr -> ge2 fr -> 0 < n ->
  let f := alloc_scan fr n 0 0 in
  (f = 0 /\ forall q, ~ has_run n fr q) \/
  (0 < f /\ has_run n fr f /\ forall q, has_run n fr q -> f <= q).
Proof.
  intros Hasc Hge Hn.
  apply (alloc_scan_spec n Hn fr [] 0 0); cbn [app].
  - exact Hasc.
  - apply ge2_pos; exact Hge.
  - apply SI_nil; reflexivity.
  - intros q Hq. apply (Hq 0). exact Hn.
Qed.

Lemma fl_allocate_unfold fr n :
  fl_allocate fr n =
  let f := alloc_scan fr n 0 0 in
  if 0 <? f then Some (f, filter (fun x => negb ((f <=? x) && (x <? f + n))) fr) else None.
Proof. destruct fr; reflexivity. Qed.

(* Freelist::allocate(n) = Some p: [p, p+n) was free, is what gets removed, and no run of n free pages
   starts below p *)
Theorem alloc_sound fr n p fr' :
  asc fr -> ge2 fr -> 0 < n -> fl_allocate fr n = Some (p, fr') ->
  (forall i, i < n -> In (p + i) fr) /\
  (forall x, In x fr' <-> In x fr /\ ~ (p <= x < p + n)) /\
  asc fr' /\
  (forall q, (forall i, i < n -> In (q + i) fr) -> p <= q).
Proof.
  intros Hasc Hge Hn Hal. rewrite fl_allocate_unfold in Hal. cbv zeta in Hal.
  destruct (fl_allocate_cases fr n Hasc Hge Hn) as [[H0 _]|(Hpos & Hrun & Hfirst)].
  - rewrite H0 in Hal. discriminate Hal.
  - destruct (N.ltb_spec 0 (alloc_scan fr n 0 0)) as [_|?]; [|lia].
    inversion Hal; subst p fr'. clear Hal.
    split; [exact Hrun|]. split; [|split; [apply asc_filter; exact Hasc|exact Hfirst]].
    intros x. rewrite filter_In.
    destruct (N.leb_spec (alloc_scan fr n 0 0) x), (N.ltb_spec x (alloc_scan fr n 0 0 + n));
      cbn [andb negb]; intuition (try discriminate; try lia).
Qed.

(* consequences: the page is a real page id, the run is maximal to the left,
   the remaining set stays >= 2 *)
Corollary alloc_sound_extra fr n p fr' :
  asc fr -> ge2 fr -> 0 < n -> fl_allocate fr n = Some (p, fr') ->
  2 <= p /\ ~ In (p - 1) fr /\ ge2 fr' /\ NoDup fr'.
Proof.
  intros Hasc Hge Hn Hal.
  destruct (alloc_sound _ _ _ _ Hasc Hge Hn Hal) as (Hrun & Hmem & Hasc' & Hfirst).
  assert (Hp : 2 <= p).
  { unfold ge2 in Hge. rewrite Forall_forall in Hge.
    specialize (Hrun 0 Hn). replace (p + 0) with p in Hrun by lia. apply Hge; exact Hrun. }
  split; [exact Hp|]. split; [|split].
  - intros Hin. assert (p <= p - 1); [|lia]. apply Hfirst. intros i Hi.
    destruct (N.eq_dec i 0) as [->|Hi0].
    + replace (p - 1 + 0) with (p - 1) by lia. exact Hin.
    + replace (p - 1 + i) with (p + (i - 1)) by lia. apply Hrun. lia.
  - unfold ge2 in *. rewrite Forall_forall in *. intros x Hx. apply Hmem in Hx. apply Hge. apply Hx.
  - apply asc_NoDup; exact Hasc'.
Qed.

Theorem alloc_complete fr n :
  asc fr -> ge2 fr -> 0 < n -> fl_allocate fr n = None ->
  ~ exists q, forall i, i < n -> In (q + i) fr.
Proof.
  intros Hasc Hge Hn Hal. rewrite fl_allocate_unfold in Hal. cbv zeta in Hal.
  destruct (fl_allocate_cases fr n Hasc Hge Hn) as [[H0 Hno]|(Hpos & _)].
  - intros [q Hq]. exact (Hno q Hq).
  - destruct (N.ltb_spec 0 (alloc_scan fr n 0 0)) as [_|?]; [discriminate Hal|lia].
Qed.

Corollary alloc_some_iff fr n :
  asc fr -> ge2 fr -> 0 < n ->
  ((exists r, fl_allocate fr n = Some r) <-> exists q, forall i, i < n -> In (q + i) fr).
Proof.
  intros Hasc Hge Hn. split.
  - intros [[p fr'] H]. exists p. apply (alloc_sound _ _ _ _ Hasc Hge Hn H).
  - intros Hex. destruct (fl_allocate fr n) as [r|] eqn:E; [exists r; reflexivity|].
    exfalso. exact (alloc_complete _ _ Hasc Hge Hn E Hex).
Qed.

Theorem pages_for_spec P b :
  0 < P -> 0 < b ->
  pages_for P b * P >= b /\ (pages_for P b - 1) * P < b /\ 0 < pages_for P b.
Proof.
  intros HP Hb. unfold pages_for.
  assert (Hdm : b = P * (b / P) + b mod P) by (apply N.div_mod; lia).
  assert (Hr : b mod P < P) by (apply N.mod_lt; lia).
  set (q := b / P) in *. set (r := b mod P) in *. clearbody q r.
  destruct (N.eqb_spec r 0) as [Hr0|Hr0].
  - assert (0 < q) by (destruct (N.eq_dec q 0); [subst; lia|lia]).
    replace ((q - 1) * P) with (q * P - P) by nia. nia.
  - replace (q + 1 - 1) with q by lia. nia.
Qed.

Theorem tx_allocate_spec s b p n s' :
  asc (fl_free (tf_inner s)) -> ge2 (fl_free (tf_inner s)) ->
  0 < tf_psz s -> 0 < b ->
  tx_allocate s b = (p, n, s') ->
  let fr := fl_free (tf_inner s) in
  n = pages_for (tf_psz s) b /\ 0 < n /\
  tf_tx s' = tf_tx s /\ tf_psz s' = tf_psz s /\ tf_freed s' = tf_freed s /\
  fl_pending (tf_inner s') = fl_pending (tf_inner s) /\
  ( (* from the free set: np unchanged, first run of n pages removed *)
    (tf_np s' = tf_np s /\
     (forall i, i < n -> In (p + i) fr) /\
     (forall x, In x (fl_free (tf_inner s')) <-> In x fr /\ ~ (p <= x < p + n)) /\
     asc (fl_free (tf_inner s')) /\ ge2 (fl_free (tf_inner s')) /\
     (forall q, (forall i, i < n -> In (q + i) fr) -> p <= q))
    \/ (* growth: only when no run of n pages exists *)
    (p = tf_np s /\ tf_np s' = tf_np s + n /\ tf_inner s' = tf_inner s /\
     ~ exists q, forall i, i < n -> In (q + i) fr)).
Proof.
  intros Hasc Hge HP Hb Hal. cbv zeta. unfold tx_allocate in Hal.
  destruct (pages_for_spec _ _ HP Hb) as (_ & _ & Hn).
  destruct (fl_allocate (fl_free (tf_inner s)) (pages_for (tf_psz s) b)) as [[p0 f']|] eqn:E;
    inversion Hal; subst p n s'; clear Hal; cbn [tf_inner tf_np tf_tx tf_psz tf_freed fl_free fl_pending].
  - repeat (split; [reflexivity || exact Hn|]). left.
    destruct (alloc_sound _ _ _ _ Hasc Hge Hn E) as (H1 & H2 & H3 & H4).
    destruct (alloc_sound_extra _ _ _ _ Hasc Hge Hn E) as (_ & _ & H5 & _).
    repeat (split; [reflexivity || assumption|]). assumption.
  - repeat (split; [reflexivity || exact Hn|]). right.
    repeat (split; [reflexivity|]). apply alloc_complete; assumption.
Qed.

(* the pages pending under transaction id t *)
Definition pend_at (t : N) (pd : pending) : list N :=
  flat_map snd (filter (fun x => fst x =? t) pd).

Lemma pend_add_at t p pd : Permutation (pend_at t (pend_add t p pd)) (p :: pend_at t pd).
Proof.
  unfold pend_at. induction pd as [|[u ps] pd IH]; cbn [pend_add].
  - cbn [filter fst]. rewrite N.eqb_refl. cbn. reflexivity.
  - destruct (N.eqb_spec u t) as [Heq|Hne].
    + cbn [filter fst]. destruct (N.eqb_spec u t) as [_|?]; [|contradiction].
      cbn [flat_map snd]. rewrite <- app_assoc. cbn [app].
      symmetry. apply Permutation_middle.
    + destruct (N.ltb_spec t u) as [Hlt|Hge].
      * cbn [filter fst]. rewrite N.eqb_refl. destruct (N.eqb_spec u t) as [?|_]; [contradiction|].
        cbn [flat_map snd app]. reflexivity.
      * cbn [filter fst]. destruct (N.eqb_spec u t) as [?|_]; [contradiction|]. exact IH.
Qed.

Lemma pend_add_all t p pd : Permutation (pend_all (pend_add t p pd)) (p :: pend_all pd).
Proof.
  unfold pend_all. induction pd as [|[u ps] pd IH]; cbn [pend_add].
  - cbn. reflexivity.
  - destruct (u =? t).
    + cbn [flat_map snd]. rewrite <- app_assoc. cbn [app]. symmetry. apply Permutation_middle.
    + destruct (t <? u).
      * cbn [flat_map snd app]. reflexivity.
      * cbn [flat_map snd]. rewrite IH. symmetry. apply Permutation_middle.
Qed.

(* other transactions' pending lists are untouched *)
Lemma pend_add_other t u p pd : u <> t -> pend_at u (pend_add t p pd) = pend_at u pd.
Proof.
  intros Hne. unfold pend_at. induction pd as [|[v ps] pd IH]; cbn [pend_add].
  - cbn [filter fst]. destruct (N.eqb_spec t u); [congruence|reflexivity].
  - destruct (N.eqb_spec v t) as [Heq|Hvt].
    + subst v. cbn [filter fst]. destruct (N.eqb_spec t u); [congruence|reflexivity].
    + destruct (t <? v).
      * cbn [filter fst]. destruct (N.eqb_spec t u); [congruence|reflexivity].
      * cbn [filter fst]. destruct (v =? u); cbn [flat_map]; rewrite IH; reflexivity.
Qed.

(* BTreeMap keys stay strictly ascending *)
Lemma pend_add_keys t p pd :
  asc_keys pd -> asc_keys (pend_add t p pd) /\
  forall k, In k (map fst (pend_add t p pd)) <-> k = t \/ In k (map fst pd).
Proof.
  unfold asc_keys. induction pd as [|[u ps] pd IH]; cbn [pend_add]; intros H.
  - cbn. split; [apply asc_cons; [constructor|intros y []]|intuition].
  - cbn [map fst] in H. pose proof (asc_cons_inv _ _ H) as [Hk Hu].
    destruct (N.eqb_spec u t) as [Heq|Hne].
    + subst u. cbn [map fst In]. split; [exact H|intuition].
    + destruct (N.ltb_spec t u) as [Hlt|Hge].
      * cbn [map fst In]. split; [|intuition].
        apply asc_cons; [exact H|]. intros y [Hy|Hy]; [subst; exact Hlt|]. apply Hu in Hy. lia.
      * destruct (IH Hk) as [I1 I2]. cbn [map fst In]. split.
        -- apply asc_cons; [exact I1|]. intros y Hy. apply I2 in Hy.
           destruct Hy as [->|Hy]; [lia|apply Hu; exact Hy].
        -- intros k. rewrite I2. intuition.
Qed.

(* invariant of the writer's free-list: what is pending under its own id is exactly the
   "freed" set, without duplicates *)
Definition J (s : txfl) : Prop :=
  NoDup (tf_freed s) /\ Permutation (pend_at (tf_tx s) (fl_pending (tf_inner s))) (tf_freed s).

Lemma J_facts s : J s ->
  NoDup (pend_at (tf_tx s) (fl_pending (tf_inner s))) /\
  forall x, In x (pend_at (tf_tx s) (fl_pending (tf_inner s))) <-> In x (tf_freed s).
Proof.
  intros [H1 H2]. split.
  - eapply Permutation_NoDup; [symmetry; exact H2|exact H1].
  - intros x. split; apply Permutation_in; [exact H2|symmetry; exact H2].
Qed.

Lemma pend_at_sub t pd x : In x (pend_at t pd) -> In x (pend_all pd).
Proof.
  unfold pend_at, pend_all. rewrite !in_flat_map. intros (e & He & Hx).
  apply filter_In in He. exists e. split; [apply He|exact Hx].
Qed.

(* one page of TxFreelist::free: skipped when already freed by this transaction *)
Definition tx_free1 (s : txfl) (p : N) : txfl :=
  if memN p (tf_freed s) then s
  else mkTxfl (mkFl (fl_free (tf_inner s)) (pend_add (tf_tx s) p (fl_pending (tf_inner s))))
              (tf_np s) (tf_tx s) (tf_psz s) (p :: tf_freed s).

Lemma tx_free_run_S s p n : tx_free_run s p (S n) = tx_free_run (tx_free1 s p) (p + 1) n.
Proof. reflexivity. Qed.

Lemma tx_free1_fields s p :
  tf_tx (tx_free1 s p) = tf_tx s /\ tf_np (tx_free1 s p) = tf_np s /\
  tf_psz (tx_free1 s p) = tf_psz s /\
  fl_free (tf_inner (tx_free1 s p)) = fl_free (tf_inner s).
Proof. unfold tx_free1. destruct (memN p (tf_freed s)); repeat split. Qed.

Lemma tx_free1_J s p : J s -> J (tx_free1 s p).
Proof.
  intros HJ. unfold tx_free1. destruct (memN p (tf_freed s)) eqn:E; [exact HJ|].
  destruct HJ as [H1 H2]. unfold J. cbn [tf_freed tf_tx tf_inner fl_pending]. split.
  - constructor; [|exact H1]. intros Hin. apply memN_In in Hin. congruence.
  - rewrite pend_add_at. apply perm_skip. exact H2.
Qed.

Lemma tx_free1_freed s p x : In x (tf_freed (tx_free1 s p)) <-> In x (tf_freed s) \/ x = p.
Proof.
  unfold tx_free1. destruct (memN p (tf_freed s)) eqn:E; cbn [tf_freed In].
  - apply memN_In in E. split; [auto | intros [H| ->]; assumption].
  - split; intros [H|H]; auto.
Qed.

Lemma pend_add_all_In t p pd x : In x (pend_all (pend_add t p pd)) <-> x = p \/ In x (pend_all pd).
Proof.
  split; intros H.
  - apply (Permutation_in _ (pend_add_all t p pd)) in H. destruct H; auto.
  - apply (Permutation_in _ (Permutation_sym (pend_add_all t p pd))). destruct H; [left|right]; auto.
Qed.

(* the "freed" set is contained in the pending pages: kept by a step, and then the step adds p *)
Definition freed_pending (s : txfl) : Prop :=
  forall y, In y (tf_freed s) -> In y (pend_all (fl_pending (tf_inner s))).

Lemma tx_free1_pend_all s p x :
  freed_pending s ->
  (In x (pend_all (fl_pending (tf_inner (tx_free1 s p)))) <->
   In x (pend_all (fl_pending (tf_inner s))) \/ x = p).
Proof.
  intros Hsub. unfold tx_free1. destruct (memN p (tf_freed s)) eqn:E.
  - apply memN_In, Hsub in E. split; [auto | intros [H| ->]; assumption].
  - cbn [tf_inner fl_pending]. rewrite pend_add_all_In. tauto.
Qed.

Lemma tx_free1_freed_pending s p : freed_pending s -> freed_pending (tx_free1 s p).
Proof.
  intros Hsub y Hy. apply tx_free1_freed in Hy. apply (tx_free1_pend_all s p y Hsub).
  destruct Hy; auto.
Qed.

Lemma tx_free_run_fields n : forall s p,
  tf_tx (tx_free_run s p n) = tf_tx s /\ tf_np (tx_free_run s p n) = tf_np s /\
  tf_psz (tx_free_run s p n) = tf_psz s /\
  fl_free (tf_inner (tx_free_run s p n)) = fl_free (tf_inner s).
Proof.
  induction n as [|n IH]; intros s p; [repeat split|]. rewrite tx_free_run_S.
  destruct (IH (tx_free1 s p) (p + 1)) as (A & B & C & D). rewrite A, B, C, D. apply tx_free1_fields.
Qed.

Lemma tx_free_run_J n : forall s p, J s -> J (tx_free_run s p n).
Proof.
  induction n as [|n IH]; intros s p HJ; [exact HJ|]. rewrite tx_free_run_S. apply IH, tx_free1_J, HJ.
Qed.

Theorem tx_free_J s p n : J s -> J (tx_free s p n).
Proof. apply tx_free_run_J. Qed.

Theorem tx_free_again s p : In p (tf_freed s) -> tx_free s p 1 = s.
Proof.
  intros H. unfold tx_free. change (N.to_nat 1) with 1%nat. rewrite tx_free_run_S. cbn [tx_free_run].
  unfold tx_free1. apply memN_In in H. rewrite H. reflexivity.
Qed.

Lemma interval_S p x n : p <= x < p + N.of_nat (S n) <-> x = p \/ p + 1 <= x < p + 1 + N.of_nat n.
Proof. lia. Qed.

Lemma tx_free_run_freed n : forall s p x,
  In x (tf_freed (tx_free_run s p n)) <-> In x (tf_freed s) \/ p <= x < p + N.of_nat n.
Proof.
  induction n as [|n IH]; intros s p x; [cbn [tx_free_run]; intuition lia|].
  rewrite tx_free_run_S, IH, tx_free1_freed, interval_S. tauto.
Qed.

Lemma tx_free_run_pend_all n : forall s p x,
  freed_pending s ->
  (In x (pend_all (fl_pending (tf_inner (tx_free_run s p n)))) <->
   In x (pend_all (fl_pending (tf_inner s))) \/ p <= x < p + N.of_nat n).
Proof.
  induction n as [|n IH]; intros s p x Hsub; [cbn [tx_free_run]; intuition lia|].
  rewrite tx_free_run_S, IH by (apply tx_free1_freed_pending; exact Hsub).
  rewrite tx_free1_pend_all, interval_S by exact Hsub. tauto.
Qed.

(* the hypothesis is [freed_pending s]; J s implies it (tx_free_pend_all_J).  It cannot be dropped: a page in
   tf_freed s that is not pending is skipped by tx_free and stays out of the pending lists. *)
Theorem tx_free_pend_all s p n x :
  (forall y, In y (tf_freed s) -> In y (pend_all (fl_pending (tf_inner s)))) ->
  (In x (pend_all (fl_pending (tf_inner (tx_free s p n)))) <->
   In x (pend_all (fl_pending (tf_inner s))) \/ p <= x < p + n).
Proof.
  intros Hsub. unfold tx_free. rewrite tx_free_run_pend_all; [|exact Hsub].
  rewrite N2Nat.id. reflexivity.
Qed.

Corollary tx_free_pend_all_J s p n x :
  J s ->
  (In x (pend_all (fl_pending (tf_inner (tx_free s p n)))) <->
   In x (pend_all (fl_pending (tf_inner s))) \/ p <= x < p + n).
Proof.
  intros HJ. apply tx_free_pend_all. intros y Hy.
  apply (pend_at_sub (tf_tx s)). apply (J_facts s HJ). exact Hy.
Qed.

Corollary tx_free_freed s p n x :
  In x (tf_freed (tx_free s p n)) <-> In x (tf_freed s) \/ p <= x < p + n.
Proof. unfold tx_free. rewrite tx_free_run_freed, N2Nat.id. reflexivity. Qed.

Corollary tx_free_fields s p n :
  tf_tx (tx_free s p n) = tf_tx s /\ tf_np (tx_free s p n) = tf_np s /\
  tf_psz (tx_free s p n) = tf_psz s /\
  fl_free (tf_inner (tx_free s p n)) = fl_free (tf_inner s).
Proof. apply tx_free_run_fields. Qed.

Lemma sins_dup_perm x l : Permutation (sins_dup x l) (x :: l).
Proof.
  induction l as [|a l IH]; cbn [sins_dup]; [reflexivity|].
  destruct (x <=? a); [reflexivity|].
  rewrite IH. apply perm_swap.
Qed.

Lemma sins_dup_sorted x l : StronglySorted N.le l -> StronglySorted N.le (sins_dup x l).
Proof.
  induction l as [|a l IH]; cbn [sins_dup]; intros H.
  - constructor; [constructor|constructor].
  - pose proof (StronglySorted_inv H) as [Hl Ha]. rewrite Forall_forall in Ha.
    destruct (N.leb_spec x a) as [Hle|Hgt].
    + constructor; [exact H|]. apply Forall_forall. intros y [Hy|Hy]; [subst; exact Hle|].
      apply Ha in Hy. lia.
    + constructor; [apply IH; exact Hl|]. apply Forall_forall. intros y Hy.
      apply (Permutation_in _ (sins_dup_perm x l)) in Hy. destruct Hy as [Hy|Hy]; [subst; lia|].
      apply Ha; exact Hy.
Qed.

Lemma fold_sins_dup_perm ps : forall acc,
  Permutation (fold_left (fun a p => sins_dup p a) ps acc) (acc ++ ps).
Proof.
  induction ps as [|p ps IH]; cbn [fold_left]; intros acc; [rewrite app_nil_r; reflexivity|].
  rewrite IH, sins_dup_perm. cbn [app]. apply Permutation_middle.
Qed.

Lemma fold_sins_dup_sorted ps : forall acc,
  StronglySorted N.le acc -> StronglySorted N.le (fold_left (fun a p => sins_dup p a) ps acc).
Proof.
  induction ps as [|p ps IH]; cbn [fold_left]; intros acc H; [exact H|].
  apply IH. apply sins_dup_sorted. exact H.
Qed.

Lemma fl_pages_gen pd : forall acc,
  Permutation
    (fold_left (fun acc x => fold_left (fun a p => sins_dup p a) (snd x) acc) pd acc)
    (acc ++ pend_all pd) /\
  (StronglySorted N.le acc ->
   StronglySorted N.le
     (fold_left (fun acc x => fold_left (fun a p => sins_dup p a) (snd x) acc) pd acc)).
Proof.
  unfold pend_all. induction pd as [|e pd IH]; cbn [fold_left flat_map]; intros acc.
  - rewrite app_nil_r. split; [reflexivity|auto].
  - destruct (IH (fold_left (fun a p => sins_dup p a) (snd e) acc)) as [I1 I2]. split.
    + rewrite I1, fold_sins_dup_perm, app_assoc. reflexivity.
    + intros H. apply I2. apply fold_sins_dup_sorted. exact H.
Qed.

Theorem fl_pages_perm f : Permutation (fl_pages f) (fl_free f ++ pend_all (fl_pending f)).
Proof. unfold fl_pages. apply fl_pages_gen. Qed.

Theorem fl_pages_sorted f : asc (fl_free f) -> StronglySorted N.le (fl_pages f).
Proof. intros H. unfold fl_pages. apply fl_pages_gen. apply asc_le_sorted. exact H. Qed.

(* freelist.rs: HEADER_SIZE = size_of::<Page>() = 40, PAGE_ID_SIZE = 8 *)
Corollary fl_size_spec f :
  fl_size f = 40 + 8 * (llen (fl_free f) + llen (pend_all (fl_pending f))).
Proof.
  unfold fl_size, llen. rewrite (Permutation_length (fl_pages_perm f)), app_length. lia.
Qed.

(* [rs]: open_ro_txs as Tx::new sees it (reader ids, oldest first); it agrees with the readers of the
   page-lifecycle state when its head is their least id *)

Definition rs_ok (s : pl) (rs : list N) : Prop :=
  match rs with [] => readers s = [] | r :: _ => min_reader s (tx s + 1) = r end.

Theorem begin_writer_view s P rs :
  asc (free s) -> asc_keys (pend s) -> rs_ok s rs ->
  let w := begin_writer (mkFl (free s) (pend s)) (np s) (tx s) P rs in
  let '(t, free1, pend1) := writer_view s in
  tf_tx w = t /\
  (forall x, In x (fl_free (tf_inner w)) <-> In x free1) /\
  fl_pending (tf_inner w) = pend1 /\
  asc (fl_free (tf_inner w)) /\
  tf_np w = np s /\ tf_psz w = P /\ tf_freed w = [].
Proof.
  intros Hasc Hk Hrs. cbv zeta. unfold writer_view, begin_writer. cbn [fl_free fl_pending].
  assert (Hb : match rs with [] => tx s + 1 | r :: _ => r end = min_reader s (tx s + 1)).
  { unfold rs_ok in Hrs. destruct rs as [|r rs'].
    - unfold min_reader. rewrite Hrs. reflexivity.
    - symmetry. exact Hrs. }
  rewrite Hb.
  destruct (release (min_reader s (tx s + 1)) (free s) (pend s)) as [fr pd] eqn:E.
  destruct (release_spec _ _ _ _ _ Hasc Hk E) as (R1 & R2 & R3).
  cbn [tf_tx tf_inner fl_free fl_pending tf_np tf_psz tf_freed].
  split; [reflexivity|]. split.
  - intros x. rewrite R2, in_app_iff. reflexivity.
  - repeat split; assumption.
Qed.

Lemma pend_eq_refl p : pend_eq p p = true.
Proof.
  unfold pend_eq. rewrite Nat.eqb_refl. cbn [andb].
  induction p as [|e p IH]; cbn [combine forallb]; [reflexivity|].
  rewrite IH, N.eqb_refl. cbn [fst snd andb].
  rewrite andb_true_r. apply seteqN_spec. intros x; reflexivity.
Qed.

(* the free list computed by the model's begin_writer is accepted by the PL acceptor *)
Corollary begin_writer_accepted s P rs :
  asc (free s) -> asc_keys (pend s) -> rs_ok s rs ->
  let w := begin_writer (mkFl (free s) (pend s)) (np s) (tx s) P rs in
  accept s (EBeginW (fl_free (tf_inner w)) (fl_pending (tf_inner w))) = Some s.
Proof.
  intros Hasc Hk Hrs w.
  pose proof (begin_writer_view s P rs Hasc Hk Hrs) as H. cbv zeta in H. fold w in H.
  unfold accept. destruct (writer_view s) as [[t free1] pend1].
  destruct H as (_ & Hset & Hpd & Hasc' & _).
  rewrite Hpd, pend_eq_refl.
  replace (seteqN (fl_free (tf_inner w)) free1) with true by (symmetry; apply seteqN_spec; exact Hset).
  replace (nodupN (fl_free (tf_inner w))) with true
    by (symmetry; apply nodupN_NoDup; apply asc_NoDup; exact Hasc').
  reflexivity.
Qed.

(* non-vacuity: the steps of test_allocate in freelist.rs, then further instances *)

Definition ex_free : list N := [2; 4; 6; 8; 9; 10].

Example ex_asc : asc ex_free /\ ge2 ex_free.
Proof. split; unfold ex_free; repeat constructor; lia. Qed.

Example ex_alloc4 : fl_allocate ex_free 4 = None.
Proof. vm_compute. reflexivity. Qed.
Example ex_alloc1 : fl_allocate ex_free 1 = Some (2, [4; 6; 8; 9; 10]).
Proof. vm_compute. reflexivity. Qed.
Example ex_alloc1' : fl_allocate [4; 6; 8; 9; 10] 1 = Some (4, [6; 8; 9; 10]).
Proof. vm_compute. reflexivity. Qed.
Example ex_alloc3 : fl_allocate [6; 8; 9; 10] 3 = Some (8, [6]).
Proof. vm_compute. reflexivity. Qed.
Example ex_alloc2 : fl_allocate [6] 2 = None.
Proof. vm_compute. reflexivity. Qed.
Example ex_alloc1'' : fl_allocate [6] 1 = Some (6, []).
Proof. vm_compute. reflexivity. Qed.
Example ex_alloc_empty : fl_allocate [] 1 = None.
Proof. vm_compute. reflexivity. Qed.
(* a run of length 2 inside a longer run: the first position is taken *)
Example ex_alloc2_in3 : fl_allocate ex_free 2 = Some (8, [2; 4; 6; 10]).
Proof. vm_compute. reflexivity. Qed.
Example ex_alloc3_full : fl_allocate ex_free 3 = Some (8, [2; 4; 6]).
Proof. vm_compute. reflexivity. Qed.

Definition ex_tx : txfl := mkTxfl (mkFl ex_free [(3, [11]); (5, [12; 13])]) 20 6 4096 [].

Example ex_tx_alloc_free :
  tx_allocate ex_tx 8192 = (8, 2, mkTxfl (mkFl [2; 4; 6; 10] [(3, [11]); (5, [12; 13])]) 20 6 4096 []).
Proof. vm_compute. reflexivity. Qed.
Example ex_tx_alloc_grow :
  tx_allocate ex_tx 16385 = (20, 5, mkTxfl (mkFl ex_free [(3, [11]); (5, [12; 13])]) 25 6 4096 []).
Proof. vm_compute. reflexivity. Qed.
Example ex_pages_for : pages_for 4096 1 = 1 /\ pages_for 4096 4096 = 1 /\ pages_for 4096 4097 = 2.
Proof. vm_compute. auto. Qed.

Example ex_tx_free :
  tx_free ex_tx 14 2 = mkTxfl (mkFl ex_free [(3, [11]); (5, [12; 13]); (6, [14; 15])]) 20 6 4096 [15; 14].
Proof. vm_compute. reflexivity. Qed.
Example ex_tx_free_twice : tx_free (tx_free ex_tx 14 2) 15 1 = tx_free ex_tx 14 2.
Proof. vm_compute. reflexivity. Qed.
Example ex_J : J ex_tx.
Proof. split; [constructor|vm_compute; constructor]. Qed.

Example ex_release : release 5 ex_free [(3, [11; 3]); (5, [12; 13])] = ([2; 3; 4; 6; 8; 9; 10; 11], [(5, [12; 13])]).
Proof. vm_compute. reflexivity. Qed.
Example ex_fl_pages : fl_pages (mkFl ex_free [(3, [11; 3]); (5, [12; 7])]) = [2; 3; 4; 6; 7; 8; 9; 10; 11; 12].
Proof. vm_compute. reflexivity. Qed.

Example ex_begin_writer :
  begin_writer (mkFl ex_free [(3, [11; 3]); (5, [12; 13])]) 20 5 4096 [4; 5] =
  mkTxfl (mkFl [2; 3; 4; 6; 8; 9; 10; 11] [(5, [12; 13])]) 20 6 4096 [].
Proof. vm_compute. reflexivity. Qed.

Print Assumptions sins_spec.
Print Assumptions release_spec.
Print Assumptions alloc_sound.
Print Assumptions alloc_sound_extra.
Print Assumptions alloc_complete.
Print Assumptions alloc_some_iff.
Print Assumptions pages_for_spec.
Print Assumptions tx_allocate_spec.
Print Assumptions tx_free_J.
Print Assumptions tx_free_again.
Print Assumptions tx_free_pend_all.
Print Assumptions tx_free_pend_all_J.
Print Assumptions fl_pages_perm.
Print Assumptions fl_pages_sorted.
Print Assumptions begin_writer_view.
Print Assumptions begin_writer_accepted.
