(* The spill re-establishes uniform depth: the pages written for a node of exact height h head trees of exact height h,
   and a new root level adds one; so the state committed by a transaction has uniform depth again and histories from
   [init_db] never panic.  Until the commit the written pages exist only in the write set, so the statements are
   about every disk committed from a later state of the transaction ([laterU]). *)
From Coq Require Import List NArith Bool Arith Lia ZifyN ZifyNat ZifyBool Permutation.
From Coq.Strings Require Import Byte.
From Jamm Require Spec.
From Jamm Require Import ListFacts Bytes BytesFacts Tree Cursor SearchFacts Engine EngineAbs EngineFacts EngineMergeFacts.
From Jamm Require Import EngineModifyFacts EngineSpillFacts EnginePathFacts EngineBridgeFacts EngineRebalanceFacts.
From Jamm Require Import EngineTxInvFacts EngineSpillBucketFacts EngineRefines EngineOwnDefs EngineOwnSpill EngineAllocInv.
From Jamm Require Import EngineDepth EngineNoPanic.
Import ListNotations.
Import Coq.Strings.String.StringSyntax. Delimit Scope string_scope with string.
Local Open Scope list_scope. Local Open Scope nat_scope.
Set Warnings "-abstract-large-number".

(** * Shape *)

(* the SHAPE part of uniform depth (exact height h): [PDp] with no condition on the bucket entries *)
Definition TT : N -> Prop := fun _ => True.
Definition PSh (h : nat) (d : disk) (q : N) : Prop := PDp TT h d q.

Lemma ent_ok_TT : forall l, Forall (ent_ok TT) l.
Proof. intros l. apply Forall_forall. intros [k v|k r nx] _; exact I. Qed.

Lemma PDp_PSh : forall G h d q, PDp G h d q -> PSh h d q.
Proof. intros G h d q H. eapply PDp_mono; [|exact H]. intros; exact I. Qed.

Lemma NDp_mono : forall (G G' : N -> Prop), (forall r, G r -> G' r) -> forall h d n, NDp G h d n -> NDp G' h d n.
Proof.
  intros G G' HG. induction h as [|h IH]; intros d n H; [exact H|]. destruct n as [p np o sq [l|es] ks].
  - rewrite NDp_leaf in *. destruct H as [E Hl]. split; [exact E|]. eapply Forall_impl; [|exact Hl]. intros e. now apply ent_ok_mono.
  - rewrite NDp_branch in *. destruct H as (E & Fe & Fk). split; [exact E|]. split.
    + eapply Forall_impl; [|exact Fe]. intros e. now apply PDp_mono.
    + eapply Forall_impl; [|exact Fk]. intros k. apply IH.
Qed.

(* the shape of an overlay node as the spill meets it: a child is its kid, or else a committed page *)
Fixpoint SSh (h : nat) (d : disk) (n : node) : Prop :=
  match h with O => False | S h' =>
    match n with
    | Node _ _ _ _ (Leaves _) _ => h' = O
    | Node _ _ _ _ (Branches es) ks =>
        h' <> O /\ Forall (fun e => match find_kid (snd e) ks with Some kd => SSh h' d kd | None => PSh h' d (snd e) end) es
    end end.

Lemma NDp_SSh : forall G h d n, NDp G h d n -> SSh h d n.
Proof.
  intros G. induction h as [|h IH]; intros d n H; [exact H|]. destruct n as [p np o sq [l|es] ks].
  - rewrite NDp_leaf in H. exact (proj1 H).
  - rewrite NDp_branch in H. destruct H as (E & Fe & Fk). cbn [SSh]. split; [exact E|].
    rewrite Forall_forall in *. intros e He. destruct (find_kid (snd e) ks) as [kd|] eqn:Ef.
    + apply IH. apply Fk. eapply EngineMergeFacts.find_kid_In; eauto.
    + eapply PDp_PSh. now apply Fe.
Qed.

(* the shape of a committed subtree depends on its own pages only *)
Lemma PSh_transfer : forall h d d' q, PSh h d q -> (forall x, in_subtree d q x -> dget d' x = dget d x) -> PSh h d' q.
Proof.
  unfold PSh. induction h as [|h IH]; intros d d' q H Hk; [exact H|]. rewrite PDp_S in *. destruct H as (a & Hg & Hb).
  exists a. split; [rewrite (Hk q (ist_self d q)); exact Hg|]. destruct (ap_body a) as [l|es] eqn:Eb; [exact Hb|].
  destruct Hb as [E Fe]. split; [exact E|]. rewrite Forall_forall in *. intros e He. apply (IH d d'); [apply Fe, He|].
  intros x Hx. apply Hk. eapply ist_kid; eauto.
Qed.

Lemma stable_subtree : forall d keep q x, in_subtree d q x -> forall fuel, stable fuel d keep q -> In x keep.
Proof.
  intros d keep q x H. induction H as [q | q a es e x Hg Hb He _ IH]; intros [|f] Hst; try (destruct Hst; fail);
    cbn [stable] in Hst; destruct Hst as [Hq Hst].
  - exact Hq.
  - rewrite Hg, Hb in Hst. exact (IH f (Hst e He)).
Qed.

(* hence a committed subtree all of whose pages are kept has the same shape on every disk that keeps them *)
Lemma PSh_stable : forall h fuel d d' keep q, (forall x, In x keep -> dget d' x = dget d x) ->
  stable fuel d keep q -> PSh h d q -> PSh h d' q.
Proof.
  intros h fuel d d' keep q Hk Hst H. apply (PSh_transfer h d d' q H). intros x Hx.
  exact (Hk x (stable_subtree d keep q x Hx fuel Hst)).
Qed.

(** * The pages handed out between two states; statements about every later disk *)

(* [Used s s']: the pages handed out between two states of a transaction (a set that needs no witness) *)
Definition Src (s : txs) (q : N) : Prop := In q (free s) \/ (np s <= q)%N.
Definition Used (s s' : txs) (q : N) : Prop := Src s q /\ ~ Src s' q.

Lemma Src_frame : forall live s s' a dd q, frame live s s' a dd -> Src s' q -> Src s q.
Proof.
  intros live s s' a dd q F [H|H]; [left; apply (fr_free _ _ _ _ _ F), H | right].
  pose proof (fr_np _ _ _ _ _ F). lia.
Qed.

Lemma frame_alloc_used : forall live s s' a dd q, frame live s s' a dd -> In q a -> Used s s' q.
Proof.
  intros live s s' a dd q F Hq. split; [exact (fr_src _ _ _ _ _ F q Hq)|].
  destruct (fi_live _ _ (fr_fresh _ _ _ _ _ F) q (in_or_app _ _ _ (or_introl Hq))) as [A B].
  intros [H|H]; [exact (B H) | lia].
Qed.

Lemma used_stable : forall live s s' s'' a2 d2 q, frame live s' s'' a2 d2 -> Used s s' q ->
  wr_get (wr s'') q = wr_get (wr s') q.
Proof.
  intros live s s' s'' a2 d2 q F [_ Hn]. apply (fr_wr _ _ _ _ _ F). intros Hi. apply Hn. exact (fr_src _ _ _ _ _ F q Hi).
Qed.

(* Q holds of every disk obtained from a write set that agrees with [wr s'] on [Used s s'] and leaves [keep] alone --
   in particular of the disk committed from any later state *)
Definition laterU (d : disk) (keep : list N) (s s' : txs) (Q : disk -> Prop) : Prop :=
  forall w' P, (forall q, Used s s' q -> wr_get w' q = wr_get (wr s') q) ->
    (forall x, In x keep -> wr_get w' x = None) -> Q (apply_wr w' P d).

(* a statement established between s and s1 holds for the wider stretch s0 .. s2 *)
Lemma laterU_mono : forall d keep L0 L1 L2 s0 s s1 s2 a0 d0 a1 d1 a2 d2 (Q : disk -> Prop),
  frame L0 s0 s a0 d0 -> frame L1 s s1 a1 d1 -> frame L2 s1 s2 a2 d2 ->
  laterU d keep s s1 Q -> laterU d keep s0 s2 Q.
Proof.
  intros d keep L0 L1 L2 s0 s s1 s2 a0 d0 a1 d1 a2 d2 Q F0 F1 F2 H w' P Hag Hk. apply H; [|exact Hk].
  intros q Hu. rewrite <- (used_stable _ _ _ _ _ _ _ F2 Hu). apply Hag. destruct Hu as [A B]. split.
  - eapply Src_frame; eauto.
  - intros C. apply B. eapply Src_frame; eauto.
Qed.

Lemma laterU_impl : forall d keep s s' (Q Q' : disk -> Prop), (forall d', Q d' -> Q' d') ->
  laterU d keep s s' Q -> laterU d keep s s' Q'.
Proof. intros d keep s s' Q Q' HQ H w' P A B. apply HQ. now apply H. Qed.

(* the later states of the same transaction qualify *)
Lemma laterU_later : forall d keep live s s' s'' a2 d2 (Q : disk -> Prop) P,
  laterU d keep s s' Q -> frame live s' s'' a2 d2 -> unwritten keep s'' -> Q (apply_wr (wr s'') P d).
Proof.
  intros d keep live s s' s'' a2 d2 Q P H F Hu. apply H; [|exact Hu].
  intros q Hq. eapply used_stable; eauto.
Qed.

(** * The tail of [spill_node] *)

(* data whose children (if any) have exact height h - 1 on disk d' *)
Definition data_sh (h : nat) (d' : disk) (dd : ndata) : Prop :=
  match dd with
  | Leaves _ => h = 1
  | Branches es => exists h', h = S h' /\ h' <> O /\ Forall (fun e => PSh h' d' (snd e)) es
  end.

Lemma data_sh_page : forall h d' q a, dget d' q = Some a -> data_sh h d' (ap_body a) -> PSh h d' q.
Proof.
  intros h d' q a Hg H. unfold PSh. destruct (ap_body a) as [l|es] eqn:Eb; cbn [data_sh] in H.
  - subst h. rewrite PDp_S. exists a. split; [exact Hg|]. rewrite Eb. split; [reflexivity | apply ent_ok_TT].
  - destruct H as (h' & -> & Hh & Fe). rewrite PDp_S. exists a. split; [exact Hg|]. rewrite Eb. split; assumption.
Qed.

Lemma split_data_sh : forall s dd d0 rest h d', split s dd = (d0, rest) -> data_sh h d' dd ->
  Forall (data_sh h d') (d0 :: rest).
Proof.
  intros s [l|es] d0 rest h d' Hsp H.
  - destruct (split_leaves s l) as (l0 & ls & E & _). rewrite E in Hsp. inversion Hsp; subst d0 rest.
    constructor; [exact H|]. apply Forall_forall. intros x Hx. apply in_map_iff in Hx. destruct Hx as (p & <- & _). exact H.
  - destruct (split_branches s es) as (e0 & ess & E & Hcat & _). rewrite E in Hsp. inversion Hsp; subst d0 rest.
    destruct H as (h' & -> & Hh & Fe). rewrite <- Hcat in Fe. apply Forall_app in Fe. destruct Fe as [F0 Fr].
    constructor; [exists h'; auto|]. apply Forall_forall. intros x Hx. apply in_map_iff in Hx. destruct Hx as (p & <- & Hp).
    exists h'. split; [reflexivity|]. split; [exact Hh|]. rewrite Forall_forall in *. intros e He. apply Fr.
    apply in_concat. exists p. split; assumption.
Qed.

Definition shape_out (h : nat) (d' : disk) (out : list (bytes * N)) : Prop := Forall (fun sb => PSh h d' (snd sb)) out.

Lemma spill_tail_shape : forall d live n d1 s1 orig fk p sibs s' h w' P,
  fresh_inv live s1 -> spill_tail n d1 s1 = Ok ((orig, (fk, p), sibs), s') ->
  (forall q, Used s1 s' q -> wr_get w' q = wr_get (wr s') q) ->
  data_sh h (apply_wr w' P d) d1 -> shape_out h (apply_wr w' P d) ((fk, p) :: sibs).
Proof.
  intros d live n d1 s1 orig fk p sibs s' h w' P Hfi H Hag Hd.
  destruct (spill_tail_spec _ _ _ _ _ _ _ _ _ Hfi H) as (d0 & rest & alloc & stale & Esp & _ & Hpw & _ & Hin & Hfr & _).
  pose proof (split_data_sh _ _ _ _ _ _ Esp Hd) as Hps.
  assert (Hag' : wr_agree (map snd ((fk, p) :: sibs)) (wr s') w').
  { intros q Hq. apply Hag. eapply frame_alloc_used; [exact Hfr|]. apply (proj1 (Hin q Hq)). }
  pose proof (pieces_on_disk _ _ P d _ _ Hpw Hag') as Hdisk.
  unfold shape_out. revert Hps Hdisk. generalize (d0 :: rest). generalize ((fk, p) :: sibs). clear.
  intros sbs dds Hps Hdisk.
  induction Hdisk as [|sb dd sbs dds Hg _ IH]; [constructor|]. inversion Hps; subst. constructor; [|now apply IH].
  eapply data_sh_page; [exact Hg|]. cbn [mk_apage ap_body snd]. assumption.
Qed.

Lemma laterU_right : forall d keep L s s1 s2 a2 d2 (Q : disk -> Prop),
  frame L s1 s2 a2 d2 -> laterU d keep s s1 Q -> laterU d keep s s2 Q.
Proof.
  intros d keep L s s1 s2 a2 d2 Q F2 H w' P Hag Hk. apply H; [|exact Hk].
  intros q Hu. rewrite <- (used_stable _ _ _ _ _ _ _ F2 Hu). apply Hag. destruct Hu as [A B]. split; [exact A|].
  intros C. apply B. eapply Src_frame; eauto.
Qed.

Lemma laterU_left : forall d keep L s0 s s1 a0 d0 (Q : disk -> Prop),
  frame L s0 s a0 d0 -> laterU d keep s s1 Q -> laterU d keep s0 s1 Q.
Proof.
  intros d keep L s0 s s1 a0 d0 Q F0 H w' P Hag Hk. apply H; [|exact Hk].
  intros q [A B]. apply Hag. split; [eapply Src_frame; eauto | exact B].
Qed.

(** * [spill_node] writes trees of the node's exact height *)

Section NodeShape.
  Variables (fuel : nat) (d : disk) (keep : list N).

  Definition DS (f : nat) : Prop := forall live lo hi n s orig fk p sibs s' h,
    fresh_inv live s -> swf fuel d keep lo hi n -> SSh h d n ->
    spill_node f n s = Ok ((orig, (fk, p), sibs), s') ->
    laterU d keep s s' (fun d' => shape_out h d' ((fk, p) :: sibs)).

  Section FoldShape.
    Variables (f h' : nat) (lo hi : option bytes) (es : list (bytes * N)) (kids : list node).
    Hypothesis IHf : DS f.
    Hypothesis Hnd_kids : NoDup (map n_page kids).
    Hypothesis Hkids : forall l h e kd, In (l, h, e) (chb lo hi es) -> find_kid (snd e) kids = Some kd ->
                                        swf fuel d keep l h kd.
    Hypothesis Hksh : forall kd, In kd kids -> SSh h' d kd.

    Definition shape_done (todo : list node) (outs : list (N * list (bytes * N))) (s : txs)
                          (outs' : list (N * list (bytes * N))) (s1 : txs) : Prop :=
      forall live, fresh_inv live s -> exists a1 dd1, frame live s s1 a1 dd1 /\
        forall kd, In kd todo -> exists out, find_out outs' (n_page kd) = Some out /\
          laterU d keep s s1 (fun d' => shape_out h' d' out).

    Lemma shape_done_nil outs s : shape_done [] outs s outs s.
    Proof. intros live Hfi. exists [], []. split; [apply frame_refl, Hfi|intros kd []]. Qed.

    Lemma shape_done_cons kd todo outs s k fk p sibs sk outs' s1 :
      In kd kids -> In (k, n_page kd) es -> spill_node f kd s = Ok ((Some k, (fk, p), sibs), sk) ->
      find_out outs' (n_page kd) = Some ((fk, p) :: sibs) ->
      shape_done todo ((n_page kd, (fk, p) :: sibs) :: outs) sk outs' s1 -> shape_done (kd :: todo) outs s outs' s1.
    Proof.
      intros Hkd Hin Hsp Hfound Hrest live Hfi.
      destruct (kid_swf fuel d keep lo hi es kids Hnd_kids Hkids kd k Hkd Hin) as (l & hh & _ & Hswf).
      destruct (spill_node_spec fuel d keep f _ _ _ _ _ _ _ _ _ _ Hfi Hswf Hsp) as (a1 & dd1 & g1 & [F1 _ _] & _).
      pose proof (IHf _ _ _ _ _ _ _ _ _ _ h' Hfi Hswf (Hksh kd Hkd) Hsp) as Hk.
      destruct (Hrest (a1 ++ live) (fr_fresh _ _ _ _ _ F1)) as (a2 & dd2 & F2 & Hdone).
      exists (a2 ++ a1), (dd1 ++ dd2). split; [exact (frame_trans _ _ _ _ _ _ _ _ F1 F2)|].
      intros kd' [<-|Hk'].
      - exists ((fk, p) :: sibs). split; [exact Hfound|]. eapply laterU_right; [exact F2 | exact Hk].
      - destruct (Hdone kd' Hk') as (out & Ho & Hl). exists out. split; [exact Ho|]. eapply laterU_left; [exact F1 | exact Hl].
    Qed.
  End FoldShape.

  Theorem spill_node_shape : forall f, DS f.
  Proof.
    induction f as [|f IHf]; intros live lo hi n s orig fk p sibs s' h Hfi Hswf Hsh H; [discriminate|].
    inversion Hswf as [lo0 hi0 pg npg o sq l Hkeys | lo0 hi0 pg npg o sq es kids Hes Hnd_es Hnd_kids Horig Hkids Hstab];
      subst lo0 hi0 n.
    - rewrite spill_node_unfold in H. cbn [n_kids n_data kid_keys fold_res bind isort_by map] in H.
      destruct h as [|h']; [destruct Hsh|]. cbn [SSh] in Hsh. subst h'.
      intros w' P Hag Hk. eapply spill_tail_shape; [exact Hfi | exact H | exact Hag | reflexivity].
    - destruct h as [|h']; [destruct Hsh|]. cbn [SSh] in Hsh. destruct Hsh as [Hh Fe]. rewrite Forall_forall in Fe.
      assert (Hksh : forall kd, In kd kids -> SSh h' d kd).
      { intros kd Hkd. destruct (Horig kd Hkd) as (k & _ & Hin). specialize (Fe _ Hin). cbn [snd] in Fe.
        rewrite (find_kid_NoDup kids kd Hnd_kids Hkd) in Fe. exact Fe. }
      destruct (spill_branch_inv fuel d keep f lo hi es kids (spill_node_spec fuel d keep f) Hes Hnd_es Hnd_kids Horig Hkids
                  (shape_done h') pg npg o sq live s ((orig, (fk, p), sibs), s') (shape_done_nil h'))
        as (todo & outs & s1 & Hperm & _ & Hnokid & Hdone0 & H1); [|exact Hfi|exact H|].
      { intros kd todo outs0 s0 k fk0 p0 sibs0 sk outs' s1 Hkd _ _ _ Hin.
        exact (shape_done_cons f h' lo hi es kids IHf Hnd_kids Hkids Hksh kd todo outs0 s0 k fk0 p0 sibs0 sk outs' s1 Hkd Hin). }
      destruct (Hdone0 live Hfi) as (a1 & dd1 & F & Hdone).
      pose proof (fr_fresh _ _ _ _ _ F) as Hfi1.
      destruct (spill_tail_spec _ _ _ _ _ _ _ _ _ Hfi1 H1) as (d0 & rest & a2 & stale & _ & _ & _ & _ & _ & F2 & _).
      intros w' P Hag Hk. eapply spill_tail_shape; [exact Hfi1 | exact H1 | |].
      { intros q [A B]. apply Hag. split; [eapply Src_frame; eauto | exact B]. }
      cbn [data_sh]. exists h'. split; [reflexivity|]. split; [exact Hh|]. apply Forall_forall. intros e' He'.
      apply in_flat_map in He'. destruct He' as (e & He & He'). unfold seg_of in He'.
      specialize (Fe _ He). destruct (find_kid (snd e) kids) as [kd|] eqn:Efk.
      + destruct (EngineMergeFacts.find_kid_In _ _ _ Efk) as [Hkd Epg].
        destruct (Hdone kd (Permutation_in _ (Permutation_sym Hperm) Hkd)) as (out & Ho & Hl).
        rewrite <- Epg, Ho in He'.
        pose proof (laterU_right _ _ _ _ _ _ _ _ _ F2 Hl w' P Hag Hk) as Hso. unfold shape_out in Hso.
        rewrite Forall_forall in Hso. now apply Hso.
      + rewrite (Hnokid e Efk) in He'. destruct He' as [<-|[]].
        eapply PSh_stable; [apply (keep_dget w' P d keep Hk) | apply Hstab; assumption | exact Fe].
  Qed.
End NodeShape.

(** * [spill_root]: every new root level adds one *)

Section RootShape.
  Variables (d : disk) (keep : list N).

  Lemma root_loop_shape : forall f L0 s0 a0 d0 s fk p sibs h p' s',
    frame L0 s0 s a0 d0 -> h <> O ->
    laterU d keep s0 s (fun d' => shape_out h d' ((fk, p) :: sibs)) ->
    spill_root f (Node 0 0 (Some fk) 0 (Branches ((fk, p) :: sibs)) []) s = Ok (p', s') ->
    exists lv a' dd', frame L0 s0 s' a' dd' /\ laterU d keep s0 s' (fun d' => PSh (lv + h) d' p').
  Proof.
    induction f as [|f IH]; intros L0 s0 a0 d0 s fk p sibs h p' s' F0 Hh Hout H; [discriminate|].
    rewrite spill_root_unfold in H. unfold spill_root_first in H. cbn [n_data] in H.
    change fuel0 with (S 63) in H. rewrite spill_node_nokids in H by reflexivity. cbn [n_data] in H.
    apply bind_ok_inv in H. destruct H as ([[[o1 [fk1 p1]] sibs1] s1] & Ht & H).
    pose proof (fr_fresh _ _ _ _ _ F0) as Hfi.
    destruct (spill_tail_spec _ _ _ _ _ _ _ _ _ Hfi Ht) as (dd0 & rest & a1 & stale & _ & _ & _ & _ & _ & F1 & _).
    pose proof (frame_trans _ _ _ _ _ _ _ _ F0 F1) as F01.
    assert (Hout1 : laterU d keep s0 s1 (fun d' => shape_out (S h) d' ((fk1, p1) :: sibs1))).
    { intros w' P Hag Hk. eapply spill_tail_shape; [exact Hfi | exact Ht | |].
      - intros q [A B]. apply Hag. split; [exact (Src_frame _ _ _ _ _ _ F0 A) | exact B].
      - cbn [data_sh]. exists h. split; [reflexivity|]. split; [exact Hh|].
        exact (laterU_right _ _ _ _ _ _ _ _ _ F1 Hout w' P Hag Hk). }
    destruct sibs1 as [|sb1 sibs1'].
    - inversion H; subst p' s'. exists 1. eexists _, _.
      split; [exact F01|]. eapply laterU_impl; [|exact Hout1]. intros d' Hs. inversion Hs; subst. assumption.
    - destruct (IH L0 s0 _ _ s1 fk1 p1 (sb1 :: sibs1') (S h) p' s' F01 ltac:(lia) Hout1 H) as (lv & a' & dd' & F' & HL).
      exists (S lv), a', dd'. split; [exact F'|]. replace (S lv + h) with (lv + S h) by lia. exact HL.
  Qed.

  Theorem spill_root_shape : forall fuel f live n s p s' h, fresh_inv live s ->
    (n_data n = Leaves [] \/ swf fuel d keep None None n) -> SSh h d n ->
    spill_root f n s = Ok (p, s') ->
    exists lv, laterU d keep s s' (fun d' => PSh (lv + h) d' p).
  Proof.
    intros fuel f live n s p s' h Hfi Hn Hsh H. destruct f as [|f]; [discriminate|]. rewrite spill_root_unfold in H.
    apply bind_ok_inv in H. destruct H as ([[[o1 [fk1 p1]] sibs1] s1] & H1 & H). unfold spill_root_first in H1.
    destruct Hn as [E|Hswf].
    - rewrite E in H1. destruct (write_node s (set_kids n [])) as [n1 s2] eqn:Hw. inversion H1; subst o1 fk1 p1 sibs1 s1.
      inversion H; subst p s'. exists 0.
      destruct (write_node_frame _ _ _ _ _ Hfi Hw) as (F & _ & _ & Hk1 & _ & Hget).
      assert (Eh : h = 1). { destruct h as [|h']; [destruct Hsh|]. destruct n as [pg npg o sq dd ks]. cbn [n_data] in E. subst dd. cbn [SSh] in Hsh. lia. }
      subst h. intros w' P Hag Hk. cbn [plus].
      assert (Hd : dget (apply_wr w' P d) (n_page n1) = Some (mk_apage P (node_size (set_kids n []), n_data (set_kids n [])))).
      { apply dget_apply_wr_some. rewrite Hag; [exact Hget|]. eapply frame_alloc_used; [exact F|]. apply In_nrun. lia. }
      eapply data_sh_page; [exact Hd|]. cbn [mk_apage ap_body snd]. destruct n as [pg npg o sq dd ks]. cbn [n_data] in E. subst dd. reflexivity.
    - assert (H1' : spill_node fuel0 n s = Ok (o1, (fk1, p1), sibs1, s1)).
      { pose proof (swf_nonempty _ _ _ _ _ _ Hswf) as Hpos. destruct (n_data n) as [[|e l]|es]; [cbn in Hpos; lia | exact H1 | exact H1]. }
      pose proof (spill_node_shape fuel d keep fuel0 live None None n s o1 fk1 p1 sibs1 s1 h Hfi Hswf Hsh H1') as Hout.
      destruct (spill_node_spec fuel d keep fuel0 _ _ _ _ _ _ _ _ _ _ Hfi Hswf H1') as (a1 & dd1 & g1 & [F1 _ _] & _).
      destruct sibs1 as [|sb1 sibs1'].
      + inversion H; subst p s'. exists 0. eapply laterU_impl; [|exact Hout]. intros d' Hs. inversion Hs; subst. assumption.
      + assert (Hh : h <> 0) by (destruct h; [destruct Hsh | lia]).
        destruct (root_loop_shape f live s a1 dd1 s1 fk1 p1 (sb1 :: sibs1') h p s' F1 Hh Hout H) as (lv & _ & _ & _ & HL).
        exists lv. exact HL.
  Qed.
End RootShape.

(** * Shape + the entries of the view = uniform depth; kept committed buckets *)

Lemma Forall2_concat_Forall : forall {A B} (R : A -> list B -> Prop) (Q : B -> Prop) es ls,
  Forall2 R es ls -> (forall e l, In e es -> R e l -> Forall Q l) -> Forall Q (concat ls).
Proof.
  intros A B R Q es ls H. induction H as [|e l es ls Hr _ IH]; intros HQ; cbn [concat]; [constructor|].
  apply Forall_app. split; [apply (HQ e l); [now left | exact Hr] | apply IH; intros e0 l0 He0; apply HQ; now right].
Qed.

Lemma PDp_view : forall G h d q h' l, PDp G h d q -> PageView d h' q l -> Forall (ent_ok G) l.
Proof.
  intros G. induction h as [|h IH]; intros d q h' l H HV; [destruct H|]. rewrite PDp_S in H. destruct H as (a & Hg & Hb).
  inversion HV as [? ? a' l0 Hg' Hb' | ? ? a' es ls Hg' Hb' HF]; subst; rewrite Hg in Hg'; inversion Hg'; subst a'; rewrite Hb' in Hb.
  - exact (proj2 Hb).
  - destruct Hb as [_ Fe]. rewrite Forall_forall in Fe. eapply Forall2_concat_Forall; [exact HF|].
    cbn beta. intros e l0 He Hl0. eapply IH; [apply Fe, He | exact Hl0].
Qed.

Lemma NDp_view : forall G h d n h' l, NDp G h d n -> NodeView d h' n l -> Forall (ent_ok G) l.
Proof.
  intros G. induction h as [|h IH]; intros d n h' l H HV; [destruct H|]. destruct n as [p np o sq [l0|es] ks].
  - apply NodeView_leaf_inv in HV. destruct HV as [-> _]. rewrite NDp_leaf in H. exact (proj2 H).
  - apply NodeView_branch_inv in HV. destruct HV as (h0 & ls & -> & -> & HF). rewrite NDp_branch in H.
    destruct H as (_ & Fe & Fk). rewrite Forall_forall in Fe, Fk. eapply Forall2_concat_Forall; [exact HF|].
    cbn beta. intros e l0 He Hl0. unfold ChildView in Hl0. destruct (find_kid (snd e) ks) as [kd|] eqn:Ef.
    + eapply IH; [|exact Hl0]. apply Fk. eapply EngineMergeFacts.find_kid_In; eauto.
    + eapply PDp_view; [apply Fe, He | exact Hl0].
Qed.

Lemma PSh_view_PDp : forall G h d q h' l, PSh h d q -> PageView d h' q l -> Forall (ent_ok G) l -> PDp G h d q.
Proof.
  intros G. unfold PSh. induction h as [|h IH]; intros d q h' l H HV HF; [destruct H|]. rewrite PDp_S in *.
  destruct H as (a & Hg & Hb). exists a. split; [exact Hg|].
  inversion HV as [? ? a' l0 Hg' Hb' | ? ? a' es ls Hg' Hb' HF2]; subst; rewrite Hg in Hg'; inversion Hg'; subst a'; rewrite Hb' in *.
  - split; [exact (proj1 Hb) | exact HF].
  - destruct Hb as [E Fe]. split; [exact E|]. apply Forall_concat in HF. rewrite Forall_forall in Fe. apply Forall_forall.
    intros e He. destruct (Forall2_In_l _ _ _ _ HF2 He) as (l0 & Hl0 & Hv). cbn beta in Hv.
    rewrite Forall_forall in HF. eapply IH; [apply Fe, He | exact Hv | apply HF, Hl0].
Qed.

Lemma PSh_PageView : forall h d q, PSh h d q -> exists l, PageView d h q l.
Proof.
  unfold PSh. induction h as [|h IH]; intros d q H; [destruct H|]. rewrite PDp_S in H. destruct H as (a & Hg & Hb).
  destruct (ap_body a) as [l|es] eqn:Eb.
  - exists l. eapply PV_leaf; eauto.
  - destruct Hb as [_ Fe].
    assert (Hls : exists ls, Forall2 (fun e l => PageView d h (snd e) l) es ls).
    { clear Eb. induction Fe as [|e es He _ IHe]; [exists []; constructor|].
      destruct IHe as [ls Hls]. destruct (IH _ _ He) as [l0 Hl0]. exists (l0 :: ls). now constructor. }
    destruct Hls as [ls Hls]. exists (concat ls). eapply PV_branch; eauto.
Qed.

Lemma Forall_dbk_fuel : forall d (l : list leafent),
  Forall (ent_ok (fun r => exists n, dbk n d r)) l -> exists n, Forall (ent_ok (dbk n d)) l.
Proof.
  intros d l H. apply (Forall_exists_fuel (fun n e => ent_ok (dbk n d) e)).
  - intros n m e Hle. apply ent_ok_mono. intros r Hr. exact (dbk_mono _ _ _ Hr _ Hle).
  - eapply Forall_impl; [|exact H]. intros [k v|k r nx]; [exists 0; exact I | auto].
Qed.

(* a committed bucket of uniform depth all of whose pages are kept has uniform depth on every disk that keeps them *)
Lemma dbk_kept : forall n m d d' keep r, (forall x, In x keep -> dget d' x = dget d x) ->
  dbk n d r -> ckept m d keep r -> dbk n d' r.
Proof.
  induction n as [|n IH]; intros m d d' keep r Hk Hd Hc; [destruct Hd|]. destruct m as [|m]; [destruct Hc|].
  cbn [dbk] in Hd. destruct Hd as [h Hh]. cbn [ckept] in Hc. destruct Hc as (Hsub & l & HV & HF).
  assert (Hk' : forall x, in_subtree d r x -> dget d' x = dget d x) by (intros x Hx; apply Hk, Hsub, Hx).
  cbn [dbk]. exists h. eapply PSh_view_PDp; [eapply PSh_transfer; [eapply PDp_PSh; exact Hh | exact Hk'] |
                                              eapply PageView_transfer; [exact HV | exact Hk'] |].
  pose proof (PDp_view _ _ _ _ _ _ Hh HV) as He. rewrite Forall_forall in *. intros e Hin.
  specialize (He e Hin). specialize (HF e Hin). destruct e as [k v|k r' nx]; [exact I|]. cbn [ent_ok] in *.
  eapply IH; eauto.
Qed.

(** * Buckets: shape through the parent updates of [spill_bucket]; clean buckets have no root node *)

Definition BSh (d : disk) (b : bucket) : Prop := BDpG TT d b.

Lemma BDp_BSh : forall d b, BDp d b -> BSh d b.
Proof.
  intros d b [h H]. exists h. destruct (b_rootn b); [eapply NDp_mono | eapply PDp_mono]; try exact H; intros; exact I.
Qed.

Lemma lop_ok_TT : forall o, lop_ok TT o.
Proof. intros [[k v|k r nx]|k]; exact I. Qed.

Lemma b_modify_BSh : forall d b o s b' s', BSh d b -> b_modify d b o s = Ok (b', s') -> BSh d b'.
Proof. intros d b o s b' s' HB H. exact (proj1 (b_modify_BDpG TT _ _ _ _ _ _ HB (lop_ok_TT o) H)). Qed.

Lemma meta_fold_BSh : forall d (ms : list meta) bb s0 b1 s2, BSh d bb ->
  fold_res (meta_step d) ms (bb, s0) = Ok (b1, s2) -> BSh d b1.
Proof.
  intros d. induction ms as [|[[nm r] nx] ms IH]; intros bb s0 b1 s2 HB H; cbn [fold_res] in H.
  - inversion H; subst. exact HB.
  - apply bind_ok_inv in H. destruct H as ([b' s'] & Est & H). eapply IH; [|exact H].
    unfold meta_step in Est. apply bind_ok_inv in Est. destruct Est as (cur & _ & Est). destruct cur as [e|].
    + destruct (is_kv e); [discriminate|]. eapply b_modify_BSh; eauto.
    + apply bind_ok_inv in Est. destruct Est as ([b2 s3] & Hm & Est). inversion Est; subst b' s'.
      destruct (b_modify_BSh _ _ _ _ _ _ HB Hm) as [h Hh]. exists h. exact Hh.
Qed.

(* a bucket that is not dirty has no root node (it was opened and never modified) *)
Fixpoint CNF (f : nat) (b : bucket) : Prop :=
  match f with O => False | S f' =>
    (b_dirty b = false -> b_rootn b = None) /\ Forall (fun x => CNF f' (snd x)) (b_subs b) end.

Lemma XDF_CNF : forall d R k b, XDF d R k b -> CNF k b.
Proof.
  intros d R. induction k as [|k IH]; intros b H; [destruct H|]. rewrite XDF_S in H. destruct H as (_ & A & _ & B).
  cbn [CNF]. split; [exact A|]. eapply Forall_impl; [|exact B]. intros x. apply IH.
Qed.

Lemma rebalance_CNF : forall f k d b s b' s', CNF k b -> rebalance f d b s = Ok (b', s') -> CNF k b'.
Proof.
  induction f as [|f IH]; intros k d b s b' s' HC H; [discriminate|]. rewrite rebalance_S in H.
  destruct (negb (is_dirty fuel0 b)); [inversion H; subst; exact HC|].
  apply bind_ok_inv in H. destruct H as ([subs' s1] & Ef & H).
  destruct k as [|k]; [destruct HC|]. cbn [CNF] in HC. destruct HC as [_ HS].
  destruct (merge_nodes_fields _ _ _ _ _ H) as (_ & Es & Ed). cbn [b_subs b_dirty] in Es, Ed.
  cbn [CNF]. split; [rewrite Ed; discriminate|]. rewrite Es.
  apply (reb_fold_inv f d (fun acc rest _ => Forall (fun x => CNF k (snd x)) acc /\ Forall (fun x => CNF k (snd x)) rest))
    in Ef; [apply Ef | | split; [constructor | exact HS]].
  intros acc x rest s0 bx sx [Ha Hr] Ex. inversion Hr as [|? ? Hx Hr']; subst. split; [|exact Hr'].
  apply Forall_app. split; [exact Ha|]. repeat constructor. cbn [snd]. eapply IH; eauto.
Qed.

(** * [spill_bucket] writes buckets of uniform depth *)

Section BucketDepth.
  Variables (d : disk) (keep : list N).
  Hypothesis Hz : dget d 0%N = None.

  Definition Gk (d' : disk) (r : N) : Prop := exists n, dbk n d' r.

  (* in every later state of the same transaction, committing would store a bucket of uniform depth at r *)
  Definition WrittenD (live A : list N) (s : txs) (r : N) : Prop :=
    forall s'' a2 d2 P, frame (A ++ live) s s'' a2 d2 -> Gk (apply_wr (wr s'') P d) r.

  Lemma WrittenD_later : forall live A s s1 a dd r,
    frame (A ++ live) s s1 a dd -> WrittenD live A s r -> WrittenD live (a ++ A) s1 r.
  Proof. intros live A s s1 a dd r Hf HW s'' a2 d2 P Hf2. exact (HW _ _ _ P (frame_later _ _ _ _ _ _ _ _ _ Hf Hf2)). Qed.

  Lemma WrittenD_kept : forall n m live A s r,
    fresh_inv (A ++ live) s -> (forall x, In x keep -> In x live) -> unwritten keep s ->
    dbk n d r -> ckept m d keep r -> WrittenD live A s r.
  Proof.
    intros n m live A s r Hfi Hk Hu Hd Hc s'' a2 d2 P Hf. exists n. eapply dbk_kept; [|exact Hd|exact Hc].
    apply unwritten_dget. exact (Henceforth_unwritten keep live A s Hfi Hk Hu s'' a2 d2 Hf).
  Qed.

  Definition RecD (rec : bucket -> txs -> list bytes -> res (N * N * txs * list bytes)) : Prop :=
    forall live b s ord r nx s' ord' m k, fresh_inv live s -> (forall x, In x keep -> In x live) -> unwritten keep s ->
      SReady d keep b -> OvlAbs d b m -> DD d b -> CNF k b -> rec b s ord = Ok (r, nx, s', ord') ->
      exists alloc dead, frame live s s' alloc dead /\ WrittenD live alloc s' r.

  Definition SubInvD (live : list N) (s : txs) (ms : list meta) (s0 : txs) : Prop :=
    exists A D, frame live s s0 A D /\ Forall (fun m : meta => WrittenD live A s0 (snd (fst m))) ms.

  Lemma sub_step_invD : forall live s subs rec k, RecD rec ->
    fresh_inv live s -> (forall x, In x keep -> In x live) -> unwritten keep s ->
    (forall nm sb, In (nm, sb) subs -> SReady d keep sb /\ (exists ms, OvlAbs d sb ms) /\ DD d sb /\ CNF k sb) ->
    forall ms s0 nm sb o r nx s' o', In (nm, sb) subs -> SubInvD live s ms s0 ->
      rec sb s0 o = Ok (r, nx, s', o') -> SubInvD live s (ms ++ [(nm, r, nx)]) s'.
  Proof.
    intros live s subs rec k HR Hfi Hk Hu Hsubs ms s0 nm sb o r nx s' o' Hin (A & D & Hfr & Hall) Hrec.
    destruct (Hsubs nm sb Hin) as (HS & [msb Hmsb] & HDD & HCN).
    assert (Hk' : forall x, In x keep -> In x (A ++ live)) by (intros y Hy; apply in_or_app; right; apply Hk, Hy).
    destruct (HR (A ++ live) sb s0 o r nx s' o' msb k (fr_fresh _ _ _ _ _ Hfr) Hk'
                   (frame_unwritten _ _ _ _ _ keep Hfi Hfr Hk Hu) HS Hmsb HDD HCN Hrec) as (a1 & d1 & Hf1 & HW).
    exists (a1 ++ A), (D ++ d1). split; [eapply frame_trans; eauto|].
    apply Forall_app. split.
    - eapply Forall_impl; [|exact Hall]. intros m0 X. eapply WrittenD_later; eauto.
    - repeat constructor. cbn [fst snd]. intros s'' a2 d2 P Hf2. rewrite <- app_assoc in Hf2. apply (HW s'' a2 d2 P Hf2).
  Qed.

  Lemma finish_Gk : forall d'' hh p lp, PSh hh d'' p -> EntsOf d'' p lp -> Forall (ent_ok (Gk d'')) lp -> Gk d'' p.
  Proof.
    intros d'' hh p lp Hs [K HK] HF. destruct (PSh_PageView _ _ _ Hs) as [l2 HV].
    destruct (PageView_EntsOf _ _ _ _ HV) as [K2 HK2].
    assert (E : l2 = lp). { rewrite <- (HK2 (Nat.max K K2)) by lia. apply HK. lia. }
    subst l2. destruct (Forall_dbk_fuel _ _ HF) as [n Hn]. exists (S n). cbn [dbk]. exists hh.
    eapply PSh_view_PDp; eauto.
  Qed.

  Lemma patched_good : forall d'' subs (ms : list meta) l,
    (forall m, In m ms -> Gk d'' (snd (fst m))) ->
    (forall x, In x subs -> In (fst x) (map m_name ms)) ->
    (forall k r nx, In (LBk k r nx) l -> sub_find k subs = None -> Gk d'' r) ->
    Forall (ent_ok (Gk d'')) (map (patch ms) l).
  Proof.
    intros d'' subs ms l Hms Hcov Hdisk. apply Forall_forall. intros e' He'. apply in_map_iff in He'.
    destruct He' as (e & <- & He). destruct e as [k v|k r nx]; cbn [patch]; [exact I|].
    destruct (find (fun m => beq (m_name m) k) ms) as [[[k1 r1] nx1]|] eqn:Ef.
    - apply find_some in Ef. destruct Ef as [E1 _]. cbn [ent_ok]. exact (Hms _ E1).
    - cbn [ent_ok]. exact (Hdisk k r nx He (unpatched_unopened _ _ _ Hcov Ef)).
  Qed.

  Lemma ckept_dget : forall m r, ckept m d keep r -> exists a, dget d r = Some a.
  Proof.
    intros [|m] r H; [destruct H|]. cbn [ckept] in H. destruct H as (_ & l & HV & _). inversion HV; subst; eauto.
  Qed.

  (* an entry that a leaf of uniform depth may hold ([Gd]) and that names a kept committed bucket names a
     committed bucket of uniform depth *)
  Lemma Gd_kept : forall m r, Gd d r -> ckept m d keep r -> exists n, dbk n d r.
  Proof.
    intros m r [-> | H] Hc; [|exact H]. destruct (ckept_dget _ _ Hc) as [a Ha]. congruence.
  Qed.

  Lemma PDp_Gd_kept : forall h m r, PDp (Gd d) h d r -> ckept m d keep r -> exists n, dbk n d r.
  Proof.
    intros h [|m] r HP Hc; [destruct Hc|]. cbn [ckept] in Hc. destruct Hc as (_ & l & HV & HF).
    pose proof (PDp_view _ _ _ _ _ _ HP HV) as He.
    assert (HF2 : Forall (ent_ok (fun r0 => exists n, dbk n d r0)) l).
    { rewrite Forall_forall in *. intros e Hin. specialize (He e Hin). specialize (HF e Hin).
      destruct e as [k v|k r' nx]; [exact I|]. cbn [ent_ok] in *. eapply Gd_kept; eauto. }
    destruct (Forall_dbk_fuel _ _ HF2) as [n Hn]. exists (S n). cbn [dbk]. exists h.
    eapply PSh_view_PDp; [eapply PDp_PSh; exact HP | exact HV | exact Hn].
  Qed.

  Lemma spill_tail_depth : forall live s A D s1 s2 h l subs (ms : list meta) rn p s3 hh,
    fresh_inv live s -> (forall x, In x keep -> In x live) -> unwritten keep s ->
    frame live s s1 A D -> same_but_seqc s1 s2 ->
    Inv h d false None None rn -> RRdy d keep rn -> NodeView d h rn (map (patch ms) l) -> SSh hh d rn ->
    Forall (fun m : meta => WrittenD live A s1 (snd (fst m))) ms ->
    (forall x, In x subs -> In (fst x) (map m_name ms)) ->
    (forall k r nx, In (LBk k r nx) l -> sub_find k subs = None -> exists n m, dbk n d r /\ ckept m d keep r) ->
    spill_root fuel0 rn s2 = Ok (p, s3) ->
    exists alloc dead, frame live s s3 alloc dead /\ WrittenD live alloc s3 p.
  Proof.
    intros live s A D s1 s2 h l subs ms rn p s3 hh Hfi Hk Hu Hfr Hs12 HI HR HV Hsh Hms Hcov Hdisk Hsp.
    pose proof (frame_seqc_r _ _ _ _ _ _ Hfr Hs12) as Hfr2.
    pose proof (fr_fresh _ _ _ _ _ Hfr2) as Hfi2.
    assert (Hk2 : forall x, In x keep -> In x (A ++ live)) by (intros y Hy; apply in_or_app; right; apply Hk, Hy).
    pose proof (frame_unwritten _ _ _ _ _ keep Hfi Hfr2 Hk Hu) as Hu2.
    pose proof (Inv_RRdy_root_ready _ _ _ _ HI HR) as Hrr.
    destruct (spill_root_view d keep (A ++ live) h rn _ fuel0 s2 p s3 (Inv_wf_node _ _ _ _ _ HI) HV Hrr Hfi2 Hsp)
      as (alloc & dead & good & lv & F1 & F2 & F3 & _ & _ & _ & F7).
    pose proof (root_ready_swf d keep h rn _ (Inv_wf_node _ _ _ _ _ HI) HV Hrr) as Hsw.
    destruct (spill_root_shape d keep h fuel0 (A ++ live) rn s2 p s3 hh Hfi2 Hsw Hsh Hsp) as [lv2 HL].
    exists (alloc ++ A), (D ++ dead). split; [eapply frame_trans; eauto|].
    intros s'' a2 d2 P Hf''. rewrite <- app_assoc in Hf''.
    destruct (frame_later_ok _ _ _ _ _ good keep s'' a2 d2 Hfi2 F1 F2 Hk2 Hu2 Hf'') as [G1 G2].
    apply (finish_Gk _ (lv2 + hh) p (map (patch ms) l)).
    - exact (laterU_later _ _ _ _ _ _ _ _ _ P HL Hf'' G2).
    - exists (lv + ndepth rn + h). intros F HF'. apply (F7 (wr s'') P G1 G2 F HF').
    - apply (patched_good _ subs); [|exact Hcov|].
      + intros m Hm. rewrite Forall_forall in Hms.
        apply (Hms m Hm s'' (a2 ++ alloc) (dead ++ d2) P). apply (frame_seqc_l _ _ _ _ _ _ Hs12). eapply frame_trans; eauto.
      + intros k r nx Hin Hsf. destruct (Hdisk k r nx Hin Hsf) as (n & m & Hd & Hc). exists n.
        eapply dbk_kept; [|exact Hd|exact Hc]. now apply unwritten_dget.
  Qed.

  Lemma is_dirty_false : forall b, is_dirty fuel0 b = false -> b_dirty b = false.
  Proof. intros b H. unfold fuel0 in H. rewrite is_dirty_S in H. apply orb_false_iff in H. tauto. Qed.

  Lemma RecD_step : forall f, RecD (spill_bucket f d) -> RecD (spill_bucket (S f) d).
  Proof.
    intros f HR live b s ord r nx s' ord' m k Hfi Hk Hu HS HO HDD HCN H.
    destruct (DD_inv _ _ HDD) as [HB HDsubs].
    destruct k as [|k]; [destruct HCN|]. cbn [CNF] in HCN. destruct HCN as [HCroot HCsubs].
    destruct (is_dirty fuel0 b) eqn:Ed.
    2:{ rewrite (spill_bucket_clean _ _ _ _ _ Ed) in H. inversion H; subst r nx s' ord'.
        inversion HS as [b0 _ (n & _ & Hc) _ | b0 h l Hd]; subst b0; [|congruence].
        exists [], []. split; [now apply frame_refl|].
        destruct HB as [hh HB]. rewrite (HCroot (is_dirty_false _ Ed)) in HB.
        destruct (PDp_Gd_kept _ _ _ HB Hc) as [n' Hn']. apply (WrittenD_kept n' n live [] s); auto. }
    destruct (SReady_dirty_inv d keep b m HS HO Ed) as (h & l & ents & Hh & HV & HD & Hnd & Hsubs & Hdisk & _).
    assert (Hsubs'' : forall nm sb, In (nm, sb) (b_subs b) ->
              SReady d keep sb /\ (exists ms, OvlAbs d sb ms) /\ DD d sb /\ CNF k sb).
    { intros nm sb Hin. destruct (Hsubs nm sb Hin) as (_ & X1 & X2). split; [exact X1|]. split; [exact X2|].
      rewrite Forall_forall in HDsubs, HCsubs. split; [exact (HDsubs _ Hin) | exact (HCsubs _ Hin)]. }
    (* the entries of the view name 0 or committed buckets of uniform depth *)
    assert (Hview : Forall (ent_ok (Gd d)) l).
    { destruct HB as [hh HB]. unfold BucketView in HV. destruct (b_rootn b) as [n0|]; [eapply NDp_view | eapply PDp_view]; eauto. }
    assert (Hdisk' : forall k0 r0 nx0, In (LBk k0 r0 nx0) l -> sub_find k0 (b_subs b) = None ->
              exists n m, dbk n d r0 /\ ckept m d keep r0).
    { intros k0 r0 nx0 Hin Hsf. destruct (Hdisk k0 r0 nx0 Hin Hsf) as (n & _ & Hc).
      rewrite Forall_forall in Hview. pose proof (Hview _ Hin) as Hg. cbn [ent_ok] in Hg.
      destruct (Gd_kept _ _ Hg Hc) as [n' Hn']. eauto. }
    destruct (spill_bucket_dirty_inv d keep f b s ord (r, nx, s', ord') h l (SubInvD live s) Ed Hh HV HD Hnd
                (fun nm sb Hin => proj1 (Hsubs nm sb Hin)))
      as (metas & s1 & ord1 & (A & D & Hfr & HmsD) & J3 & Hcov & Hall & HT); [| |exact H|].
    { exists [], []. split; [now apply frame_refl | constructor]. }
    { intros ms s0 nm sb o r1 nx1 s1 o1 Hin _. exact (sub_step_invD live s (b_subs b) _ k HR Hfi Hk Hu Hsubs'' ms s0 nm sb o r1 nx1 s1 o1 Hin). }
    inversion HT as [Ern Em HD1 HVp Eres | b1 s2 rn p s3 HSR Hf2 _ Ern B6 HI HRd B2 Hsp Eres]; subst.
    - (* the promoted root that was never loaded, no opened sub-bucket: the committed page is returned *)
      exists A, D. split; [exact Hfr|].
      destruct HB as [hh HB]. rewrite Ern in HB.
      intros s'' a2 d2 P Hf''.
      pose proof (Henceforth_unwritten keep live A s' (fr_fresh _ _ _ _ _ Hfr) Hk
                    (frame_unwritten _ _ _ _ _ keep Hfi Hfr Hk Hu) s'' a2 d2 Hf'') as Hu''.
      assert (Hag : forall x, in_subtree d (b_root_page b) x -> dget (apply_wr (wr s'') P d) x = dget d x).
      { intros x Hx. apply unwritten_dget with (keep := keep); [exact Hu'' | apply HD1, Hx]. }
      apply (finish_Gk _ hh (b_root_page b) l).
      + eapply PSh_transfer; [eapply PDp_PSh; exact HB | exact Hag].
      + eapply PageView_EntsOf. eapply PageView_transfer; [exact HVp | exact Hag].
      + rewrite <- (patch_nil l). apply (patched_good _ (b_subs b) []); [intros ? [] | exact Hcov |].
        intros k0 r0 nx0 Hin Hsf. destruct (Hdisk' k0 r0 nx0 Hin Hsf) as (n & m0 & Hd & Hc). exists n.
        eapply dbk_kept; [|exact Hd|exact Hc]. now apply unwritten_dget.
    - destruct (meta_fold_BSh d metas b s1 b1 s2 (BDp_BSh _ _ HB) Hf2) as [hh Hhh]. rewrite Ern in Hhh.
      exact (spill_tail_depth live s A D s1 s2 h l (b_subs b) metas rn r s' hh
               Hfi Hk Hu Hfr B6 HI HRd B2 (NDp_SSh _ _ _ _ Hhh) HmsD Hcov Hdisk' Hsp).
  Qed.

  Theorem spill_bucket_depth : forall f live b s ord r nx s' ord' m k,
    fresh_inv live s -> (forall x, In x keep -> In x live) -> unwritten keep s ->
    SReady d keep b -> OvlAbs d b m -> DD d b -> CNF k b -> spill_bucket f d b s ord = Ok (r, nx, s', ord') ->
    exists alloc dead, frame live s s' alloc dead /\ WrittenD live alloc s' r.
  Proof.
    intros f. assert (G : RecD (spill_bucket f d)).
    { induction f as [|f IH]; [|now apply RecD_step]. intros live b s ord r nx s' ord' m k _ _ _ _ _ _ _ H. discriminate. }
    exact G.
  Qed.
End BucketDepth.

(** * [commit], [run_tx], histories *)

Theorem run_tx_depth : forall st ops ord st', db_ok st -> dget (d_disk st) 0%N = None -> db_depth st ->
  Forall (op_ok (d_disk st)) ops -> run_tx st ops ord = Ok st' -> db_depth st'.
Proof.
  intros st ops ord st' [Hdb [R HA]] Hz Hdd Hops Hrun.
  destruct (ops_refine st ops (db_strict_pages_wf st Hdb) Hops) as (root' & s' & Hf & _ & Ha & Hfr).
  rewrite run_tx_fold, Hf in Hrun. cbn [bind fst snd] in Hrun. pose proof Hrun as Hc. unfold commit in Hc.
  apply bind_ok_inv in Hc. destruct Hc as ([b1 s1] & Hr & _).
  destruct (commit_ok_inv _ _ _ _ _ _ _ Hr Hrun) as (r & nx & s2 & ord' & flp & fln & s4 & Hsp & Hal & ->).
  destruct (rebalanced_ready st R ops root' s' b1 s1 _ Hdb HA Hf Ha Hfr Hr) as (Hfi & Hwr & HS & HO).
  assert (Hk : forall x, In x R -> In x (live_of st R)) by (intros x Hx; now apply R_live).
  assert (Hu : unwritten R s1) by (intros x _; rewrite Hwr; reflexivity).
  pose proof (rebalance_DD _ _ _ _ _ _ (tx_ops_DD st ops root' s' Hdb Hdd Hz Hf) Hr) as HDD.
  pose proof (rebalance_CNF _ _ _ _ _ _ _ (XDF_CNF _ _ _ _ (tx_ops_XDF st R ops root' s' Hdb HA Hf)) Hr) as HCN.
  destruct (spill_bucket_depth (d_disk st) R Hz fuel0 (live_of st R) b1 s1 ord r nx s2 ord' _ 9 Hfi Hk Hu HS HO HDD HCN Hsp)
    as (alloc & dead & F1 & HW).
  unfold db_depth. cbn [d_disk d_root].
  destruct (commit_tail_frame (alloc ++ live_of st R) _ _ _ _ _ _ (fr_fresh _ _ _ _ _ F1) Hal) as [G4 _].
  exact (HW s4 _ _ (psz s4) G4).
Qed.

Definition db_okd (st : db) : Prop := db_okz st /\ db_depth st.

Theorem init_db_okd : forall P, (0 < P)%N -> db_okd (init_db P).
Proof. intros P HP. split; [now apply init_db_okz | apply init_db_depth]. Qed.

Theorem run_tx_okd : forall st ops ord st', db_okd st -> Forall (op_ok (d_disk st)) ops ->
  run_tx st ops ord = Ok st' -> readable st' -> db_okd st'.
Proof.
  intros st ops ord st' [Hok Hdd] Hops Hrun Hrd. split; [eapply run_tx_okz; eauto|].
  destruct Hok as [Hok' Hz]. eapply run_tx_depth; eauto. now apply db_ok'_db_ok.
Qed.

Theorem run_txs_no_panic : forall txs st msg, db_okd st -> txs_ok' st txs -> run_txs st txs <> Panic msg.
Proof.
  induction txs as [|[ops ord] txs IH]; intros st msg Hok Htx; cbn [run_txs]; [discriminate|].
  destruct Htx as [Hops Hnext]. destruct Hok as [Hokz Hdd].
  pose proof (run_tx_no_panic st ops ord msg Hokz Hdd Hops) as Hnp.
  destruct (run_tx st ops ord) as [st1|m|e] eqn:E1; cbn [bind]; [|exact Hnp|discriminate].
  destruct (Hnext st1 eq_refl) as [Hrd Htx1].
  apply IH; [|exact Htx1]. eapply run_tx_okd; eauto. split; assumption.
Qed.

Corollary run_txs_okd : forall txs st st', db_okd st -> txs_ok' st txs -> run_txs st txs = Ok st' -> db_okd st'.
Proof.
  induction txs as [|[ops ord] txs IH]; intros st st' Hok Htx H; cbn [run_txs] in H.
  - inversion H; subst. exact Hok.
  - apply bind_ok_inv in H. destruct H as (st1 & H1 & H2). destruct Htx as [Hops Hnext].
    destruct (Hnext st1 H1) as [Hrd Htx1]. eapply IH; [|exact Htx1|exact H2]. eapply run_tx_okd; eauto.
Qed.

Corollary run_txs_no_panic_init : forall P txs msg, (0 < P)%N -> txs_ok' (init_db P) txs ->
  run_txs (init_db P) txs <> Panic msg.
Proof. intros P txs msg HP Htx. apply run_txs_no_panic; [now apply init_db_okd | exact Htx]. Qed.

(** * Examples; and a well-formed state WITHOUT uniform depth on which a transaction panics *)

Example ex3_st'_depth : db_depth Ex3R.ex3_st'.
Proof. apply db_depthb_ok. vm_compute. reflexivity. Qed.

Example hist_st_depth : db_depth ExHistory.hist_st.
Proof. apply db_depthb_ok. vm_compute. reflexivity. Qed.

Example hist_st_okd : db_okd ExHistory.hist_st.
Proof. split; [exact hist_st_okz | exact hist_st_depth]. Qed.

Example ex3_no_panic : forall ord msg, run_tx Ex3.ex3_db Ex3.ex3_ops ord <> Panic msg.
Proof.
  intros ord msg. apply run_tx_no_panic; [|exact ex3_db_depth|exact Ex3R.ex3_ops_ok].
  split; [exact ex3_db_ok' | reflexivity].
Qed.

Module CexDepth.
Import Ex3.
Local Open Scope N_scope.
(* a strict search tree whose leaves are NOT at the same depth: the root 3 has a leaf child (11) and a branch
   child (10 over the leaves 12, 13) *)
Definition cex_disk : disk :=
  [ (3, {| ap_over := 0; ap_body := Branches [(kb, 11); (kd, 10)] |});
    (10, {| ap_over := 0; ap_body := Branches [(kd, 12); (kf, 13)] |});
    (11, {| ap_over := 0; ap_body := Leaves [LKv kb [x01]; LKv kc [x02]] |});
    (12, {| ap_over := 0; ap_body := Leaves [LKv kd [x03]; LKv ke [x04]] |});
    (13, {| ap_over := 0; ap_body := Leaves [LKv kf [x05]; LKv kg [x06]] |}) ].
Definition cex_db : db :=
  {| d_disk := cex_disk; d_root := 3; d_next := 6; d_np := 14; d_fl := 2; d_fln := 1; d_flids := [];
     d_tx := 1; d_free := []; d_pending := []; d_psz := 4096 |}.

Example cex_strict : db_strict cex_db.
Proof.
  unfold db_strict. cbn [d_disk d_root cex_db sbk].
  exists 3%nat, (concat [[LKv kb [x01]; LKv kc [x02]]; concat [[LKv kd [x03]; LKv ke [x04]]; [LKv kf [x05]; LKv kg [x06]]]]).
  split; [unfold fuel0; lia|]. split; [|split; [|split]].
  - cbn [PInv]. eexists. split; [reflexivity|]. split; [exact I|]. cbn [ap_body].
    split; [discriminate|]. split; [reflexivity|]. split; [repeat constructor; cbn; intuition (try discriminate; try lia)|].
    split; [solve_inb|]. cbn [map fst cbounds cbs nxt lo0].
    apply Forall2_cons; [|apply Forall2_cons; [|apply Forall2_nil]]; cbn [fst snd]; [leaf_PInv|].
    eexists. split; [reflexivity|]. split; [reflexivity|]. cbn [ap_body].
    split; [discriminate|]. split; [reflexivity|]. split; [repeat constructor; cbn; intuition (try discriminate; try lia)|].
    split; [solve_inb|]. cbn [map fst cbounds cbs nxt lo0].
    apply Forall2_cons; [|apply Forall2_cons; [|apply Forall2_nil]]; cbn [fst snd]; leaf_PInv.
  - vm_compute. repeat constructor; cbn; intuition (try discriminate; try lia).
  - eapply PV_branch; [reflexivity | reflexivity |].
    apply Forall2_cons; [|apply Forall2_cons; [|apply Forall2_nil]]; [eapply PV_leaf; reflexivity|].
    eapply PV_branch; [reflexivity | reflexivity |].
    apply Forall2_cons; [|apply Forall2_cons; [|apply Forall2_nil]]; eapply PV_leaf; reflexivity.
  - cbn [concat app]. repeat constructor.
Qed.

Example cex_okz : db_okz cex_db.
Proof. split; [apply db_ok'b_ok; [exact cex_strict | vm_compute; reflexivity] | reflexivity]. Qed.

Definition cex_ops : list Engine.op := [Del [] kc].
Lemma cex_ops_ok : Forall (op_ok (d_disk cex_db)) cex_ops.
Proof. repeat constructor; cbn; lia. Qed.

(* deleting c leaves leaf 11 with one entry; rebalance merges it into its right sibling, the BRANCH page 10 *)
Example cex_panics : run_tx cex_db cex_ops [] = Panic kind_panic.
Proof. vm_compute. reflexivity. Qed.

(* so [db_okz] alone does not exclude panics: uniform depth is needed -- and [cex_db] does not have it *)
Example cex_not_depth : ~ db_depth cex_db.
Proof. intros H. exact (run_tx_no_panic cex_db cex_ops [] kind_panic cex_okz H cex_ops_ok cex_panics). Qed.

(* but no such state is ever committed by a history from [init_db] *)
Example cex_unreachable : forall P txs, (0 < P)%N -> txs_ok' (init_db P) txs -> run_txs (init_db P) txs <> Ok cex_db.
Proof.
  intros P txs HP Htx H. apply cex_not_depth. exact (proj2 (run_txs_okd txs _ _ (init_db_okd P HP) Htx H)).
Qed.
End CexDepth.

Print Assumptions spill_node_shape.
Print Assumptions spill_root_shape.
Print Assumptions spill_bucket_depth.
Print Assumptions run_tx_depth.
Print Assumptions run_tx_okd.
Print Assumptions run_txs_no_panic.
Print Assumptions run_txs_no_panic_init.
Print Assumptions CexDepth.cex_panics.
Print Assumptions CexDepth.cex_not_depth.
Print Assumptions ex3_no_panic.
Print Assumptions hist_st_okd.
Print Assumptions CexDepth.cex_unreachable.
