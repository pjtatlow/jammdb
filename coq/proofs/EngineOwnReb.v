(* Rebalance preserves the ownership invariant [OwnI] of the transaction overlay. The head pages are accounted for
   exactly: those the overlay tree names before are a permutation of those it names after together with the list [F]
   that [try_merge] / [merge_nodes] drop. The pages handed back are bounded both ways: each lies in the run of a
   page of [F], hence in the footprint of the bucket, and the whole run of every page of [F] other than page 0 is
   handed back. *)
From Coq Require Import List NArith Bool Arith Lia ZifyN ZifyNat ZifyBool Permutation.
From Coq.Strings Require Import Byte.
From Jamm Require Spec.
From Jamm Require Import ListFacts Bytes BytesFacts Tree Cursor SearchFacts Engine EngineAbs EngineFacts EngineMergeFacts.
From Jamm Require Import EngineModifyFacts EngineSpillFacts EnginePathFacts EngineBridgeFacts EngineRebalanceFacts.
From Jamm Require FreelistFacts EngineAllocFacts EngineSpillWfFacts.
From Jamm Require Import EngineTxInvFacts EngineSpillBucketFacts EngineRefines EngineOwnDefs.
Import ListNotations.
Import Coq.Strings.String.StringSyntax. Delimit Scope string_scope with string.
Local Open Scope list_scope. Local Open Scope nat_scope.
Set Warnings "-abstract-large-number".

(** * The state properties threaded through rebalance *)

(* every pending page was handed back by the running transaction *)
Definition pend_cur (s : txs) : Prop := forall x, In x (pend_all (pending s)) -> freed_in_tx s x = true.

(* the two properties of the pending list that rebalance keeps *)
Definition pst (s : txs) : Prop := pend_ids_ok s /\ pend_cur s.

Lemma freed_bump : forall s x, freed_in_tx (bump s) x = freed_in_tx s x.
Proof. reflexivity. Qed.

Lemma pst_bump : forall s, pst s -> pst (bump s).
Proof. intros s [A B]. split; [exact A | exact B]. Qed.

Lemma pst_free_node_page : forall s k, pst s -> pst (free_node_page s k).
Proof.
  intros s k [A B]. split; [now apply free_node_page_pend_ids|].
  intros x Hx. apply free_node_page_pend_all in Hx. apply free_node_page_freed.
  destruct Hx as [Hx | Hx]; [left; now apply B | now right].
Qed.

Lemma pst_merge_tx : forall s k s', merge_tx s k s' -> pst s -> pst s'.
Proof.
  intros s k s' [-> | [-> | ->]] H; [exact H | now apply pst_free_node_page |].
  apply pst_free_node_page. now apply pst_bump.
Qed.

(* what a merge hands back: the old run of the merged node *)
Lemma merge_tx_freed : forall s k s' x, merge_tx s k s' -> freed_in_tx s' x = true ->
  freed_in_tx s x = true \/ old_run k x.
Proof.
  intros s k s' x [-> | [-> | ->]] H; [now left | now apply free_node_page_freed in H |].
  apply free_node_page_freed in H. rewrite freed_bump in H. exact H.
Qed.

(* with [pg_ok], the old run of a node is the run of its page on the committed disk *)
Lemma pg_ok_inv : forall d n, pg_ok d n ->
  (n_page n <> 0%N -> exists a, dget d (n_page n) = Some a /\ n_np n = (ap_over a + 1)%N) /\
  (forall k, In k (n_kids n) -> pg_ok d k).
Proof. intros d n H. inversion H; subst. split; assumption. Qed.

Lemma pg_old_run : forall d k x, pg_ok d k -> old_run k x -> In x (prun d (n_page k)).
Proof.
  intros d k x H [Hnz Hx]. destruct (pg_ok_inv _ _ H) as [Hp _]. destruct (Hp Hnz) as (a & Hg & Hn).
  unfold prun. rewrite Hg. apply In_nrun. lia.
Qed.

(** * [pg_ok] through [try_merge] *)

Lemma pg_ok_same_page : forall d n n', pg_ok d n -> n_page n' = n_page n -> n_np n' = n_np n ->
  (forall k, In k (n_kids n') -> pg_ok d k) -> pg_ok d n'.
Proof.
  intros d n n' H Ep En Hk. destruct (pg_ok_inv _ _ H) as [Hp _]. constructor; [|exact Hk].
  rewrite Ep, En. exact Hp.
Qed.

Lemma pg_ok_replace_kids : forall d ks k, (forall x, In x ks -> pg_ok d x) -> pg_ok d k ->
  forall x, In x (replace_kid ks k) -> pg_ok d x.
Proof. intros d ks k Hks Hk x Hx. apply replace_kid_In in Hx. destruct Hx as [-> | Hx]; auto. Qed.

Lemma try_merge_pg_ok : forall d par k s par' s', try_merge d par k s = Ok (par', s') ->
  pg_ok d par -> pg_ok d k -> pg_ok d par'.
Proof.
  intros d par k s par' s' H Hpar Hk. destruct (pg_ok_inv _ _ Hpar) as [_ Hks]. destruct (pg_ok_inv _ _ Hk) as [_ Hkk].
  assert (Hfilt : forall x, In x (filter (not_seq (n_seq k)) (n_kids par)) -> pg_ok d x).
  { intros x Hx. apply filter_In in Hx. apply Hks, Hx. }
  assert (Hbuild : forall dd ks1, (forall x, In x ks1 -> pg_ok d x) -> pg_ok d (set_kids (set_data par dd) ks1)).
  { intros dd ks1 H1. apply (pg_ok_same_page d par); [exact Hpar | destruct par; reflexivity | destruct par; reflexivity |].
    replace (n_kids (set_kids (set_data par dd) ks1)) with ks1 by (destruct par; reflexivity). exact H1. }
  pose proof (try_merge_cases d par k s) as C. rewrite H in C.
  destruct C as [Hpos | es ok idx Ed Hz Eo Eb | es idx kq q sib s1 isnew md _ Hso _].
  - apply (pg_ok_same_page d par); [exact Hpar | destruct par; reflexivity | destruct par; reflexivity |].
    replace (n_kids (set_kids par (replace_kid (n_kids par) k))) with (replace_kid (n_kids par) k) by (destruct par; reflexivity).
    now apply pg_ok_replace_kids.
  - apply Hbuild, Hfilt.
  - assert (Hsib : pg_ok d sib).
    { pose proof (sib_of_res d (n_kids par) q s) as R. rewrite Hso in R.
      destruct R as [(_ & Hf & _) | (_ & _ & _ & a & Hg & ->)]; [apply Hks; eapply find_kid_In; eauto | now apply pg_ok_node_of_page]. }
    assert (Hsib' : pg_ok d (merged_sib sib k md idx)).
    { destruct (merged_sib_eq sib k md idx) as [o' ->]. destruct (pg_ok_inv _ _ Hsib) as [_ Hsk].
      apply (pg_ok_same_page d sib); [exact Hsib | reflexivity | reflexivity |]. cbn [n_kids].
      intros x Hx. apply in_app_or in Hx. destruct Hx; auto. }
    apply Hbuild. unfold kids_merged. destruct isnew.
    + intros x Hx. apply in_app_or in Hx. destruct Hx as [Hx | [<- | []]]; [now apply Hfilt | exact Hsib'].
    + now apply pg_ok_replace_kids.
Qed.

(** * [rebalance_kids]: the head pages dropped, and a bound on the pages handed back *)

Lemma perm_mid : forall {T} (A X X' B F : list T), Permutation X (F ++ X') ->
  Permutation (A ++ X ++ B) (F ++ A ++ X' ++ B).
Proof.
  intros T A X X' B F HP. etransitivity; [apply Permutation_app_head; apply Permutation_app_tail; exact HP|].
  rewrite <- app_assoc. apply Permutation_app_swap_app.
Qed.

(* replacing a kid by a version that names fewer pages *)
Lemma kid_replaced_perm : forall h d p np og sq es ks k k1 F,
  NoDup (map snd es) -> kids_linked es ks -> In k ks -> n_page k1 = n_page k ->
  Permutation (npages h d k) (F ++ npages h d k1) ->
  Permutation (npages (S h) d (Node p np og sq (Branches es) ks))
              (F ++ npages (S h) d (Node p np og sq (Branches es) (replace_kid ks k1))).
Proof.
  intros h d p np og sq es ks k k1 F Hnd Hlk Hkin Ep HP.
  destruct (npages_kid_replaced h d p np og sq es ks k k1 Hnd Hlk Hkin Ep) as (A & B & -> & ->).
  now apply perm_mid.
Qed.

(* nothing happens, or the page of k is handed back *)
Lemma try_merge_frees : forall d par k s par' s', try_merge d par k s = Ok (par', s') ->
  (par' = set_kids par (replace_kid (n_kids par) k) /\ s' = s) \/
  (s' = free_node_page s k \/ s' = free_node_page (bump s) k).
Proof.
  intros d par k s par' s' H. pose proof (try_merge_cases d par k s) as C. rewrite H in C.
  destruct C as [Hpos | es ok idx Ed Hz Eo Eb | es idx kq q sib s1 isnew md _ Hso _]; [now left | right; now left | right].
  pose proof (sib_of_res d (n_kids par) q s) as R. rewrite Hso in R.
  destruct R as [(_ & _ & ->) | (_ & _ & -> & _)]; [now left | now right].
Qed.

(* with [pg_ok], the run of the page of a node on the committed disk is its old run *)
Lemma pg_prun_old : forall d k x, pg_ok d k -> n_page k <> 0%N -> In x (prun d (n_page k)) -> old_run k x.
Proof.
  intros d k x H Hnz Hx. destruct (pg_ok_inv _ _ H) as [Hp _]. destruct (Hp Hnz) as (a & Hg & Hn).
  unfold prun in Hx. rewrite Hg in Hx. apply In_nrun in Hx. split; [exact Hnz | lia].
Qed.

Lemma merge_freed_gone : forall d s k s', pg_ok d k -> (s' = free_node_page s k \/ s' = free_node_page (bump s) k) ->
  n_page k <> 0%N -> forall x, In x (prun d (n_page k)) -> freed_in_tx s' x = true.
Proof.
  intros d s k s' Hpg Hs Hnz x Hx. pose proof (pg_prun_old d k x Hpg Hnz Hx) as Ho.
  destruct Hs as [->| ->]; apply free_node_page_freed; now right.
Qed.

Lemma merge_tx_mono : forall s k s' x, merge_tx s k s' -> freed_in_tx s x = true -> freed_in_tx s' x = true.
Proof.
  intros s k s' x [->|[->| ->]] H; [exact H | apply free_node_page_freed; now left|].
  apply free_node_page_freed. left. now rewrite freed_bump.
Qed.

(* [rebalance_kids]: the named pages that disappear are [F]; what is handed back is exactly the runs of [F] *)
Definition RKX (h : nat) (d : disk) (s : txs) (n n' : node) (s' : txs) : Prop :=
  exists F, Permutation (npages h d n) (F ++ npages h d n') /\
    (forall x, freed_in_tx s' x = true -> freed_in_tx s x = true \/ In x (runs d F)) /\
    pg_ok d n' /\ pst s' /\
    (forall x, freed_in_tx s x = true -> freed_in_tx s' x = true) /\
    (forall q, In q F -> q <> 0%N -> forall x, In x (prun d q) -> freed_in_tx s' x = true).

Definition RKX_IH (f : nat) : Prop :=
  forall h d s z lo hi n l n' s',
    Inv h d z lo hi n -> is_leaf (n_data n) = false -> NodeView d h n l ->
    NoDup (npages h d n) -> NoDup (seqs n) -> Forall (fun x => (x < seqc s)%N) (seqs n) ->
    pg_ok d n -> pst s ->
    rebalance_kids f d n s = Ok (n', s') -> RKX h d s n n' s'.

Lemma RKX_refl : forall h d s n, pg_ok d n -> pst s -> RKX h d s n n s.
Proof. intros h d s n H1 H2. exists []. cbn [app]. split; [reflexivity|]. split; [now left|].
  split; [assumption|]. split; [assumption|]. split; [auto | intros q []].
Qed.

Lemma In_runs_app_l : forall d A B x, In x (runs d A) -> In x (runs d (A ++ B)).
Proof. intros. rewrite runs_app. apply in_or_app. now left. Qed.
Lemma In_runs_app_r : forall d A B x, In x (runs d B) -> In x (runs d (A ++ B)).
Proof. intros. rewrite runs_app. apply in_or_app. now right. Qed.

Lemma rkx_step : forall f h0 d s lo hi n l n0 s0 k k1 s1 n1 s1',
  RKX_IH f ->
  Forall (fun x => (x < seqc s)%N) (seqs n) ->
  RKPost (S h0) d s lo hi n l n0 s0 -> is_leaf (n_data n0) = false ->
  RKX (S h0) d s n n0 s0 ->
  In k (n_kids n0) ->
  (if is_leaf (n_data k) then Ok (k, s0) else rebalance_kids f d k s0) = Ok (k1, s1) ->
  try_merge d (set_kids n0 (replace_kid (n_kids n0) k1)) k1 s1 = Ok (n1, s1') ->
  RKX (S h0) d s n n1 s1'.
Proof.
  intros f h0 d s lo hi n l n0 s0 k k1 s1 n1 s1' IHX Hlt HP Hlf (F0 & HP0 & HF0 & Hpg0 & Hst0 & HM0 & HG0) Hkin Hk1 Hm.
  destruct n0 as [p0 np0 og0 sq0 [l0|es0] ks0]; [discriminate|]. cbn [n_kids set_kids] in *.
  destruct (rk_prep f h0 d s lo hi n l p0 np0 og0 sq0 es0 ks0 s0 k k1 s1 (rebalance_kids_view f) Hlt HP Hkin Hk1)
    as ((lo' & hi' & lk & Ik & Vk & Npk & Nsk & Hltk) & (E1 & _) & _ & R1 & R2 & R3 & R4 & _ & R6 & _ & Hlt1).
  destruct (pg_ok_inv _ _ Hpg0) as [_ Hpgk0]. cbn [n_kids] in Hpgk0. pose proof (Hpgk0 k Hkin) as Hpgk.
  assert (Hk : RKX h0 d s0 k k1 s1).
  { destruct (is_leaf (n_data k)) eqn:Elf.
    - inversion Hk1; subst k1 s1. now apply RKX_refl.
    - exact (IHX h0 d s0 true lo' hi' k lk k1 s1 Ik Elf Vk Npk Nsk Hltk Hpgk Hst0 Hk1). }
  destruct Hk as (Fk & HPk & HFk & Hpg1 & Hst1 & HMk & HGk).
  pose proof (try_merge_step h0 d s1 lo hi p0 np0 og0 sq0 es0 _ k1 l n1 s1' R1 R2 R3 R4 R6 Hlt1 Hm)
    as (_ & _ & _ & _ & _ & _ & _ & _ & _ & _ & T11 & TX).
  destruct HP as (HI & _). rewrite Inv_branch_eq in HI. destruct HI as (_ & _ & Hnd0 & _ & Hlk0 & _).
  pose proof (kid_replaced_perm h0 d p0 np0 og0 sq0 es0 ks0 k k1 Fk Hnd0 Hlk0 Hkin E1 HPk) as HPr.
  assert (Hpg0' : pg_ok d (Node p0 np0 og0 sq0 (Branches es0) (replace_kid ks0 k1))).
  { apply (pg_ok_same_page d _ _ Hpg0); [reflexivity | reflexivity |]. cbn [n_kids]. now apply pg_ok_replace_kids. }
  pose proof (try_merge_pg_ok _ _ _ _ _ _ Hm Hpg0' Hpg1) as Hpgn1.
  pose proof (pst_merge_tx _ _ _ T11 Hst1) as Hst1'.
  assert (Hfr1 : forall x, freed_in_tx s1 x = true -> freed_in_tx s x = true \/ In x (runs d (F0 ++ Fk))).
  { intros x Hx. destruct (HFk x Hx) as [H | H]; [|right; now apply In_runs_app_r].
    destruct (HF0 x H) as [H' | H']; [now left | right; now apply In_runs_app_l]. }
  assert (Hm01 : forall x, freed_in_tx s x = true -> freed_in_tx s1 x = true) by (intros x Hx; apply HMk, HM0, Hx).
  assert (Hm1' : forall x, freed_in_tx s1 x = true -> freed_in_tx s1' x = true).
  { intros x Hx. eapply merge_tx_mono; eauto. }
  assert (HG01 : forall q, In q (F0 ++ Fk) -> q <> 0%N -> forall x, In x (prun d q) -> freed_in_tx s1' x = true).
  { intros q Hq Hnz x Hx. apply Hm1'. apply in_app_or in Hq.
    destruct Hq as [Hq|Hq]; [apply HMk, (HG0 q Hq Hnz x Hx) | exact (HGk q Hq Hnz x Hx)]. }
  destruct TX as [[-> ->] | HT].
  - exists (F0 ++ Fk). split; [|split; [exact Hfr1|]].
    + rewrite HP0, HPr. now rewrite app_assoc.
    + split; [assumption|]. split; [assumption|]. split; [exact Hm01 | exact HG01].
  - exists ((F0 ++ Fk) ++ [n_page k1]). split; [|split; [|split; [assumption | split; [assumption | split]]]].
    + rewrite HP0, HPr, <- HT. rewrite <- !app_assoc. reflexivity.
    + intros x Hx. destruct (merge_tx_freed _ _ _ _ T11 Hx) as [H | H].
      * destruct (Hfr1 x H) as [H' | H']; [now left | right; now apply In_runs_app_l].
      * right. apply In_runs_app_r. apply In_runs. exists (n_page k1). split; [now left | now apply pg_old_run].
    + intros x Hx. apply Hm1', Hm01, Hx.
    + intros q Hq Hnz. apply in_app_or in Hq. destruct Hq as [Hq|[<-|[]]]; [now apply HG01|].
      destruct (try_merge_frees _ _ _ _ _ _ Hm) as [[En1 Es1]|Hfree].
      * exfalso. cbn [n_kids set_kids] in En1.
        rewrite (replace_kid_id (replace_kid ks0 k1) k1) in En1 by (apply find_kid_NoDup; [apply R1 | exact R2]).
        subst n1. exact (Nat.neq_succ_diag_l _ (Permutation_length HT)).
      * eapply merge_freed_gone; eauto.
Qed.

Theorem rebalance_kids_x : forall fuel, RKX_IH fuel.
Proof.
  induction fuel as [|f IH]; intros h d s z lo hi n l n' s' HI Hlf HV Np Ns Hlt Hpg Hst H; [discriminate|].
  destruct (Inv_height _ _ _ _ _ _ HI) as [h0 ->].
  destruct (rk_loop f h0 d s lo hi n l (fun _ n0 s0 => RKX (S h0) d s n n0 s0) (rebalance_kids_view f) Hlt)
    with (z := z) (n' := n') (s' := s') as (_ & _ & HX); try assumption.
  - auto.
  - intros rest n0 s0 k k1 s1 n1 s1' HP0 Hlf0 Hkin HK0 Ek E. eapply rkx_step; eauto.
  - now apply RKX_refl.
Qed.

(** * [merge_nodes]: exact accounting on the heads of the bucket *)

Definition hdl (n : node) : list N := if (n_page n =? 0)%N then [] else [n_page n].

Lemma bheads_some : forall d b n, b_rootn b = Some n -> bheads d b = hdl n ++ npages fuel0 d n.
Proof. intros d b n E. unfold bheads, hdl. now rewrite E. Qed.
Lemma bheads_none : forall d b, b_rootn b = None -> bheads d b = b_root_page b :: ppages fuel0 d (b_root_page b).
Proof. intros d b E. unfold bheads. now rewrite E. Qed.

Lemma hd_split : forall (q : N) (X : list N),
  exists Z, Permutation (q :: X) (Z ++ (if (q =? 0)%N then [] else [q]) ++ X) /\ forall z, In z Z -> z = 0%N.
Proof.
  intros q X. destruct (N.eqb_spec q 0) as [E|E].
  - exists [q]. split; [reflexivity|]. intros z [<-|[]]. exact E.
  - exists []. split; [reflexivity | intros z []].
Qed.

Lemma ensure_root_own : forall h d s b l root s0, BInv h d s b -> BucketView d h b l -> h <= fuel0 ->
  bpg_ok d b -> pst s -> ensure_root d b s = Ok (root, s0) ->
  (exists Z, Permutation (bheads d b) (Z ++ hdl root ++ npages h d root) /\ forall z, In z Z -> z = 0%N) /\
  pg_ok d root /\ pst s0 /\ (forall x, freed_in_tx s0 x = freed_in_tx s x).
Proof.
  intros h d s b l root s0 HB HV Hh Hpg Hst H. pose proof (ensure_root_cases d b s) as C. rewrite H in C.
  unfold BInv, bpg_ok in *. destruct C as [[En ->] | (En & -> & a & Ha & ->)]; rewrite En in HB, Hpg.
  - split; [|split; [exact Hpg | split; [exact Hst | reflexivity]]].
    exists []. cbn [app]. split; [|intros z []]. rewrite (bheads_some _ _ _ En). destruct HB as (HI & _).
    now rewrite (npages_stable _ _ _ _ _ _ HI fuel0 Hh).
  - destruct HB as [HP Hnp]. split; [|split; [now apply pg_ok_node_of_page | split; [exact Hst | reflexivity]]].
    rewrite (bheads_none _ _ En), (node_of_page_npages h d _ a _ Ha), (ppages_stable _ _ _ _ _ _ HP fuel0 Hh).
    unfold hdl, node_of_page. cbn [n_page]. apply hd_split.
Qed.

Lemma root1_own : forall h d s0 root l root1 s1, RInv h d s0 false root -> NodeView d h root l ->
  pg_ok d root -> pst s0 ->
  (if is_leaf (n_data root) then Ok (root, s0) else rebalance_kids fuel0 d root s0) = Ok (root1, s1) ->
  RKX h d s0 root root1 s1 /\ n_page root1 = n_page root.
Proof.
  intros h d s0 root l root1 s1 (HI & Hnp & Hsq & Hlt) HV Hpg Hst H. destruct (is_leaf (n_data root)) eqn:Elf.
  - inversion H; subst. split; [now apply RKX_refl | reflexivity].
  - pose proof (rebalance_kids_view fuel0 h d s0 false None None root l root1 s1 HI Elf HV Hnp Hsq Hlt H)
      as (_ & _ & R3 & _).
    split; [|exact R3]. exact (rebalance_kids_x fuel0 h d s0 false None None root l root1 s1 HI Elf HV Hnp Hsq Hlt Hpg Hst H).
Qed.

(* the last step of [merge_nodes]: root collapse / emptied root / nothing *)
Lemma merge_tail_own : forall h d b root1 s1 b' s', h <= fuel0 -> Inv h d true None None root1 ->
  pg_ok d root1 -> pst s1 -> mn_tail b root1 s1 b' s' ->
  exists FC, Permutation (hdl root1 ++ npages h d root1) (FC ++ bheads d b') /\ bpg_ok d b' /\
    (forall x, freed_in_tx s' x = true -> freed_in_tx s1 x = true \/ In x (runs d FC)) /\ pst s' /\
    (forall x, freed_in_tx s1 x = true -> freed_in_tx s' x = true) /\
    (forall q, In q FC -> q <> 0%N -> forall x, In x (prun d q) -> freed_in_tx s' x = true).
Proof.
  intros h d b root1 s1 b' s' Hh HI1 Hpg Hst T.
  destruct (Inv_height _ _ _ _ _ _ HI1) as [h0 Eh]. subst h.
  destruct T as [k0 q Ed | Ed | Ed].
  - destruct root1 as [p1 np1 og1 sq1 dd ks1]. cbn [n_data n_kids] in *. subst dd.
    pose proof (Inv_single_child _ _ _ _ _ _ _ _ _ _ _ _ HI1) as Cq.
    rewrite npages_branch_eq. cbn [map snd flat_map]. rewrite app_nil_r. unfold cpages.
    destruct (pg_ok_inv _ _ Hpg) as [_ Hkids]. cbn [n_kids] in Hkids.
    set (R1 := Node p1 np1 og1 sq1 (Branches [(k0, q)]) ks1) in *.
    assert (Hfr : forall x, freed_in_tx (free_node_page s1 R1) x = true ->
                    freed_in_tx s1 x = true \/ In x (runs d (hdl R1))).
    { intros x Hx. apply free_node_page_freed in Hx. destruct Hx as [Hx | Hx]; [now left | right].
      pose proof (pg_old_run _ _ _ Hpg Hx) as Hr. destruct Hx as [Hnz _]. unfold hdl.
      destruct (N.eqb_spec (n_page R1) 0) as [E|_]; [contradiction|].
      apply In_runs. eexists. split; [now left | exact Hr]. }
    assert (Hmono : forall x, freed_in_tx s1 x = true -> freed_in_tx (free_node_page s1 R1) x = true).
    { intros x Hx. apply free_node_page_freed. now left. }
    assert (Hgone : forall z, In z (hdl R1) -> z <> 0%N -> forall x, In x (prun d z) -> freed_in_tx (free_node_page s1 R1) x = true).
    { intros z Hz Hnz. unfold hdl in Hz. destruct (N.eqb_spec (n_page R1) 0) as [E|E]; [destruct Hz|].
      destruct Hz as [<-|[]]. intros x Hx. apply free_node_page_freed. right. eapply pg_prun_old; eauto. }
    destruct (find_kid q ks1) as [kd|] eqn:Ef.
    + destruct (find_kid_In _ _ _ Ef) as [Hkdin Hkdp].
      destruct (hd_split q (npages h0 d kd)) as (Zq & HZ & HZ0).
      exists (hdl R1 ++ Zq).
      split; [|split; [|split; [|split; [now apply pst_free_node_page | split; [exact Hmono|]]]]].
      * unfold bheads. cbn [b_rootn]. rewrite (npages_stable _ _ _ _ _ _ Cq fuel0 ltac:(lia)), Hkdp.
        rewrite HZ. now rewrite app_assoc.
      * unfold bpg_ok. cbn [b_rootn]. now apply Hkids.
      * intros x Hx. destruct (Hfr x Hx) as [A | A]; [now left | right; now apply In_runs_app_l].
      * intros z Hz Hnz. apply in_app_or in Hz. destruct Hz as [Hz|Hz]; [now apply Hgone|].
        exfalso. apply Hnz, HZ0, Hz.
    + exists (hdl R1).
      split; [|split; [exact I | split; [exact Hfr | split; [now apply pst_free_node_page | split; [exact Hmono | exact Hgone]]]]].
      unfold bheads. cbn [b_rootn b_root_page].
      now rewrite (ppages_stable _ _ _ _ _ _ Cq fuel0 ltac:(lia)).
  - exists []. cbn [app]. split; [|split; [|split; [now left | split; [exact Hst | split; [auto | intros q []]]]]].
    + unfold bheads, hdl. cbn [b_rootn]. destruct root1 as [p1 np1 og1 sq1 dd ks1]. cbn [n_data] in Ed. subst dd. reflexivity.
    + unfold bpg_ok. cbn [b_rootn]. apply (pg_ok_same_page d root1); [exact Hpg | destruct root1; reflexivity | destruct root1; reflexivity |].
      destruct (pg_ok_inv _ _ Hpg) as [_ Hkids]. destruct root1; exact Hkids.
  - exists []. cbn [app]. split; [|split; [exact Hpg | split; [now left | split; [exact Hst | split; [auto | intros q []]]]]].
    unfold bheads, hdl. cbn [b_rootn]. now rewrite (npages_stable _ _ _ _ _ _ HI1 fuel0 Hh).
Qed.

Theorem merge_nodes_own : forall h d s b l b' s', BInv h d s b -> BucketView d h b l -> h <= fuel0 ->
  bpg_ok d b -> pst s -> merge_nodes d b s = Ok (b', s') ->
  exists F, Permutation (bheads d b) (F ++ bheads d b') /\ bpg_ok d b' /\
    (forall x, freed_in_tx s' x = true -> freed_in_tx s x = true \/ In x (runs d F)) /\ pst s' /\
    (forall x, freed_in_tx s x = true -> freed_in_tx s' x = true) /\
    (forall q, In q F -> q <> 0%N -> forall x, In x (prun d q) -> freed_in_tx s' x = true).
Proof.
  intros h d s b l b' s' HB HV Hh Hpg Hst H.
  destruct (merge_nodes_ok_inv _ _ _ _ _ H) as (root & s0 & root1 & s1 & Er & E1 & T).
  destruct (ensure_root_RInv _ _ _ _ _ _ _ HB HV Er) as (HR & HVr & _).
  destruct (ensure_root_own _ _ _ _ _ _ _ HB HV Hh Hpg Hst Er) as ((Z & HZ & HZ0) & Hpgr & Hst0 & Hfr0).
  destruct (root1_RInv _ _ _ _ _ _ _ HR HVr E1) as ((HI1 & _) & _ & _).
  destruct (root1_own _ _ _ _ _ _ _ HR HVr Hpgr Hst0 E1) as ((F1 & HP1 & HF1 & Hpg1 & Hst1 & HM1 & HG1) & Ep1).
  destruct (merge_tail_own h d b root1 s1 b' s' Hh HI1 Hpg1 Hst1 T) as (FC & HPC & Hpg' & HFC & Hst' & HMC & HGC).
  exists ((Z ++ F1) ++ FC). split; [|split; [exact Hpg' | split; [|split; [exact Hst' | split]]]].
  - rewrite HZ, HP1. rewrite <- !app_assoc. rewrite <- HPC. unfold hdl. rewrite Ep1.
    apply Permutation_app_head. apply Permutation_app_swap_app.
  - intros x Hx. destruct (HFC x Hx) as [A | A]; [|right; now apply In_runs_app_r].
    destruct (HF1 x A) as [A' | A']; [left; now rewrite <- Hfr0 | right; apply In_runs_app_l; now apply In_runs_app_r].
  - intros x Hx. apply HMC, HM1. now rewrite Hfr0.
  - intros q Hq Hnz x Hx. apply in_app_or in Hq. destruct Hq as [Hq|Hq]; [|exact (HGC q Hq Hnz x Hx)].
    apply in_app_or in Hq. destruct Hq as [Hq|Hq]; [exfalso; apply Hnz, HZ0, Hq|].
    apply HMC. exact (HG1 q Hq Hnz x Hx).
Qed.

(** * Footprints of the entries of a bucket; the frame lemma of [OwnI] *)

(* page 0 is not a bucket root with nested buckets (it is never a tree page: [dget d 0 = None] suffices).
   Without this, [OwnI d n s b 0] could claim the footprint of a committed bucket for a bucket created by the
   running transaction, and rebalancing a sibling would break it. *)
Definition zero_ok (d : disk) : Prop := forall k r nx, In (LBk k r nx) (page_ents fuel0 d 0%N) -> r = 0%N.

Lemma zero_ok_missing : forall d, dget d 0%N = None -> zero_ok d.
Proof. intros d H k r nx Hin. unfold fuel0 in Hin. cbn [page_ents] in Hin. rewrite H in Hin. destruct Hin. Qed.

Lemma foot_zero : forall d n, foot d n 0%N = [].
Proof. reflexivity. Qed.

Lemma foot_S_eq : forall d n r0, r0 <> 0%N ->
  foot d (S n) r0 = region d r0 ++
    flat_map (fun e => runs d (match e with LBk _ r' _ => fpg n d r' | LKv _ _ => [] end)) (page_ents fuel0 d r0).
Proof.
  intros d n r0 H. unfold foot, region. destruct (N.eqb_spec r0 0); [contradiction|].
  now rewrite fpg_S, runs_app, runs_flat_map.
Qed.

Lemma ent_foot_in : forall d n r0 k r nx x, zero_ok d ->
  (r = 0%N \/ In (LBk k r nx) (page_ents fuel0 d r0)) -> In x (foot d n r) -> In x (foot d (S n) r0).
Proof.
  intros d n r0 k r nx x Hz [-> | He] Hx; [destruct Hx|].
  destruct (N.eq_dec r0 0) as [-> | Hr0]; [rewrite (Hz _ _ _ He) in Hx; destruct Hx|].
  eapply sub_foot; eauto.
Qed.

Lemma ent_foot_disj : forall d n r0 k1 r1 nx1 k2 r2 nx2 x, zero_ok d -> NoDup (foot d (S n) r0) ->
  (r1 = 0%N \/ In (LBk k1 r1 nx1) (page_ents fuel0 d r0)) ->
  (r2 = 0%N \/ In (LBk k2 r2 nx2) (page_ents fuel0 d r0)) -> k1 <> k2 ->
  In x (foot d n r1) -> In x (foot d n r2) -> False.
Proof.
  intros d n r0 k1 r1 nx1 k2 r2 nx2 x Hz Hnd H1 H2 Hne Hx1 Hx2.
  destruct (N.eq_dec r1 0) as [-> | N1]; [destruct Hx1|]. destruct (N.eq_dec r2 0) as [-> | N2]; [destruct Hx2|].
  destruct H1 as [-> | H1]; [contradiction|]. destruct H2 as [-> | H2]; [contradiction|].
  assert (Hr0 : r0 <> 0%N) by (intros ->; apply N1; eapply Hz; eauto).
  rewrite (foot_S_eq _ _ _ Hr0) in Hnd. apply NoDup_app_r in Hnd.
  rewrite (foot_nz _ _ _ N1) in Hx1. rewrite (foot_nz _ _ _ N2) in Hx2.
  eapply (NoDup_flat_map_disj _ _ (LBk k1 r1 nx1) (LBk k2 r2 nx2) Hnd H1 H2); [congruence | exact Hx1 | exact Hx2].
Qed.

Lemma ent_region_disj : forall d n r0 k r nx x, zero_ok d -> NoDup (foot d (S n) r0) ->
  (r = 0%N \/ In (LBk k r nx) (page_ents fuel0 d r0)) -> In x (region d r0) -> In x (foot d n r) -> False.
Proof.
  intros d n r0 k r nx x Hz Hnd H1 Hx1 Hx2.
  destruct (N.eq_dec r 0) as [-> | N1]; [destruct Hx2|]. destruct H1 as [-> | H1]; [contradiction|].
  assert (Hr0 : r0 <> 0%N) by (intros ->; apply N1; eapply Hz; eauto).
  rewrite (foot_S_eq _ _ _ Hr0) in Hnd. rewrite (foot_nz _ _ _ N1) in Hx2.
  eapply (NoDup_app_disj _ _ x Hnd Hx1). apply in_flat_map. exists (LBk k r nx). split; [exact H1 | exact Hx2].
Qed.

Lemma OwnI_S : forall d n' s b r0, OwnI d (S n') s b r0 =
  ((r0 = 0%N \/ sbk (S n') d r0) /\ NoDup (foot d (S n') r0) /\ bpg_ok d b /\
   exists l, bucket_view d b l /\
     NoDup (bown d b) /\
     (forall x, In x (bown d b) -> In x (region d r0) /\ freed_in_tx s x = false) /\
     (forall k r nx, In (LBk k r nx) l -> r = 0%N \/ In (LBk k r nx) (page_ents fuel0 d r0)) /\
     (forall k r nx, In (LBk k r nx) l -> sub_find k (b_subs b) = None ->
        forall x, In x (foot d n' r) -> freed_in_tx s x = false) /\
     (forall k sb, In (k, sb) (b_subs b) -> exists r nx, In (LBk k r nx) l /\ OwnI d n' s sb r)).
Proof. reflexivity. Qed.

(* FRAME: [OwnI] only looks at the freed-status of the pages of the footprint *)
Lemma own_frame : forall d, zero_ok d -> forall n s s' b r0, OwnI d n s b r0 ->
  (forall x, In x (foot d n r0) -> freed_in_tx s' x = true -> freed_in_tx s x = true) -> OwnI d n s' b r0.
Proof.
  intros d Hz. induction n as [|n' IH]; intros s s' b r0 H Hfr; [destruct H|].
  rewrite OwnI_S in *. destruct H as (A & B & C & l & V & ND & Hown & Hent & Hun & Hsub).
  split; [exact A|]. split; [exact B|]. split; [exact C|]. exists l. split; [exact V|]. split; [exact ND|].
  split; [|split; [exact Hent|split]].
  - intros x Hx. destruct (Hown x Hx) as [R1 R2]. split; [exact R1|].
    apply (unfreed_frame s s' x); [|exact R2]. apply Hfr. now apply region_foot.
  - intros k r nx Hin Hsf x Hx. apply (unfreed_frame s s' x); [|eapply Hun; eauto].
    apply Hfr. eapply ent_foot_in; eauto.
  - intros k sb Hin. destruct (Hsub k sb Hin) as (r & nx & Hl & Ho). exists r, nx. split; [exact Hl|].
    apply (IH s s' sb r Ho). intros x Hx. apply Hfr. eapply ent_foot_in; eauto.
Qed.

(** * [rebalance] *)

Lemma runs_perm : forall d A B, Permutation A B -> Permutation (runs d A) (runs d B).
Proof. intros d A B H. unfold runs. now apply Permutation_flat_map. Qed.

Lemma sub_find_None_iff : forall k subs, sub_find k subs = None <-> ~ In k (map fst subs).
Proof.
  intros k. induction subs as [|[n b] subs IH]; [split; [intros _ [] | reflexivity]|].
  rewrite sub_find_cons. cbn [map fst In]. destruct (beq n k) eqn:E.
  - apply beq_true_iff in E. split; [discriminate | intros H; exfalso; apply H; now left].
  - assert (n <> k) by (intros ->; rewrite EngineFacts.beq_refl in E; discriminate). rewrite IH. tauto.
Qed.

Lemma names_mid : forall (A B : list (bytes * bucket)) x y, NoDup (map fst (A ++ x :: B)) -> In y (A ++ B) -> fst y <> fst x.
Proof.
  intros A B x y Hnd Hy E. rewrite map_app in Hnd. cbn [map] in Hnd. apply NoDup_remove_2 in Hnd. apply Hnd.
  rewrite <- E, <- map_app. now apply in_map.
Qed.

Definition RO_IH (d : disk) (f : nat) : Prop :=
  forall fv n s b r0 b' s', SDeepF fv d s b -> OwnI d n s b r0 -> pst s -> rebalance f d b s = Ok (b', s') ->
    OwnI d n s' b' r0 /\
    (forall x, freed_in_tx s' x = true -> freed_in_tx s x = true \/ In x (foot d n r0)) /\ pst s'.

(* the invariant of the fold over the opened sub-buckets of a bucket with view [l] *)
Definition SubK (d : disk) (fv n' : nat) (s : txs) (l : list leafent) (names : list bytes)
  (acc rest : list (bytes * bucket)) (s0 : txs) : Prop :=
  (seqc s <= seqc s0)%N /\ pst s0 /\
  NoDup (map fst (acc ++ rest)) /\ map fst (acc ++ rest) = names /\
  (forall y, In y (acc ++ rest) -> exists r nx, In (LBk (fst y) r nx) l /\ OwnI d n' s0 (snd y) r) /\
  (forall y, In y rest -> SDeepF fv d s (snd y)) /\
  (forall x, freed_in_tx s0 x = true -> freed_in_tx s x = true \/
     exists k r nx, In k names /\ In (LBk k r nx) l /\ In x (foot d n' r)).

Lemma subk_step : forall d f fv n' s l names r0, zero_ok d -> RO_IH d f -> NoDup (foot d (S n') r0) ->
  (forall k r nx, In (LBk k r nx) l -> r = 0%N \/ In (LBk k r nx) (page_ents fuel0 d r0)) ->
  forall acc x rest s0 bx sx, SubK d fv n' s l names acc (x :: rest) s0 -> rebalance f d (snd x) s0 = Ok (bx, sx) ->
    SubK d fv n' s l names (acc ++ [(fst x, bx)]) rest sx.
Proof.
  intros d f fv n' s l names r0 Hz IH HndF Hent acc x rest s0 bx sx (K1 & K2 & K3 & K4 & K5 & K6 & K7) Ex.
  assert (Hxin : In x (acc ++ x :: rest)) by (apply in_or_app; right; now left).
  destruct (K5 x Hxin) as (rx & nxx & Hlx & Hox).
  assert (Dx : SDeepF fv d s0 (snd x)) by (eapply SDeepF_seqc_mono; [exact K1 | apply K6; now left]).
  destruct (IH fv n' s0 (snd x) rx bx sx Dx Hox K2 Ex) as (Hox' & Hfrx & Hstx).
  assert (Hle : (seqc s0 <= seqc sx)%N).
  { destruct (SDeepF_Deep _ _ _ _ Dx) as [v Hv].
    destruct (rebalance_view f fv d s0 (snd x) v bx sx Hv Ex) as (_ & Tx & _). apply (tx_frame_le _ _ Tx). }
  assert (Enames : map fst ((acc ++ [(fst x, bx)]) ++ rest) = map fst (acc ++ x :: rest)).
  { rewrite <- app_assoc. rewrite !map_app. reflexivity. }
  unfold SubK. split; [lia|]. split; [exact Hstx|]. split; [now rewrite Enames|]. split; [now rewrite Enames|].
  split; [|split].
  - intros y Hy. rewrite <- app_assoc in Hy. apply in_app_or in Hy. cbn [app] in Hy.
    assert (Hother : In y (acc ++ rest) -> exists r nx, In (LBk (fst y) r nx) l /\ OwnI d n' sx (snd y) r).
    { intros Hy'. pose proof (names_mid acc rest x y K3 Hy') as Hne.
      assert (Hy'' : In y (acc ++ x :: rest)) by (apply in_app_or in Hy'; apply in_or_app; destruct Hy'; [now left | right; now right]).
      destruct (K5 y Hy'') as (ry & nxy & Hly & Hoy). exists ry, nxy. split; [exact Hly|].
      apply (own_frame d Hz n' s0 sx _ _ Hoy). intros z Hz1 Hz2.
      destruct (Hfrx z Hz2) as [A | A]; [exact A | exfalso].
      eapply (ent_foot_disj d n' r0 (fst x) rx nxx (fst y) ry nxy z Hz HndF); eauto. }
    destruct Hy as [Hy | [<- | Hy]].
    + apply Hother. apply in_or_app. now left.
    + cbn [fst snd]. exists rx, nxx. split; assumption.
    + apply Hother. apply in_or_app. now right.
  - intros y Hy. apply K6. now right.
  - intros z Hz2. destruct (Hfrx z Hz2) as [A | A]; [now apply K7|]. right. exists (fst x), rx, nxx.
    split; [|split; assumption]. rewrite <- K4. now apply in_map.
Qed.

Theorem rebalance_own_gen : forall d, zero_ok d -> forall f, RO_IH d f.
Proof.
  intros d Hz. induction f as [|f IH]; intros fv n s b r0 b' s' HD HO Hst H; [discriminate|].
  rewrite rebalance_S in H. destruct (negb (is_dirty fuel0 b)) eqn:Edirty.
  { inversion H; subst b' s'. split; [exact HO|]. split; [intros; now left | exact Hst]. }
  destruct fv as [|fv]; [destruct HD|]. destruct n as [|n']; [destruct HO|].
  cbn [SDeepF] in HD. destruct HD as (h & l & HL & (Hnd & H2 & H3)).
  rewrite OwnI_S in HO. destruct HO as (A & B & C & l' & V & ND & Hown & Hent & Hun & Hsub).
  assert (El : l' = l) by (eapply bucket_view_det; [exact V | eapply BLoc_bucket_view; eauto]). subst l'.
  apply bind_ok_inv in H. destruct H as ([subs' s1] & Ef & H).
  (* the sub-buckets *)
  assert (K0 : SubK d fv n' s l (map fst (b_subs b)) [] (b_subs b) s).
  { unfold SubK. cbn [app]. split; [lia|]. split; [exact Hst|]. split; [exact Hnd|]. split; [reflexivity|].
    split; [|split; [|intros; now left]].
    - intros [k sb] Hy. exact (Hsub k sb Hy).
    - intros y Hy. rewrite Forall_forall in H2. apply (H2 y Hy). }
  pose proof (reb_fold_inv f d (SubK d fv n' s l (map fst (b_subs b)))
                (subk_step d f fv n' s l _ r0 Hz IH B Hent) (b_subs b) [] s subs' s1 K0 Ef)
    as (K1 & K2 & K3 & K4 & K5 & _ & K7).
  rewrite app_nil_r in K3, K4, K5.
  (* the bucket's own tree *)
  destruct HL as (Hh & HB & _ & _ & HV).
  set (b0 := Bucket (b_root_page b) (b_next b) true (b_rootn b) subs') in *.
  assert (HB0 : BInv h d s1 b0) by (exact (BInv_seqc_mono _ _ _ _ _ K1 HB)).
  assert (HV0 : BucketView d h b0 l) by exact HV.
  assert (C0 : bpg_ok d b0) by exact C.
  destruct (merge_nodes_own h d s1 b0 l b' s' HB0 HV0 Hh C0 K2 H) as (F & HPF & Hpg' & HF & Hst' & _).
  change (bheads d b0) with (bheads d b) in HPF.
  destruct (merge_nodes_bucket_view h d s1 b0 l b' s' HB0 HV0 Hh H) as (V' & _).
  destruct (merge_nodes_fields _ _ _ _ _ H) as (_ & Es & _). cbn [b0 b_subs] in Es.
  pose proof (runs_perm d _ _ HPF) as HPR. rewrite runs_app in HPR. fold (bown d b) in HPR. fold (bown d b') in HPR.
  assert (NDF : NoDup (runs d F ++ bown d b')) by (eapply Permutation_NoDup; eauto).
  assert (HFin : forall x, In x (runs d F) -> In x (region d r0)).
  { intros x Hx. apply Hown. eapply Permutation_in; [symmetry; exact HPR|]. apply in_or_app. now left. }
  (* what was freed since [s] *)
  assert (Hfr1 : forall x, freed_in_tx s1 x = true -> freed_in_tx s x = true \/
                   exists k r nx, In k (map fst (b_subs b)) /\ In (LBk k r nx) l /\ In x (foot d n' r)) by exact K7.
  assert (Hreg : forall x, In x (region d r0) -> freed_in_tx s1 x = true -> freed_in_tx s x = true).
  { intros x Hx Hf. destruct (Hfr1 x Hf) as [G | (k & r & nx & _ & Hl & Hx2)]; [exact G | exfalso].
    eapply (ent_region_disj d n' r0 k r nx x Hz B); eauto. }
  split; [|split; [|exact Hst']].
  2:{ intros x Hx. destruct (HF x Hx) as [G | G]; [|right; apply region_foot; now apply HFin].
      destruct (Hfr1 x G) as [G' | (k & r & nx & _ & Hl & Hx2)]; [now left | right].
      eapply ent_foot_in; eauto. }
  rewrite OwnI_S. split; [exact A|]. split; [exact B|]. split; [exact Hpg'|]. exists l. split; [exact V'|].
  split; [eapply NoDup_app_r; exact NDF|]. split; [|split; [exact Hent|split]].
  - intros x Hx. assert (Hxb : In x (bown d b)).
    { eapply Permutation_in; [symmetry; exact HPR|]. apply in_or_app. now right. }
    destruct (Hown x Hxb) as [R1 R2]. split; [exact R1|].
    destruct (freed_in_tx s' x) eqn:Efr; [exfalso | reflexivity].
    destruct (HF x Efr) as [G | G]; [|eapply (NoDup_app_disj _ _ x NDF); eauto].
    rewrite (Hreg x R1 G) in R2. discriminate.
  - rewrite Es. intros k r nx Hl Hsf x Hx.
    assert (Hsf0 : sub_find k (b_subs b) = None).
    { apply sub_find_None_iff. rewrite <- K4. now apply sub_find_None_iff. }
    pose proof (Hun k r nx Hl Hsf0 x Hx) as R2.
    destruct (freed_in_tx s' x) eqn:Efr; [exfalso | reflexivity].
    destruct (HF x Efr) as [G | G]; [|eapply (ent_region_disj d n' r0 k r nx x Hz B); eauto].
    destruct (Hfr1 x G) as [G' | (k2 & r2 & nx2 & Hk2 & Hl2 & Hx2)]; [rewrite G' in R2; discriminate|].
    assert (Hne : k <> k2) by (intros ->; apply sub_find_None_iff in Hsf0; contradiction).
    eapply (ent_foot_disj d n' r0 k r nx k2 r2 nx2 x Hz B); eauto.
  - rewrite Es. intros k sb' Hin. destruct (K5 (k, sb') Hin) as (r & nx & Hl & Ho). cbn [fst snd] in Hl, Ho.
    exists r, nx. split; [exact Hl|]. apply (own_frame d Hz n' s1 s' _ _ Ho). intros z Hz1 Hz2.
    destruct (HF z Hz2) as [G | G]; [exact G | exfalso].
    eapply (ent_region_disj d n' r0 k r nx z Hz B); eauto.
Qed.

(* Rebalance preserves the ownership invariant; what it hands back lies in the footprint of the bucket; the
   pending list keeps its two properties. [zero_ok d] (e.g. [dget d 0 = None]) is what [own_frame] needs; [Cex0] below
   shows what goes wrong without it, on the boolean [ownib]. *)
Theorem rebalance_own : forall d f fv n s b r0 b' s', zero_ok d ->
  SDeepF fv d s b -> OwnI d n s b r0 -> pend_ids_ok s -> pend_cur s -> rebalance f d b s = Ok (b', s') ->
  OwnI d n s' b' r0 /\
  (forall x, freed_in_tx s' x = true -> freed_in_tx s x = true \/ In x (foot d n r0)) /\
  pend_ids_ok s' /\ pend_cur s'.
Proof.
  intros d f fv n s b r0 b' s' Hz HD HO H1 H2 H.
  destruct (rebalance_own_gen d Hz f fv n s b r0 b' s' HD HO (conj H1 H2) H) as (A & B & C & D).
  repeat split; assumption.
Qed.

Corollary rebalance_own_missing0 : forall d f fv n s b r0 b' s', dget d 0%N = None ->
  SDeepF fv d s b -> OwnI d n s b r0 -> pend_ids_ok s -> pend_cur s -> rebalance f d b s = Ok (b', s') ->
  OwnI d n s' b' r0 /\
  (forall x, freed_in_tx s' x = true -> freed_in_tx s x = true \/ In x (foot d n r0)) /\
  pend_ids_ok s' /\ pend_cur s'.
Proof. intros d f fv n s b r0 b' s' H0. apply rebalance_own. now apply zero_ok_missing. Qed.

(** * Why [zero_ok]: a concrete overlay, checked with the boolean [ownib]

   What is computed here is [ownib] of EngineOwnDefs, which tests the clauses of [OwnI] other than [sbk] and [pg_ok];
   no lemma relates it to [OwnI], so this illustrates the hypothesis [zero_ok] of [rebalance_own] and does not prove
   it necessary.
   A committed state whose root holds the bucket A (root page 9: a branch over the leaves 5, 6, 7, 8); the disk
   is given a garbage page 0 "containing" the leaf page 5 as a nested bucket. The overlay deletes three keys of
   A's first leaf and creates the bucket B; B's (hand-made, unreachable) root node lists page 5 as a nested
   bucket C. [ownib] is true on this overlay ([cex0_before]; false once page 0 is removed: [cex0_clean_disk]) and
   false on the overlay after rebalance ([cex0_after]): rebalancing A frees page 5, which the clause for the entry C of
   B asks to be unfreed. *)
Module Cex0.
Definition bt (n : nat) : byte := match Byte.of_nat n with Some b => b | None => x00 end.
Definition key (i : nat) : bytes := [bt (65 + i / 26); bt (65 + i mod 26); x41; x41; x41; x41].
Definition val (i : nat) : bytes := repeat (bt (48 + i mod 10)) 30.
Definition kA : bytes := [x41]. Definition kB : bytes := [x42]. Definition kC : bytes := [x43].
Definition st1r := Eval vm_compute in run_tx_auto (init_db 512) (map (fun i => Put [kA] (key i) (val i)) (seq 0 12)).
Definition st1 : db := match st1r with Ok st => st | _ => init_db 512 end.
Definition garbage : apage := {| ap_over := 0%N; ap_body := Leaves [LBk kC 5%N 0%N] |}.
Definition st1g : db :=
  {| d_disk := (0%N, garbage) :: d_disk st1; d_root := d_root st1; d_next := d_next st1; d_np := d_np st1;
     d_fl := d_fl st1; d_fln := d_fln st1; d_flids := d_flids st1; d_tx := d_tx st1; d_free := d_free st1;
     d_pending := d_pending st1; d_psz := d_psz st1 |}.
Definition ops2 : list Engine.op := map (fun i => Del [kA] (key i)) (seq 0 3) ++ [Touch [kB]].
Definition fold2 := Eval vm_compute in tx_fold st1g ops2 (root_bucket st1g, begin_w st1g).
Definition r2 : bucket := match fold2 with Ok (r, _) => r | _ => root_bucket st1g end.
Definition s2 : txs := match fold2 with Ok (_, s) => s | _ => begin_w st1g end.
Definition hackB : bucket := Bucket 0%N 0%N true (Some (Node 0%N 0%N None 3%N (Leaves [LBk kC 5%N 0%N]) [])) [].
Definition r2h : bucket := Bucket (b_root_page r2) (b_next r2) (b_dirty r2) (b_rootn r2)
  (map (fun x => if beq (fst x) kB then (fst x, hackB) else x) (b_subs r2)).
Definition reb := Eval vm_compute in rebalance fuel0 (d_disk st1g) r2h s2.
Definition b3 : bucket := match reb with Ok (b, _) => b | _ => r2h end.
Definition s3 : txs := match reb with Ok (_, s) => s | _ => s2 end.

Lemma cex0_not_zero_ok : ~ zero_ok (d_disk st1g).
Proof. intros H. specialize (H kC 5%N 0%N). assert (E : (5 = 0)%N); [apply H; vm_compute; now left | discriminate]. Qed.
Lemma cex0_rebalance_ok : rebalance fuel0 (d_disk st1g) r2h s2 = Ok (b3, s3).
Proof. vm_compute. reflexivity. Qed.
Lemma cex0_before : ownib (d_disk st1g) 16 s2 r2h (d_root st1g) = true.
Proof. vm_compute. reflexivity. Qed.
Lemma cex0_after : ownib (d_disk st1g) 16 s3 b3 (d_root st1g) = false /\ freed_in_tx s3 5%N = true.
Proof. vm_compute. split; reflexivity. Qed.
(* on the disk without the garbage page the hand-made overlay is not accepted in the first place *)
Lemma cex0_clean_disk : ownib (d_disk st1) 16 s2 r2h (d_root st1) = false.
Proof. vm_compute. reflexivity. Qed.
End Cex0.

Print Assumptions try_merge_pg_ok.
Print Assumptions rebalance_kids_x.
Print Assumptions merge_nodes_own.
Print Assumptions own_frame.
Print Assumptions rebalance_own_gen.
Print Assumptions rebalance_own.
Print Assumptions rebalance_own_missing0.

(** * [try_merge] in one statement: the heads exactly, the pages handed back within the run of the merged kid *)
Theorem try_merge_own : forall h d s lo hi p np og sq es ks k l par' s',
  Pre1 h d lo hi es ks (n_page k) -> In k ks ->
  NodeView d (S h) (Node p np og sq (Branches es) ks) l ->
  NoDup (npages (S h) d (Node p np og sq (Branches es) ks)) ->
  NoDup (seqs (Node p np og sq (Branches es) ks)) ->
  Forall (fun x => (x < seqc s)%N) (seqs (Node p np og sq (Branches es) ks)) ->
  pg_ok d (Node p np og sq (Branches es) ks) -> pend_ids_ok s -> pend_cur s ->
  try_merge d (Node p np og sq (Branches es) ks) k s = Ok (par', s') ->
  pg_ok d par' /\ pend_ids_ok s' /\ pend_cur s' /\ merge_tx s k s' /\
  ((par' = Node p np og sq (Branches es) ks /\ s' = s) \/
   (Permutation (n_page k :: npages (S h) d par') (npages (S h) d (Node p np og sq (Branches es) ks)) /\
    forall x, freed_in_tx s' x = true -> freed_in_tx s x = true \/ In x (prun d (n_page k)))).
Proof.
  intros h d s lo hi p np og sq es ks k l par' s' HP Hkin Hv Hnp Hsq Hlt Hpg H1 H2 H.
  pose proof (try_merge_step h d s lo hi p np og sq es ks k l par' s' HP Hkin Hv Hnp Hsq Hlt H)
    as (_ & _ & _ & _ & _ & _ & _ & _ & _ & _ & T11 & TX).
  destruct (pg_ok_inv _ _ Hpg) as [_ Hkids]. pose proof (Hkids k Hkin) as Hpgk.
  destruct (pst_merge_tx _ _ _ T11 (conj H1 H2)) as [Q1 Q2].
  split; [eapply try_merge_pg_ok; eauto|]. split; [exact Q1|]. split; [exact Q2|]. split; [exact T11|].
  destruct TX as [L | R]; [now left | right].
  split; [exact R|]. intros x Hx. destruct (merge_tx_freed _ _ _ _ T11 Hx) as [G | G]; [now left | right].
  now apply pg_old_run.
Qed.
Print Assumptions try_merge_own.
