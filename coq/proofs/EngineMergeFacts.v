(* Facts about the rebalance / spill helpers of model/Engine.v: how a kid list resolves a page id ([find_kid],
   [replace_kid]); [isort_by] and [merge_data]; the cut indices of [split_idx] and the pieces of [split]; the
   cases of [try_merge], on the entries and on the view of leaf entries below a node.  Also here, because later
   files share them: [rpost] and [fold_res_rpost] for results and folds, [steps_inv] for histories of steps. *)
From Coq Require Import List NArith PeanoNat Bool Lia ZifyN ZifyNat ZifyBool Sorted Permutation.
From Coq.Strings Require Import Byte.
From Jamm Require Import ListFacts Bytes Tree SearchFacts Engine.
Import ListNotations.
Local Open Scope list_scope. Local Open Scope nat_scope.

(** * Strictly sorted key lists *)

Lemma llen_nat {A} (l : list A) : N.to_nat (llen l) = length l.
Proof. unfold llen. lia. Qed.

Lemma sorted_cons_iff : forall a l,
  sorted_keys (a :: l) = true <-> (Forall (fun x => bcmp a x = Lt) l /\ sorted_keys l = true).
Proof.
  intros a l. split.
  - apply sorted_keys_cons.
  - intros [H1 H2]. now apply sorted_keys_cons_intro.
Qed.

Lemma sorted_app_intro : forall a b,
  sorted_keys a = true -> sorted_keys b = true ->
  (forall x y, In x a -> In y b -> bcmp x y = Lt) ->
  sorted_keys (a ++ b) = true.
Proof.
  induction a as [|x a IH]; intros b Ha Hb Hab; [exact Hb|].
  cbn [app]. apply sorted_cons_iff in Ha. destruct Ha as [Hxa Ha].
  apply sorted_cons_iff. split.
  - apply Forall_app. split; [exact Hxa|].
    apply Forall_forall. intros y Hy. apply Hab; [now left | exact Hy].
  - apply IH; [exact Ha | exact Hb |]. intros u v Hu Hv. apply Hab; [now right | exact Hv].
Qed.

Lemma sorted_map_app {A} (key : A -> bytes) (l1 l2 : list A) :
  sorted_keys (map key l1) = true -> sorted_keys (map key l2) = true ->
  (forall x y, In x l1 -> In y l2 -> bcmp (key x) (key y) = Lt) ->
  sorted_keys (map key (l1 ++ l2)) = true.
Proof.
  intros H1 H2 H12. rewrite map_app. apply sorted_app_intro; [exact H1 | exact H2 |].
  intros a b Ha Hb. apply in_map_iff in Ha, Hb.
  destruct Ha as (x & <- & Hx). destruct Hb as (y & <- & Hy). now apply H12.
Qed.

Lemma sorted_NoDup : forall l, sorted_keys l = true -> NoDup l.
Proof.
  induction l as [|a l IH]; intros H; [constructor|].
  apply sorted_cons_iff in H. destruct H as [Hal Hl].
  constructor; [|now apply IH].
  intros Hin. rewrite Forall_forall in Hal. specialize (Hal a Hin).
  rewrite bcmp_refl in Hal. discriminate.
Qed.

(** * Kid lists: which node stands for a page id *)

Lemma find_kid_nil : forall q, find_kid q [] = None.
Proof. reflexivity. Qed.

Lemma find_kid_In : forall q ks kd, find_kid q ks = Some kd -> In kd ks /\ n_page kd = q.
Proof. unfold find_kid. intros q ks kd H. apply find_some in H. now rewrite N.eqb_eq in H. Qed.

Lemma find_kid_None : forall q ks, find_kid q ks = None -> forall x, In x ks -> n_page x <> q.
Proof. unfold find_kid. intros q ks H x Hx. apply N.eqb_neq. exact (find_none _ _ H x Hx). Qed.

Lemma find_kid_none : forall q ks, find_kid q ks = None -> ~ In q (map n_page ks).
Proof.
  intros q ks H Hin. apply in_map_iff in Hin. destruct Hin as (k & E & Hk). exact (find_kid_None _ _ H k Hk E).
Qed.

Lemma find_kid_NoDup : forall ks k, NoDup (map n_page ks) -> In k ks -> find_kid (n_page k) ks = Some k.
Proof.
  intros ks k Hnd Hin. destruct (find_kid (n_page k) ks) as [x|] eqn:E.
  - destruct (find_kid_In _ _ _ E) as [Hx Hp]. f_equal. exact (NoDup_map_inj n_page ks x k Hnd Hx Hin Hp).
  - exfalso. exact (find_kid_None _ _ E k Hin eq_refl).
Qed.

(* the kid found is the FIRST with that page id *)
Lemma find_kid_split : forall ks q x, find_kid q ks = Some x ->
  exists a b, ks = a ++ x :: b /\ n_page x = q /\ (forall y, In y a -> n_page y <> q).
Proof.
  unfold find_kid. induction ks as [|y ks IH]; intros q x H; cbn [find] in H; [discriminate|].
  destruct (N.eqb (n_page y) q) eqn:E.
  - inversion H; subst y. apply N.eqb_eq in E. exists [], ks. split; [reflexivity|]. split; [exact E|].
    intros z [].
  - destruct (IH q x H) as (a & b & -> & Hx & Ha). exists (y :: a), b. split; [reflexivity|].
    split; [exact Hx|]. intros z [<- | Hz]; [now apply N.eqb_neq | now apply Ha].
Qed.

Lemma find_kid_app_l q ks1 ks2 :
  (forall x, In x ks2 -> n_page x <> q) -> find_kid q (ks1 ++ ks2) = find_kid q ks1.
Proof.
  intros H. unfold find_kid. rewrite find_app, (find_none_all _ ks2).
  - now destruct (find _ ks1).
  - intros x Hx. apply N.eqb_neq. now apply H.
Qed.

Lemma find_kid_app_r q ks1 ks2 :
  (forall x, In x ks1 -> n_page x <> q) -> find_kid q (ks1 ++ ks2) = find_kid q ks2.
Proof.
  intros H. unfold find_kid. rewrite find_app, find_none_all; [reflexivity|].
  intros x Hx. apply N.eqb_neq. now apply H.
Qed.

Lemma replace_kid_hit : forall a x b k,
  n_page x = n_page k -> (forall y, In y a -> n_page y <> n_page k) ->
  replace_kid (a ++ x :: b) k = a ++ k :: b.
Proof.
  induction a as [|y a IH]; intros x b k Hx Ha; cbn [app replace_kid].
  - rewrite Hx, N.eqb_refl. reflexivity.
  - destruct (N.eqb (n_page y) (n_page k)) eqn:E.
    + apply N.eqb_eq in E. exfalso. apply (Ha y); [now left | exact E].
    + f_equal. apply IH; [exact Hx|]. intros z Hz. apply Ha. now right.
Qed.

Lemma replace_kid_miss : forall ks k,
  (forall y, In y ks -> n_page y <> n_page k) -> replace_kid ks k = ks ++ [k].
Proof.
  induction ks as [|y ks IH]; intros k Hk; cbn [app replace_kid]; [reflexivity|].
  destruct (N.eqb (n_page y) (n_page k)) eqn:E.
  - apply N.eqb_eq in E. exfalso. apply (Hk y); [now left | exact E].
  - f_equal. apply IH. intros z Hz. apply Hk. now right.
Qed.

Lemma find_kid_replace_other q' sb' : forall ks,
  n_page sb' <> q' -> find_kid q' (replace_kid ks sb') = find_kid q' ks.
Proof.
  unfold find_kid. intros ks Hp. apply N.eqb_neq in Hp.
  induction ks as [|x ks IH]; cbn [replace_kid find].
  - now rewrite Hp.
  - destruct (N.eqb (n_page x) (n_page sb')) eqn:E; cbn [find].
    + apply N.eqb_eq in E. rewrite E, Hp. reflexivity.
    + destruct (N.eqb (n_page x) q'); [reflexivity | exact IH].
Qed.

Lemma find_kid_replace_same sb' : forall ks, find_kid (n_page sb') (replace_kid ks sb') = Some sb'.
Proof.
  unfold find_kid. induction ks as [|x ks IH]; cbn [replace_kid find].
  - now rewrite N.eqb_refl.
  - destruct (N.eqb (n_page x) (n_page sb')) eqn:E; cbn [find].
    + now rewrite N.eqb_refl.
    + rewrite E. exact IH.
Qed.

Definition kids_upd (ks ks' : list node) (q : N) (kd' : node) : Prop :=
  find_kid q ks' = Some kd' /\ forall q', q' <> q -> find_kid q' ks' = find_kid q' ks.

Lemma replace_kid_upd : forall ks q kd', n_page kd' = q -> kids_upd ks (replace_kid ks kd') q kd'.
Proof.
  intros ks q kd' <-. split; [apply find_kid_replace_same|].
  intros q' Hq'. apply find_kid_replace_other. congruence.
Qed.

Lemma app_kid_upd : forall ks q kd', find_kid q ks = None -> n_page kd' = q ->
  kids_upd ks (ks ++ [kd']) q kd'.
Proof.
  intros ks q kd' Hf <-. split.
  - rewrite find_kid_app_r by exact (find_kid_None _ _ Hf). unfold find_kid. cbn [find]. now rewrite N.eqb_refl.
  - intros q' Hq'. apply find_kid_app_l. intros x [<-|[]]. congruence.
Qed.

Definition not_seq (sq : N) (x : node) : bool := negb (N.eqb (n_seq x) sq).

Lemma find_kid_filter q sb sq : forall ks,
  find_kid q ks = Some sb -> n_seq sb <> sq -> find_kid q (filter (not_seq sq) ks) = Some sb.
Proof.
  unfold find_kid. induction ks as [|x ks IH]; intros H Hs; cbn [find] in H; [discriminate|].
  cbn [filter]. destruct (N.eqb (n_page x) q) eqn:E.
  - inversion H; subst x. unfold not_seq at 1. apply N.eqb_neq in Hs. rewrite Hs. cbn [negb find]. now rewrite E.
  - destruct (not_seq sq x); [cbn [find]; rewrite E|]; now apply IH.
Qed.

Lemma find_kid_filter_other q' sq : forall ks,
  (forall x, In x ks -> n_seq x = sq -> n_page x <> q') ->
  find_kid q' (filter (not_seq sq) ks) = find_kid q' ks.
Proof.
  unfold find_kid. induction ks as [|x ks IH]; intros H; [reflexivity|]. cbn [filter find].
  assert (IH' : find (fun k => N.eqb (n_page k) q') (filter (not_seq sq) ks) = find (fun k => N.eqb (n_page k) q') ks).
  { apply IH. intros y Hy. apply H. now right. }
  unfold not_seq at 1. destruct (N.eqb (n_seq x) sq) eqn:Es; cbn [negb].
  - apply N.eqb_eq in Es. pose proof (H x (or_introl eq_refl) Es) as Hp.
    apply N.eqb_neq in Hp. rewrite Hp. exact IH'.
  - cbn [find]. destruct (N.eqb (n_page x) q'); [reflexivity | exact IH'].
Qed.

(** * [isort_by] *)

(* the local insertion function of [isort_by], named *)
Definition ins_by {A} (key : A -> bytes) : A -> list A -> list A :=
  fix ins (x : A) (l : list A) : list A :=
  match l with
  | [] => [x]
  | y :: l' => match bcmp (key x) (key y) with Lt => x :: l | _ => y :: ins x l' end
  end.

Lemma ins_by_nil {A} (key : A -> bytes) x : ins_by key x [] = [x].
Proof. reflexivity. Qed.
Lemma ins_by_cons {A} (key : A -> bytes) x y l :
  ins_by key x (y :: l) = match bcmp (key x) (key y) with Lt => x :: y :: l | _ => y :: ins_by key x l end.
Proof. reflexivity. Qed.

Lemma isort_by_cons {A} (key : A -> bytes) x l :
  isort_by key (x :: l) = ins_by key x (isort_by key l).
Proof. reflexivity. Qed.

Lemma isort_by_nil {A} (key : A -> bytes) : isort_by key [] = [].
Proof. reflexivity. Qed.

Lemma ins_by_perm {A} (key : A -> bytes) x l : Permutation (ins_by key x l) (x :: l).
Proof.
  induction l as [|y l IH]; [reflexivity|]; rewrite ins_by_cons.
  destruct (bcmp (key x) (key y)); try reflexivity.
  - rewrite IH. apply perm_swap.
  - rewrite IH. apply perm_swap.
Qed.

Theorem isort_by_perm {A} (key : A -> bytes) l : Permutation (isort_by key l) l.
Proof.
  induction l as [|x l IH]; [reflexivity|].
  rewrite isort_by_cons, ins_by_perm. now constructor.
Qed.

Lemma isort_by_length {A} (key : A -> bytes) l : length (isort_by key l) = length l.
Proof. apply Permutation_length, isort_by_perm. Qed.

Lemma isort_by_in {A} (key : A -> bytes) l x : In x (isort_by key l) <-> In x l.
Proof.
  split; apply Permutation_in; [apply isort_by_perm | symmetry; apply isort_by_perm].
Qed.

Lemma ins_by_sorted {A} (key : A -> bytes) x l :
  sorted_keys (map key l) = true -> ~ In (key x) (map key l) ->
  sorted_keys (map key (ins_by key x l)) = true.
Proof.
  induction l as [|y l IH]; intros Hs Hx; [reflexivity|].
  rewrite ins_by_cons. cbn [map] in Hs, Hx.
  destruct (sorted_keys_cons _ _ Hs) as [Hyl Hl].
  destruct (bcmp (key x) (key y)) eqn:E.
  - apply bcmp_eq in E. exfalso. apply Hx. left. now symmetry.
  - cbn [map]. apply sorted_keys_cons_intro; [|exact Hs].
    constructor; [exact E|].
    eapply Forall_impl; [|exact Hyl]. cbn. intros z Hz. eapply bcmp_lt_trans; eauto.
  - cbn [map]. apply sorted_keys_cons_intro.
    + apply Forall_forall. intros z Hz.
      apply in_map_iff in Hz. destruct Hz as (w & <- & Hw).
      apply (Permutation_in _ (ins_by_perm key x l)) in Hw. destruct Hw as [<- | Hw].
      * now apply bcmp_lt_gt.
      * rewrite Forall_forall in Hyl. apply Hyl. now apply in_map.
    + apply IH; [exact Hl|]. intros H. apply Hx. now right.
Qed.

Theorem isort_by_sorted {A} (key : A -> bytes) l :
  NoDup (map key l) -> sorted_keys (map key (isort_by key l)) = true.
Proof.
  induction l as [|x l IH]; intros Hnd; [reflexivity|].
  cbn [map] in Hnd. inversion Hnd as [|? ? Hx Hl]; subst.
  rewrite isort_by_cons. apply ins_by_sorted; [now apply IH|].
  intros H. apply Hx. apply in_map_iff in H. destruct H as (w & Hk & Hw).
  apply isort_by_in in Hw. rewrite <- Hk. now apply in_map.
Qed.

Theorem isort_by_id {A} (key : A -> bytes) l :
  sorted_keys (map key l) = true -> isort_by key l = l.
Proof.
  induction l as [|x l IH]; intros Hs; [reflexivity|].
  cbn [map] in Hs. destruct (sorted_keys_cons _ _ Hs) as [Hxl Hl].
  rewrite isort_by_cons, (IH Hl).
  destruct l as [|y l]; [reflexivity|].
  rewrite ins_by_cons. cbn [map] in Hxl. inversion Hxl as [|? ? Hxy _]; subst. now rewrite Hxy.
Qed.

Lemma sorted_perm_eq {A} (key : A -> bytes) : forall l1 l2 : list A,
  sorted_keys (map key l1) = true -> sorted_keys (map key l2) = true ->
  Permutation l1 l2 -> l1 = l2.
Proof.
  induction l1 as [|x l1 IH]; intros l2 H1 H2 HP.
  - apply Permutation_nil in HP. now subst.
  - destruct l2 as [|y l2]; [symmetry in HP; apply Permutation_nil in HP; discriminate|].
    cbn [map] in H1, H2.
    destruct (sorted_keys_cons _ _ H1) as [Hx1 Hs1]. destruct (sorted_keys_cons _ _ H2) as [Hy2 Hs2].
    rewrite Forall_forall in Hx1, Hy2.
    assert (Hxy : x = y).
    { assert (Hix : In x (y :: l2)) by (eapply Permutation_in; [exact HP | now left]).
      destruct Hix as [-> | Hix]; [reflexivity|].
      assert (Hiy : In y (x :: l1)) by (eapply Permutation_in; [symmetry; exact HP | now left]).
      destruct Hiy as [-> | Hiy]; [reflexivity|].
      exfalso. assert (Hc : bcmp (key x) (key x) = Lt).
      { eapply bcmp_lt_trans; [apply Hx1 | apply Hy2]; now apply in_map. }
      rewrite bcmp_refl in Hc. discriminate. }
    subst y. f_equal. apply IH; [exact Hs1 | exact Hs2 |]. eapply Permutation_cons_inv; exact HP.
Qed.

(* [isort_by] computes THE strictly sorted arrangement, whenever there is one *)
Theorem isort_by_unique {A} (key : A -> bytes) l l' :
  Permutation l l' -> sorted_keys (map key l') = true -> isort_by key l = l'.
Proof.
  intros HP Hs. apply (sorted_perm_eq key); [|exact Hs|].
  - apply isort_by_sorted. apply (Permutation_NoDup (l := map key l')).
    + apply Permutation_map. now symmetry.
    + now apply sorted_NoDup.
  - rewrite isort_by_perm. exact HP.
Qed.

(* without distinct keys the result is only weakly sorted, and entries with equal keys are REVERSED:
   strict sortedness of the input is needed for [isort_by_id] *)
Example isort_by_not_stable :
  isort_by fst [(["a"%byte], 1%N); (["a"%byte], 2%N)] = [(["a"%byte], 2%N); (["a"%byte], 1%N)].
Proof. reflexivity. Qed.

(** * [merge_data] *)

Lemma isort_by_app_lr {A} (key : A -> bytes) (l1 l2 : list A) :
  sorted_keys (map key l1) = true -> sorted_keys (map key l2) = true ->
  (forall x y, In x l1 -> In y l2 -> bcmp (key x) (key y) = Lt) ->
  isort_by key (l1 ++ l2) = l1 ++ l2.
Proof. intros H1 H2 H12. apply isort_by_id. now apply sorted_map_app. Qed.

Lemma isort_by_app_rl {A} (key : A -> bytes) (l1 l2 : list A) :
  sorted_keys (map key l1) = true -> sorted_keys (map key l2) = true ->
  (forall x y, In x l1 -> In y l2 -> bcmp (key y) (key x) = Lt) ->
  isort_by key (l1 ++ l2) = l2 ++ l1.
Proof.
  intros H1 H2 H12. apply isort_by_unique; [apply Permutation_app_comm|].
  apply sorted_map_app; [exact H2 | exact H1 |]. intros y x Hy Hx. now apply H12.
Qed.

Theorem merge_data_leaves_lr l1 l2 :
  sorted_keys (map lkey l1) = true -> sorted_keys (map lkey l2) = true ->
  (forall x y, In x l1 -> In y l2 -> bcmp (lkey x) (lkey y) = Lt) ->
  merge_data (Leaves l1) (Leaves l2) = Ok (Leaves (l1 ++ l2)).
Proof. intros H1 H2 H12. unfold merge_data. now rewrite isort_by_app_lr. Qed.

Theorem merge_data_leaves_rl l1 l2 :
  sorted_keys (map lkey l1) = true -> sorted_keys (map lkey l2) = true ->
  (forall x y, In x l1 -> In y l2 -> bcmp (lkey y) (lkey x) = Lt) ->
  merge_data (Leaves l1) (Leaves l2) = Ok (Leaves (l2 ++ l1)).
Proof. intros H1 H2 H12. unfold merge_data. now rewrite isort_by_app_rl. Qed.

Theorem merge_data_branches_lr (e1 e2 : list (bytes * N)) :
  sorted_keys (map fst e1) = true -> sorted_keys (map fst e2) = true ->
  (forall x y, In x e1 -> In y e2 -> bcmp (fst x) (fst y) = Lt) ->
  merge_data (Branches e1) (Branches e2) = Ok (Branches (e1 ++ e2)).
Proof. intros H1 H2 H12. unfold merge_data. now rewrite isort_by_app_lr. Qed.

Theorem merge_data_branches_rl (e1 e2 : list (bytes * N)) :
  sorted_keys (map fst e1) = true -> sorted_keys (map fst e2) = true ->
  (forall x y, In x e1 -> In y e2 -> bcmp (fst y) (fst x) = Lt) ->
  merge_data (Branches e1) (Branches e2) = Ok (Branches (e2 ++ e1)).
Proof. intros H1 H2 H12. unfold merge_data. now rewrite isort_by_app_rl. Qed.

(* with no order hypothesis at all nothing is lost or duplicated *)
Theorem merge_data_leaves_perm l1 l2 :
  exists l, merge_data (Leaves l1) (Leaves l2) = Ok (Leaves l) /\ Permutation l (l1 ++ l2).
Proof. eexists. split; [reflexivity | apply isort_by_perm]. Qed.

Theorem merge_data_branches_perm e1 e2 :
  exists e, merge_data (Branches e1) (Branches e2) = Ok (Branches e) /\ Permutation e (e1 ++ e2).
Proof. eexists. split; [reflexivity | apply isort_by_perm]. Qed.

Theorem merge_data_ok_iff a b : (exists m, merge_data a b = Ok m) <-> is_leaf a = is_leaf b.
Proof.
  destruct a, b; cbn; split; intros H; try discriminate; try (destruct H; discriminate);
    try reflexivity; eexists; reflexivity.
Qed.

(** * [split_idx], [dsplit_at], [split] *)

(* consecutive split indices are at least 2 apart, the first at least 2 above [p] *)
Fixpoint gaps2 (p : nat) (l : list nat) : Prop :=
  match l with [] => True | x :: l' => p + 2 <= x /\ gaps2 x l' end.

Lemma gaps2_weaken p q l : q <= p -> gaps2 p l -> gaps2 q l.
Proof. destruct l as [|x l]; cbn; [trivial|]. intros Hq [H1 H2]. split; [lia | exact H2]. Qed.

Lemma gaps2_Forall p l : gaps2 p l -> Forall (fun x => p + 2 <= x) l.
Proof.
  revert p. induction l as [|x l IH]; intros p H; [constructor|].
  cbn in H. destruct H as [H1 H2]. constructor; [exact H1|].
  eapply Forall_impl; [|apply (IH x H2)]. cbn. intros; lia.
Qed.

Lemma gaps2_sorted p l : gaps2 p l -> StronglySorted lt l.
Proof.
  revert p. induction l as [|x l IH]; intros p H; [constructor|].
  cbn in H. destruct H as [H1 H2]. constructor; [now apply (IH x)|].
  eapply Forall_impl; [|apply (gaps2_Forall x l H2)]. cbn. intros; lia.
Qed.

(* [cnt] entries of the current piece have been seen, so the piece starts at [i - cnt] *)
Lemma split_idx_gaps d thr : forall n i cur cnt p,
  p + N.to_nat cnt = i -> gaps2 p (split_idx d thr i n cur cnt).
Proof.
  induction n as [|n IH]; intros i cur cnt p Hp; [exact I|].
  cbn [split_idx]. cbv zeta.
  destruct ((2 <=? cnt + 1)%N && (thr <? cur + ent_size d i)%N) eqn:E.
  - cbn [gaps2]. split; [lia|]. apply IH. lia.
  - apply IH. lia.
Qed.

Lemma split_idx_bounds d thr : forall n i cur cnt,
  Forall (fun x => i < x <= i + n) (split_idx d thr i n cur cnt).
Proof.
  induction n as [|n IH]; intros i cur cnt; [constructor|].
  cbn [split_idx]. cbv zeta.
  destruct ((2 <=? cnt + 1)%N && (thr <? cur + ent_size d i)%N).
  - constructor; [lia|]. eapply Forall_impl; [|apply IH]. cbn. intros; lia.
  - eapply Forall_impl; [|apply IH]. cbn. intros; lia.
Qed.

(* the indices [split] uses on a node of [len] entries *)
Theorem split_idx_spec d thr len :
  let idxs := split_idx d thr 0 (len - 2) 40 0 in
  gaps2 0 idxs /\ StronglySorted lt idxs /\ Forall (fun x => 2 <= x /\ x + 2 <= len) idxs.
Proof.
  intros idxs.
  assert (Hg : gaps2 0 idxs) by (apply split_idx_gaps; reflexivity).
  split; [exact Hg|]. split; [now apply gaps2_sorted with (p := 0)|].
  pose proof (gaps2_Forall _ _ Hg) as H1. pose proof (split_idx_bounds d thr (len - 2) 0 40%N 0%N) as H2.
  fold idxs in H2. rewrite Forall_forall in *. intros x Hx. specialize (H1 x Hx). specialize (H2 x Hx).
  cbn beta in *. lia.
Qed.

(* list-level version of the fold in [split]: cut at the largest index first *)
Definition cut_step {A} (i : nat) (acc : list A * list (list A)) : list A * list (list A) :=
  (firstn i (fst acc), skipn i (fst acc) :: snd acc).
Definition cut_at {A} (idxs : list nat) (l : list A) : list A * list (list A) :=
  fold_right cut_step (l, []) idxs.

Lemma cut_at_cons {A} i idxs (l : list A) : cut_at (i :: idxs) l = cut_step i (cut_at idxs l).
Proof. reflexivity. Qed.

Theorem cut_at_concat {A} idxs (l : list A) : fst (cut_at idxs l) ++ concat (snd (cut_at idxs l)) = l.
Proof.
  induction idxs as [|i idxs IH]; [cbn; apply app_nil_r|].
  rewrite cut_at_cons. unfold cut_step. cbn [fst snd concat].
  rewrite app_assoc, firstn_skipn. exact IH.
Qed.

Lemma cut_at_count {A} idxs (l : list A) : length (snd (cut_at idxs l)) = length idxs.
Proof. induction idxs as [|i idxs IH]; [reflexivity|]. rewrite cut_at_cons. cbn. now rewrite IH. Qed.

Theorem cut_at_pieces {A} (l : list A) : forall idxs p,
  gaps2 p idxs -> Forall (fun x => x + 2 <= length l) idxs ->
  fst (cut_at idxs l) = firstn (hd (length l) idxs) l /\
  Forall (fun pc => 2 <= length pc) (snd (cut_at idxs l)).
Proof.
  induction idxs as [|i idxs IH]; intros p Hg Hb.
  - cbn. split; [now rewrite firstn_all | constructor].
  - cbn [gaps2] in Hg. destruct Hg as [Hpi Hg]. inversion Hb as [|? ? Hi Hb']; subst.
    destruct (IH i Hg Hb') as [Hf Hr]. rewrite cut_at_cons. unfold cut_step. cbn [fst snd hd].
    rewrite Hf.
    assert (Hh : i + 2 <= hd (length l) idxs /\ hd (length l) idxs <= length l).
    { destruct idxs as [|j idxs]; cbn [hd]; [lia|].
      cbn [gaps2] in Hg. inversion Hb' as [|? ? Hj _]; subst. lia. }
    split.
    + rewrite firstn_firstn. f_equal. lia.
    + constructor; [|exact Hr]. rewrite skipn_length, firstn_length. lia.
Qed.

(* the pieces are exactly the stretches between consecutive split points: their lengths *)
Fixpoint diffs (p : nat) (idxs : list nat) (len : nat) : list nat :=
  match idxs with [] => [len - p] | x :: t => (x - p) :: diffs x t len end.

Theorem cut_at_lengths {A} (l : list A) : forall idxs p,
  gaps2 p idxs -> Forall (fun x => x + 2 <= length l) idxs ->
  map (@length A) (fst (cut_at idxs l) :: snd (cut_at idxs l)) = diffs 0 idxs (length l).
Proof.
  assert (Hgen : forall idxs p, gaps2 p idxs -> Forall (fun x => x + 2 <= length l) idxs ->
            map (@length A) (snd (cut_at idxs l)) = tl (diffs p idxs (length l))).
  { induction idxs as [|i idxs IH]; intros p Hg Hb; [reflexivity|].
    cbn [gaps2] in Hg. destruct Hg as [Hpi Hg]. inversion Hb as [|? ? Hi Hb']; subst.
    destruct (cut_at_pieces l idxs i Hg Hb') as [Hf _].
    rewrite cut_at_cons. unfold cut_step. cbn [snd map diffs tl]. rewrite (IH i Hg Hb'), Hf.
    rewrite skipn_length, firstn_length.
    destruct idxs as [|j idxs]; cbn [hd diffs tl]; [f_equal; lia|].
    cbn [gaps2] in Hg. inversion Hb' as [|? ? Hj _]; subst. f_equal. lia. }
  intros idxs p Hg Hb. cbn [map]. rewrite (Hgen idxs p Hg Hb).
  destruct (cut_at_pieces l idxs p Hg Hb) as [Hf _]. rewrite Hf, firstn_length.
  destruct idxs as [|i idxs]; cbn [hd diffs tl]; [f_equal; lia|].
  inversion Hb as [|? ? Hi _]; subst. f_equal. lia.
Qed.

Lemma dsplit_at_leaves l i : dsplit_at (Leaves l) i = (Leaves (firstn i l), Leaves (skipn i l)).
Proof. reflexivity. Qed.
Lemma dsplit_at_branches es i : dsplit_at (Branches es) i = (Branches (firstn i es), Branches (skipn i es)).
Proof. reflexivity. Qed.
Lemma dsplit_at_dlen d i : (i <= N.to_nat (dlen d)) ->
  N.to_nat (dlen (fst (dsplit_at d i))) = i /\ N.to_nat (dlen (snd (dsplit_at d i))) = N.to_nat (dlen d) - i.
Proof.
  destruct d as [l|es]; cbn [dsplit_at fst snd dlen]; rewrite !llen_nat, firstn_length, skipn_length; lia.
Qed.

Theorem split_small s d :
  ((dlen d <=? 4) || (40 + dsize d <? psz s))%N = true -> split s d = (d, []).
Proof. intros H. unfold split. now rewrite H. Qed.

Definition split_points (s : txs) (d : ndata) : list nat :=
  if ((dlen d <=? 4) || (40 + dsize d <? psz s))%N then []
  else split_idx d (psz s / 2) 0 (N.to_nat (dlen d) - 2) 40 0.

Theorem split_points_spec s d :
  StronglySorted lt (split_points s d) /\ gaps2 0 (split_points s d) /\
  Forall (fun x => 2 <= x /\ x + 2 <= N.to_nat (dlen d)) (split_points s d).
Proof.
  unfold split_points. destruct ((dlen d <=? 4) || (40 + dsize d <? psz s))%N.
  - repeat split; constructor.
  - destruct (split_idx_spec d (psz s / 2)%N (N.to_nat (dlen d))) as (H1 & H2 & H3). auto.
Qed.

(* [split] on a node of either kind: [C] is [Leaves] or [Branches] *)
Section SplitKind.
  Context {A : Type} (C : list A -> ndata).
  Hypothesis dsplit_at_C : forall l i, dsplit_at (C l) i = (C (firstn i l), C (skipn i l)).
  Hypothesis dlen_C : forall l, dlen (C l) = llen l.

  Lemma split_cut_at s l :
    split s (C l) = (C (fst (cut_at (split_points s (C l)) l)), map C (snd (cut_at (split_points s (C l)) l))).
  Proof.
    unfold split, split_points. destruct ((dlen (C l) <=? 4) || (40 + dsize (C l) <? psz s))%N; [reflexivity|].
    induction (split_idx _ _ _ _ _ _) as [|i idxs IH]; [reflexivity|].
    cbn [rev]. rewrite fold_left_app, IH. cbn [fold_left]. now rewrite dsplit_at_C.
  Qed.

  Lemma split_points_fit s l :
    gaps2 0 (split_points s (C l)) /\ Forall (fun x => x + 2 <= length l) (split_points s (C l)).
  Proof.
    destruct (split_points_spec s (C l)) as (_ & Hg & Hb). split; [exact Hg|].
    eapply Forall_impl; [|exact Hb]. cbn beta. intros x [_ Hx]. now rewrite dlen_C, llen_nat in Hx.
  Qed.

  (* The pieces of a split node: in order they concatenate to the node; there is one more piece than there are
     split points; the first piece ends at the first split point; and when the node is split at all, EVERY piece
     (the last one included: the scan stops 2 entries before the end) has at least 2 entries. *)
  Theorem split_pieces_of s l :
    exists l0 ls, split s (C l) = (C l0, map C ls) /\
      l0 ++ concat ls = l /\
      length ls = length (split_points s (C l)) /\
      l0 = firstn (hd (length l) (split_points s (C l))) l /\
      (ls <> [] -> Forall (fun p => 2 <= length p) (l0 :: ls)).
  Proof.
    exists (fst (cut_at (split_points s (C l)) l)), (snd (cut_at (split_points s (C l)) l)).
    destruct (split_points_fit s l) as [Hg Hb]. destruct (cut_at_pieces l _ 0 Hg Hb) as [Hf Hr].
    split; [apply split_cut_at|]. split; [apply cut_at_concat|]. split; [apply cut_at_count|].
    split; [exact Hf|]. intros Hne. constructor; [|exact Hr].
    rewrite Hf. destruct (split_points s (C l)) as [|i idxs]; [exfalso; apply Hne; reflexivity|].
    cbn [hd]. cbn [gaps2] in Hg. inversion Hb; subst. rewrite firstn_length. lia.
  Qed.

  Corollary split_pieces_dlen s l d0 rest : split s (C l) = (d0, rest) -> rest <> [] ->
    Forall (fun p => (2 <= dlen p)%N) (d0 :: rest).
  Proof.
    destruct (split_pieces_of s l) as (l0 & ls & E & _ & _ & _ & Hp). rewrite E. intros H Hne.
    injection H as <- <-. change (C l0 :: map C ls) with (map C (l0 :: ls)). apply Forall_map.
    eapply Forall_impl; [|apply Hp; intros ->; now apply Hne].
    cbn beta. intros p Hl. rewrite dlen_C. unfold llen. lia.
  Qed.

  (* each piece is exactly the stretch between two consecutive split points *)
  Theorem split_lengths_of s l l0 ls : (forall x y, C x = C y -> x = y) ->
    split s (C l) = (C l0, map C ls) ->
    map (@length A) (l0 :: ls) = diffs 0 (split_points s (C l)) (length l).
  Proof.
    intros C_inj H. rewrite split_cut_at in H. inversion H as [[H1 H2]].
    apply C_inj in H1. apply (map_inj_eq C C_inj) in H2. subst l0 ls.
    destruct (split_points_fit s l) as [Hg Hb]. now apply cut_at_lengths with (p := 0).
  Qed.
End SplitKind.

Theorem split_leaves s l :
  exists l0 ls, split s (Leaves l) = (Leaves l0, map Leaves ls) /\
    l0 ++ concat ls = l /\
    length ls = length (split_points s (Leaves l)) /\
    l0 = firstn (hd (length l) (split_points s (Leaves l))) l /\
    (ls <> [] -> Forall (fun p => 2 <= length p) (l0 :: ls)).
Proof. exact (split_pieces_of Leaves dsplit_at_leaves (fun _ => eq_refl) s l). Qed.

Theorem split_branches s es :
  exists e0 ess, split s (Branches es) = (Branches e0, map Branches ess) /\
    e0 ++ concat ess = es /\
    length ess = length (split_points s (Branches es)) /\
    e0 = firstn (hd (length es) (split_points s (Branches es))) es /\
    (ess <> [] -> Forall (fun p => 2 <= length p) (e0 :: ess)).
Proof. exact (split_pieces_of Branches dsplit_at_branches (fun _ => eq_refl) s es). Qed.

Theorem split_leaves_lengths s l l0 ls :
  split s (Leaves l) = (Leaves l0, map Leaves ls) ->
  map (@length leafent) (l0 :: ls) = diffs 0 (split_points s (Leaves l)) (length l).
Proof.
  apply (split_lengths_of Leaves dsplit_at_leaves (fun _ => eq_refl)). intros x y E. now inversion E.
Qed.

Theorem split_branches_lengths s es e0 ess :
  split s (Branches es) = (Branches e0, map Branches ess) ->
  map (@length (bytes * N)) (e0 :: ess) = diffs 0 (split_points s (Branches es)) (length es).
Proof.
  apply (split_lengths_of Branches dsplit_at_branches (fun _ => eq_refl)). intros x y E. now inversion E.
Qed.

(** * Results: what holds of the outcome of a computation; folds *)

(* [rpost P Qp Qe r]: the value of an [Ok] satisfies P, the message of a [Panic] Qp, that of an [Err] Qe *)
Definition rpost {A} (P : A -> Prop) (Qp Qe : String.string -> Prop) (r : res A) : Prop :=
  match r with Ok a => P a | Panic m => Qp m | Err e => Qe e end.

Lemma rpost_bind : forall {A B} (P : A -> Prop) (P' : B -> Prop) Qp Qe (r : res A) (f : A -> res B),
  rpost P Qp Qe r -> (forall a, P a -> rpost P' Qp Qe (f a)) -> rpost P' Qp Qe (bind r f).
Proof. intros A B P P' Qp Qe [a|m|e] f H Hf; cbn [bind rpost] in *; [now apply Hf | exact H | exact H]. Qed.

Lemma rpost_impl : forall {A} (P P' : A -> Prop) (Qp Qp' Qe Qe' : String.string -> Prop) (r : res A),
  rpost P Qp Qe r -> (forall a, P a -> P' a) -> (forall m, Qp m -> Qp' m) -> (forall e, Qe e -> Qe' e) ->
  rpost P' Qp' Qe' r.
Proof. intros A P P' Qp Qp' Qe Qe' [a|m|e] H H1 H2 H3; cbn [rpost] in *; auto. Qed.

Lemma bind_ok_inv : forall {A B} (r : res A) (f : A -> res B) y, bind r f = Ok y -> exists x, r = Ok x /\ f x = Ok y.
Proof. intros A B [x| |] f y H; cbn [bind] in H; try discriminate. eauto. Qed.

(* An invariant [I rest a] of the states of a fold, indexed by the elements still to come: if every step keeps
   it, with failures in Qp / Qe, it holds at the end. *)
Lemma fold_res_rpost : forall {A B} (g : A -> B -> res A) (I : list B -> A -> Prop) Qp Qe,
  (forall x rest a, I (x :: rest) a -> rpost (I rest) Qp Qe (g a x)) ->
  forall xs a, I xs a -> rpost (I []) Qp Qe (fold_res g xs a).
Proof.
  intros A B g I Qp Qe Hstep. induction xs as [|x xs IH]; intros a Ha; cbn [fold_res]; [exact Ha|].
  eapply rpost_bind; [apply Hstep; exact Ha | exact IH].
Qed.

Lemma fold_res_inv : forall {A B} (g : A -> B -> res A) (I : list B -> A -> Prop),
  (forall x rest a a1, I (x :: rest) a -> g a x = Ok a1 -> I rest a1) ->
  forall xs a a', I xs a -> fold_res g xs a = Ok a' -> I [] a'.
Proof.
  intros A B g I Hstep xs a a' Ha H.
  change (rpost (I []) (fun _ => True) (fun _ => True) (Ok a')). rewrite <- H. apply fold_res_rpost; [|exact Ha].
  intros x rest a0 Ha0. destruct (g a0 x) as [a1| |] eqn:E; cbn [rpost]; eauto.
Qed.

(** * Histories of steps, in general *)

(* A history predicate [ok st es] in the style of EngineRefines.txs_ok (and of EngineAllocInv.txs_ok',
   EngineReaders.hist_ok, EngineReopen.hops_ok) asks [adm] of every step in the state it is taken from and [good] of
   every state reached; the two lemmas take its unfolding at [e :: es] as a hypothesis, which for those predicates is
   [fun _ _ _ H => H] (after destructing [e] where the predicate matches on it). *)
Section Steps.
Context {St Ev : Type}.
Variables (stp : St -> Ev -> res St) (adm : St -> Ev -> Prop) (good : St -> Prop) (ok : St -> list Ev -> Prop).

(* an invariant [I st m] between the state and a meaning [m], carried along by every admissible step to a good state,
   holds at the end of the history *)
Lemma steps_inv : forall {M : Type} (I : St -> M -> Prop) (sem : list Ev -> M -> M),
  (forall st e es, ok st (e :: es) -> adm st e /\ forall st1, stp st e = Ok st1 -> good st1 /\ ok st1 es) ->
  (forall m, sem [] m = m) -> (forall e es m, sem (e :: es) m = sem es (sem [e] m)) ->
  (forall st m e st1, I st m -> adm st e -> stp st e = Ok st1 -> good st1 -> I st1 (sem [e] m)) ->
  forall es st m st', I st m -> ok st es -> fold_res stp es st = Ok st' -> I st' (sem es m).
Proof.
  intros M I sem Hok Hnil Hcons Hstep es st m st' Hi Ho Hrun.
  destruct (fold_res_inv stp (fun rest st => ok st rest /\ exists m1, I st m1 /\ sem rest m1 = sem es m))
    with (xs := es) (a := st) (a' := st') as (_ & m1 & H1 & E); [| split; [exact Ho | now exists m] | exact Hrun |].
  - intros e rest a a1 (Ho1 & m1 & Hi1 & E) Hs. destruct (Hok a e rest Ho1) as [Ha Hnext]. destruct (Hnext a1 Hs) as [Hg Ho2].
    split; [exact Ho2|]. exists (sem [e] m1). split; [exact (Hstep a m1 e a1 Hi1 Ha Hs Hg) | now rewrite <- Hcons].
  - rewrite Hnil in E. now subst m1.
Qed.

(* the predicate by evaluation, given sound boolean tests for [adm] and [good] *)
Variables (admb : St -> Ev -> bool) (goodb : St -> bool).
Fixpoint steps_okb (st : St) (es : list Ev) : bool :=
  match es with
  | [] => true
  | e :: es' => admb st e && match stp st e with Ok st1 => goodb st1 && steps_okb st1 es' | _ => true end
  end.

Lemma steps_okb_ok : (forall st e, admb st e = true -> adm st e) -> (forall st, goodb st = true -> good st) ->
  (forall st, ok st []) ->
  (forall st e es, (adm st e /\ forall st1, stp st e = Ok st1 -> good st1 /\ ok st1 es) -> ok st (e :: es)) ->
  forall es st, steps_okb st es = true -> ok st es.
Proof.
  intros Hadm Hgood Hnil Hcons. induction es as [|e es IH]; intros st H; [apply Hnil|]. cbn [steps_okb] in H.
  apply andb_true_iff in H. destruct H as [Ha H]. apply Hcons. split; [now apply Hadm|].
  intros st1 H1. rewrite H1 in H. apply andb_true_iff in H. destruct H as [Hg H]. split; [now apply Hgood | now apply IH].
Qed.
End Steps.

(* a [fold_left] over results whose step starts by binding the accumulator is a [fold_res] *)
Lemma fold_left_bind : forall {A B} (F : res A -> B -> res A) (g : A -> B -> res A),
  (forall r x, F r x = bind r (fun a => g a x)) ->
  forall xs r, fold_left F xs r = bind r (fold_res g xs).
Proof.
  intros A B F g HF. induction xs as [|x xs IH]; intros r; cbn [fold_left fold_res].
  - destruct r; reflexivity.
  - rewrite IH, HF. destruct r; reflexivity.
Qed.

(* one round of [rebalance_kids]: the kid with sequence number sq, if still there, is rebalanced and merged *)
Definition rk_body (f : nat) (d : disk) (a : node * txs) (sq : N) : res (node * txs) :=
  let '(n0, s0) := a in
  match find (fun k => N.eqb (n_seq k) sq) (n_kids n0) with
  | None => Ok (n0, s0)
  | Some k =>
      '(k1, s1) <- (if is_leaf (n_data k) then Ok (k, s0) else rebalance_kids f d k s0) ;;
      try_merge d (set_kids n0 (replace_kid (n_kids n0) k1)) k1 s1
  end.

Lemma rebalance_kids_S : forall f d n s,
  rebalance_kids (S f) d n s = fold_res (rk_body f d) (map n_seq (n_kids n)) (n, s).
Proof. intros f d n s. cbn [rebalance_kids]. apply (fold_left_bind _ (rk_body f d)). reflexivity. Qed.

(* one round of [rebalance] over the opened sub-buckets *)
Definition reb_body (f : nat) (d : disk) (a : list (bytes * bucket) * txs) (x : bytes * bucket)
  : res (list (bytes * bucket) * txs) :=
  let '(l, s0) := a in '(b', s') <- rebalance f d (snd x) s0 ;; Ok (l ++ [(fst x, b')], s').

Lemma rebalance_S : forall f d b s,
  rebalance (S f) d b s =
  if negb (is_dirty fuel0 b) then Ok (b, s) else
  '(subs', s1) <- fold_res (reb_body f d) (b_subs b) ([], s) ;;
  merge_nodes d (Bucket (b_root_page b) (b_next b) true (b_rootn b) subs') s1.
Proof.
  intros f d b s. cbn [rebalance]. destruct (negb (is_dirty fuel0 b)); [reflexivity|].
  f_equal. apply (fold_left_bind _ (reb_body f d)). reflexivity.
Qed.

(** * [try_merge] in parts *)
Import Coq.Strings.String.StringSyntax. Delimit Scope string_scope with string.

(* the sibling for page q: the kid if there is one, else read in from its page with a fresh sequence number *)
Definition sib_of (d : disk) (ks : list node) (q : N) (s : txs) : res (node * txs * bool) :=
  match find_kid q ks with
  | Some sb => Ok (sb, s, false)
  | None => match dget d q with None => Panic "page missing"%string
                            | Some a => let '(sq', s1) := next_seq s in Ok (node_of_page q a sq', s1, true) end
  end.

(* the entry naming the sibling of the child at idx: its right neighbour for the first child, else the left one *)
Definition sib_entry (es : list (bytes * N)) (idx : N) : option (bytes * N) :=
  if (idx =? 0)%N then nthN es 1 else nthN es (idx - 1).

(* the sibling with the merged data md and k's kids; a right sibling is re-keyed to its new first key (repair D2) *)
Definition merged_sib (sib k : node) (md : ndata) (idx : N) : node :=
  let sib0 := set_kids (set_data sib md) (n_kids sib ++ n_kids k) in
  if (idx =? 0)%N then match first_key md with Ok fk => set_orig sib0 (Some fk) | _ => sib0 end else sib0.

(* the parent's entries without the one at idx; the entry of a right sibling takes the new first key *)
Definition merged_entries (es : list (bytes * N)) (idx : N) (md : ndata) : list (bytes * N) :=
  match remove_at es (N.to_nat idx) with
  | (k0, q0) :: rest0 =>
      if (idx =? 0)%N then match first_key md with Ok fk => (fk, q0) :: rest0 | _ => (k0, q0) :: rest0 end
      else (k0, q0) :: rest0
  | [] => [] end.

(* the parent's kids without k, with the merged sibling in place *)
Definition kids_merged (ks : list node) (k sib' : node) (isnew : bool) : list node :=
  let ks0 := filter (not_seq (n_seq k)) ks in if isnew then ks0 ++ [sib'] else replace_kid ks0 sib'.

Lemma merged_sib_eq : forall sib k md idx, exists o',
  merged_sib sib k md idx = Node (n_page sib) (n_np sib) o' (n_seq sib) md (n_kids sib ++ n_kids k).
Proof.
  intros [p np o sq dd ks] k md idx. unfold merged_sib. cbn [set_data set_kids n_kids n_page n_np n_seq].
  destruct (idx =? 0)%N; [destruct (first_key md)|]; eexists; reflexivity.
Qed.

Lemma merged_left : forall es idx md sib k, (idx =? 0)%N = false ->
  merged_entries es idx md = remove_at es (N.to_nat idx) /\
  merged_sib sib k md idx = set_kids (set_data sib md) (n_kids sib ++ n_kids k).
Proof.
  intros es idx md sib k E. unfold merged_entries, merged_sib. rewrite E.
  destruct (remove_at es (N.to_nat idx)) as [|[k0 q0] rest0]; split; reflexivity.
Qed.

Lemma merged_right : forall e0 kq q rest md fk sib k, first_key md = Ok fk ->
  merged_entries (e0 :: (kq, q) :: rest) 0%N md = (fk, q) :: rest /\
  merged_sib sib k md 0%N = set_orig (set_kids (set_data sib md) (n_kids sib ++ n_kids k)) (Some fk).
Proof.
  intros e0 kq q rest md fk sib k E. unfold merged_entries, merged_sib. cbn [remove_at N.to_nat].
  change (0 =? 0)%N with true. cbv iota. now rewrite E.
Qed.

Lemma try_merge_unfold : forall d par k s,
  try_merge d par k s =
  if negb (needs_merging s k) then Ok (set_kids par (replace_kid (n_kids par) k), s) else
  match n_data par with Leaves _ => Panic "parent is leaf"%string | Branches es =>
    if (llen es =? 1)%N && (0 <? dlen (n_data k))%N then Ok (set_kids par (replace_kid (n_kids par) k), s) else
    match n_orig k with None => Panic "unwrap original_key"%string | Some ok =>
    match bsearch (map fst es) ok with (false, _) => Panic "child branch not found"%string | (true, idx) =>
      if (0 <? dlen (n_data k))%N then
        match sib_entry es idx with None => Panic "no sibling"%string | Some (_, q) =>
          '(sib, s1, isnew) <- sib_of d (n_kids par) q s ;;
          md <- merge_data (n_data sib) (n_data k) ;;
          Ok (set_kids (set_data par (Branches (merged_entries es idx md)))
                (kids_merged (n_kids par) k (merged_sib sib k md idx) isnew), free_node_page s1 k) end
      else Ok (set_kids (set_data par (Branches (remove_at es (N.to_nat idx))))
                 (filter (not_seq (n_seq k)) (n_kids par)), free_node_page s k)
    end end end.
Proof.
  intros d par k s. unfold try_merge. destruct (negb (needs_merging s k)); [reflexivity|].
  destruct (n_data par) as [l|es]; [reflexivity|].
  destruct ((llen es =? 1)%N && (0 <? dlen (n_data k))%N); [reflexivity|].
  destruct (n_orig k) as [ok|]; [|reflexivity]. destruct (bsearch (map fst es) ok) as [[|] idx]; [|reflexivity].
  destruct (0 <? dlen (n_data k))%N; [|reflexivity]. unfold sib_entry.
  destruct (if (idx =? 0)%N then nthN es 1 else nthN es (idx - 1)) as [[kq q]|]; [|reflexivity].
  unfold sib_of. set (X := match find_kid q (n_kids par) with Some sb => _ | None => _ end).
  destruct X as [[[sib s1] isnew]| |]; [|reflexivity|reflexivity]. cbn [bind].
  destruct (merge_data (n_data sib) (n_data k)) as [md| |]; [|reflexivity|reflexivity]. cbn [bind].
  fold (merged_sib sib k md idx). destruct (merged_sib_eq sib k md idx) as [o' ->]. cbn [n_data].
  unfold merged_entries, kids_merged.
  destruct (remove_at es (N.to_nat idx)) as [|[k0 q0] rest0]; destruct isnew, (idx =? 0)%N; try reflexivity;
    destruct (first_key md); reflexivity.
Qed.

Theorem try_merge_noop d par k s :
  needs_merging s k = false ->
  try_merge d par k s = Ok (set_kids par (replace_kid (n_kids par) k), s).
Proof. intros H. unfold try_merge. now rewrite H. Qed.

(* spelled out: same txs (so free / pending / np / wr are untouched: no page freed or allocated), same
   data and header fields; the kid list changes only at the (first) kid with k's page *)
Corollary try_merge_noop_fields d par k s par' s' :
  needs_merging s k = false -> try_merge d par k s = Ok (par', s') ->
  s' = s /\ n_data par' = n_data par /\ n_page par' = n_page par /\ n_np par' = n_np par /\
  n_orig par' = n_orig par /\ n_seq par' = n_seq par /\ n_kids par' = replace_kid (n_kids par) k.
Proof.
  intros Hn H. rewrite (try_merge_noop d par k s Hn) in H. inversion H; subst.
  destruct par; cbn. repeat split; reflexivity.
Qed.

Corollary try_merge_noop_replaces d par k s a x b :
  needs_merging s k = false ->
  n_kids par = a ++ x :: b -> n_page x = n_page k -> (forall y, In y a -> n_page y <> n_page k) ->
  try_merge d par k s = Ok (set_kids par (a ++ k :: b), s).
Proof.
  intros Hn Hk Hx Ha. rewrite (try_merge_noop d par k s Hn), Hk, (replace_kid_hit a x b k Hx Ha). reflexivity.
Qed.

(* the other way to be left alone: an only child that is not empty (repair D3) *)
Theorem try_merge_only_child d par k s es :
  n_data par = Branches es -> llen es = 1%N -> (0 < dlen (n_data k))%N ->
  try_merge d par k s = Ok (set_kids par (replace_kid (n_kids par) k), s).
Proof.
  intros Hd Hl Hk. unfold try_merge. destruct (negb (needs_merging s k)); [reflexivity|].
  rewrite Hd, Hl. cbn [N.eqb Pos.eqb andb].
  destruct (0 <? dlen (n_data k))%N eqn:E; [reflexivity | lia].
Qed.

Lemma bs_loop_range keys t : forall fuel base size, (1 <= size)%N ->
  (base <= bs_loop fuel keys t base size < base + size)%N.
Proof.
  induction fuel as [|f IH]; intros base size Hs; cbn [bs_loop]; [lia|].
  destruct (size <=? 1)%N eqn:E; [lia|]. cbv zeta.
  destruct (bcmp (nth (N.to_nat (base + size / 2)) keys []) t).
  - specialize (IH (base + size / 2) (size - size / 2))%N. lia.
  - specialize (IH (base + size / 2) (size - size / 2))%N. lia.
  - specialize (IH base (size - size / 2))%N. lia.
Qed.

(* needs no sortedness: a hit is always a real hit *)
Lemma bsearch_true keys t i : bsearch keys t = (true, i) ->
  (i < llen keys)%N /\ nth_error keys (N.to_nat i) = Some t.
Proof.
  unfold bsearch. destruct (llen keys =? 0)%N eqn:E0; [discriminate|]. cbv zeta.
  pose proof (bs_loop_range keys t (length keys) 0%N (llen keys)) as Hr.
  set (b := bs_loop (length keys) keys t 0 (llen keys)) in *.
  destruct (bcmp (nth (N.to_nat b) keys []) t) eqn:Ec; intros H; inversion H; subst i.
  assert (Hb : (b < llen keys)%N) by lia. split; [exact Hb|].
  apply bcmp_eq in Ec. rewrite <- Ec. apply nth_error_nth'. unfold llen in Hb. lia.
Qed.

(** * The outcomes of [try_merge] *)

(* [try_merge] has found the non-empty child k at index idx of the parent's entries es; (kq, q) names its sibling *)
Definition tm_at (par k : node) (s : txs) (es : list (bytes * N)) (idx : N) (kq : bytes) (q : N) : Prop :=
  needs_merging s k = true /\ n_data par = Branches es /\ (0 < dlen (n_data k))%N /\
  (exists ok, n_orig k = Some ok /\ bsearch (map fst es) ok = (true, idx)) /\
  sib_entry es idx = Some (kq, q).

(* k is left in place (it needs no merging, or is a non-empty only child), or dropped (it is empty), or merged *)
Inductive tm_ok (d : disk) (par k : node) (s : txs) : node -> txs -> Prop :=
| tm_keep : (0 < dlen (n_data k))%N -> tm_ok d par k s (set_kids par (replace_kid (n_kids par) k)) s
| tm_drop : forall es ok idx, n_data par = Branches es -> dlen (n_data k) = 0%N ->
    n_orig k = Some ok -> bsearch (map fst es) ok = (true, idx) ->
    tm_ok d par k s (set_kids (set_data par (Branches (remove_at es (N.to_nat idx))))
                       (filter (not_seq (n_seq k)) (n_kids par))) (free_node_page s k)
| tm_merge : forall es idx kq q sib s1 isnew md, tm_at par k s es idx kq q ->
    sib_of d (n_kids par) q s = Ok (sib, s1, isnew) -> merge_data (n_data sib) (n_data k) = Ok md ->
    tm_ok d par k s (set_kids (set_data par (Branches (merged_entries es idx md)))
                       (kids_merged (n_kids par) k (merged_sib sib k md idx) isnew)) (free_node_page s1 k).

Lemma merge_data_not_err : forall a b e, merge_data a b <> Err e.
Proof. intros [l1|e1] [l2|e2] e; cbn [merge_data]; discriminate. Qed.

Lemma sib_of_res : forall d ks q s,
  match sib_of d ks q s with
  | Ok (sib, s1, isnew) =>
      (isnew = false /\ find_kid q ks = Some sib /\ s1 = s) \/
      (isnew = true /\ find_kid q ks = None /\ s1 = snd (next_seq s) /\
       exists a, dget d q = Some a /\ sib = node_of_page q a (seqc s))
  | Panic m => forall a b, merge_data a b <> Panic m
  | Err _ => False end.
Proof.
  intros d ks q s. unfold sib_of. destruct (find_kid q ks) as [sb|]; [now left|].
  destruct (dget d q) as [a|]; [right; cbn [next_seq]; eauto 6|]. intros [l1|e1] [l2|e2]; discriminate.
Qed.

(* The result of [try_merge]: one of the three good outcomes; a panic is that of [merge_data] on the child and its
   sibling, or one that [merge_data] never raises; never an [Err]. *)
Theorem try_merge_cases : forall d par k s,
  match try_merge d par k s with
  | Ok (par', s') => tm_ok d par k s par' s'
  | Panic m => (forall a b, merge_data a b <> Panic m) \/
               exists es idx kq q sib s1 isnew, tm_at par k s es idx kq q /\
                 sib_of d (n_kids par) q s = Ok (sib, s1, isnew) /\ merge_data (n_data sib) (n_data k) = Panic m
  | Err _ => False end.
Proof.
  intros d par k s. rewrite try_merge_unfold.
  assert (Hother : forall m : String.string, (forall a b, merge_data a b = Panic m -> m = "incompatible data types"%string) ->
            m <> "incompatible data types"%string -> forall a b, merge_data a b <> Panic m).
  { intros m H Hm a b E. exact (Hm (H a b E)). }
  assert (Hkind : forall m a b, merge_data a b = Panic m -> m = "incompatible data types"%string).
  { intros m [l1|e1] [l2|e2] E; cbn [merge_data] in E; inversion E; reflexivity. }
  destruct (negb (needs_merging s k)) eqn:En.
  { apply tm_keep. unfold needs_merging in En. apply negb_true_iff, orb_false_iff in En. lia. }
  apply negb_false_iff in En.
  destruct (n_data par) as [l|es] eqn:Ed; [left; apply Hother; [apply Hkind | discriminate]|].
  destruct ((llen es =? 1)%N && (0 <? dlen (n_data k))%N) eqn:E1.
  { apply andb_true_iff in E1. apply tm_keep. lia. }
  destruct (n_orig k) as [ok|] eqn:Eo; [|left; apply Hother; [apply Hkind | discriminate]].
  destruct (bsearch (map fst es) ok) as [[|] idx] eqn:Eb; [|left; apply Hother; [apply Hkind | discriminate]].
  destruct (0 <? dlen (n_data k))%N eqn:Edl; [|eapply tm_drop; eauto; lia].
  destruct (sib_entry es idx) as [[kq q]|] eqn:Ese; [|left; apply Hother; [apply Hkind | discriminate]].
  pose proof (sib_of_res d (n_kids par) q s) as Hso.
  destruct (sib_of d (n_kids par) q s) as [[[sib s1] isnew]|m|e] eqn:Eso; cbn [bind]; [|now left | exact Hso].
  assert (HF : tm_at par k s es idx kq q).
  { unfold tm_at. repeat (split; [assumption || lia|]). split; [eauto | assumption]. }
  destruct (merge_data (n_data sib) (n_data k)) as [md|m|e] eqn:Em; cbn [bind].
  - eapply tm_merge; eauto.
  - right. exists es, idx, kq, q, sib, s1, isnew. auto.
  - exact (merge_data_not_err _ _ _ Em).
Qed.

Corollary try_merge_not_err : forall d par k s e, try_merge d par k s <> Err e.
Proof. intros d par k s e H. pose proof (try_merge_cases d par k s) as C. rewrite H in C. exact C. Qed.

Lemma sib_entry_two : forall (es : list (bytes * N)) idx e, (idx < llen es)%N -> sib_entry es idx = Some e -> (llen es =? 1)%N = false.
Proof.
  intros es idx e Hlt H. unfold sib_entry, nthN in H. unfold llen in *.
  destruct (idx =? 0)%N eqn:E0; [|lia]. change (N.to_nat 1) with 1 in H.
  destruct es as [|e0 [|e1 es]]; cbn [nth_error length] in *; [discriminate | discriminate | lia].
Qed.

Lemma try_merge_at : forall d par k s es idx kq q, tm_at par k s es idx kq q ->
  try_merge d par k s =
    '(sib, s1, isnew) <- sib_of d (n_kids par) q s ;;
    md <- merge_data (n_data sib) (n_data k) ;;
    Ok (set_kids (set_data par (Branches (merged_entries es idx md)))
          (kids_merged (n_kids par) k (merged_sib sib k md idx) isnew), free_node_page s1 k).
Proof.
  intros d par k s es idx kq q (Hn & Hd & Hk & (ok & Ho & Hb) & Hse).
  rewrite try_merge_unfold, Hn, Hd. cbn [negb].
  destruct (bsearch_true _ _ _ Hb) as [Hlt _]. unfold llen in Hlt. rewrite map_length in Hlt.
  rewrite (sib_entry_two es idx _ Hlt Hse). cbn [andb]. rewrite Ho, Hb.
  assert (E2 : (0 <? dlen (n_data k))%N = true) by lia. rewrite E2, Hse. reflexivity.
Qed.

(* the leaf entries held by the materialised (overlay) nodes under [n] *)
Fixpoint node_leaves (n : node) : list leafent :=
  match n with
  | Node _ _ _ _ (Leaves l) _ => l
  | Node _ _ _ _ (Branches _) ks => flat_map node_leaves ks
  end.

Lemma node_leaves_eq n : node_leaves n =
  match n_data n with Leaves l => l | Branches _ => flat_map node_leaves (n_kids n) end.
Proof. destruct n as [p np o s [l|es] ks]; reflexivity. Qed.

(* Merging a non-empty child into its materialised LEFT sibling: the exact result. Hypotheses: k needs merging, is not empty, is found in the parent at idx > 0, the entry to
   its left points to page q whose node sb is already among the parent's kids, and the two nodes are of the
   same kind (merge_data succeeds). *)
Theorem try_merge_left d par k s es ok idx kq q sb md :
  needs_merging s k = true ->
  n_data par = Branches es ->
  (0 < dlen (n_data k))%N ->
  n_orig k = Some ok ->
  bsearch (map fst es) ok = (true, idx) ->
  (0 < idx)%N ->
  nthN es (idx - 1) = Some (kq, q) ->
  find_kid q (n_kids par) = Some sb ->
  merge_data (n_data sb) (n_data k) = Ok md ->
  try_merge d par k s =
    Ok (set_kids (set_data par (Branches (remove_at es (N.to_nat idx))))
          (replace_kid (filter (not_seq (n_seq k)) (n_kids par))
                       (set_kids (set_data sb md) (n_kids sb ++ n_kids k))),
        free_node_page s k).
Proof.
  intros Hn Hd Hk Ho Hb Hi Hsp Hf Hm. assert (E3 : (idx =? 0)%N = false) by lia.
  rewrite (try_merge_at d par k s es idx kq q); [unfold sib_of; rewrite Hf; cbn [bind]; rewrite Hm|].
  - cbn [bind]. destruct (merged_left es idx md sb k E3) as [-> ->]. reflexivity.
  - unfold tm_at, sib_entry. rewrite E3. eauto 10.
Qed.

(* parent's entry list afterwards = [remove_at es idx]; the page of k (and nothing else) is handed back *)
Corollary try_merge_left_fields d par k s es ok idx kq q sb md par' s' :
  needs_merging s k = true -> n_data par = Branches es -> (0 < dlen (n_data k))%N ->
  n_orig k = Some ok -> bsearch (map fst es) ok = (true, idx) -> (0 < idx)%N ->
  nthN es (idx - 1) = Some (kq, q) -> find_kid q (n_kids par) = Some sb ->
  merge_data (n_data sb) (n_data k) = Ok md ->
  try_merge d par k s = Ok (par', s') ->
  n_data par' = Branches (remove_at es (N.to_nat idx)) /\
  s' = free_node_page s k /\
  n_page par' = n_page par /\ n_np par' = n_np par /\ n_orig par' = n_orig par /\ n_seq par' = n_seq par.
Proof.
  intros Hn Hd Hk Ho Hb Hi Hsp Hf Hm H.
  rewrite (try_merge_left d par k s es ok idx kq q sb md Hn Hd Hk Ho Hb Hi Hsp Hf Hm) in H.
  inversion H; subst. destruct par; cbn. repeat split; reflexivity.
Qed.

Lemma filter_not_seq_id sq ks : ~ In sq (map n_seq ks) -> filter (not_seq sq) ks = ks.
Proof.
  induction ks as [|x ks IH]; intros H; [reflexivity|]. cbn [filter map] in *.
  unfold not_seq at 1. destruct (N.eqb (n_seq x) sq) eqn:E.
  - apply N.eqb_eq in E. exfalso. apply H. now left.
  - cbn [negb]. f_equal. apply IH. intros Hin. apply H. now right.
Qed.

Lemma leaves_filter_seq k : forall ks,
  NoDup (map n_seq ks) -> In k ks ->
  Permutation (flat_map node_leaves ks)
              (node_leaves k ++ flat_map node_leaves (filter (not_seq (n_seq k)) ks)).
Proof.
  induction ks as [|x ks IH]; intros Hnd Hin; [destruct Hin|].
  cbn [map] in Hnd. inversion Hnd as [|? ? Hx Hnd']; subst.
  cbn [flat_map filter]. destruct Hin as [-> | Hin].
  - unfold not_seq at 1. rewrite N.eqb_refl. cbn [negb]. now rewrite (filter_not_seq_id _ _ Hx).
  - assert (Hne : n_seq x <> n_seq k).
    { intros E. apply Hx. rewrite E. now apply in_map. }
    unfold not_seq at 1. apply N.eqb_neq in Hne. rewrite Hne. cbn [negb flat_map].
    rewrite (IH Hnd' Hin). rewrite !app_assoc. apply Permutation_app_tail, Permutation_app_comm.
Qed.

Lemma leaves_merged sb k md :
  merge_data (n_data sb) (n_data k) = Ok md ->
  Permutation (node_leaves (set_kids (set_data sb md) (n_kids sb ++ n_kids k)))
              (node_leaves sb ++ node_leaves k).
Proof.
  destruct sb as [p1 np1 o1 s1 [l1|e1] ks1], k as [p2 np2 o2 s2 [l2|e2] ks2]; cbn; intros H;
    inversion H; subst; cbn.
  - apply isort_by_perm.
  - now rewrite flat_map_app.
Qed.

(* The overlay leaf entries under the parent are the same multiset before and after. Extra hypotheses: k is one
   of the parent's kids, kid sequence numbers are unique, and the sibling is not k itself. *)
Theorem try_merge_left_leaves d par k s es ok idx kq q sb md par' s' :
  needs_merging s k = true -> n_data par = Branches es -> (0 < dlen (n_data k))%N ->
  n_orig k = Some ok -> bsearch (map fst es) ok = (true, idx) -> (0 < idx)%N ->
  nthN es (idx - 1) = Some (kq, q) -> find_kid q (n_kids par) = Some sb ->
  merge_data (n_data sb) (n_data k) = Ok md ->
  NoDup (map n_seq (n_kids par)) -> In k (n_kids par) -> n_seq sb <> n_seq k ->
  try_merge d par k s = Ok (par', s') ->
  Permutation (node_leaves par') (node_leaves par).
Proof.
  intros Hn Hd Hk Ho Hb Hi Hsp Hf Hm Hnd Hin Hsk H.
  rewrite (try_merge_left d par k s es ok idx kq q sb md Hn Hd Hk Ho Hb Hi Hsp Hf Hm) in H.
  inversion H; subst par' s'. clear H.
  rewrite (node_leaves_eq par), Hd.
  rewrite node_leaves_eq. destruct par as [pp pnp po ps pd pks]. cbn [set_kids set_data n_data n_kids] in *.
  rewrite (leaves_filter_seq k pks Hnd Hin).
  pose proof (find_kid_filter q sb (n_seq k) pks Hf Hsk) as Hf'.
  destruct (find_kid_split _ _ _ Hf') as (a & b & Hab & Hq & Ha).
  rewrite Hab. rewrite replace_kid_hit.
  - rewrite !flat_map_app. cbn [flat_map]. rewrite leaves_merged by exact Hm.
    rewrite (Permutation_app_comm (node_leaves sb) (node_leaves k)). rewrite <- !app_assoc.
    apply Permutation_app_swap_app.
  - destruct sb; cbn in *. reflexivity.
  - intros y Hy. destruct sb; cbn in *. rewrite Hq. now apply Ha.
Qed.

(* an EMPTY child is simply dropped (entry removed, kid removed, page handed back); no sibling is touched *)
Theorem try_merge_empty d par k s es ok idx :
  dlen (n_data k) = 0%N ->
  n_data par = Branches es ->
  n_orig k = Some ok ->
  bsearch (map fst es) ok = (true, idx) ->
  try_merge d par k s =
    Ok (set_kids (set_data par (Branches (remove_at es (N.to_nat idx))))
                 (filter (not_seq (n_seq k)) (n_kids par)),
        free_node_page s k).
Proof.
  intros Hk Hd Ho Hb. unfold try_merge.
  assert (Hn : needs_merging s k = true) by (unfold needs_merging; rewrite Hk; reflexivity).
  rewrite Hn. cbn [negb]. rewrite Hd, Hk. cbn [N.ltb N.compare]. rewrite andb_false_r.
  rewrite Ho, Hb. cbn [bind]. reflexivity.
Qed.

Lemma ins_by_nonnil {A} (key : A -> bytes) x l : ins_by key x l <> [].
Proof. destruct l as [|y l]; [discriminate|]. rewrite ins_by_cons. destruct (bcmp _ _); discriminate. Qed.

Lemma isort_by_nonnil {A} (key : A -> bytes) l : l <> [] -> isort_by key l <> [].
Proof. destruct l as [|x l]; [congruence|]. intros _. rewrite isort_by_cons. apply ins_by_nonnil. Qed.

Lemma merge_data_first_key a b md :
  merge_data a b = Ok md -> (0 < dlen b)%N -> exists fk, first_key md = Ok fk.
Proof.
  destruct a as [l1|e1], b as [l2|e2]; cbn [merge_data]; intros H Hb; inversion H; subst; cbn [dlen] in Hb.
  - assert (Hne : isort_by lkey (l1 ++ l2) <> []).
    { apply isort_by_nonnil. destruct l2; [cbn in Hb; lia|]. now destruct l1. }
    destruct (isort_by lkey (l1 ++ l2)) as [|e l]; [congruence|]. eexists. reflexivity.
  - assert (Hne : isort_by fst (e1 ++ e2) <> []).
    { apply isort_by_nonnil. destruct e2; [cbn in Hb; lia|]. now destruct e1. }
    destruct (isort_by fst (e1 ++ e2)) as [|e l]; [congruence|]. eexists. reflexivity.
Qed.

(* child at idx = 0: merged into its materialised RIGHT sibling, which is re-keyed (entry and original key) to
   the first key of the merged data (repair D2) *)
Theorem try_merge_right d par k s e0 kq q rest ok sb md fk :
  needs_merging s k = true ->
  n_data par = Branches (e0 :: (kq, q) :: rest) ->
  (0 < dlen (n_data k))%N ->
  n_orig k = Some ok ->
  bsearch (map fst (e0 :: (kq, q) :: rest)) ok = (true, 0%N) ->
  find_kid q (n_kids par) = Some sb ->
  merge_data (n_data sb) (n_data k) = Ok md ->
  first_key md = Ok fk ->
  try_merge d par k s =
    Ok (set_kids (set_data par (Branches ((fk, q) :: rest)))
          (replace_kid (filter (not_seq (n_seq k)) (n_kids par))
                       (set_orig (set_kids (set_data sb md) (n_kids sb ++ n_kids k)) (Some fk))),
        free_node_page s k).
Proof.
  intros Hn Hd Hk Ho Hb Hf Hm Hfk.
  rewrite (try_merge_at d par k s (e0 :: (kq, q) :: rest) 0%N kq q); [unfold sib_of; rewrite Hf; cbn [bind]; rewrite Hm|].
  - cbn [bind]. destruct (merged_right e0 kq q rest md fk sb k Hfk) as [-> ->]. reflexivity.
  - unfold tm_at, sib_entry. change (0 =? 0)%N with true. cbv iota. eauto 10.
Qed.

(** * [ensure_root] and the last step of [merge_nodes] *)

Lemma ensure_root_cases : forall d b s,
  match ensure_root d b s with
  | Ok (root, s0) =>
      (b_rootn b = Some root /\ s0 = s) \/
      (b_rootn b = None /\ s0 = snd (next_seq s) /\
       exists a, dget d (b_root_page b) = Some a /\ root = node_of_page (b_root_page b) a (seqc s))
  | Panic m => b_rootn b = None /\ dget d (b_root_page b) = None /\ m = "root page missing"%string
  | Err _ => False end.
Proof.
  intros d b s. unfold ensure_root. destruct (b_rootn b) as [n|]; [now left|].
  destruct (dget d (b_root_page b)) as [a|]; [right; cbn [next_seq]; eauto | auto].
Qed.

(* what [merge_nodes] does with the root once its children are rebalanced *)
Definition mn_tail_of (b : bucket) (root1 : node) (s1 : txs) : res (bucket * txs) :=
  if needs_merging s1 root1 && negb (is_leaf (n_data root1)) && (dlen (n_data root1) =? 1)%N then
    match n_data root1 with Branches ((_, q) :: _) =>
      let s2 := free_node_page s1 root1 in
      Ok (Bucket q (b_next b) (b_dirty b) (find_kid q (n_kids root1)) (b_subs b), s2)
    | _ => Panic "unreachable"%string end
  else if negb (is_leaf (n_data root1)) && (dlen (n_data root1) =? 0)%N then
    Ok (Bucket (b_root_page b) (b_next b) (b_dirty b) (Some (set_data root1 (Leaves []))) (b_subs b), s1)
  else Ok (Bucket (b_root_page b) (b_next b) (b_dirty b) (Some root1) (b_subs b), s1).

Lemma merge_nodes_unfold : forall d b s,
  merge_nodes d b s =
  '(root, s0) <- ensure_root d b s ;;
  '(root1, s1) <- (if is_leaf (n_data root) then Ok (root, s0) else rebalance_kids fuel0 d root s0) ;;
  mn_tail_of b root1 s1.
Proof. reflexivity. Qed.

(* a branch root with a single entry gives way to its child; an empty branch root becomes an empty leaf (repair D3);
   any other root stays *)
Inductive mn_tail (b : bucket) (root1 : node) (s1 : txs) : bucket -> txs -> Prop :=
| mn_promoted : forall k0 q, n_data root1 = Branches [(k0, q)] ->
    mn_tail b root1 s1 (Bucket q (b_next b) (b_dirty b) (find_kid q (n_kids root1)) (b_subs b)) (free_node_page s1 root1)
| mn_emptied : n_data root1 = Branches [] ->
    mn_tail b root1 s1 (Bucket (b_root_page b) (b_next b) (b_dirty b) (Some (set_data root1 (Leaves []))) (b_subs b)) s1
| mn_kept : n_data root1 <> Branches [] ->
    mn_tail b root1 s1 (Bucket (b_root_page b) (b_next b) (b_dirty b) (Some root1) (b_subs b)) s1.

Lemma mn_tail_total : forall b root1 s1, exists b' s', mn_tail_of b root1 s1 = Ok (b', s') /\ mn_tail b root1 s1 b' s'.
Proof.
  intros b root1 s1. unfold mn_tail_of.
  destruct (needs_merging s1 root1 && negb (is_leaf (n_data root1)) && (dlen (n_data root1) =? 1)%N) eqn:Ec.
  - apply andb_true_iff in Ec. destruct Ec as [Ec E1]. apply andb_true_iff in Ec. destruct Ec as [_ Elf].
    destruct (n_data root1) as [l|[|[k0 q] [|e es]]] eqn:Ed; cbn [is_leaf negb dlen] in *; try discriminate;
      unfold llen in E1; cbn [length] in E1; try lia.
    eexists _, _. split; [reflexivity|]. eapply mn_promoted; eauto.
  - destruct (negb (is_leaf (n_data root1)) && (dlen (n_data root1) =? 0)%N) eqn:E0; eexists _, _; (split; [reflexivity|]).
    + apply andb_true_iff in E0. destruct E0 as [Elf E0].
      destruct (n_data root1) as [l|[|e es]] eqn:Ed; cbn [is_leaf negb dlen] in *; try discriminate;
        try (unfold llen in E0; cbn [length] in E0; lia). now apply mn_emptied.
    + apply mn_kept. intros Ed. rewrite Ed in E0. discriminate.
Qed.

Lemma merge_nodes_ok_inv : forall d b s b' s', merge_nodes d b s = Ok (b', s') ->
  exists root s0 root1 s1, ensure_root d b s = Ok (root, s0) /\
    (if is_leaf (n_data root) then Ok (root, s0) else rebalance_kids fuel0 d root s0) = Ok (root1, s1) /\
    mn_tail b root1 s1 b' s'.
Proof.
  intros d b s b' s' H. rewrite merge_nodes_unfold in H.
  apply bind_ok_inv in H. destruct H as ([root s0] & Er & H).
  apply bind_ok_inv in H. destruct H as ([root1 s1] & E1 & H).
  destruct (mn_tail_total b root1 s1) as (b2 & s2 & E & T). rewrite E in H. inversion H; subst b2 s2.
  exists root, s0, root1, s1. auto.
Qed.

(** * [try_merge_left] on the full view (overlay nodes over the committed pages) *)

(* the leaf entries below page p, as committed *)
Fixpoint page_leaves (fuel : nat) (d : disk) (p : N) : list leafent :=
  match fuel with O => [] | S f =>
    match dget d p with None => [] | Some a =>
      match ap_body a with
      | Leaves l => l
      | Branches es => flat_map (fun e => page_leaves f d (snd e)) es
      end end end.

(* the leaf entries below node n as the transaction sees them: a branch entry resolves to the first kid with
   that page if there is one, and to the committed page otherwise (exactly the resolution of [lookup_node]) *)
Fixpoint view_leaves (fuel : nat) (d : disk) (n : node) {struct n} : list leafent :=
  match n with
  | Node _ _ _ _ (Leaves l) _ => l
  | Node _ _ _ _ (Branches es) kids =>
      let fix go (ks : list node) (q : N) : option (list leafent) :=
        match ks with
        | [] => None
        | kd :: ks' => if N.eqb (n_page kd) q then Some (view_leaves fuel d kd) else go ks' q
        end in
      flat_map (fun e => match go kids (snd e) with Some r => r | None => page_leaves fuel d (snd e) end) es
  end.

Definition child_view (fuel : nat) (d : disk) (kids : list node) (q : N) : list leafent :=
  match find_kid q kids with Some kd => view_leaves fuel d kd | None => page_leaves fuel d q end.

Lemma view_leaves_eq fuel d n : view_leaves fuel d n =
  match n_data n with
  | Leaves l => l
  | Branches es => flat_map (fun e => child_view fuel d (n_kids n) (snd e)) es
  end.
Proof.
  destruct n as [p np o s [l|es] ks]; [reflexivity|]. cbn [view_leaves n_data n_kids].
  apply flat_map_ext. intros e. unfold child_view, find_kid. generalize (snd e) as q. intros q.
  induction ks as [|kd ks IH]; [reflexivity|]. cbn [find].
  destruct (N.eqb (n_page kd) q); [reflexivity | exact IH].
Qed.

Lemma remove_at_app {A} (l1 l2 : list A) n : remove_at (l1 ++ l2) (length l1 + n) = l1 ++ remove_at l2 n.
Proof. induction l1 as [|x l1 IH]; [reflexivity|]. cbn [length Nat.add app remove_at]. now rewrite IH. Qed.

(* the pages a node's own entries point to *)
Definition dpages (d : ndata) : list N := match d with Branches es => map snd es | Leaves _ => [] end.

(* the merged node shows what the two nodes showed, provided neither node's entries point at a page that one
   of the OTHER node's kids stands for (vacuous for leaves) *)
Lemma view_merged fuel d sb k md :
  merge_data (n_data sb) (n_data k) = Ok md ->
  (forall x, In x (n_kids k) -> ~ In (n_page x) (dpages (n_data sb))) ->
  (forall x, In x (n_kids sb) -> ~ In (n_page x) (dpages (n_data k))) ->
  Permutation (view_leaves fuel d (set_kids (set_data sb md) (n_kids sb ++ n_kids k)))
              (view_leaves fuel d sb ++ view_leaves fuel d k).
Proof.
  intros Hm H1 H2. rewrite !view_leaves_eq.
  destruct sb as [p1 np1 o1 s1 [l1|e1] ks1], k as [p2 np2 o2 s2 [l2|e2] ks2];
    cbn [n_data n_kids set_data set_kids dpages merge_data] in *; inversion Hm; subst.
  - apply isort_by_perm.
  - rewrite (Permutation_flat_map _ (isort_by_perm fst (e1 ++ e2))). rewrite flat_map_app.
    apply Permutation_app.
    + erewrite flat_map_ext_in; [reflexivity|]. intros e He. unfold child_view.
      rewrite find_kid_app_l; [reflexivity|]. intros x Hx E. apply (H1 x Hx). rewrite E. now apply in_map.
    + erewrite flat_map_ext_in; [reflexivity|]. intros e He. unfold child_view.
      rewrite find_kid_app_r; [reflexivity|]. intros x Hx E. apply (H2 x Hx). rewrite E. now apply in_map.
Qed.

(* Hypotheses beyond those of try_merge_left: the entry at idx is k's (it points at k's page, and k is the kid
   standing for that page), the parent's entries point at distinct pages, kid sequence numbers are unique, and
   the two cross conditions of view_merged. *)
Theorem try_merge_left_view fuel d par k s es ok idx kq q sb md ko par' s' :
  needs_merging s k = true -> n_data par = Branches es -> (0 < dlen (n_data k))%N ->
  n_orig k = Some ok -> bsearch (map fst es) ok = (true, idx) -> (0 < idx)%N ->
  nthN es (idx - 1) = Some (kq, q) -> find_kid q (n_kids par) = Some sb ->
  merge_data (n_data sb) (n_data k) = Ok md ->
  nthN es idx = Some (ko, n_page k) ->
  find_kid (n_page k) (n_kids par) = Some k ->
  NoDup (map snd es) ->
  NoDup (map n_seq (n_kids par)) ->
  (forall x, In x (n_kids k) -> ~ In (n_page x) (dpages (n_data sb))) ->
  (forall x, In x (n_kids sb) -> ~ In (n_page x) (dpages (n_data k))) ->
  try_merge d par k s = Ok (par', s') ->
  Permutation (view_leaves fuel d par') (view_leaves fuel d par).
Proof.
  intros Hn Hd Hk Ho Hb Hi Hsp Hf Hm Hik Hfk Hpg Hsq Hx1 Hx2 H.
  rewrite (try_merge_left d par k s es ok idx kq q sb md Hn Hd Hk Ho Hb Hi Hsp Hf Hm) in H.
  inversion H; subst par' s'. clear H.
  (* shape of es around idx *)
  unfold nthN in Hsp, Hik.
  destruct (nth_error_split _ _ Hsp) as (E1 & R & HE & HlE1).
  assert (HR : exists E2, R = (ko, n_page k) :: E2).
  { rewrite HE in Hik. rewrite nth_error_app2 in Hik by lia.
    replace (N.to_nat idx - length E1) with 1 in Hik by lia. cbn [nth_error] in Hik.
    destruct R as [|r R]; [discriminate|]. inversion Hik; subst r. now exists R. }
  destruct HR as (E2 & ->).
  assert (Hrm : remove_at es (N.to_nat idx) = E1 ++ (kq, q) :: E2).
  { rewrite HE. replace (N.to_nat idx) with (length E1 + 1) by lia. rewrite remove_at_app. reflexivity. }
  rewrite Hrm.
  (* distinct pages *)
  rewrite HE, map_app in Hpg. cbn [map snd] in Hpg.
  pose proof (NoDup_remove_2 _ _ _ Hpg) as Hq. pose proof (NoDup_remove_1 _ _ _ Hpg) as Hpg'.
  pose proof (NoDup_remove_2 _ _ _ Hpg') as Hpk.
  assert (Hqk : q <> n_page k).
  { intros E. apply Hq. apply in_or_app. right. left. now symmetry. }
  destruct (find_kid_split _ _ _ Hf) as (a1 & b1 & Hks1 & Hsbq & _).
  destruct (find_kid_split _ _ _ Hfk) as (a2 & b2 & Hks2 & _ & _).
  assert (Hinsb : In sb (n_kids par)) by (rewrite Hks1; apply in_or_app; right; now left).
  assert (Hink : In k (n_kids par)) by (rewrite Hks2; apply in_or_app; right; now left).
  assert (Hsk : n_seq sb <> n_seq k).
  { intros E. apply Hqk. rewrite <- Hsbq. f_equal. exact (NoDup_map_inj n_seq _ _ _ Hsq Hinsb Hink E). }
  (* the kids afterwards *)
  set (sib' := set_kids (set_data sb md) (n_kids sb ++ n_kids k)).
  assert (Hpsib : n_page sib' = q) by (subst sib'; destruct sb; exact Hsbq).
  set (ks' := replace_kid (filter (not_seq (n_seq k)) (n_kids par)) sib').
  assert (Hother : forall q', q' <> q -> q' <> n_page k -> find_kid q' ks' = find_kid q' (n_kids par)).
  { intros q' Hq1 Hq2. subst ks'. rewrite find_kid_replace_other by congruence.
    apply find_kid_filter_other. intros x Hx Hs E. apply Hq2. rewrite <- E. f_equal.
    exact (NoDup_map_inj n_seq _ _ _ Hsq Hx Hink Hs). }
  assert (Hsame : find_kid q ks' = Some sib').
  { subst ks'. rewrite <- Hpsib. apply find_kid_replace_same. }
  rewrite (view_leaves_eq fuel d par), Hd, HE.
  rewrite view_leaves_eq. destruct par as [pp pnp po ps pd pks].
  cbn [set_kids set_data n_data n_kids] in *. fold sib' ks'.
  rewrite !flat_map_app. cbn [flat_map snd].
  assert (HE1 : flat_map (fun e => child_view fuel d ks' (snd e)) E1 =
                flat_map (fun e => child_view fuel d pks (snd e)) E1).
  { apply flat_map_ext_in. intros e He. unfold child_view. rewrite Hother; [reflexivity| |].
    - intros E. apply Hq. apply in_or_app. left. rewrite <- E. now apply in_map.
    - intros E. apply Hpk. apply in_or_app. left. rewrite <- E. now apply in_map. }
  assert (HE2 : flat_map (fun e => child_view fuel d ks' (snd e)) E2 =
                flat_map (fun e => child_view fuel d pks (snd e)) E2).
  { apply flat_map_ext_in. intros e He. unfold child_view. rewrite Hother; [reflexivity| |].
    - intros E. apply Hq. apply in_or_app. right. right. rewrite <- E. now apply in_map.
    - intros E. apply Hpk. apply in_or_app. right. rewrite <- E. now apply in_map. }
  rewrite HE1, HE2. apply Permutation_app_head. rewrite app_assoc. apply Permutation_app_tail.
  unfold child_view at 1 2 3. rewrite Hsame, Hf, Hfk. subst sib'. now apply view_merged.
Qed.

(** * Examples: the hypotheses above are satisfiable, and the bounds are tight *)

Module Examples.
Local Open Scope N_scope.
Definition kA : bytes := ["a"%byte].  Definition kB : bytes := ["b"%byte].  Definition kC : bytes := ["c"%byte].
Definition kD : bytes := ["d"%byte].  Definition kE : bytes := ["e"%byte].  Definition kF : bytes := ["f"%byte].
Definition kG : bytes := ["g"%byte].
Definition mk_s (P : N) : txs :=
  {| free := []; pending := []; txid := 5; np := 20; psz := P; wr := []; flw := None; seqc := 3 |}.

Example ex_isort :
  isort_by lkey [LKv kC []; LKv kA []; LKv kB []] = [LKv kA []; LKv kB []; LKv kC []] /\
  NoDup (map lkey [LKv kC []; LKv kA []; LKv kB []]).
Proof. split; [reflexivity|]. repeat constructor; cbn; intuition discriminate. Qed.

(* [merge_data] in both orders *)
Example ex_merge_lr :
  merge_data (Leaves [LKv kA []; LKv kB []]) (Leaves [LKv kC []]) = Ok (Leaves [LKv kA []; LKv kB []; LKv kC []]).
Proof.
  apply (merge_data_leaves_lr [LKv kA []; LKv kB []] [LKv kC []]); try reflexivity.
  intros x y [<-|[<-|[]]] [<-|[]]; reflexivity.
Qed.
Example ex_merge_rl :
  merge_data (Branches [(kC, 7)]) (Branches [(kA, 5); (kB, 6)]) = Ok (Branches [(kA, 5); (kB, 6); (kC, 7)]).
Proof.
  apply (merge_data_branches_rl [(kC, 7)] [(kA, 5); (kB, 6)]); try reflexivity.
  intros x y [<-|[]] [<-|[<-|[]]]; reflexivity.
Qed.

(* a 7-entry leaf on a 64-byte page is cut at 2 and 4: pieces of 2, 2 and 3 entries (so ">= 2" is tight, and
   the LAST piece is the one that may be longer) *)
Definition ex_leaf := [LKv kA []; LKv kB []; LKv kC []; LKv kD []; LKv kE []; LKv kF []; LKv kG []].
Example ex_split :
  split_points (mk_s 64) (Leaves ex_leaf) = [2; 4]%nat /\
  split (mk_s 64) (Leaves ex_leaf) =
    (Leaves [LKv kA []; LKv kB []], [Leaves [LKv kC []; LKv kD []]; Leaves [LKv kE []; LKv kF []; LKv kG []]]).
Proof. split; reflexivity. Qed.
(* an over-full node (603 > 512 bytes) whose weight sits in its last two entries is NOT split: the scan
   stops 2 entries before the end *)
Definition big : bytes := repeat x00 200.
Definition ex_leaf2 := [LKv kA []; LKv kB []; LKv kC []; LKv kD big; LKv kE big].
Example ex_split_none :
  split (mk_s 512) (Leaves ex_leaf2) = (Leaves ex_leaf2, []) /\
  ((dlen (Leaves ex_leaf2) <=? 4) || (40 + dsize (Leaves ex_leaf2) <? psz (mk_s 512))) = false.
Proof. split; reflexivity. Qed.

(* a parent with two materialised leaf children *)
Definition ex_sb := Node 10 1 (Some kA) 1 (Leaves [LKv kA [x01]; LKv kB [x02]]) [].
Definition ex_k  := Node 11 1 (Some kC) 2 (Leaves [LKv kC [x03]]) [].
Definition ex_par := Node 9 1 (Some kA) 0 (Branches [(kA, 10); (kC, 11)]) [ex_sb; ex_k].
Definition ex_d : disk := [].

(* on a tiny page nothing needs merging: try_merge only re-installs the child *)
Example ex_noop :
  needs_merging (mk_s 64) ex_sb = false /\
  try_merge ex_d ex_par ex_sb (mk_s 64) = Ok (ex_par, mk_s 64).
Proof. split; reflexivity. Qed.

(* every hypothesis of try_merge_left / try_merge_left_leaves holds of this instance *)
Example ex_left_hyps :
  needs_merging (mk_s 4096) ex_k = true /\
  n_data ex_par = Branches [(kA, 10); (kC, 11)] /\
  0 < dlen (n_data ex_k) /\
  n_orig ex_k = Some kC /\
  bsearch (map fst [(kA, 10); (kC, 11)]) kC = (true, 1) /\
  0 < 1 /\
  nthN [(kA, 10); (kC, 11)] (1 - 1) = Some (kA, 10) /\
  find_kid 10 (n_kids ex_par) = Some ex_sb /\
  merge_data (n_data ex_sb) (n_data ex_k) = Ok (Leaves [LKv kA [x01]; LKv kB [x02]; LKv kC [x03]]) /\
  NoDup (map n_seq (n_kids ex_par)) /\ In ex_k (n_kids ex_par) /\ n_seq ex_sb <> n_seq ex_k.
Proof.
  repeat split; try reflexivity.
  - repeat constructor; cbn; intuition discriminate.
  - right. now left.
  - discriminate.
Qed.
Example ex_left :
  try_merge ex_d ex_par ex_k (mk_s 4096) =
    Ok (Node 9 1 (Some kA) 0 (Branches [(kA, 10)])
          [Node 10 1 (Some kA) 1 (Leaves [LKv kA [x01]; LKv kB [x02]; LKv kC [x03]]) []],
        upd_pending (mk_s 4096) [(5, [11])]).
Proof. reflexivity. Qed.

(* the right-sibling case on the same parent: merging ex_sb (idx 0) into ex_k re-keys ex_k to "a" *)
Example ex_right :
  try_merge ex_d ex_par ex_sb (mk_s 4096) =
    Ok (Node 9 1 (Some kA) 0 (Branches [(kA, 11)])
          [Node 11 1 (Some kA) 2 (Leaves [LKv kA [x01]; LKv kB [x02]; LKv kC [x03]]) []],
        upd_pending (mk_s 4096) [(5, [10])]).
Proof. reflexivity. Qed.
(* three entries, the third child (page 12) left on disk; every hypothesis of try_merge_left_view holds,
   and the view is (here even literally) unchanged *)
Definition ex_par3 := Node 9 1 (Some kA) 0 (Branches [(kA, 10); (kC, 11); (kE, 12)]) [ex_sb; ex_k].
Definition ex_d3 : disk := [(12, {| ap_over := 0; ap_body := Leaves [LKv kE [x05]; LKv kF [x06]] |})].
Example ex_view_hyps :
  nthN [(kA, 10); (kC, 11); (kE, 12)] 1 = Some (kC, n_page ex_k) /\
  find_kid (n_page ex_k) (n_kids ex_par3) = Some ex_k /\
  NoDup (map snd [(kA, 10); (kC, 11); (kE, 12)]) /\
  NoDup (map n_seq (n_kids ex_par3)) /\
  (forall x, In x (n_kids ex_k) -> ~ In (n_page x) (dpages (n_data ex_sb))) /\
  (forall x, In x (n_kids ex_sb) -> ~ In (n_page x) (dpages (n_data ex_k))) /\
  bsearch (map fst [(kA, 10); (kC, 11); (kE, 12)]) kC = (true, 1) /\
  find_kid 10 (n_kids ex_par3) = Some ex_sb.
Proof.
  repeat split; try reflexivity; try (repeat constructor; cbn; intuition discriminate); intros x [].
Qed.
Example ex_view :
  view_leaves 8 ex_d3 ex_par3 = [LKv kA [x01]; LKv kB [x02]; LKv kC [x03]; LKv kE [x05]; LKv kF [x06]] /\
  (exists par' s', try_merge ex_d3 ex_par3 ex_k (mk_s 4096) = Ok (par', s') /\
     n_data par' = Branches [(kA, 10); (kE, 12)] /\
     view_leaves 8 ex_d3 par' = [LKv kA [x01]; LKv kB [x02]; LKv kC [x03]; LKv kE [x05]; LKv kF [x06]]).
Proof. split; [reflexivity|]. eexists. eexists. split; [reflexivity|]. split; reflexivity. Qed.
End Examples.

Print Assumptions isort_by_perm.
Print Assumptions isort_by_sorted.
Print Assumptions isort_by_id.
Print Assumptions isort_by_unique.
Print Assumptions merge_data_leaves_lr.
Print Assumptions merge_data_leaves_rl.
Print Assumptions merge_data_branches_lr.
Print Assumptions merge_data_branches_rl.
Print Assumptions merge_data_leaves_perm.
Print Assumptions merge_data_branches_perm.
Print Assumptions merge_data_ok_iff.
Print Assumptions split_idx_spec.
Print Assumptions split_points_spec.
Print Assumptions cut_at_concat.
Print Assumptions cut_at_pieces.
Print Assumptions cut_at_lengths.
Print Assumptions split_small.
Print Assumptions split_leaves.
Print Assumptions split_branches.
Print Assumptions split_leaves_lengths.
Print Assumptions split_branches_lengths.
Print Assumptions try_merge_noop.
Print Assumptions try_merge_noop_fields.
Print Assumptions try_merge_noop_replaces.
Print Assumptions try_merge_only_child.
Print Assumptions bsearch_true.
Print Assumptions try_merge_left.
Print Assumptions try_merge_left_fields.
Print Assumptions try_merge_left_leaves.
Print Assumptions try_merge_left_view.
Print Assumptions try_merge_empty.
Print Assumptions try_merge_right.
Print Assumptions Examples.ex_left_hyps.
Print Assumptions Examples.ex_view_hyps.
