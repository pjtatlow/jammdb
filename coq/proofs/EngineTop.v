(* Combinations of the engine lemmas, in the form that props/C07.v and props/C09.v quote. *)
From Coq Require Import List NArith Bool.
From Jamm Require Import Bytes Tree Engine SearchFacts EngineFacts EngineModifyFacts.
From Jamm Require Spec.
Import ListNotations.
Import Coq.Strings.String.StringSyntax. Delimit Scope string_scope with string.


(* a write transaction reads its own writes (point lookups through the overlay of materialised nodes) *)
Theorem read_own_put d b l k v s b' s' : bucket_wf d b -> bucket_view d b l -> b_put d b k v s = Ok (b', s') ->
  forall k', b_lookup d b' k' = Ok (if beq k' k then Some (LKv k v) else Spec.alookup k' (assoc l)).
Proof.
  intros Hw Hv Hp k'. destruct (b_put_refines _ _ _ _ _ _ _ _ Hw Hv Hp) as (l' & Hw' & Hv' & Ha & _).
  rewrite (b_lookup_refines _ _ _ k' Hw' Hv'), Ha. now rewrite alookup_ainsert.
Qed.

Theorem read_own_delete d b l k s b' s' : bucket_wf d b -> bucket_view d b l -> b_delete d b k s = Ok (b', s') ->
  forall k', b_lookup d b' k' = Ok (if beq k' k then None else Spec.alookup k' (assoc l)).
Proof.
  intros Hw Hv Hp k'. destruct (b_delete_refines _ _ _ _ _ _ _ Hw Hv Hp) as (l' & Hw' & Hv' & Ha & _).
  rewrite (b_lookup_refines _ _ _ k' Hw' Hv'), Ha. rewrite alookup_aremove; [reflexivity|].
  rewrite assoc_keys. destruct Hv as (h & _ & Hv). exact (bucket_view_sorted d h b l Hw Hv).
Qed.

(* on a well-formed bucket b_put returns Ok or the documented error, never a panic *)
Theorem put_total d b l k v s : bucket_wf d b -> bucket_view d b l ->
  (exists b' s', b_put d b k v s = Ok (b', s')) \/ b_put d b k v s = Err "IncompatibleValue"%string.
Proof.
  intros Hw (h & Hf & Hv). pose proof (b_put_spec d h b l k v s Hw Hv Hf) as H.
  destruct (Spec.alookup k (assoc l)) as [[k0 v0|k0 r nx]|]; try (right; exact H);
  left; destruct H as (b' & s' & l' & H & _); eauto.
Qed.
Print Assumptions read_own_put.
Print Assumptions read_own_delete.
Print Assumptions put_total.
