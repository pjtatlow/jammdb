(* Copy-on-write of the engine model's transactions: the premise [commit_setting] of the crash theorems of C02 / C11
   (CrashFacts, CrashCurrent), proved for the model instead of being only checked on the library's hook events.
   A commit writes the page runs of its final write set and the run of the new free-list page; for every state
   satisfying [db_okz], none of these pages belongs to the snapshot of the header that is current before the commit,
   each was free after [begin_w]'s release or lies beyond the old high-water mark, and the previous snapshot reads
   the same on the new disk.  Only the crash premise ([engine_commit_setting]) needs [readable st'].

   Not connected: the page-lifecycle acceptor (PL.commit_ok, PLFacts.commit_cow / snapshot_never_written).  Its
   invariant [PLInv] demands that live, free and pending pages PARTITION [2, np) exactly and its contract (c5)
   "allocated = live' or freed" / (c7) "live minus freed stays live"; [db_okz] allows leaked pages ([alloc_ok] bounds
   the live pages from above only; the exact partition is the subject of EngineNoLeak), and [begin_w] releases every
   pending batch, i.e. it models the no-reader case (readers: EngineRBegin, EngineReadersInv). *)
From Coq Require Import List NArith Bool Arith Lia ZifyN ZifyNat ZifyBool.
From Coq.Strings Require Import Byte.
From Jamm Require Spec.
From Jamm Require Import Bytes BytesFacts Tree Cursor SearchFacts Engine EngineAbs EngineFacts EngineMergeFacts.
From Jamm Require Import EngineModifyFacts EngineSpillFacts EnginePathFacts EngineBridgeFacts EngineRebalanceFacts.
From Jamm Require FreelistFacts EngineAllocFacts EngineSpillWfFacts.
From Jamm Require Import EngineTxInvFacts EngineSpillBucketFacts EngineRefines.
Import ListNotations.
Import Coq.Strings.String.StringSyntax. Delimit Scope string_scope with string.
Local Open Scope list_scope. Local Open Scope nat_scope.
Set Warnings "-abstract-large-number".

From Jamm Require Import EngineOwnDefs EngineOwnWr EngineOwnOps EngineOwnReb EngineOwnSpill EngineOwnLnk EngineAllocInv.

(** * The protected set of a transaction *)

(* the pages below the old high-water mark that are not free after [begin_w]'s release: the live pages, leaked
   pages, pages 0 and 1, and any pending page the release leaves pending (none under [db_okz]) *)
Definition held (st : db) : list N :=
  filter (fun x => negb (memb x (free (begin_w st)))) (nrun 0 (d_np st)).

Lemma In_held : forall st x, In x (held st) <-> (x < d_np st)%N /\ ~ In x (free (begin_w st)).
Proof.
  intros st x. unfold held. rewrite filter_In, In_nrun, negb_true_iff. split.
  - intros [A B]. split; [lia|]. now apply memb_false.
  - intros [A B]. split; [lia|]. destruct (memb x (free (begin_w st))) eqn:E; [|reflexivity].
    exfalso. apply B. now apply memb_In.
Qed.

Lemma not_held : forall st x, ~ In x (held st) -> In x (free (begin_w st)) \/ (d_np st <= x)%N.
Proof.
  intros st x H. destruct (N.lt_ge_cases x (d_np st)) as [Hlt|Hge]; [|now right]. left.
  destruct (in_dec N.eq_dec x (free (begin_w st))) as [Hi|Hn]; [exact Hi|]. exfalso. apply H. apply In_held. auto.
Qed.

(** * The pages written by a transaction *)

(* the pages of a write set: for every head page q with a current entry v, the run of q (head and overflow pages) *)
Definition wr_pages (P : N) (w : list (N * (N * ndata))) : list N :=
  flat_map (fun q => match wr_get w q with Some v => wrun P q v | None => [] end) (map fst w).

Lemma wr_get_head : forall w q v, wr_get w q = Some v -> In q (map fst w).
Proof.
  intros w q v H. unfold wr_get in H. destruct (find (fun x => (fst x =? q)%N) w) as [e|] eqn:E; [|discriminate].
  apply find_some in E. destruct E as [Hin He]. apply N.eqb_eq in He. subst q. now apply in_map.
Qed.

Lemma In_wr_pages : forall P w x, In x (wr_pages P w) <-> exists q v, wr_get w q = Some v /\ In x (wrun P q v).
Proof.
  intros P w x. unfold wr_pages. rewrite in_flat_map. split.
  - intros (q & _ & Hx). destruct (wr_get w q) as [v|] eqn:E; [|destruct Hx]. eauto.
  - intros (q & v & Hg & Hx). exists q. split; [eapply wr_get_head; eauto|]. now rewrite Hg.
Qed.

Lemma wrun_pages_for_max : forall P q sz dd, wrun P q (sz, dd) = nrun q (N.max 1 (Freelist.pages_for P sz)).
Proof.
  intros P q sz dd. unfold wrun, mk_apage, Freelist.pages_for. cbn [fst snd ap_over]. f_equal.
  destruct (sz mod P =? 0)%N; lia.
Qed.

(* what a commit writes: the page runs of its write set w and the run of its new free-list page.  The free-list
   page is not an entry of [d_disk] (the model keeps its ids in [d_flids]); its run counts as written.  Header pages
   0/1 are outside the model ([tc_range]: written pages are >= 2). *)
Definition written (st st' : db) (w : list (N * (N * ndata))) (x : N) : Prop :=
  In x (wr_pages (d_psz st) w) \/ In x (nrun (d_fl st') (d_fln st')).

(* [w] is the write set of a commit that leads from st to st', and the commit is copy-on-write *)
Record tx_cow (st st' : db) (w : list (N * (N * ndata))) : Prop := {
  tc_disk : d_disk st' = apply_wr w (d_psz st) (d_disk st);
  tc_psz : d_psz st' = d_psz st;
  tc_tx : d_tx st' = (d_tx st + 1)%N;
  tc_np : (d_np st <= d_np st')%N;
  (* copy-on-write: no written page is reachable from the old header or lies in the old free-list run *)
  tc_cow : forall x, written st st' w x -> ~ In x (live_of st (Rof st));
  (* every written page was free after begin_w's release, or is beyond the old high-water mark *)
  tc_src : forall x, written st st' w x -> In x (free (begin_w st)) \/ (d_np st <= x)%N;
  tc_range : forall x, written st st' w x -> (2 <= x < d_np st')%N;
  (* afterwards it is not free *)
  tc_taken : forall x, written st st' w x -> ~ In x (d_free st');
  (* two entries of the write set do not overlap; none overlaps the new free-list run *)
  tc_disj : forall q1 v1 q2 v2 x, wr_get w q1 = Some v1 -> wr_get w q2 = Some v2 ->
              In x (wrun (d_psz st) q1 v1) -> In x (wrun (d_psz st) q2 v2) -> q1 = q2;
  tc_fl : forall x, In x (wr_pages (d_psz st) w) -> ~ In x (nrun (d_fl st') (d_fln st')) }.

(* the write set wr s4 of a commit that ends in the allocator state s4, whatever the protected set H: the new state
   is the old one overwritten with it; no written page is protected; two written runs do not overlap *)
Lemma final_written : forall st H st' s1 r nx s4 alloc flp fln Dall,
  np s1 = d_np st -> psz s1 = d_psz st -> txid s1 = (d_tx st + 1)%N ->
  st' = {| d_disk := apply_wr (wr s4) (psz s4) (d_disk st); d_root := r; d_next := nx; d_np := np s4; d_fl := flp;
           d_fln := fln; d_flids := all_pages s4; d_tx := txid s4; d_free := free s4; d_pending := pending s4;
           d_psz := psz s4 |} ->
  commit_final st H s1 r s4 alloc flp fln Dall ->
  d_disk st' = apply_wr (wr s4) (d_psz st) (d_disk st) /\ d_psz st' = d_psz st /\ d_tx st' = (d_tx st + 1)%N /\
  (d_np st <= d_np st')%N /\
  (forall x, written st st' (wr s4) x -> ~ In x H /\ (2 <= x < d_np st')%N /\ ~ In x (d_free st')) /\
  (forall q1 v1 q2 v2 x, wr_get (wr s4) q1 = Some v1 -> wr_get (wr s4) q2 = Some v2 ->
     In x (wrun (d_psz st) q1 v1) -> In x (wrun (d_psz st) q2 v2) -> q1 = q2) /\
  (forall x, In x (wr_pages (d_psz st) (wr s4)) -> ~ In x (nrun (d_fl st') (d_fln st'))) /\
  (readable st' -> forall x, In x (live_of st' (Rof st')) -> written st st' (wr s4) x \/ In x (live_of st (Rof st))).
Proof.
  intros st H st' s1 r nx s4 alloc flp fln Dall Enp Epsz Etx -> [F14 _ _ Hfge Hfnew W4 _ _ Hsep HT].
  assert (Ep4 : psz s4 = d_psz st) by (rewrite (fr_psz _ _ _ _ _ F14); exact Epsz).
  pose proof (fr_fresh _ _ _ _ _ F14) as Hfi4. cbn [d_disk d_psz d_tx d_np d_free d_fl d_fln]. rewrite <- Ep4.
  split; [reflexivity|]. split; [reflexivity|]. split; [rewrite (fr_txid _ _ _ _ _ F14); exact Etx|].
  split; [rewrite <- Enp; exact (fr_np _ _ _ _ _ F14)|]. split; [|split; [|split]].
  - intros x [Hx|Hx].
    + apply In_wr_pages in Hx. destruct Hx as (q & v & Hg & Hx). cbn [d_psz] in Hx. rewrite <- Ep4 in Hx.
      destruct (wo_range _ _ W4 q v x Hg Hx) as (R1 & R2 & R3). auto.
    + cbn [d_fl d_fln] in Hx.
      assert (Hi4 : In x ((nrun flp fln ++ alloc) ++ H)) by (apply in_or_app; left; apply in_or_app; now left).
      destruct (fi_live _ _ Hfi4 x Hi4) as [A1 A2].
      split; [intros Hi; apply (Hfnew x Hx); apply in_or_app; now right|]. split; [|exact A2]. split; [now apply Hfge | exact A1].
  - exact (wo_disj _ _ W4).
  - intros x Hx. apply In_wr_pages in Hx. destruct Hx as (q & v & Hg & Hx). exact (Hsep q v x Hg Hx).
  - intros Hrd x Hx. unfold readable in Hrd. cbn [d_disk d_root] in Hrd. destruct (HT Hrd) as [_ Hloc].
    unfold live_of at 1 in Hx. unfold Rof at 1 in Hx. cbn [d_disk d_root d_fl d_fln] in Hx.
    apply in_app_or in Hx. destruct Hx as [Hx|Hx]; [|left; right; exact Hx].
    destruct (Hloc x Hx) as [[(q & v & _ & Hg & Hr)|Hf] _].
    + left. left. apply In_wr_pages. exists q, v. cbn [d_psz]. rewrite <- Ep4. auto.
    + right. now apply foot_live.
Qed.

(* the final allocator state s4 of a completed transaction: its write set is copy-on-write, and (for a readable new
   state) every page of the NEW snapshot was written by this commit or belonged to the previous snapshot.
   [commit_states] (EngineOwnSpill; W1a-W1d are the write-set theorems of EngineOwnWr it is parametrised by) holds
   for any protected set [Lx] that contains the live pages and satisfies [fresh_inv Lx s1].  The operations and
   rebalance only free pages ([tx_frees], [tx_frame]: free list and high-water mark are those of [begin_w st]), so
   [Lx := held st], EVERY page below [d_np st] that is not free after [begin_w]'s release, is admissible.
   [wr_ok (held st) s4] then puts each page of each written run outside [held st]. *)
Lemma run_tx_final : forall st ops ord st', db_okz st -> Forall (op_ok (d_disk st)) ops ->
  run_tx st ops ord = Ok st' ->
  exists root' s' b1 s1 r nx s2 ord' flp fln s4 alloc Dall,
    tx_ready st ops ord st' root' s' b1 s1 /\
    incl (live_of st (Rof st)) (held st) /\ fresh_inv (held st) s1 /\
    spill_bucket fuel0 (d_disk st) b1 s1 ord = Ok (r, nx, s2, ord') /\
    tx_allocate (free_pages s2 (d_fl st) (d_fln st))
                (40 + 8 * llen (all_pages (free_pages s2 (d_fl st) (d_fln st)))) = (flp, fln, s4) /\
    st' = {| d_disk := apply_wr (wr s4) (psz s4) (d_disk st); d_root := r; d_next := nx; d_np := np s4; d_fl := flp;
             d_fln := fln; d_flids := all_pages s4; d_tx := txid s4; d_free := free s4; d_pending := pending s4;
             d_psz := psz s4 |} /\
    commit_final st (held st) s1 r s4 alloc flp fln Dall /\
    tx_cow st st' (wr s4) /\
    (readable st' -> forall x, In x (live_of st' (Rof st')) -> written st st' (wr s4) x \/ In x (live_of st (Rof st))).
Proof.
  intros st ops ord st' Hokz Hops Hrun. pose proof Hokz as [Hok' Hz].
  destruct (run_tx_ready st ops ord st' Hokz Hops Hrun) as (root' & s' & b1 & s1 & RD).
  pose proof RD as [_ Hrr Hc _ Hfi Hwr Etx Efree Enp Epsz Hids _ Hp0 _ HS HO HSX HOwn HL].
  assert (HLx : incl (live_of st (Rof st)) (held st)).
  { intros x Hx. apply In_held. destruct (fi_live _ _ Hfi x Hx) as [A B]. rewrite <- Enp, <- Efree. auto. }
  assert (HfiX : fresh_inv (held st) s1).
  { destruct Hfi as [G1 G2 G3 G4 G5 G6]. constructor; try assumption.
    intros x Hx. apply In_held in Hx. rewrite Enp, Efree. exact Hx. }
  destruct (commit_ok_inv _ _ _ _ _ _ _ Hrr Hc) as (r & nx & s2 & ord' & flp & fln & s4 & Hsp & Hal & Est).
  destruct (commit_states W1a W1b W1c W1d st b1 s1 ord _ (held st) r nx s2 ord' flp fln s4 Hok' Hz HLx HfiX Hwr Hids Hp0
              HS HO HSX HOwn HL Hsp Hal) as (alloc & Dall & CF).
  destruct (final_written st (held st) st' s1 r nx s4 alloc flp fln Dall Enp Epsz Etx Est CF)
    as (C1 & C2 & C3 & C4 & Hw & C5 & C6 & Hnew).
  exists root', s', b1, s1, r, nx, s2, ord', flp, fln, s4, alloc, Dall. repeat (split; [assumption|]).
  split; [|exact Hnew]. constructor; try assumption.
  - intros x Hx Hl. apply (proj1 (Hw x Hx)). apply HLx, Hl.
  - intros x Hx. apply not_held. apply (proj1 (Hw x Hx)).
  - intros x Hx. apply (Hw x Hx).
  - intros x Hx. apply (Hw x Hx).
Qed.

Lemma run_tx_write_set_new : forall st ops ord st', db_okz st -> Forall (op_ok (d_disk st)) ops ->
  run_tx st ops ord = Ok st' ->
  exists w, tx_cow st st' w /\
    (readable st' -> forall x, In x (live_of st' (Rof st')) -> written st st' w x \/ In x (live_of st (Rof st))).
Proof.
  intros st ops ord st' Hok Hops Hrun.
  destruct (run_tx_final st ops ord st' Hok Hops Hrun)
    as (_ & _ & _ & _ & _ & _ & _ & _ & _ & _ & s4 & _ & _ & _ & _ & _ & _ & _ & _ & _ & C & Hnew).
  exists (wr s4). auto.
Qed.

Theorem run_tx_write_set : forall st ops ord st', db_okz st -> Forall (op_ok (d_disk st)) ops ->
  run_tx st ops ord = Ok st' -> exists w, tx_cow st st' w.
Proof.
  intros st ops ord st' Hok Hops Hrun. destruct (run_tx_write_set_new st ops ord st' Hok Hops Hrun) as (w & C & _). eauto.
Qed.

(** * Copy-on-write, origin of the written pages *)

(* The new disk is the old disk overwritten with the write set w; the whole run (head page
   and overflow pages) of every entry of w, and the run of the new free-list page, avoid every page run
   reachable from the old header and the old free-list run.  [readable st'] is not needed. *)
Theorem run_tx_cow : forall st ops ord st', db_okz st -> Forall (op_ok (d_disk st)) ops ->
  run_tx st ops ord = Ok st' ->
  exists w, d_disk st' = apply_wr w (d_psz st) (d_disk st) /\
    (forall q v, wr_get w q = Some v ->
       dget (d_disk st') q = Some (mk_apage (d_psz st) v) /\ prun (d_disk st') q = wrun (d_psz st) q v /\
       forall x, In x (wrun (d_psz st) q v) -> ~ In x (live_of st (Rof st))) /\
    (forall x, In x (nrun (d_fl st') (d_fln st')) -> ~ In x (live_of st (Rof st))).
Proof.
  intros st ops ord st' Hok Hops Hrun. destruct (run_tx_write_set st ops ord st' Hok Hops Hrun) as [w C].
  exists w. split; [exact (tc_disk _ _ _ C)|]. split.
  - intros q v Hg. rewrite (tc_disk _ _ _ C). split; [now apply dget_apply_wr_some|]. split; [now apply prun_written|].
    intros x Hx. apply (tc_cow _ _ _ C). left. apply In_wr_pages. eauto.
  - intros x Hx. apply (tc_cow _ _ _ C). now right.
Qed.

(* the same without the write set: a page whose image on the new disk differs from the old one is not live, and
   neither is any page of its new run *)
Corollary run_tx_changed_not_live : forall st ops ord st', db_okz st -> Forall (op_ok (d_disk st)) ops ->
  run_tx st ops ord = Ok st' ->
  forall q, dget (d_disk st') q <> dget (d_disk st) q ->
    forall x, In x (prun (d_disk st') q) -> ~ In x (live_of st (Rof st)).
Proof.
  intros st ops ord st' Hok Hops Hrun q Hq x Hx.
  destruct (run_tx_cow st ops ord st' Hok Hops Hrun) as (w & Ed & Hw & _).
  destruct (wr_get w q) as [v|] eqn:Hg.
  - destruct (Hw q v Hg) as (_ & Er & Hn). rewrite Er in Hx. now apply Hn.
  - exfalso. apply Hq. rewrite Ed. now apply dget_apply_wr_none.
Qed.

(* Every written page (overflow pages and the new free-list run included) is beyond the old
   high-water mark or was on the free list after [begin_w]'s release -- in particular it was not referenced by
   the old header -- and lies in [2, d_np st'). *)
Theorem run_tx_writes_from_free : forall st ops ord st', db_okz st -> Forall (op_ok (d_disk st)) ops ->
  run_tx st ops ord = Ok st' ->
  exists w, d_disk st' = apply_wr w (d_psz st) (d_disk st) /\
    forall x, written st st' w x ->
      ((d_np st <= x)%N \/ In x (free (begin_w st))) /\ ~ In x (live_of st (Rof st)) /\ (2 <= x < d_np st')%N.
Proof.
  intros st ops ord st' Hok Hops Hrun. destruct (run_tx_write_set st ops ord st' Hok Hops Hrun) as [w C].
  exists w. split; [exact (tc_disk _ _ _ C)|]. intros x Hx.
  split; [destruct (tc_src _ _ _ C x Hx); auto|]. split; [exact (tc_cow _ _ _ C x Hx) | exact (tc_range _ _ _ C x Hx)].
Qed.

(* what [begin_w] releases was free or pending in the committed state: a written page below the old high-water
   mark was free or pending there *)
Corollary run_tx_writes_from_free_or_pending : forall st ops ord st', db_okz st -> Forall (op_ok (d_disk st)) ops ->
  run_tx st ops ord = Ok st' ->
  exists w, d_disk st' = apply_wr w (d_psz st) (d_disk st) /\
    forall x, written st st' w x ->
      (d_np st <= x)%N \/ In x (d_free st) \/ In x (pend_all (d_pending st)).
Proof.
  intros st ops ord st' Hok Hops Hrun. destruct (run_tx_write_set st ops ord st' Hok Hops Hrun) as [w C].
  exists w. split; [exact (tc_disk _ _ _ C)|]. intros x Hx.
  destruct (tc_src _ _ _ C x Hx) as [Hf|Hn]; [|now left]. right.
  destruct Hok as [(_ & HA & _) _]. destruct HA as (_ & _ & Hasc & _).
  unfold begin_w in Hf. destruct (release (d_tx st + 1) (d_free st) (d_pending st)) as [fr pd] eqn:Er.
  cbn [free] in Hf. destruct (EngineAllocFacts.release_src _ _ _ _ _ Er Hasc) as [_ B]. exact (B x Hf).
Qed.

(** * The previous snapshot is intact on the new disk *)

(* the meaning of a bucket whose pages lie in a closed set is the same on every disk that agrees on the set *)
Lemma abs_bucket_kept : forall d d' keep, closedR d keep -> (forall x, In x keep -> dget d' x = dget d x) ->
  forall n r nx, In r keep -> abs_bucket n d' r nx = abs_bucket n d r nx.
Proof.
  intros d d' keep HC Hag. induction n as [|n IH]; intros r nx Hr; [reflexivity|]. rewrite !abs_bucket_S.
  assert (Hsub : forall x, in_subtree d r x -> dget d' x = dget d x).
  { intros x Hx. apply Hag. eapply closed_subtree; eauto. }
  rewrite (page_ents_transfer d d' 64 r Hsub). f_equal. apply map_ext_in. intros [k v|k r' nx'] He; [reflexivity|].
  cbn [ent_abs]. f_equal. apply IH. eapply page_ents_closed; eauto.
Qed.

(* every page of the previous snapshot -- each page of each run reachable from the old header, and the old
   free-list run -- has the same image on the new disk; the old header's page set, its page runs and its meaning
   are unchanged: a reader that holds the previous header sees the previous contents after the commit *)
Theorem old_snapshot_intact : forall st ops ord st', db_okz st -> Forall (op_ok (d_disk st)) ops ->
  run_tx st ops ord = Ok st' ->
  (forall p, In p (live_of st (Rof st)) -> dget (d_disk st') p = dget (d_disk st) p) /\
  (forall p, In p (Rof st) -> dget (d_disk st') p = dget (d_disk st) p) /\
  fpg 16 (d_disk st') (d_root st) = Rof st /\
  runs (d_disk st') (fpg 16 (d_disk st') (d_root st)) = runs (d_disk st) (Rof st) /\
  (forall n, abs_bucket n (d_disk st') (d_root st) (d_next st) = abs_bucket n (d_disk st) (d_root st) (d_next st)) /\
  abs_bucket 16 (d_disk st') (d_root st) (d_next st) = abs_db st.
Proof.
  intros st ops ord st' Hok Hops Hrun. destruct (run_tx_write_set st ops ord st' Hok Hops Hrun) as [w C].
  destruct Hok as [(_ & HA & _) _]. destruct HA as (_ & _ & _ & _ & _ & _ & Hroot & HC & _).
  assert (Hlive : forall p, In p (live_of st (Rof st)) -> dget (d_disk st') p = dget (d_disk st) p).
  { intros p Hp. rewrite (tc_disk _ _ _ C). rewrite dget_apply_wr. destruct (wr_get w p) as [v|] eqn:Hg; [|reflexivity].
    exfalso. apply (tc_cow _ _ _ C p); [|exact Hp]. left. apply In_wr_pages. exists p, v. split; [exact Hg | apply In_wrun_head]. }
  assert (Hag : forall p, In p (Rof st) -> dget (d_disk st') p = dget (d_disk st) p).
  { intros p Hp. apply Hlive. now apply R_live. }
  split; [exact Hlive|]. split; [exact Hag|].
  split; [exact (fpg_kept (d_disk st) (d_disk st') (Rof st) HC Hag 16 (d_root st) Hroot)|].
  split; [exact (runs_fpg_kept (d_disk st) (d_disk st') (Rof st) HC Hag 16 (d_root st) Hroot)|].
  split; [intros n; exact (abs_bucket_kept (d_disk st) (d_disk st') (Rof st) HC Hag n (d_root st) (d_next st) Hroot)|].
  exact (abs_bucket_kept (d_disk st) (d_disk st') (Rof st) HC Hag 16 (d_root st) (d_next st) Hroot).
Qed.

(* the state a reader of the previous header works with after the commit: the old header over the new disk *)
Definition old_view (st st' : db) : db :=
  {| d_disk := d_disk st'; d_root := d_root st; d_next := d_next st; d_np := d_np st; d_fl := d_fl st; d_fln := d_fln st;
     d_flids := d_flids st; d_tx := d_tx st; d_free := d_free st; d_pending := d_pending st; d_psz := d_psz st |}.

Corollary old_view_abs : forall st ops ord st', db_okz st -> Forall (op_ok (d_disk st)) ops ->
  run_tx st ops ord = Ok st' ->
  abs_db (old_view st st') = abs_db st /\ Rof (old_view st st') = Rof st /\
  live_of (old_view st st') (Rof (old_view st st')) = live_of st (Rof st).
Proof.
  intros st ops ord st' Hok Hops Hrun.
  destruct (old_snapshot_intact st ops ord st' Hok Hops Hrun) as (_ & _ & E1 & E2 & _ & E3).
  split; [exact E3|]. split; [exact E1|]. unfold live_of, Rof, old_view. cbn [d_disk d_root d_fl d_fln].
  f_equal. exact E2.
Qed.

(* the previous header still names a strict tree on the new disk *)
Corollary old_view_strict : forall st ops ord st', db_okz st -> Forall (op_ok (d_disk st)) ops ->
  run_tx st ops ord = Ok st' -> Strict (d_disk st') (d_root st).
Proof.
  intros st ops ord st' Hok Hops Hrun.
  destruct (old_snapshot_intact st ops ord st' Hok Hops Hrun) as (_ & Hag & _).
  destruct Hok as [(Hstrict & HA & _) _]. destruct HA as (_ & _ & _ & _ & _ & _ & Hroot & HC & _).
  apply (kept_Strict (d_disk st) (d_disk st') (Rof st) Hag 16 (d_root st) Hstrict).
  exact (closed_ckept (d_disk st) (Rof st) HC 16 (d_root st) Hstrict Hroot).
Qed.

(** * The premise of the crash theorems holds for the engine's commit *)

From Jamm Require Crash CrashFacts CrashCurrent.

(* the header of a committed engine state in the vocabulary of model/Crash.v: its transaction id and the pages
   its snapshot consists of (tree page runs + free-list run) *)
Definition eng_header (st : db) : Crash.header := Crash.mkHeader (d_tx st) (live_of st (Rof st)).

(* the data pages a commit writes, each once *)
Definition tx_written (st st' : db) (w : list (N * (N * ndata))) : list N :=
  nodup N.eq_dec (wr_pages (d_psz st) w ++ nrun (d_fl st') (d_fln st')).

Lemma In_tx_written : forall st st' w x, In x (tx_written st st' w) <-> written st st' w x.
Proof. intros st st' w x. unfold tx_written, written. rewrite nodup_In, in_app_iff. tauto. Qed.

(* [CrashFacts.commit_setting] -- select / ids increase / COPY-ON-WRITE [cs_cow] / the new snapshot consists of
   written and old pages [cs_new] / no page written twice -- for every crash-model disk whose current header is
   the header of st *)
Theorem engine_commit_setting : forall st ops ord st', db_okz st -> Forall (op_ok (d_disk st)) ops ->
  run_tx st ops ord = Ok st' -> readable st' ->
  exists w, tx_cow st st' w /\
    forall cd : Crash.disk, Crash.select cd = Some (eng_header st) ->
      CrashFacts.commit_setting cd (eng_header st) (eng_header st') (d_tx st') (tx_written st st' w).
Proof.
  intros st ops ord st' Hok Hops Hrun Hrd.
  destruct (run_tx_write_set_new st ops ord st' Hok Hops Hrun) as (w & C & Hnew). specialize (Hnew Hrd).
  exists w. split; [exact C|]. intros cd Hsel. constructor.
  - exact Hsel.
  - reflexivity.
  - cbn [Crash.h_tx eng_header]. rewrite (tc_tx _ _ _ C). lia.
  - intros p Hp. cbn [Crash.h_live eng_header]. apply In_tx_written in Hp. exact (tc_cow _ _ _ C p Hp).
  - intros p Hp. cbn [Crash.h_live eng_header] in *. destruct (Hnew p Hp) as [Hw|Hl]; [left; now apply In_tx_written | now right].
  - apply NoDup_nodup.
Qed.

(* hence the crash theorems for the commit order read from the current source apply to the engine's commit:
   power loss at any point leaves the old or the new snapshot selected and intact; a completed commit is durable;
   an I/O fault at any call leaves the old or the new snapshot *)
Corollary engine_commit_crash_safe : forall st ops ord st', db_okz st -> Forall (op_ok (d_disk st)) ops ->
  run_tx st ops ord = Ok st' -> readable st' ->
  exists w, tx_cow st st' w /\
    forall cd : Crash.disk, Crash.select cd = Some (eng_header st) ->
      let cur := eng_header st in let newh := eng_header st' in let t := d_tx st' in
      let wrt := tx_written st st' w in let tgt := negb (Crash.current_slot cd) in
      let ios := Crash.commit_io wrt in
      (forall n fates, CrashFacts.pre_or_post cd cur newh t wrt (Crash.power_image t newh tgt cd ios n fates)) /\
      (forall fates, let img := Crash.power_image t newh tgt cd ios (List.length ios) fates in
         Crash.select img = Some newh /\ Crash.intact (CrashFacts.orig_new cd t wrt) img newh) /\
      (forall k f, CrashFacts.pre_or_post cd cur newh t wrt (Crash.fault_image t newh tgt cd ios k f)).
Proof.
  intros st ops ord st' Hok Hops Hrun Hrd.
  destruct (engine_commit_setting st ops ord st' Hok Hops Hrun Hrd) as (w & C & HS).
  exists w. split; [exact C|]. intros cd Hsel. specialize (HS cd Hsel). cbv zeta.
  split; [|split].
  - intros n fates. now apply CrashCurrent.power_current.
  - intros fates. exact (CrashCurrent.durable_current _ _ _ _ _ HS fates).
  - intros k f. now apply CrashFacts.C11_disk_current.
Qed.

Module ExCow.
Import Ex3.

(* -- the transaction of Ex3 (14 pages before; a nested bucket with a two-level tree is modified) -- *)
Example ex3_cow : exists w, tx_cow ex3_db Ex3R.ex3_st' w.
Proof. exact (run_tx_write_set ex3_db ex3_ops Ex3R.ex3_ord Ex3R.ex3_st' ex3_db_okz Ex3R.ex3_ops_ok Ex3R.ex3_run_ok). Qed.

Example ex3_old_intact : abs_bucket 16 (d_disk Ex3R.ex3_st') (d_root ex3_db) (d_next ex3_db) = abs_db ex3_db.
Proof.
  exact (proj2 (proj2 (proj2 (proj2 (proj2
    (old_snapshot_intact ex3_db ex3_ops Ex3R.ex3_ord Ex3R.ex3_st' ex3_db_okz Ex3R.ex3_ops_ok Ex3R.ex3_run_ok)))))).
Qed.
Example ex3_old_intact_eval : abs_bucket 16 (d_disk Ex3R.ex3_st') (d_root ex3_db) (d_next ex3_db) = abs_db ex3_db.
Proof. vm_compute. reflexivity. Qed.

(* the pages concerned: the old snapshot is [3;10;11;12;13] + free-list page 2; the commit adds the pages 14..17 and
   the free-list page 18 (all beyond the old high-water mark 14); page 13 is shared by both snapshots *)
Example ex3_pages :
  live_of ex3_db (Rof ex3_db) = [3; 10; 11; 12; 13; 2]%N /\ d_np ex3_db = 14%N /\
  map fst (d_disk Ex3R.ex3_st') = [17; 16; 15; 14; 3; 10; 11; 12; 13]%N /\
  (d_fl Ex3R.ex3_st', d_fln Ex3R.ex3_st') = (18, 1)%N /\
  live_of Ex3R.ex3_st' (Rof Ex3R.ex3_st') = [17; 16; 15; 14; 13; 18]%N.
Proof. vm_compute. repeat split; reflexivity. Qed.

Example ex3_crash_safe : exists w, tx_cow ex3_db Ex3R.ex3_st' w /\
  forall cd : Crash.disk, Crash.select cd = Some (eng_header ex3_db) ->
    CrashFacts.commit_setting cd (eng_header ex3_db) (eng_header Ex3R.ex3_st') (d_tx Ex3R.ex3_st') (tx_written ex3_db Ex3R.ex3_st' w).
Proof.
  apply (engine_commit_setting ex3_db ex3_ops Ex3R.ex3_ord Ex3R.ex3_st' ex3_db_okz Ex3R.ex3_ops_ok Ex3R.ex3_run_ok).
  apply readableb_ok. vm_compute. reflexivity.
Qed.

(* -- the second transaction of ExHistory: it REUSES pages 2 and 3, which the first commit handed back and
      [begin_w] released; they are stale pages of the snapshot before the previous one, not of the previous one -- *)
Definition hist_run1 := Eval vm_compute in run_tx (init_db 4096) (fst ExHistory.tx1) (snd ExHistory.tx1).
Definition hist_st1 : db := match hist_run1 with Ok st => st | _ => init_db 4096 end.
Example hist_run1_ok : run_tx (init_db 4096) (fst ExHistory.tx1) (snd ExHistory.tx1) = Ok hist_st1.
Proof. vm_compute. reflexivity. Qed.
Example hist_run2_ok : run_tx hist_st1 (fst ExHistory.tx2) (snd ExHistory.tx2) = Ok ExHistory.hist_st.
Proof. vm_compute. reflexivity. Qed.

Example hist_st1_okz : db_okz hist_st1.
Proof.
  apply (run_tx_okz (init_db 4096) (fst ExHistory.tx1) (snd ExHistory.tx1) hist_st1 init_db_4096_okz);
    [repeat constructor; cbn; lia | exact hist_run1_ok | apply readableb_ok; vm_compute; reflexivity].
Qed.
Lemma hist_ops2_ok : Forall (op_ok (d_disk hist_st1)) (fst ExHistory.tx2).
Proof. repeat constructor; cbn; lia. Qed.

Example hist_cow1 : exists w, tx_cow (init_db 4096) hist_st1 w.
Proof.
  apply (run_tx_write_set (init_db 4096) (fst ExHistory.tx1) (snd ExHistory.tx1) hist_st1 init_db_4096_okz);
    [repeat constructor; cbn; lia | exact hist_run1_ok].
Qed.
Example hist_cow2 : exists w, tx_cow hist_st1 ExHistory.hist_st w.
Proof. exact (run_tx_write_set hist_st1 _ _ ExHistory.hist_st hist_st1_okz hist_ops2_ok hist_run2_ok). Qed.

Example hist_old_intact : abs_bucket 16 (d_disk ExHistory.hist_st) (d_root hist_st1) (d_next hist_st1) = abs_db hist_st1.
Proof.
  exact (proj2 (proj2 (proj2 (proj2 (proj2
    (old_snapshot_intact hist_st1 _ _ ExHistory.hist_st hist_st1_okz hist_ops2_ok hist_run2_ok)))))).
Qed.
Example hist_old_intact_eval :
  abs_bucket 16 (d_disk ExHistory.hist_st) (d_root hist_st1) (d_next hist_st1) = abs_db hist_st1.
Proof. vm_compute. reflexivity. Qed.

(* old snapshot [5;4] + free-list page 6; released by begin_w: 2, 3; the commit writes 7, 3, 2 and the free-list
   page 8: pages 2 and 3 come from the free list, 7 and 8 from beyond the old high-water mark 7 *)
Example hist_pages :
  live_of hist_st1 (Rof hist_st1) = [5; 4; 6]%N /\ d_np hist_st1 = 7%N /\ free (begin_w hist_st1) = [2; 3]%N /\
  map fst (d_disk hist_st1) = [5; 4; 3]%N /\ map fst (d_disk ExHistory.hist_st) = [7; 3; 2; 5; 4]%N /\
  (d_fl ExHistory.hist_st, d_fln ExHistory.hist_st) = (8, 1)%N /\
  live_of ExHistory.hist_st (Rof ExHistory.hist_st) = [7; 3; 2; 8]%N.
Proof. vm_compute. repeat split; reflexivity. Qed.
End ExCow.

Print Assumptions run_tx_write_set.
Print Assumptions run_tx_cow.
Print Assumptions run_tx_changed_not_live.
Print Assumptions run_tx_writes_from_free.
Print Assumptions run_tx_writes_from_free_or_pending.
Print Assumptions old_snapshot_intact.
Print Assumptions old_view_abs.
Print Assumptions old_view_strict.
Print Assumptions engine_commit_setting.
Print Assumptions engine_commit_crash_safe.
Print Assumptions ExCow.ex3_cow.
Print Assumptions ExCow.ex3_crash_safe.
Print Assumptions ExCow.hist_cow2.
Print Assumptions ExCow.hist_old_intact.
