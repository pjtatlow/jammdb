(* Cursor reads INSIDE a write transaction (model/EngineScan.v) answer what the reference answers.
   The overlay tree of a well-formed node / page exists, flattens to the node's view, and passes the read half's
   checker [NH.wf_nh] (hence [no_empty_branch]); with the view's key order: [NH.wf_tree_nh]. So get / full scan /
   range / seek inside the write transaction, after any list of operations, at any nested bucket path, return the
   reference's answers on [sem_tx ops (abs_db st)]. The worked example is in EngineTxScanEx.v. *)
From Coq Require Import List NArith Bool Arith Lia ZifyN ZifyNat ZifyBool.
From Coq.Strings Require Import Byte.
From Jamm Require Import ListFacts Bytes Tree Spec Cursor SearchFacts CursorFacts SeekFacts Engine EngineFacts EngineModifyFacts
  EngineAbs EnginePathFacts EngineTxReads EngineReadBridge EngineScan.
From Jamm Require SpecPathFacts.
Import ListNotations.
Import Coq.Strings.String.StringSyntax. Delimit Scope string_scope with string.
Local Open Scope list_scope. Local Open Scope nat_scope.
Set Warnings "-abstract-large-number".

(* model/EngineScan.v, which cannot import proof files, defines [txm_step], [ovl_ent], [omap_opt], [otree_page],
   [tx_state] itself; they are [tx_step], [ent_of], [omap], [tree_of], [tx_fold] of the refinement proofs *)

Lemma txm_step_eq : forall d acc o, txm_step d acc o = tx_step d acc o.
Proof. intros d [rb s] o. reflexivity. Qed.

Lemma fold_res_ext : forall {A B} (f g : A -> B -> res A), (forall a b, f a b = g a b) ->
  forall l a, fold_res f l a = fold_res g l a.
Proof.
  intros A B f g H. induction l as [|x l IH]; intros a; cbn [fold_res]; [reflexivity|].
  rewrite H. destruct (g a x) as [a'| |]; cbn [bind]; [apply IH | reflexivity | reflexivity].
Qed.

Lemma tx_state_fold : forall st ops, tx_state st ops = tx_fold st ops (root_bucket st, begin_w st).
Proof. intros st ops. unfold tx_state, tx_fold. apply fold_res_ext. apply txm_step_eq. Qed.

Lemma ovl_ent_eq : forall e, ovl_ent e = ent_of e.
Proof. intros [k v|k r nx]; reflexivity. Qed.

Lemma map_ovl_ent : forall l, map ovl_ent l = map ent_of l.
Proof. intros l. apply map_ext. apply ovl_ent_eq. Qed.

Lemma omap_opt_omap : forall {A B} (f g : A -> option B) l, (forall x, In x l -> f x = g x) ->
  omap_opt f l = omap g l.
Proof.
  intros A B f g. induction l as [|x l IH]; intros H; [reflexivity|]. cbn [omap_opt omap].
  rewrite (H x (or_introl eq_refl)), IH by (intros y Hy; apply H; now right).
  destruct (g x); [|reflexivity]. destruct (omap g l); reflexivity.
Qed.

Lemma otree_page_tree_of : forall f d p, otree_page f d p = tree_of f d p.
Proof.
  induction f as [|f IH]; intros d p; [reflexivity|]. cbn [otree_page tree_of].
  destruct (dget d p) as [a|]; [|reflexivity]. destruct (ap_body a) as [l|es].
  - now rewrite map_ovl_ent.
  - rewrite (omap_opt_omap _ (fun e : bytes * N => option_map (pair (fst e)) (tree_of f d (snd e)))); [reflexivity|].
    intros e _. now rewrite IH.
Qed.

(* the child of a materialised branch for page id [q]: the first kid carrying that id, else the page *)
Definition ochild (fuel : nat) (d : disk) (ks : list node) (q : N) : option tree :=
  match find_kid q ks with Some kd => otree_node fuel d kd | None => otree_page fuel d q end.

Lemma omap_opt_ext : forall {A B} (f g : A -> option B) l, (forall x, f x = g x) -> omap_opt f l = omap_opt g l.
Proof.
  intros A B f g l H. induction l as [|x l IH]; [reflexivity|]. cbn [omap_opt]. now rewrite H, IH.
Qed.

Lemma otree_node_leaf : forall fuel d p npg og sq l ks,
  otree_node fuel d (Node p npg og sq (Leaves l) ks) = Some (TL p (npg - 1)%N (map ovl_ent l)).
Proof. reflexivity. Qed.

Lemma otree_node_branch : forall fuel d p npg og sq es ks,
  otree_node fuel d (Node p npg og sq (Branches es) ks) =
  option_map (TB p (npg - 1)%N)
    (omap_opt (fun e : bytes * N => option_map (pair (fst e)) (ochild fuel d ks (snd e))) es).
Proof.
  intros fuel d p npg og sq es ks. cbn [otree_node]. f_equal. apply omap_opt_ext. intros e. f_equal.
  unfold ochild, find_kid. induction ks as [|kd ks IH]; [reflexivity|]. cbn [find].
  destruct (N.eqb (n_page kd) (snd e)); [reflexivity | exact IH].
Qed.

(** * The overlay tree of a well-formed node / page *)

(* children whose keys lie in their separator intervals ([in_range], the engine's search invariant) satisfy the
   separator check of the read half's checker *)
Lemma seps_ok_in_range : forall (ksf : list (bytes * list lent)) (ls : list (list leafent)),
  Forall2 (fun kc l => snd kc = map ent_of l) ksf ls ->
  forall pre first,
  (forall j l, nth_error ls j = Some l -> in_range (pre ++ map fst ksf) (length pre + j) l) ->
  (first = false -> 1 <= length pre) ->
  Tree.seps_ok first ksf = true.
Proof.
  intros ksf ls HF. induction HF as [|[k c] l0 rest ls Hc HF IH]; intros pre first H Hf; [reflexivity|].
  cbn [snd] in Hc. subst c. cbn [map fst] in H.
  pose proof (H 0 l0 eq_refl) as [H0a H0b]. rewrite Nat.add_0_r in H0a, H0b.
  cbn [Tree.seps_ok]. apply andb_true_iff; split; [apply andb_true_iff; split|].
  - destruct first; [reflexivity|]. cbn [orb]. unfold Tree.all_keys_ge. apply forallb_forall. intros e He.
    apply in_map_iff in He. destruct He as (e0 & <- & Hin). rewrite lent_key_ent_of.
    specialize (H0a (Hf eq_refl)). rewrite Forall_forall in H0a. specialize (H0a e0 Hin).
    rewrite nth_middle in H0a. unfold ble. destruct (bcmp k (lkey e0)); congruence.
  - destruct rest as [|[k' c'] rest']; [reflexivity|]. unfold Tree.all_keys_lt. apply forallb_forall.
    intros e He. apply in_map_iff in He. destruct He as (e0 & <- & Hin). rewrite lent_key_ent_of.
    cbn [map fst] in H0b.
    assert (Hlen : S (length pre) < length (pre ++ k :: k' :: map fst rest'))
      by (rewrite app_length; cbn [length]; lia).
    specialize (H0b Hlen). rewrite Forall_forall in H0b. specialize (H0b e0 Hin).
    replace (pre ++ k :: k' :: map fst rest') with ((pre ++ [k]) ++ k' :: map fst rest') in H0b
      by (rewrite <- app_assoc; reflexivity).
    replace (S (length pre)) with (length (pre ++ [k])) in H0b by (rewrite app_length; cbn [length]; lia).
    rewrite nth_middle in H0b. unfold blt. now rewrite H0b.
  - apply (IH (pre ++ [k]) false).
    + intros j l Hj. specialize (H (S j) l Hj). rewrite <- app_assoc. cbn [app]. rewrite app_length. cbn [length].
      replace (length pre + 1 + j) with (length pre + S j) by lia. exact H.
    + intros _. rewrite app_length. cbn [length]. lia.
Qed.

(* what the induction carries for one subtree *)
Definition tree_ok (t : tree) (l : list leafent) : Prop := flatten t = map ent_of l /\ NH.wf_nh t = true.

(* the branch step, common to materialised nodes and pages: [child] is how a page id is resolved *)
Lemma branch_tree_ok : forall (child : N -> option tree) (es : list (bytes * N)) (ls : list (list leafent)) p o,
  EngineModifyFacts.seps_ok es ->
  Forall2 (fun e l => exists t, child (snd e) = Some t /\ tree_ok t l) es ls ->
  (forall j l, nth_error ls j = Some l -> in_range (map fst es) j l) ->
  exists kts, omap_opt (fun e : bytes * N => option_map (pair (fst e)) (child (snd e))) es = Some kts /\
    tree_ok (TB p o kts) (concat ls).
Proof.
  intros child es ls p o (Hne & Hss & _) HF Hr.
  assert (Hk : exists kts, omap_opt (fun e : bytes * N => option_map (pair (fst e)) (child (snd e))) es = Some kts /\
             map fst kts = map fst es /\ Forall2 (fun (kt : bytes * tree) l => tree_ok (snd kt) l) kts ls).
  { clear Hne Hss Hr. induction HF as [|e l es ls (t & Ht & Hok) _ (kts & E1 & E2 & E3)].
    - exists []. repeat split; constructor.
    - exists ((fst e, t) :: kts). cbn [omap_opt]. rewrite Ht, E1. cbn [option_map map fst]. rewrite E2.
      repeat split. constructor; [exact Hok | exact E3]. }
  destruct Hk as (kts & E1 & E2 & E3). exists kts. split; [exact E1|]. split.
  - cbn [Tree.flatten]. apply EngineReadBridge.flat_map_concat_F2.
    eapply ListFacts.Forall2_impl; [|exact E3]. intros kt l [H _]. exact H.
  - cbn [NH.wf_nh]. repeat (apply andb_true_iff; split).
    + destruct kts; [destruct es; [congruence | discriminate] | reflexivity].
    + apply forallb_forall. intros kt Hin. destruct (In_nth_error _ _ Hin) as [j Hj].
      destruct (Forall2_nth_error_l _ _ _ _ _ E3 Hj) as (l & _ & _ & Hw). exact Hw.
    + now rewrite E2.
    + apply (seps_ok_in_range _ ls) with (pre := []); [| |discriminate].
      * clear -E3. induction E3 as [|kt l kts ls [H _] _ IH]; cbn [map]; constructor; [exact H | exact IH].
      * intros j l Hj. cbn [app length Nat.add]. rewrite map_map. cbn [fst].
        change (map (fun x : bytes * tree => fst x) kts) with (map fst kts). rewrite E2. now apply Hr.
Qed.

Theorem otree_page_view : forall d h p l fuel, wf_page d p -> PageView d h p l -> h <= fuel ->
  exists t, otree_page fuel d p = Some t /\ tree_ok t l.
Proof.
  intros d. induction h as [|h IH]; intros p l fuel Hw Hv Hf; [inversion Hv|].
  destruct fuel as [|fuel]; [lia|].
  destruct (wf_page_inv d p Hw) as (a & Hg & Hwb).
  destruct (PageView_inv d _ p l Hv) as (h0 & a' & Eh & Hg' & Hvb). inversion Eh; subst h0.
  rewrite Hg in Hg'. inversion Hg'; subst a'. cbn [otree_page]. rewrite Hg.
  destruct (ap_body a) as [l0|es].
  - subst l. eexists. split; [reflexivity|]. split; [cbn [Tree.flatten]; apply map_ovl_ent | reflexivity].
  - destruct Hwb as (Hs & HFw & Hr). destruct Hvb as (ls & -> & HFv).
    destruct (branch_tree_ok (otree_page fuel d) es ls p (ap_over a) Hs) as (kts & E & Hok).
    + assert (Hin : forall e, In e es -> wf_page d (snd e)) by (now apply Forall_forall).
      clear -HFv Hin IH Hf. induction HFv as [|e l es ls He _ IHr]; constructor.
      * apply (IH _ _ fuel (Hin e (or_introl eq_refl)) He). lia.
      * apply IHr. intros e' He'. apply Hin. now right.
    + intros j l Hj. destruct (Forall2_nth_error_r _ _ _ _ _ HFv Hj) as (e & He & Hve).
      apply (Hr j e l He). now exists h.
    + rewrite E. eexists. split; [reflexivity | exact Hok].
Qed.

Theorem otree_node_view : forall d h n l fuel, wf_node d n -> NodeView d h n l -> h <= S fuel ->
  exists t, otree_node fuel d n = Some t /\ tree_ok t l.
Proof.
  intros d. induction h as [|h IH]; intros n l fuel Hw Hv Hf; [inversion Hv|].
  destruct n as [p np og sq [l0|es] ks].
  - apply NodeView_leaf_inv in Hv. destruct Hv as [-> _]. rewrite otree_node_leaf.
    eexists. split; [reflexivity|]. split; [cbn [Tree.flatten]; apply map_ovl_ent | reflexivity].
  - apply NodeView_branch_inv in Hv. destruct Hv as (h0 & ls & Eh & -> & HFv). inversion Eh; subst h0.
    destruct (wf_node_branch_inv d p np og sq es ks Hw) as (Hs & HFw & Hr).
    rewrite otree_node_branch.
    destruct (branch_tree_ok (ochild fuel d ks) es ls p (np - 1)%N Hs) as (kts & E & Hok).
    + assert (Hin : forall e, In e es -> ChildWf d ks (snd e)) by (now apply Forall_forall).
      clear -HFv Hin IH Hf. induction HFv as [|e l es ls He _ IHr]; constructor.
      * specialize (Hin e (or_introl eq_refl)). unfold ChildView, ChildWf, ochild in *.
        destruct (find_kid (snd e) ks) as [kd|].
        -- apply (IH _ _ fuel Hin He). lia.
        -- apply (otree_page_view d h _ _ fuel Hin He). lia.
      * apply IHr. intros e' He'. apply Hin. now right.
    + intros j l Hj. destruct (Forall2_nth_error_r _ _ _ _ _ HFv Hj) as (e & He & Hve).
      apply (Hr j e l He). now exists h.
    + rewrite E. eexists. split; [reflexivity | exact Hok].
Qed.

(* in the vocabulary of model/EngineScan.v *)
Corollary otree_node_neb : forall d h n l fuel, wf_node d n -> NodeView d h n l -> h <= S fuel ->
  exists t, otree_node fuel d n = Some t /\ flatten t = map ovl_ent l /\ no_empty_branch t = true.
Proof.
  intros d h n l fuel Hw Hv Hf. destruct (otree_node_view d h n l fuel Hw Hv Hf) as (t & Ht & Hfl & Hnh).
  exists t. split; [exact Ht|]. split; [now rewrite map_ovl_ent | now apply NH.wf_nh_neb].
Qed.

Corollary otree_page_neb : forall d h p l fuel, wf_page d p -> PageView d h p l -> h <= fuel ->
  exists t, otree_page fuel d p = Some t /\ flatten t = map ovl_ent l /\ no_empty_branch t = true.
Proof.
  intros d h p l fuel Hw Hv Hf. destruct (otree_page_view d h p l fuel Hw Hv Hf) as (t & Ht & Hfl & Hnh).
  exists t. split; [exact Ht|]. split; [now rewrite map_ovl_ent | now apply NH.wf_nh_neb].
Qed.

(* the tree of a bucket of the overlay (fuel [fuel0] = 64; [bucket_view] carries the height bound) *)
Theorem b_tree_view : forall d b l, bucket_wf d b -> bucket_view d b l ->
  exists t, b_tree d b = Some t /\ flatten t = map ent_of l /\ NH.wf_tree_nh t = true.
Proof.
  intros d b l Hw (h & Hh & Hv). pose proof (bucket_view_sorted d h b l Hw Hv) as Hs.
  unfold b_tree, bucket_wf, BucketView in *.
  assert (H : exists t, match b_rootn b with Some n => otree_node fuel0 d n | None => otree_page fuel0 d (b_root_page b) end
                = Some t /\ tree_ok t l).
  { destruct (b_rootn b) as [n|].
    - apply (otree_node_view d h n l fuel0 Hw Hv). lia.
    - apply (otree_page_view d h _ l fuel0 Hw Hv Hh). }
  destruct H as (t & Ht & Hfl & Hnh). exists t. split; [exact Ht|]. split; [exact Hfl|].
  unfold NH.wf_tree_nh. apply andb_true_iff. split; [exact Hnh|]. now rewrite Hfl, map_key_ent_of.
Qed.

Corollary b_tree_neb : forall d b l t, bucket_wf d b -> bucket_view d b l -> b_tree d b = Some t ->
  flatten t = map ovl_ent l /\ no_empty_branch t = true.
Proof.
  intros d b l t Hw Hv Ht. destruct (b_tree_view d b l Hw Hv) as (t' & Ht' & Hfl & Hwf).
  rewrite Ht in Ht'. inversion Ht'; subst t'. split; [now rewrite map_ovl_ent|].
  apply NH.wf_nh_neb. unfold NH.wf_tree_nh in Hwf. apply andb_true_iff in Hwf. tauto.
Qed.

(** * The four reads of the cursor inside a write transaction

    The overlay tree may contain EMPTY LEAVES (a delete that empties a leaf leaves it in place until commit's
    rebalance). [NH.wf_nh] asks nothing of a leaf, and [get_spec_nh] / [seek_spec_nh] / [range_spec_nh] are proved from
    [NH.wf_tree_nh] alone: they hold for trees with empty leaves, so all four reads agree with the reference. *)

(* what the reference shows of an entry is what the cursor shows of the overlay's entry *)
Lemma OvlEnt_item : forall d subs e kv, OvlEnt d subs e kv -> Spec.to_item kv = Cursor.to_item (ent_of e).
Proof.
  intros d subs e kv H. inversion H as [| ? ? ? ? sb m Hs Hm | ? ? ? ? m Hs Hm]; subst; [reflexivity| |].
  - destruct (OvlAbs_bucket _ _ _ Hm) as [es ->]. reflexivity.
  - destruct (CAbs_bucket _ _ _ _ Hm) as [es ->]. reflexivity.
Qed.

Lemma OvlEnt_items : forall d subs l ents, Forall2 (OvlEnt d subs) l ents ->
  map Cursor.to_item (map ent_of l) = map Spec.to_item ents.
Proof.
  intros d subs l ents H. induction H as [|e kv l ents He _ IH]; [reflexivity|]. cbn [map].
  now rewrite IH, (OvlEnt_item _ _ _ _ He).
Qed.

Lemma alookup_assoc_find : forall l k, sorted_keys (map lkey l) = true ->
  Spec.alookup k (assoc l) = find (fun e => beq (lkey e) k) l.
Proof.
  intros l k Hs. pose proof (alookup_find (fun e => e) l k Hs) as H.
  unfold assoc, kv_of. rewrite H. now destruct (find _ l).
Qed.

Theorem cursor_agrees_ovl : forall d subs t l ents o nx, NH.wf_tree_nh t = true -> flatten t = map ent_of l ->
  sorted_keys (map lkey l) = true -> Forall2 (OvlEnt d subs) l ents ->
  cursor_agrees t (SBucket o nx ents).
Proof.
  intros d subs t l ents o nx Hwf Hfl Hs HF. apply (cursor_agrees_view t l); [exact Hwf | exact Hfl | |].
  - exact (OvlEnt_items d subs l ents HF).
  - intros k. unfold ref_get. cbn [Spec.b_ents].
    pose proof (F2_alookup _ (OvlEnt_key d subs) l ents k HF) as Hlk. rewrite (alookup_assoc_find l k Hs) in Hlk.
    destruct (find (fun e => beq (lkey e) k) l) as [e|]; [|now rewrite Hlk].
    destruct Hlk as (x & -> & He). cbn [option_map]. now rewrite (OvlEnt_item _ _ _ _ He).
Qed.

(* one overlay bucket: its tree exists, is well formed for the cursor, and reads as the reference's bucket *)
Theorem ovl_bucket_agrees : forall d b m, ovl_wf d b -> OvlAbs d b m ->
  exists t, b_tree d b = Some t /\ NH.wf_tree_nh t = true /\ cursor_agrees t m.
Proof.
  intros d b m Hw Ha.
  destruct (ovl_both d b m Hw Ha) as (l & ents & Em & Hbw & Hbv & Hs & Hnd & Hsubs & HF & Hroot).
  destruct (b_tree_view d b l Hbw Hbv) as (t & Ht & Hfl & Hwf). exists t.
  split; [exact Ht|]. split; [exact Hwf|]. subst m. eapply cursor_agrees_ovl; eauto.
Qed.

Theorem ovl_tree_agrees : forall d path b m, ovl_wf d b -> OvlAbs d b m ->
  match ref_at path m with
  | AtBucket c => exists t, ovl_tree d b path = Ok t /\ NH.wf_tree_nh t = true /\ cursor_agrees t c
  | AtMissing => ovl_tree d b path = Err "BucketMissing"%string
  | AtIncompat => ovl_tree d b path = Err "IncompatibleValue"%string
  end.
Proof.
  intros d path b m Hw Ha. pose proof (ovl_bucket_refines d path b m Hw Ha) as H. unfold ovl_tree.
  destruct (ref_at path m) as [c| |]; [|now rewrite H|now rewrite H].
  destruct H as (bk & -> & Hwk & Hak). cbn [bind].
  destruct (ovl_bucket_agrees d bk c Hwk Hak) as (t & -> & Hwf & Hag). exists t. auto.
Qed.

(* the full scan alone *)
Corollary ovl_bucket_tree : forall d b m, ovl_wf d b -> OvlAbs d b m ->
  exists t, b_tree d b = Some t /\ NH.wf_tree_nh t = true /\
    map Cursor.to_item (flatten t) = Spec.items_of m /\ Cursor.scan t = CVal (Spec.items_of m).
Proof.
  intros d b m Hw Ha. destruct (ovl_bucket_agrees d b m Hw Ha) as (t & Ht & Hwf & _ & Hsc & _). exists t.
  split; [exact Ht|]. split; [exact Hwf|]. split; [|exact Hsc].
  unfold NH.wf_tree_nh in Hwf. apply andb_true_iff in Hwf. rewrite (NH.scan_spec_nh t (proj1 Hwf)) in Hsc.
  now inversion Hsc.
Qed.

Corollary ovl_tree_refines : forall d path b m, ovl_wf d b -> OvlAbs d b m ->
  match ref_at path m with
  | AtBucket c => exists t, ovl_tree d b path = Ok t /\ NH.wf_tree_nh t = true /\
                    Cursor.scan t = CVal (Spec.items_of c)
  | AtMissing => ovl_tree d b path = Err "BucketMissing"%string
  | AtIncompat => ovl_tree d b path = Err "IncompatibleValue"%string
  end.
Proof.
  intros d path b m Hw Ha. pose proof (ovl_tree_agrees d path b m Hw Ha) as H.
  destruct (ref_at path m) as [c| |]; [|exact H|exact H].
  destruct H as (t & Ht & Hwf & _ & Hsc & _). exists t. auto.
Qed.

(* ALL FOUR READS of the cursor API inside a write transaction, at any path, after any operations:
   get, full scan, range scan (every kind of bound), seek followed by iteration = the reference's answers on the
   bucket at that path in [sem_tx ops (abs_db st)]; a path through a plain value answers IncompatibleValue, a path
   leading nowhere BucketMissing (or IncompatibleValue when it runs through a plain value), as get_bucket does.
   No fuel hypothesis: [db_pages_wf] bounds the height of every committed tree by [fuel0] = 64, and the refinement
   ([ops_refine]) keeps that bound for the overlay ([bucket_view]). *)
Theorem tx_tree_agrees : forall st ops root' s', db_pages_wf st -> Forall (op_ok (d_disk st)) ops ->
  tx_fold st ops (root_bucket st, begin_w st) = Ok (root', s') ->
  forall path,
    match Spec.get_at path (sem_tx ops (abs_db st)) with
    | Some (SBucket o x es) =>
        exists t, ovl_tree (d_disk st) root' path = Ok t /\ NH.wf_tree_nh t = true /\
          cursor_agrees t (SBucket o x es)
    | Some (SVal _) => ovl_tree (d_disk st) root' path = Err "IncompatibleValue"%string
    | None => ovl_tree (d_disk st) root' path = Err "BucketMissing"%string \/
              ovl_tree (d_disk st) root' path = Err "IncompatibleValue"%string
    end.
Proof.
  intros st ops root' s' Hdb Hok Hf path. destruct (tx_fold_overlay st ops root' s' Hdb Hok Hf) as [Hw Ha].
  pose proof (ovl_tree_agrees (d_disk st) path root' _ Hw Ha) as H.
  pose proof (ref_at_get_at path _ (OvlAbs_is_bucket _ _ _ Ha)) as Hg.
  destruct (Spec.get_at path (sem_tx ops (abs_db st))) as [[v|o x es]|].
  - now rewrite Hg in H.
  - now rewrite Hg in H.
  - destruct Hg as [Hg|Hg]; rewrite Hg in H; [now left | now right].
Qed.

Corollary tx_cursor_agrees : forall st ops root' s', db_pages_wf st -> Forall (op_ok (d_disk st)) ops ->
  tx_fold st ops (root_bucket st, begin_w st) = Ok (root', s') ->
  forall path o x es, Spec.get_at path (sem_tx ops (abs_db st)) = Some (SBucket o x es) ->
    exists t, ovl_tree (d_disk st) root' path = Ok t /\ NH.wf_tree_nh t = true /\
      cursor_agrees t (SBucket o x es).
Proof.
  intros st ops root' s' Hdb Hok Hf path o x es Hg.
  pose proof (tx_tree_agrees st ops root' s' Hdb Hok Hf path) as H. now rewrite Hg in H.
Qed.

(* the full scan: exactly the reference's entries of that bucket, in key order, pairs and nested-bucket markers *)
Corollary tx_scans : forall st ops root' s', db_pages_wf st -> Forall (op_ok (d_disk st)) ops ->
  tx_fold st ops (root_bucket st, begin_w st) = Ok (root', s') ->
  forall path,
    match Spec.get_at path (sem_tx ops (abs_db st)) with
    | Some (SBucket o x es) =>
        exists t, ovl_tree (d_disk st) root' path = Ok t /\ NH.wf_tree_nh t = true /\
          Cursor.scan t = CVal (Spec.items_of (SBucket o x es))
    | Some (SVal _) => ovl_tree (d_disk st) root' path = Err "IncompatibleValue"%string
    | None => ovl_tree (d_disk st) root' path = Err "BucketMissing"%string \/
              ovl_tree (d_disk st) root' path = Err "IncompatibleValue"%string
    end.
Proof.
  intros st ops root' s' Hdb Hok Hf path. pose proof (tx_tree_agrees st ops root' s' Hdb Hok Hf path) as H.
  destruct (Spec.get_at path (sem_tx ops (abs_db st))) as [[v|o x es]|]; [exact H| |exact H].
  destruct H as (t & Ht & Hwf & _ & Hsc & _). exists t. auto.
Qed.

(* on the executable [tx_scan] (the transaction state exists: the operation phase never fails) *)
Corollary tx_scan_spec : forall st ops path, db_pages_wf st -> Forall (op_ok (d_disk st)) ops ->
  match Spec.get_at path (sem_tx ops (abs_db st)) with
  | Some (SBucket o x es) => tx_scan st ops path = Ok (CVal (Spec.items_of (SBucket o x es)))
  | Some (SVal _) => tx_scan st ops path = Err "IncompatibleValue"%string
  | None => tx_scan st ops path = Err "BucketMissing"%string \/ tx_scan st ops path = Err "IncompatibleValue"%string
  end.
Proof.
  intros st ops path Hdb Hok.
  destruct (ops_refine st ops Hdb Hok) as (r1 & s1 & Hf & _).
  pose proof (tx_scans st ops r1 s1 Hdb Hok Hf path) as H.
  unfold tx_scan, ovl_scan. rewrite tx_state_fold, Hf. cbn [bind].
  destruct (Spec.get_at path (sem_tx ops (abs_db st))) as [[v|o x es]|].
  - now rewrite H.
  - destruct H as (t & -> & _ & Hsc). cbn [bind]. now rewrite Hsc.
  - destruct H as [-> | ->]; [now left | now right].
Qed.

(* on the executable [tx_cget] / [tx_range] / [tx_seek] *)
Corollary tx_reads_cursor : forall st ops path o x es, db_pages_wf st -> Forall (op_ok (d_disk st)) ops ->
  Spec.get_at path (sem_tx ops (abs_db st)) = Some (SBucket o x es) ->
  let b := SBucket o x es in
  (forall k, tx_cget st ops path k = Ok (ref_get b k)) /\
  tx_scan st ops path = Ok (CVal (Spec.items_of b)) /\
  (forall lo hi, tx_range st ops path lo hi =
     Ok (CVal (filter (fun i => Spec.in_bounds lo hi (Spec.item_key i)) (Spec.items_of b)))) /\
  (forall k, exists l, tx_seek st ops path k = Ok (ref_found b k, CVal l) /\
     if ref_found b k then l = Spec.from_succ k (Spec.items_of b)
     else l = Spec.from_pred k (Spec.items_of b) \/ l = Spec.from_succ k (Spec.items_of b)).
Proof.
  intros st ops path o x es Hdb Hok Hg b.
  destruct (ops_refine st ops Hdb Hok) as (r1 & s1 & Hf & _).
  destruct (tx_cursor_agrees st ops r1 s1 Hdb Hok Hf path o x es Hg) as (t & Ht & _ & Hget & Hscan & Hrange & Hseek).
  unfold tx_cget, tx_scan, tx_range, tx_seek, ovl_cget, ovl_scan, ovl_range, ovl_seek.
  rewrite tx_state_fold, Hf. cbn [bind]. rewrite Ht. cbn [bind]. split; [|split; [|split]].
  - intros k. now rewrite Hget.
  - now rewrite Hscan.
  - intros lo hi. now rewrite Hrange.
  - intros k. destruct (Hseek k) as (l & Hs & Hl). exists l. split; [now rewrite Hs | exact Hl].
Qed.

(* [wf_node] cannot be dropped: a view alone allows a branch without entries, whose tree the cursor panics on *)
Example neb_needs_wf :
  let n := Node 5 1 None 0 (Branches []) [] in
  NodeView [] 1 n [] /\ otree_node 1 [] n = Some (TB 5 0 []) /\ no_empty_branch (TB 5 0 []) = false /\
  Cursor.scan (TB 5 0 []) = CPanic.
Proof.
  cbn zeta. split; [|vm_compute; repeat split; reflexivity].
  apply (NV_branch [] 0 5%N 1%N None 0%N [] [] []). constructor.
Qed.

(* the point read of the executable model is [ovl_lookup]: [tx_reads] speaks about [tx_get] *)
Corollary tx_get_reads : forall st ops path k, db_pages_wf st -> Forall (op_ok (d_disk st)) ops ->
  exists r, tx_get st ops path k = r /\ rd_matches k (ref_lookup path (sem_tx ops (abs_db st)) k) r.
Proof.
  intros st ops path k Hdb Hok. destruct (ops_refine st ops Hdb Hok) as (r1 & s1 & Hf & _).
  eexists. split; [reflexivity|]. unfold tx_get. rewrite tx_state_fold, Hf. cbn [bind]. rewrite ovl_get_lookup.
  exact (tx_reads st ops r1 s1 Hdb Hok Hf path k).
Qed.

Print Assumptions txm_step_eq.
Print Assumptions tx_state_fold.
Print Assumptions ovl_ent_eq.
Print Assumptions otree_page_tree_of.
Print Assumptions otree_page_view.
Print Assumptions otree_node_view.
Print Assumptions otree_node_neb.
Print Assumptions otree_page_neb.
Print Assumptions b_tree_view.
Print Assumptions b_tree_neb.
Print Assumptions ovl_bucket_tree.
Print Assumptions ovl_tree_refines.
Print Assumptions tx_scans.
Print Assumptions tx_scan_spec.
Print Assumptions cursor_agrees_ovl.
Print Assumptions ovl_bucket_agrees.
Print Assumptions ovl_tree_agrees.
Print Assumptions tx_cursor_agrees.
Print Assumptions tx_reads_cursor.
Print Assumptions neb_needs_wf.
Print Assumptions tx_get_reads.
