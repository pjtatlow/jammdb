(* The database's own consistency check (CheckM.check_m, the model of TxInner::check) accepts every file
   that the independent invariant checker Tree.inv_check accepts: with strict mode on, a valid commit is never
   rejected.
   [covers rd P stack pgs] describes what the depth-first search of check_loop does for a stack of page ids;
   build_tree / bucket_pages / bucket_wf produce a cover of the root, and check_loop succeeds on a covered
   stack when [unused] is a permutation of the covered pages. *)
From Coq Require Import List NArith Bool Arith Lia ZifyN ZifyBool Permutation.
From Coq.Strings Require Import Byte.
From Jamm Require Import Bytes Consts Meta Codec Tree CheckM SearchFacts CursorFacts.
Import ListNotations.
Local Open Scope list_scope. Local Open Scope N_scope.

Arguments N.add : simpl never. Arguments N.sub : simpl never. Arguments N.mul : simpl never.
Arguments N.ltb : simpl never. Arguments N.leb : simpl never. Arguments N.eqb : simpl never.

Lemma remove1N_in : forall x l, In x l -> exists l', remove1N x l = Some l' /\ Permutation l (x :: l').
Proof.
  intros x l. induction l as [|y l IH]; intros Hin; [contradiction|].
  cbn [remove1N]. destruct (N.eqb_spec x y) as [->|Hne].
  - exists l. split; [reflexivity | apply Permutation_refl].
  - destruct Hin as [->|Hin]; [congruence|].
    destruct (IH Hin) as (l' & -> & Hp). exists (y :: l'). split; [reflexivity|].
    eapply perm_trans; [apply perm_skip; exact Hp | apply perm_swap].
Qed.

Lemma remove1N_some : forall x l l', remove1N x l = Some l' -> Permutation l (x :: l').
Proof.
  intros x l. induction l as [|y l IH]; intros l' H; cbn [remove1N] in H; [discriminate|].
  destruct (N.eqb_spec x y) as [->|Hne].
  - injection H as <-. apply Permutation_refl.
  - destruct (remove1N x l) as [r|] eqn:E; [|discriminate]. injection H as <-.
    eapply perm_trans; [apply perm_skip; apply IH; reflexivity | apply perm_swap].
Qed.

Lemma remove1N_none : forall x l, remove1N x l = None -> ~ In x l.
Proof.
  intros x l H Hin. destruct (remove1N_in x l Hin) as (l' & E & _). congruence.
Qed.

Lemma remove1N_perm : forall x l r, Permutation l (x :: r) ->
  exists l', remove1N x l = Some l' /\ Permutation l' r.
Proof.
  intros x l r Hp.
  assert (Hin : In x l) by (eapply Permutation_in; [apply Permutation_sym; exact Hp | now left]).
  destruct (remove1N_in x l Hin) as (l' & E & Hp'). exists l'. split; [exact E|].
  eapply Permutation_cons_inv. eapply perm_trans; [apply Permutation_sym; exact Hp' | exact Hp].
Qed.

Lemma remove_all_some : forall xs l l', remove_all xs l = Some l' -> Permutation l (xs ++ l').
Proof.
  induction xs as [|x xs IH]; intros l l' H; cbn [remove_all] in H.
  - injection H as <-. apply Permutation_refl.
  - destruct (remove1N x l) as [l1|] eqn:E; [|discriminate].
    apply remove1N_some in E. apply IH in H. cbn [app].
    eapply perm_trans; [exact E | apply perm_skip; exact H].
Qed.

Lemma remove_all_perm : forall xs l r, Permutation l (xs ++ r) ->
  exists l', remove_all xs l = Some l' /\ Permutation l' r.
Proof.
  induction xs as [|x xs IH]; intros l r Hp; cbn [remove_all].
  - exists l. split; [reflexivity | exact Hp].
  - cbn [app] in Hp. destruct (remove1N_perm x l _ Hp) as (l1 & -> & Hp1). apply IH. exact Hp1.
Qed.

Lemma remove_all_iff : forall xs l,
  (exists l', remove_all xs l = Some l') <-> (exists r, Permutation l (xs ++ r)).
Proof.
  intros xs l. split.
  - intros (l' & H). exists l'. now apply remove_all_some.
  - intros (r & Hp). destruct (remove_all_perm xs l r Hp) as (l' & H & _). now exists l'.
Qed.

Lemma insert_sorted_perm : forall x l, Permutation (insert_sorted x l) (x :: l).
Proof.
  intros x l. induction l as [|y l IH]; cbn [insert_sorted]; [apply Permutation_refl|].
  destruct (x <=? y); [apply Permutation_refl|].
  eapply perm_trans; [apply perm_skip; exact IH | apply perm_swap].
Qed.

Lemma sortN_perm : forall l, Permutation (sortN l) l.
Proof.
  intros l. unfold sortN.
  assert (G : forall l acc, Permutation (fold_left (fun acc x => insert_sorted x acc) l acc) (l ++ acc)).
  { clear l. induction l as [|x l IH]; intros acc; cbn [fold_left app]; [apply Permutation_refl|].
    eapply perm_trans; [apply IH|].
    eapply perm_trans; [apply Permutation_app_head; apply insert_sorted_perm|].
    apply Permutation_sym. apply Permutation_middle. }
  specialize (G l []). now rewrite app_nil_r in G.
Qed.

Lemma eq_listN_true : forall a b, eq_listN a b = true -> a = b.
Proof.
  induction a as [|x a IH]; intros [|y b] H; cbn [eq_listN] in H; try discriminate; [reflexivity|].
  apply andb_true_iff in H. destruct H as [H1 H2]. apply N.eqb_eq in H1. subst y. f_equal. now apply IH.
Qed.

Lemma eq_listN_refl : forall a, eq_listN a a = true.
Proof. induction a as [|x a IH]; cbn [eq_listN]; [reflexivity|]. now rewrite N.eqb_refl, IH. Qed.

Lemma in_seqN : forall n s x, In x (seqN s n) <-> s <= x < s + N.of_nat n.
Proof.
  induction n as [|n IH]; intros s x; cbn [seqN In].
  - lia.
  - rewrite IH. lia.
Qed.

Lemma seqN_NoDup : forall n s, NoDup (seqN s n).
Proof.
  induction n as [|n IH]; intros s; cbn [seqN]; constructor; [|apply IH].
  rewrite in_seqN. lia.
Qed.

Lemma seqN_length : forall n s, length (seqN s n) = n.
Proof. induction n as [|n IH]; intros s; cbn [seqN length]; [reflexivity|]. now rewrite IH. Qed.

Lemma seqN_succ : forall s o, seqN s (N.to_nat (o + 1)) = s :: seqN (s + 1) (N.to_nat o).
Proof. intros s o. replace (N.to_nat (o + 1)) with (S (N.to_nat o)) by lia. reflexivity. Qed.

(* pages 0 and 1 are the two header slots: the three lists together are exactly [2, np), each id once *)
Theorem partition_ok_perm : forall np reach flrun free,
  partition_ok np reach flrun free = true ->
  Permutation (reach ++ flrun ++ free) (seqN 2 (N.to_nat (np - 2))).
Proof.
  intros np reach flrun free H. unfold partition_ok in H. apply eq_listN_true in H.
  rewrite <- H. apply Permutation_sym. apply sortN_perm.
Qed.

Theorem partition_ok_NoDup : forall np reach flrun free,
  partition_ok np reach flrun free = true -> NoDup (reach ++ flrun ++ free).
Proof.
  intros np reach flrun free H. apply partition_ok_perm in H.
  eapply Permutation_NoDup; [apply Permutation_sym; exact H | apply seqN_NoDup].
Qed.

Theorem partition_ok_in : forall np reach flrun free,
  partition_ok np reach flrun free = true ->
  forall x, In x (reach ++ flrun ++ free) <-> 2 <= x < np \/ (np < 2 /\ False).
Proof.
  intros np reach flrun free H x. apply partition_ok_perm in H. split.
  - intros Hin. eapply Permutation_in in Hin; [|exact H]. apply in_seqN in Hin. lia.
  - intros [Hx|[_ []]]. eapply Permutation_in; [apply Permutation_sym; exact H|]. apply in_seqN. lia.
Qed.

Lemma bind_ok : forall {A B} (r : res A) (f : A -> res B) b,
  bind r f = Ok b -> exists a, r = Ok a /\ f a = Ok b.
Proof. intros A B [a|m] f b H; cbn [bind] in H; [eauto | discriminate]. Qed.

Lemma mapM_Forall2 : forall {A B} (f : A -> res B) l ys,
  mapM f l = Ok ys -> Forall2 (fun x y => f x = Ok y) l ys.
Proof.
  intros A B f. induction l as [|x l IH]; intros ys H; cbn [mapM] in H.
  - injection H as <-. constructor.
  - apply bind_ok in H. destruct H as (y & Hy & H). apply bind_ok in H. destruct H as (ys' & Hys & H).
    injection H as <-. constructor; [exact Hy | now apply IH].
Qed.

Definition leaf_roots (l : list lent) : list N :=
  flat_map (fun e => match e with EBk _ r _ => [r] | EKv _ _ => [] end) l.

(* the page ids check_step pushes for a page body; None = the page must not occur inside a tree /
   fails the per-page sortedness test *)
Definition children (b : pbody) : option (list N) :=
  match b with
  | PBranch es => if sorted_keys (map fst es) then Some (map snd es) else None
  | PLeaf l => if sorted_keys (map lent_key l) then Some (leaf_roots l) else None
  | PFree _ => None
  end.

Section Covers.
Variables (rd : reader) (P : N).

(* [covers stack pgs]: every page id on [stack] decodes to a branch or leaf page with strictly ascending
   keys, recursively so for everything it pushes, and [pgs] is (a permutation of) all page runs visited. *)
Inductive covers : list N -> list N -> Prop :=
| covers_nil : covers [] []
| covers_cons : forall pid stack h b ch pgs1 pgs2 pgs,
    decode_page rd P pid = Ok (h, b) ->
    children b = Some ch ->
    covers ch pgs1 ->
    covers stack pgs2 ->
    Permutation pgs (seqN pid (N.to_nat (ph_overflow h + 1)) ++ pgs1 ++ pgs2) ->
    covers (pid :: stack) pgs.

Lemma covers_perm_pages : forall s p p', covers s p -> Permutation p p' -> covers s p'.
Proof.
  intros s p p' H Hp. destruct H.
  - apply Permutation_nil in Hp. subst. constructor.
  - econstructor; eauto. eapply perm_trans; [apply Permutation_sym; exact Hp | assumption].
Qed.

Lemma covers_nil_inv : forall p, covers [] p -> p = [].
Proof. intros p H. inversion H. reflexivity. Qed.

Lemma covers_app : forall s1 p1, covers s1 p1 -> forall s2 p2, covers s2 p2 -> covers (s1 ++ s2) (p1 ++ p2).
Proof.
  intros s1 p1 H. induction H as [|pid stack h b ch pgs1 pgs2 pgs Hd Hc H1 _ H2 IH2 Hp]; intros s2 p2 H'.
  - exact H'.
  - cbn [app]. econstructor; [exact Hd | exact Hc | exact H1 | apply IH2; exact H' |].
    eapply perm_trans; [apply Permutation_app_tail; exact Hp|].
    rewrite <- !app_assoc. apply Permutation_refl.
Qed.

Lemma covers_perm_stack : forall s s', Permutation s s' -> forall p, covers s p -> covers s' p.
Proof.
  intros s s' Hs. induction Hs as [|x l l' Hl IH|x y l|l l' l'' _ IH1 _ IH2]; intros p H.
  - exact H.
  - inversion H; subst. econstructor; eauto.
  - inversion H as [|pid stack h b ch pgs1 pgs2 pgs Hd Hc H1 H2 Hp]; subst.
    inversion H2 as [|pid' stack' h' b' ch' pgs1' pgs2' pgs' Hd' Hc' H1' H2' Hp']; subst.
    econstructor; [exact Hd' | exact Hc' | exact H1' | |].
    + econstructor; [exact Hd | exact Hc | exact H1 | exact H2' | apply Permutation_refl].
    + eapply perm_trans; [exact Hp|].
      eapply perm_trans; [apply Permutation_app_head; apply Permutation_app_head; exact Hp'|].
      set (A := seqN y _). set (B := seqN x _).
      (* A ++ pgs1 ++ B ++ pgs1' ++ pgs2'  ~  B ++ pgs1' ++ A ++ pgs1 ++ pgs2' *)
      replace (A ++ pgs1 ++ B ++ pgs1' ++ pgs2') with ((A ++ pgs1) ++ (B ++ pgs1') ++ pgs2')
        by (now rewrite <- !app_assoc).
      replace (B ++ pgs1' ++ A ++ pgs1 ++ pgs2') with ((B ++ pgs1') ++ (A ++ pgs1) ++ pgs2')
        by (now rewrite <- !app_assoc).
      apply Permutation_app_swap_app.
  - apply IH2. apply IH1. exact H.
Qed.

Lemma covers_length : forall s p, covers s p -> (length s <= length p)%nat.
Proof.
  intros s p H. induction H as [|pid stack h b ch pgs1 pgs2 pgs Hd Hc H1 _ H2 IH2 Hp]; [apply Nat.le_refl|].
  apply Permutation_length in Hp. rewrite Hp, !app_length, seqN_length. cbn [length]. lia.
Qed.

Lemma check_step_node fl pid stack unused h b ch rest :
  decode_page rd P pid = Ok (h, b) -> children b = Some ch ->
  Permutation unused (pid :: seqN (pid + 1) (N.to_nat (ph_overflow h)) ++ rest) ->
  exists u, check_step rd P fl pid stack unused = Ok (rev ch ++ stack, u) /\ Permutation u rest.
Proof.
  intros Hd Hch Hu. unfold check_step.
  destruct (remove1N_perm _ _ _ Hu) as (u1 & -> & Hu1). rewrite Hd. cbn [bind].
  destruct (remove_all_perm _ _ _ Hu1) as (u & -> & Hu2). exists u. split; [|exact Hu2].
  destruct b as [l|es|ids]; cbn [children] in Hch; [| |discriminate];
    destruct (sorted_keys _); try discriminate; now injection Hch as <-.
Qed.

Lemma check_step_free pid stack unused h ids rest :
  decode_page rd P pid = Ok (h, PFree ids) ->
  Permutation unused (pid :: seqN (pid + 1) (N.to_nat (ph_overflow h)) ++ ids ++ rest) ->
  exists u, check_step rd P pid pid stack unused = Ok (stack, u) /\ Permutation u rest.
Proof.
  intros Hd Hu. unfold check_step.
  destruct (remove1N_perm _ _ _ Hu) as (u1 & -> & Hu1). rewrite Hd. cbn [bind].
  destruct (remove_all_perm _ _ _ Hu1) as (u2 & -> & Hu2). rewrite N.eqb_refl. cbn [negb].
  destruct (remove_all_perm _ _ _ Hu2) as (u & -> & Hu3). now exists u.
Qed.

Lemma check_loop_covers : forall fl n stack pgs unused fuel,
  (length pgs <= n)%nat ->
  covers stack pgs ->
  Permutation unused pgs ->
  (length unused <= fuel)%nat ->
  check_loop fuel rd P fl stack unused = Ok tt.
Proof.
  intros fl. induction n as [|n IH]; intros stack pgs unused fuel Hn Hc Hu Hf.
  - destruct pgs; [|cbn [length] in Hn; lia].
    apply Permutation_sym, Permutation_nil in Hu. subst unused.
    pose proof (covers_length _ _ Hc) as Hl. destruct stack; [destruct fuel; reflexivity | cbn [length] in Hl; lia].
  - inversion Hc as [|pid stack' h b ch pgs1 pgs2 pgs' Hd Hch H1 H2 Hp]; subst.
    + apply Permutation_sym, Permutation_nil in Hu. subst unused. destruct fuel; reflexivity.
    + rewrite seqN_succ in Hp.
      assert (Hu' : Permutation unused (pid :: seqN (pid + 1) (N.to_nat (ph_overflow h)) ++ pgs1 ++ pgs2))
        by (eapply perm_trans; [exact Hu | exact Hp]).
      pose proof (Permutation_length Hu') as Hlen.
      destruct fuel as [|f]; [rewrite Hlen in Hf; cbn [length] in Hf; lia|].
      cbn [check_loop].
      destruct (check_step_node fl pid stack' unused h b ch (pgs1 ++ pgs2) Hd Hch Hu') as (u2 & -> & Hu2).
      cbn [bind].
      pose proof (Permutation_length Hu2) as Hlen2.
      pose proof (Permutation_length Hp) as Hlenp.
      cbn [app] in Hlenp. cbn [length] in Hlen, Hlenp. rewrite app_length in Hlen, Hlenp.
      apply (IH _ (pgs1 ++ pgs2)).
      * lia.
      * eapply covers_perm_stack; [apply Permutation_app_tail, Permutation_rev|]. apply covers_app; assumption.
      * exact Hu2.
      * lia.
Qed.

(* per-page sortedness inside a decoded tree: what check_step tests page by page *)
Fixpoint pages_sorted (t : tree) : bool :=
  match t with
  | TL _ _ l => sorted_keys (map lent_key l)
  | TB _ _ ks => sorted_keys (map fst ks) && forallb (fun kt : bytes * tree => pages_sorted (snd kt)) ks
  end.

Lemma sorted_keys_mid : forall a b c : list bytes, sorted_keys (a ++ b ++ c) = true -> sorted_keys b = true.
Proof.
  intros a b c H. apply sorted_keys_app in H. destruct H as [_ H].
  apply sorted_keys_app in H. apply H.
Qed.

Lemma wf_tree_pages_sorted : forall t, wf_shape t = true ->
  sorted_keys (map lent_key (flatten t)) = true -> pages_sorted t = true.
Proof.
  induction t as [p o l | p o ks IH] using tree_ind'; intros Hwf Hs; [exact Hs|].
  cbn [pages_sorted]. apply andb_true_iff. split; [eapply wf_shape_TB_sorted; eauto|].
  destruct (wf_shape_TB p o ks Hwf) as (_ & Hwc & _).
  cbn [flatten] in Hs. clear Hwf. revert IH Hwc Hs.
  induction ks as [|kt ks IHks]; intros IH Hwc Hs; [reflexivity|].
  cbn [forallb]. cbn [flat_map] in Hs. rewrite map_app in Hs. apply sorted_keys_app in Hs.
  destruct Hs as [Hs1 Hs2]. inversion IH as [|? ? IHkt IHrest]; subst.
  apply andb_true_iff. split.
  - apply IHkt; [apply Hwc; now left | exact Hs1].
  - apply IHks; [exact IHrest | intros kt' Hin; apply Hwc; now right | exact Hs2].
Qed.

(* the relation between a leaf entry and the pages of the nested bucket it may carry *)
Definition ent_cov (e : lent) (sp : list N) : Prop :=
  match e with EKv _ _ => sp = [] | EBk _ r _ => covers [r] sp end.

Lemma leaf_roots_covers : forall l subs, Forall2 ent_cov l subs -> covers (leaf_roots l) (List.concat subs).
Proof.
  intros l subs H. induction H as [|e sp l subs He _ IH]; [constructor|].
  unfold leaf_roots. cbn [flat_map concat]. fold (leaf_roots l).
  destruct e as [k v|k r nx]; cbn [ent_cov] in He.
  - subst sp. exact IH.
  - apply covers_app; assumption.
Qed.

Lemma build_tree_covers : forall fuel pid t,
  build_tree fuel rd P pid = Ok t ->
  pages_sorted t = true ->
  forall subs, Forall2 ent_cov (flatten t) subs ->
  covers [pid] (tree_pages t ++ List.concat subs).
Proof.
  induction fuel as [|f IH]; intros pid t Hb Hs subs Hsubs; cbn [build_tree] in Hb; [discriminate|].
  apply bind_ok in Hb. destruct Hb as ([h b] & Hd & Hb).
  destruct b as [l|es|ids]; [| |discriminate].
  - injection Hb as <-. cbn [pages_sorted] in Hs. cbn [flatten] in Hsubs. cbn [tree_pages].
    econstructor; [exact Hd | cbn [children]; rewrite Hs; reflexivity
                  | apply leaf_roots_covers; exact Hsubs | constructor |].
    rewrite app_nil_r. apply Permutation_refl.
  - apply bind_ok in Hb. destruct Hb as (ks & Hks & Hb). injection Hb as <-.
    cbn [pages_sorted] in Hs. apply andb_true_iff in Hs. destruct Hs as [Hsk Hsc].
    cbn [flatten] in Hsubs. cbn [tree_pages].
    apply mapM_Forall2 in Hks.
    assert (Hfst : map fst ks = map fst es).
    { clear -Hks. induction Hks as [|e kt es ks He _ IHk]; [reflexivity|].
      apply bind_ok in He. destruct He as (t & _ & He). injection He as <-. cbn [map fst]. now f_equal. }
    assert (Hkids : covers (map snd es)
              (flat_map (fun kt : bytes * tree => tree_pages (snd kt)) ks ++ List.concat subs)).
    { clear Hsk Hfst Hd. revert subs Hsubs Hsc.
      induction Hks as [|e kt es ks He _ IHk]; intros subs Hsubs Hsc.
      - cbn [flat_map] in Hsubs. inversion Hsubs; subst. constructor.
      - apply bind_ok in He. destruct He as (t & Ht & He). injection He as <-.
        cbn [forallb snd] in Hsc. apply andb_true_iff in Hsc. destruct Hsc as [Hst Hsc].
        cbn [flat_map snd] in Hsubs |- *.
        apply Forall2_app_inv_l in Hsubs. destruct Hsubs as (s1 & s2 & Hs1 & Hs2 & ->).
        rewrite concat_app. cbn [map].
        eapply covers_perm_pages.
        + apply (covers_app [snd e] _ (IH _ _ Ht Hst s1 Hs1) _ _ (IHk s2 Hs2 Hsc)).
        + rewrite <- !app_assoc. apply Permutation_app_head.
          rewrite !app_assoc. apply Permutation_app_tail. apply Permutation_app_comm. }
    econstructor; [exact Hd | cbn [children]; rewrite <- Hfst, Hsk; reflexivity | exact Hkids | constructor |].
    rewrite app_nil_r, <- app_assoc. apply Permutation_refl.
Qed.

Lemma bucket_covers : forall np fuel root reach,
  bucket_pages fuel rd P np root = Ok reach ->
  bucket_wf fuel rd P np root = Ok true ->
  covers [root] reach.
Proof.
  intros np. induction fuel as [|f IH]; intros root reach Hp Hw; cbn [bucket_pages bucket_wf] in Hp, Hw;
    [discriminate|].
  apply bind_ok in Hp. destruct Hp as (t & Ht & Hp). rewrite Ht in Hw. cbn [bind] in Hw.
  apply bind_ok in Hp. destruct Hp as (subs & Hsubs & Hp). injection Hp as <-.
  apply bind_ok in Hw. destruct Hw as (ws & Hws & Hw). injection Hw as Hw.
  apply andb_true_iff in Hw. destruct Hw as [Hwf Hall].
  unfold wf_tree in Hwf. apply andb_true_iff in Hwf. destruct Hwf as [Hshape Hsorted].
  eapply build_tree_covers; [exact Ht | apply wf_tree_pages_sorted; assumption |].
  apply mapM_Forall2 in Hsubs. apply mapM_Forall2 in Hws.
  clear Ht Hshape Hsorted. revert ws Hws Hall.
  induction Hsubs as [|e sp l subs He _ IHl]; intros ws Hws Hall; [constructor|].
  inversion Hws as [|? w ? ws' Hwe Hws']; subst. cbn [forallb] in Hall.
  apply andb_true_iff in Hall. destruct Hall as [Hw1 Hall]. subst w.
  constructor; [|eapply IHl; eauto].
  destruct e as [k v|k r nx]; cbn [ent_cov].
  - now injection He as <-.
  - apply IH; assumption.
Qed.

End Covers.

Lemma open_db_inv : forall rd P o, open_db rd P = Ok o ->
  exists h, decode_page rd P (m_fl (o_meta o)) = Ok (h, PFree (o_free o)) /\
            o_flrun o = seqN (m_fl (o_meta o)) (N.to_nat (ph_overflow h + 1)).
Proof.
  intros rd P o H. unfold open_db in H. destruct (open_meta rd P) as [m| |why]; try discriminate.
  apply bind_ok in H. destruct H as ([h b] & Hd & H).
  destruct b as [l|es|ids]; try discriminate. injection H as <-. cbn [o_meta o_free o_flrun].
  exists h. split; [exact Hd | reflexivity].
Qed.

Lemma inv_check_inv : forall rd P, inv_check rd P = Ok tt ->
  exists o reach, let m := o_meta o in
    open_db rd P = Ok o /\ 4 <= m_np m /\
    bucket_pages (N.to_nat (m_np m)) rd P (m_np m) (m_root m) = Ok reach /\
    bucket_wf (N.to_nat (m_np m)) rd P (m_np m) (m_root m) = Ok true /\
    partition_ok (m_np m) reach (o_flrun o) (o_free o) = true.
Proof.
  intros rd P H. unfold inv_check in H.
  apply bind_ok in H. destruct H as (o & Ho & H). cbv zeta in H.
  destruct (N.ltb_spec (m_np (o_meta o)) 4) as [|Hnp]; [discriminate|].
  apply bind_ok in H. destruct H as (reach & Hreach & H).
  apply bind_ok in H. destruct H as (wf & Hwf & H).
  destruct wf; cbn [negb] in H; [|discriminate].
  destruct (partition_ok _ reach (o_flrun o) (o_free o)) eqn:Hpart; cbn [negb] in H; [|discriminate].
  exists o, reach. cbv zeta. auto.
Qed.

Theorem inv_check_implies_check_m : forall rd P, inv_check rd P = Ok tt -> check_m rd P = Ok tt.
Proof.
  intros rd P H. destruct (inv_check_inv rd P H) as (o & reach & Ho & _ & Hreach & Hwf & Hpart).
  unfold check_m. rewrite Ho. cbn [bind]. cbv zeta. set (m := o_meta o) in *.
  destruct (open_db_inv _ _ _ Ho) as (h & Hd & Hrun). fold m in Hd, Hrun.
  apply partition_ok_perm in Hpart. rewrite Hrun, seqN_succ in Hpart.
  pose proof (bucket_covers rd P _ _ _ _ Hreach Hwf) as Hcov.
  set (unused := seqN 2 (N.to_nat (m_np m - 2))) in *.
  assert (Hlen : length unused = N.to_nat (m_np m - 2)) by apply seqN_length.
  (* first iteration: the free-list page *)
  assert (Hu : Permutation unused
                 (m_fl m :: seqN (m_fl m + 1) (N.to_nat (ph_overflow h)) ++ o_free o ++ reach)).
  { eapply perm_trans; [apply Permutation_sym; exact Hpart|].
    eapply perm_trans; [apply Permutation_app_comm|]. cbn [app]. rewrite <- app_assoc. apply Permutation_refl. }
  cbn [check_loop].
  destruct (check_step_free rd P (m_fl m) [m_root m] unused h (o_free o) reach Hd Hu) as (u3 & -> & Hu3).
  cbn [bind].
  apply (check_loop_covers rd P (m_fl m) (length reach) [m_root m] reach u3).
  - apply Nat.le_refl.
  - exact Hcov.
  - exact Hu3.
  - pose proof (Permutation_length Hu) as L. rewrite Hlen in L. cbn [length] in L.
    rewrite !app_length in L. rewrite (Permutation_length Hu3). lia.
Qed.

Print Assumptions inv_check_implies_check_m.

Theorem check_m_opens : forall rd P, check_m rd P = Ok tt -> exists o, open_db rd P = Ok o.
Proof.
  intros rd P H. unfold check_m in H. apply bind_ok in H. destruct H as (o & Ho & _). eauto.
Qed.

Theorem inv_check_partition : forall rd P, inv_check rd P = Ok tt ->
  exists o reach,
    open_db rd P = Ok o /\
    4 <= m_np (o_meta o) /\
    bucket_pages (N.to_nat (m_np (o_meta o))) rd P (m_np (o_meta o)) (m_root (o_meta o)) = Ok reach /\
    covers rd P [m_root (o_meta o)] reach /\
    Permutation (reach ++ o_flrun o ++ o_free o) (seqN 2 (N.to_nat (m_np (o_meta o) - 2))) /\
    NoDup (reach ++ o_flrun o ++ o_free o).
Proof.
  intros rd P H. destruct (inv_check_inv rd P H) as (o & reach & Ho & Hnp & Hreach & Hwf & Hpart).
  exists o, reach. repeat split; try assumption.
  - eapply bucket_covers; eauto.
  - now apply partition_ok_perm.
  - eapply partition_ok_NoDup; eauto.
Qed.

Print Assumptions check_m_opens.
Print Assumptions inv_check_partition.
