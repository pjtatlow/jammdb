(* The pages written by [spill_node] / [spill_root] form a strict tree: they satisfy the committed-page invariant [PInv]
   of EngineRebalanceFacts (sorted, within the key interval, separators equal to the first key of the page they point
   to, child pages distinct) in every later disk [apply_wr w' P d] whose write set agrees with the spill's on the new
   pages and leaves the kept pages alone, and no page occurs twice in the new tree ([NoDup] of [ppages]). With the
   entries the pages hold (EngineSpillFacts) this re-establishes the invariant of committed states ([BInv] with no
   root node). *)
From Coq Require Import List NArith PeanoNat Bool Lia ZifyN ZifyNat ZifyBool Permutation.
From Coq.Strings Require Import Byte.
From Jamm Require PL Freelist FreelistFacts EngineAllocFacts EngineFacts EngineBridgeFacts.
From Jamm Require Import ListFacts Bytes Tree SearchFacts Engine EngineAbs EngineMergeFacts EngineModifyFacts.
From Jamm Require Import EngineSpillFacts EngineRebalanceFacts.
Import ListNotations.
Local Open Scope list_scope. Local Open Scope N_scope.

(** * Lists: disjointness, [NoDup] of [flat_map] *)

Definition disj {A} (a b : list A) : Prop := forall x, In x a -> In x b -> False.

Lemma Forall2_compose {A B C} (R1 : A -> B -> Prop) (R2 : B -> C -> Prop) (R : A -> C -> Prop) :
  (forall a b c, R1 a b -> R2 b c -> R a c) ->
  forall la lb lc, Forall2 R1 la lb -> Forall2 R2 lb lc -> Forall2 R la lc.
Proof.
  intros H la lb lc H1. revert lc. induction H1 as [|a b la lb Hab _ IH]; intros lc H2; inversion H2; subst; constructor.
  - eapply H; eassumption.
  - apply IH. assumption.
Qed.

(** * [PInv] and [ppages]: unfolding, monotonicity, tight lower bounds, unchanged pages *)

Lemma PInv_S h d lo hi ok q :
  PInv (S h) d lo hi ok q =
  exists a, dget d q = Some a /\ okey_ok ok (ap_body a) /\
    match ap_body a with
    | Leaves l => sorted_keys (map lkey l) = true /\ Forall (inb lo hi) (map lkey l)
    | Branches es =>
        es <> [] /\ sorted_keys (map fst es) = true /\ NoDup (map snd es) /\
        Forall (inb lo hi) (map fst es) /\
        Forall2 (fun e b => PInv h d (fst b) (snd b) (Some (fst e)) (snd e)) es (cbounds lo (map fst es) hi)
    end.
Proof. reflexivity. Qed.

Lemma ppages_S h d q :
  ppages (S h) d q =
  match dget d q with None => [] | Some a =>
    match ap_body a with
    | Leaves _ => []
    | Branches es => map snd es ++ flat_map (fun e => ppages h d (snd e)) es end end.
Proof. reflexivity. Qed.

(* [PInv h]: height at most h *)
Lemma PInv_mono : forall h d lo hi ok q, PInv h d lo hi ok q -> PInv (S h) d lo hi ok q.
Proof.
  induction h as [|h IH]; intros d lo hi ok q H; [destruct H|].
  rewrite PInv_S in H. rewrite PInv_S. destruct H as (a & Hg & Hok & Hb). exists a.
  split; [exact Hg|]. split; [exact Hok|]. destruct (ap_body a) as [l|es]; [exact Hb|].
  destruct Hb as (H1 & H2 & H3 & H4 & H5). repeat (split; [assumption|]).
  eapply ListFacts.Forall2_impl; [|exact H5]. intros e b Hp. apply IH, Hp.
Qed.

Lemma PInv_mono_le h h' d lo hi ok q : (h <= h')%nat -> PInv h d lo hi ok q -> PInv h' d lo hi ok q.
Proof. induction 1 as [|h' _ IH]; intros H; [exact H|]. apply PInv_mono, IH, H. Qed.

(* a page filed under the separator k holds keys >= k only: its lower bound can be taken to be k *)
Lemma PInv_tighten : forall h d lo hi k q, PInv h d lo hi (Some k) q -> PInv h d (Some k) hi (Some k) q.
Proof.
  induction h as [|h IH]; intros d lo hi k q H; [destruct H|].
  rewrite PInv_S in H. rewrite PInv_S. destruct H as (a & Hg & Hok & Hb). exists a.
  split; [exact Hg|]. split; [exact Hok|]. cbn [okey_ok] in Hok.
  destruct (ap_body a) as [l|es].
  - destruct Hb as [Hs Hf]. split; [exact Hs|].
    destruct l as [|e r]; [discriminate|]. cbn [first_key] in Hok. inversion Hok as [Ek]. cbn [map] in *.
    destruct (sorted_keys_cons _ _ Hs) as [Hall _]. inversion Hf as [|? ? [_ Hh] Hf']; subst.
    constructor.
    + split; [cbn; rewrite OrderFacts.bcmp_refl; discriminate|exact Hh].
    + rewrite Forall_forall in *. intros x Hx. split; [cbn; rewrite (Hall x Hx); discriminate|apply (Hf' x Hx)].
  - destruct Hb as (Hne & Hs & Hnd & Hf & HC).
    destruct es as [|[k0 q0] r]; [discriminate|]. cbn [first_key fst] in Hok. inversion Hok as [Ek]. subst k0.
    cbn [map fst] in *.
    split; [exact Hne|]. split; [exact Hs|]. split; [exact Hnd|].
    destruct (sorted_keys_cons _ _ Hs) as [Hall _]. inversion Hf as [|? ? [_ Hh] Hf']; subst.
    split.
    + constructor.
      * split; [cbn; rewrite OrderFacts.bcmp_refl; discriminate|exact Hh].
      * rewrite Forall_forall in *. intros x Hx. split; [cbn; rewrite (Hall x Hx); discriminate|apply (Hf' x Hx)].
    + unfold cbounds in *. cbn [cbs] in *. inversion HC as [|? ? ? ? Hc0 HC']; subst.
      constructor; [|exact HC']. cbn [fst snd lo0] in *. apply (IH _ _ _ _ _ Hc0).
Qed.

Section Keep.
  Variables (d d' : disk) (keep : list N).
  Hypothesis Hkeep : forall x, In x keep -> dget d' x = dget d x.

  Lemma PInv_apply_wr_keep : forall h fuel q lo hi ok,
    stable fuel d keep q -> PInv h d lo hi ok q -> PInv h d' lo hi ok q.
  Proof.
    induction h as [|h IH]; intros fuel q lo hi ok Hst H; [destruct H|].
    destruct fuel as [|f]; [destruct Hst|]. cbn [stable] in Hst. destruct Hst as [Hq Hst].
    rewrite PInv_S in H. rewrite PInv_S. destruct H as (a & Hg & Hok & Hb). exists a.
    rewrite Hg in Hst. split; [rewrite (Hkeep q Hq); exact Hg|]. split; [exact Hok|].
    destruct (ap_body a) as [l|es]; [exact Hb|].
    destruct Hb as (H1 & H2 & H3 & H4 & H5). repeat (split; [assumption|]).
    eapply Forall2_impl_in; [|exact H5]. intros e b He Hp. cbn beta in *. apply (IH f); [apply Hst, He|exact Hp].
  Qed.

  Lemma ppages_keep : forall h fuel q, stable fuel d keep q -> ppages h d' q = ppages h d q.
  Proof.
    induction h as [|h IH]; intros fuel q Hst; [reflexivity|].
    destruct fuel as [|f]; [destruct Hst|]. cbn [stable] in Hst. destruct Hst as [Hq Hst].
    rewrite !ppages_S, (Hkeep q Hq). destruct (dget d q) as [a|]; [|reflexivity].
    destruct (ap_body a) as [l|es]; [reflexivity|]. f_equal. apply flat_map_ext_in. intros e He.
    apply (IH f), Hst, He.
  Qed.

  Lemma stable_ppages : forall h fuel q x, stable fuel d keep q -> In x (q :: ppages h d q) -> In x keep.
  Proof.
    induction h as [|h IH]; intros fuel q x Hst Hx; (destruct fuel as [|f]; [destruct Hst|]);
      cbn [stable] in Hst; destruct Hst as [Hq Hst].
    - destruct Hx as [<-|[]]. exact Hq.
    - destruct Hx as [<-|Hx]; [exact Hq|]. rewrite ppages_S in Hx.
      destruct (dget d q) as [a|]; [|destruct Hx]. destruct (ap_body a) as [l|es]; [destruct Hx|].
      apply in_app_or in Hx. destruct Hx as [Hx|Hx].
      + apply in_map_iff in Hx. destruct Hx as (e & <- & He). apply (IH f (snd e)); [apply Hst, He|left; reflexivity].
      + apply in_flat_map in Hx. destruct Hx as (e & He & Hx). apply (IH f (snd e)); [apply Hst, He|right; exact Hx].
  Qed.
End Keep.

(** * A run of entries over strict subtrees: [OutInv], and all pages below them: [tpages] *)

(* every entry (k_i, p_i) heads a strict subtree of height <= h holding keys in [k_i, k_(i+1)), the last one
   in [k_last, hi): exactly what [PInv] asks of the children of a branch page whose lower bound is its first
   separator ([cbounds (Some _)] is [cbs Some]) *)
Definition OutInv (h : nat) (d : disk) (es : list (bytes * N)) (hi : option bytes) : Prop :=
  Forall2 (fun e b => PInv h d (fst b) (snd b) (Some (fst e)) (snd e)) es (cbs Some (map fst es) hi).

Definition tpages (h : nat) (d : disk) (es : list (bytes * N)) : list N :=
  flat_map (fun e => snd e :: ppages h d (snd e)) es.

Lemma cbounds_Some k seps hi : cbounds (Some k) seps hi = cbs Some seps hi.
Proof. reflexivity. Qed.

Lemma cbs_Some_app a s b hi : cbs Some (a ++ s :: b) hi = cbs Some a (Some s) ++ cbs Some (s :: b) hi.
Proof. rewrite cbs_app. destruct a; reflexivity. Qed.

Lemma OutInv_app h d a e b hi :
  OutInv h d a (Some (fst e)) -> OutInv h d (e :: b) hi -> OutInv h d (a ++ e :: b) hi.
Proof.
  unfold OutInv. intros H1 H2. rewrite map_app. cbn [map]. rewrite cbs_Some_app. apply Forall2_app; assumption.
Qed.

Lemma OutInv_app_inv h d a e b hi :
  OutInv h d (a ++ e :: b) hi -> OutInv h d a (Some (fst e)) /\ OutInv h d (e :: b) hi.
Proof.
  unfold OutInv. rewrite map_app. cbn [map]. rewrite cbs_Some_app. intros H.
  apply Forall2_app_inv_l in H. destruct H as (b1 & b2 & H1 & H2 & E).
  pose proof H1 as L1. apply Forall2_length in L1.
  assert (El : List.length b1 = List.length (cbs Some (map fst a) (Some (fst e)))).
  { rewrite <- L1, cbs_length, map_length. reflexivity. }
  destruct (app_eq_app _ _ _ _ E) as (l & [[E1 E2]|[E1 E2]]).
  - rewrite E1, app_length in El. destruct l; [|cbn [List.length] in El; lia].
    rewrite app_nil_r in E1. cbn [app] in E2. subst b1 b2. split; assumption.
  - rewrite E1, app_length in El. destruct l; [|cbn [List.length] in El; lia].
    rewrite app_nil_r in E1. cbn [app] in E2. subst b1. rewrite E2. split; assumption.
Qed.

Lemma OutInv_nil h d hi : OutInv h d [] hi.
Proof. constructor. Qed.

Lemma OutInv_app_nil h d a hi : OutInv h d (a ++ []) hi <-> OutInv h d a hi.
Proof. rewrite app_nil_r. reflexivity. Qed.

(* only the last entry sees the upper bound *)
Lemma OutInv_hi_weaken h d : forall es hh hh', hi_le hh hh' -> OutInv h d es hh -> OutInv h d es hh'.
Proof.
  unfold OutInv. induction es as [|e es IH]; intros hh hh' Hle H; [constructor|].
  cbn [map cbs] in *. inversion H as [|? ? ? ? H0 H']; subst. constructor.
  - destruct es as [|e' es']; cbn [map nxt fst snd] in *; [|exact H0].
    eapply PInv_weaken; [apply lo_le_refl|exact Hle|exact H0].
  - apply (IH hh hh' Hle H').
Qed.

Lemma OutInv_mono h d es hi : OutInv h d es hi -> OutInv (S h) d es hi.
Proof. unfold OutInv. apply ListFacts.Forall2_impl. intros e b. apply PInv_mono. Qed.

Lemma OutInv_single h d k q hi : PInv h d (Some k) hi (Some k) q <-> OutInv h d [(k, q)] hi.
Proof.
  unfold OutInv. cbn [map cbs nxt fst]. split.
  - intros H. constructor; [exact H|constructor].
  - intros H. inversion H; subst. assumption.
Qed.

Lemma tpages_app h d a b : tpages h d (a ++ b) = tpages h d a ++ tpages h d b.
Proof. unfold tpages. apply flat_map_app. Qed.

Lemma tpages_flat_map h d (g : bytes * N -> list (bytes * N)) es :
  tpages h d (flat_map g es) = flat_map (fun e => tpages h d (g e)) es.
Proof. unfold tpages. apply EngineSpillFacts.flat_map_flat_map. Qed.

Lemma tpages_snd h d es q : In q (map snd es) -> In q (tpages h d es).
Proof.
  intros H. apply in_map_iff in H. destruct H as (e & <- & He). apply in_flat_map. exists e.
  split; [exact He|left; reflexivity].
Qed.

Lemma tpages_NoDup_snd h d : forall es, NoDup (tpages h d es) -> NoDup (map snd es).
Proof.
  induction es as [|e es IH]; intros H; [constructor|]. unfold tpages in H. cbn [flat_map app] in H.
  inversion H as [|? ? Hn H']; subst. apply NoDup_app_iff in H'. destruct H' as (_ & H2 & _).
  cbn [map]. constructor; [|apply IH, H2]. intros Hi. apply Hn. apply in_or_app. right. apply tpages_snd, Hi.
Qed.

(* replacing every entry by a run of entries over strict subtrees within the entry's interval *)
Lemma OutInv_segs h d (g : bytes * N -> list (bytes * N)) : forall es lo hi,
  (forall l hh e, In (l, hh, e) (chb lo hi es) -> keys_ok l hh (map fst (g e)) /\ OutInv h d (g e) hh) ->
  OutInv h d (flat_map g es) hi.
Proof.
  induction es as [|e es IH]; intros lo hi Hg; [constructor|]. cbn [flat_map]. cbn [chb] in Hg.
  destruct es as [|e' es''].
  - cbn [flat_map]. rewrite app_nil_r. apply (Hg lo hi e). left. reflexivity.
  - set (es' := e' :: es'') in *.
    destruct (Hg lo (Some (fst e')) e (or_introl eq_refl)) as [_ He].
    assert (IH' : OutInv h d (flat_map g es') hi).
    { apply (IH (Some (fst e')) hi). intros l hh e0 Hi. apply Hg. right. exact Hi. }
    assert (Hc : In (Some (fst e'), match es'' with [] => hi | e2 :: _ => Some (fst e2) end, e')
                    (chb (Some (fst e')) hi es')) by (left; reflexivity).
    destruct (Hg _ _ _ (or_intror Hc)) as [(Hne & _ & Hr) _].
    unfold es' in *. cbn [flat_map] in *. destruct (g e') as [|x r]; [exfalso; apply Hne; reflexivity|].
    cbn [app] in *. apply OutInv_app; [|exact IH'].
    eapply OutInv_hi_weaken; [|exact He]. cbn [hi_le].
    destruct (Hr (fst x) (or_introl eq_refl)) as [Hlo _]. exact Hlo.
Qed.

(* cutting a run into consecutive non-empty pieces: piece i ends where piece i+1 starts *)
Lemma OutInv_pieces h d : forall pieces ks hi,
  Forall2 (fun k (piece : list (bytes * N)) => exists r, map fst piece = k :: r) ks pieces ->
  OutInv h d (concat pieces) hi ->
  Forall2 (fun piece b => OutInv h d piece (snd b)) pieces (cbs Some ks hi).
Proof.
  intros pieces ks hi H. revert hi. induction H as [|k piece ks pieces (r & Er) H2 IH]; intros hi Ho; [constructor|].
  cbn [concat] in Ho. cbn [cbs]. destruct H2 as [|k2 p2 ks' pieces' (r2 & Er2) H2'].
  - cbn [concat] in Ho. rewrite app_nil_r in Ho. constructor; [exact Ho|constructor].
  - cbn [concat] in Ho. destruct p2 as [|e2 p2']; [discriminate|]. cbn [map] in Er2. injection Er2 as Ek2 _.
    cbn [app] in Ho. apply OutInv_app_inv in Ho. destruct Ho as [Ho1 Ho2]. rewrite Ek2 in Ho1.
    constructor; [exact Ho1|]. apply IH. exact Ho2.
Qed.

(* the keys of piece i lie in [k_i, k_(i+1)), those of the last piece in [k_last, hi) *)
Lemma pieces_inb : forall (kpieces : list (list bytes)) ks hi,
  Forall2 (fun k piece => exists r, piece = k :: r) ks kpieces ->
  sorted_keys (concat kpieces) = true -> Forall (fun k => lt_hi k hi) (concat kpieces) ->
  Forall2 (fun piece b => sorted_keys piece = true /\ Forall (inb (fst b) (snd b)) piece) kpieces (cbs Some ks hi).
Proof.
  intros kpieces ks hi H. induction H as [|k piece ks kpieces (r & Er) H2 IH]; intros Hs Hh; [constructor|].
  cbn [concat] in Hs, Hh. cbn [cbs]. destruct (sorted_keys_app _ _ Hs) as [Hs1 Hs2].
  apply Forall_app in Hh. destruct Hh as [Hh1 Hh2].
  constructor; [|apply IH; assumption]. split; [exact Hs1|]. cbn [fst snd].
  apply Forall_forall. intros x Hx. split.
  - subst piece. cbn. destruct Hx as [<-|Hx]; [rewrite OrderFacts.bcmp_refl; discriminate|].
    destruct (sorted_keys_cons _ _ Hs1) as [Hall _]. rewrite Forall_forall in Hall. rewrite (Hall x Hx). discriminate.
  - destruct H2 as [|k2 p2 ks' kpieces' (r2 & Er2) _]; cbn [nxt].
    + rewrite Forall_forall in Hh1. apply Hh1, Hx.
    + cbn. apply (sorted_app_cross _ _ x k2 Hs Hx). cbn [concat]. subst p2. left. reflexivity.
Qed.

(** * One level of freshly written pages over a run of strict subtrees *)

Lemma page_PInv d' h p a dd k hb :
  dget d' p = Some a -> ap_body a = dd -> first_key dd = Ok k ->
  sorted_keys (dkeys dd) = true -> Forall (inb (Some k) hb) (dkeys dd) ->
  (forall es, dd = Branches es -> NoDup (map snd es) /\ OutInv h d' es hb) ->
  PInv (S h) d' (Some k) hb (Some k) p.
Proof.
  intros Hg Hb Hfk Hs Hf Hes. rewrite PInv_S. exists a. split; [exact Hg|]. rewrite Hb.
  split; [exact Hfk|]. destruct dd as [l|es]; cbn [dkeys] in *; [split; assumption|].
  destruct (Hes es eq_refl) as [Hnd Ho].
  split; [intros ->; discriminate|]. split; [exact Hs|]. split; [exact Hnd|]. split; [exact Hf|].
  rewrite cbounds_Some. exact Ho.
Qed.

(* the written pages, given their bodies [dds] (the pieces of a split), the order of all keys, and what the
   entries of the branch pieces point to *)
Lemma level_OutInv d' h : forall (out : list (bytes * N)) (dds : list ndata),
  Forall2 (fun sb dd => first_key dd = Ok (fst sb) /\ exists a, dget d' (snd sb) = Some a /\ ap_body a = dd) out dds ->
  forall hi, sorted_keys (concat (map dkeys dds)) = true ->
  Forall (fun k => lt_hi k hi) (concat (map dkeys dds)) ->
  Forall2 (fun dd b => forall es, dd = Branches es -> NoDup (map snd es) /\ OutInv h d' es (snd b))
          dds (cbs Some (map fst out) hi) ->
  OutInv (S h) d' out hi.
Proof.
  intros out dds H. induction H as [|sb dd out dds (Hfk & a & Hg & Hb) H2 IH]; intros hi Hs Hh Hc; [constructor|].
  cbn [map concat] in Hs, Hh. cbn [map cbs] in Hc. inversion Hc as [|x1 y1 l1 l2 Hc0 Hc' E1 E2]. subst x1 y1 l1 l2.
  destruct (sorted_keys_app _ _ Hs) as [Hs1 Hs2]. apply Forall_app in Hh. destruct Hh as [Hh1 Hh2].
  unfold OutInv. cbn [map cbs]. constructor; [|apply IH; assumption]. cbn [fst snd] in *.
  apply (page_PInv d' h (snd sb) a dd (fst sb) _ Hg Hb Hfk Hs1); [|exact Hc0].
  destruct (EngineSpillFacts.first_key_dkeys _ _ Hfk) as [r Er].
  apply Forall_forall. intros x Hx. split.
  - rewrite Er in Hx, Hs1. cbn. destruct Hx as [<-|Hx]; [rewrite OrderFacts.bcmp_refl; discriminate|].
    destruct (sorted_keys_cons _ _ Hs1) as [Hall _]. rewrite Forall_forall in Hall. rewrite (Hall x Hx). discriminate.
  - destruct H2 as [|sb2 dd2 out' dds' (Hfk2 & _) _]; cbn [map nxt].
    + rewrite Forall_forall in Hh1. apply Hh1, Hx.
    + cbn. apply (sorted_app_cross _ _ x (fst sb2) Hs Hx). cbn [map concat].
      destruct (EngineSpillFacts.first_key_dkeys _ _ Hfk2) as [r2 Er2]. rewrite Er2. left. reflexivity.
Qed.

Lemma tpages_perm h d : forall l,
  Permutation (tpages h d l) (map snd l ++ flat_map (fun e => ppages h d (snd e)) l).
Proof.
  induction l as [|e l IH]; [constructor|]. unfold tpages in *. cbn [flat_map map app]. apply perm_skip.
  rewrite IH. apply Permutation_app_swap_app.
Qed.

Lemma tpages_branch_page d' h p a piece :
  dget d' p = Some a -> ap_body a = Branches piece ->
  Permutation (ppages (S h) d' p) (tpages h d' piece).
Proof. intros Hg Hb. rewrite ppages_S, Hg, Hb. symmetry. apply tpages_perm. Qed.

Lemma branch_tpages d' h : forall out pieces,
  Forall2 (fun (sb : bytes * N) piece => exists a, dget d' (snd sb) = Some a /\ ap_body a = Branches piece) out pieces ->
  (forall x, In x (tpages (S h) d' out) <-> In x (map snd out) \/ In x (tpages h d' (concat pieces))) /\
  (NoDup (tpages h d' (concat pieces)) -> NoDup (map snd out) ->
   (forall q, In q (map snd out) -> ~ In q (tpages h d' (concat pieces))) -> NoDup (tpages (S h) d' out)).
Proof.
  intros out pieces H. induction H as [|sb piece out pieces (a & Hg & Hb) _ [IH1 IH2]].
  - split; [intros x; cbn; tauto|]. intros _ _ _. constructor.
  - pose proof (tpages_branch_page d' h _ _ _ Hg Hb) as Hp.
    assert (Hin : forall x, In x (tpages (S h) d' (sb :: out)) <->
                            In x (map snd (sb :: out)) \/ In x (tpages h d' (concat (piece :: pieces)))).
    { intros x. cbn [concat]. rewrite tpages_app. unfold tpages at 1. cbn [flat_map map].
      fold (tpages (S h) d' out). cbn [In]. rewrite !in_app_iff, IH1.
      split.
      - intros [[E|Hx]|[Hx|Hx]]; try tauto. right. left. apply (Permutation_in _ Hp Hx).
      - cbn [In]. intros [[E|Hx]|[Hx|Hx]]; try tauto. left. right. apply (Permutation_in _ (Permutation_sym Hp) Hx). }
    split; [exact Hin|]. intros Hnd Hnds Hnew. cbn [concat] in Hnd, Hnew. rewrite tpages_app in Hnd, Hnew.
    apply NoDup_app_iff in Hnd. destruct Hnd as (Hnd1 & Hnd2 & Hd12). cbn [map] in Hnds, Hnew.
    inversion Hnds as [|? ? Hq Hnds']; subst.
    unfold tpages at 1. cbn [flat_map]. fold (tpages (S h) d' out).
    assert (Hnew' : forall q, In q (map snd out) -> ~ In q (tpages h d' (concat pieces))).
    { intros q Hq' Hi. apply (Hnew q (or_intror Hq')). apply in_or_app. right. exact Hi. }
    specialize (IH2 Hnd2 Hnds' Hnew').
    change (snd sb :: ppages (S h) d' (snd sb) ++ tpages (S h) d' out)
      with ((snd sb :: ppages (S h) d' (snd sb)) ++ tpages (S h) d' out).
    apply NoDup_app_iff. split; [|split; [exact IH2|]].
    + constructor.
      * intros Hi. apply (Hnew (snd sb) (or_introl eq_refl)). apply in_or_app. left. apply (Permutation_in _ Hp Hi).
      * apply (Permutation_NoDup (Permutation_sym Hp) Hnd1).
    + intros x Hx1 Hx2. apply IH1 in Hx2. destruct Hx1 as [<-|Hx1].
      * destruct Hx2 as [Hx2|Hx2]; [exact (Hq Hx2)|].
        apply (Hnew (snd sb) (or_introl eq_refl)). apply in_or_app. right. exact Hx2.
      * apply (Permutation_in _ Hp) in Hx1. destruct Hx2 as [Hx2|Hx2].
        -- apply (Hnew x (or_intror Hx2)). apply in_or_app. left. exact Hx1.
        -- exact (Hd12 x Hx1 Hx2).
Qed.

Lemma leaf_tpages d' h : forall out (ls : list (list leafent)),
  Forall2 (fun (sb : bytes * N) piece => exists a, dget d' (snd sb) = Some a /\ ap_body a = Leaves piece) out ls ->
  tpages (S h) d' out = map snd out.
Proof.
  intros out ls H. induction H as [|sb piece out ls (a & Hg & Hb) _ IH]; [reflexivity|].
  unfold tpages in *. cbn [flat_map map]. rewrite IH, ppages_S, Hg, Hb. reflexivity.
Qed.

Lemma leaf_tpages_gen d' h : forall (out : list (bytes * N)) (dds : list ndata),
  Forall2 (fun sb dd => first_key dd = Ok (fst sb) /\ exists a, dget d' (snd sb) = Some a /\ ap_body a = dd) out dds ->
  Forall (fun dd => is_leaf dd = true) dds ->
  tpages (S h) d' out = map snd out.
Proof.
  intros out dds H. induction H as [|sb dd out dds (_ & a & Hg & Hb) _ IH]; intros Hl; [reflexivity|].
  inversion Hl as [|? ? Hl1 Hl2]; subst. unfold tpages in *. cbn [flat_map map]. rewrite (IH Hl2), ppages_S, Hg.
  destruct (ap_body a); [reflexivity|discriminate].
Qed.

Lemma leaf_ppages_nil d' h : forall (out : list (bytes * N)) (dds : list ndata),
  Forall2 (fun sb dd => first_key dd = Ok (fst sb) /\ exists a, dget d' (snd sb) = Some a /\ ap_body a = dd) out dds ->
  Forall (fun dd => is_leaf dd = true) dds ->
  forall e, In e out -> ppages (S h) d' (snd e) = [].
Proof.
  intros out dds H. induction H as [|sb dd out dds (_ & a & Hg & Hb) _ IH]; intros Hl e He; [destruct He|].
  inversion Hl as [|? ? Hl1 Hl2]; subst. destruct He as [<-|He]; [|apply (IH Hl2 e He)].
  rewrite ppages_S, Hg. destruct (ap_body a); [reflexivity|discriminate].
Qed.

Lemma Forall2_map_l {A B C} (R : B -> C -> Prop) (f : A -> B) : forall la lc,
  Forall2 (fun a c => R (f a) c) la lc -> Forall2 R (map f la) lc.
Proof. induction 1; cbn [map]; constructor; auto. Qed.

Lemma Forall2_trivial {A B} (R : A -> B -> Prop) : forall la lb,
  List.length la = List.length lb -> (forall a b, In a la -> R a b) -> Forall2 R la lb.
Proof.
  induction la as [|a la IH]; intros [|b lb] Hl HR; try discriminate; constructor.
  - apply HR. left. reflexivity.
  - apply IH; [cbn [List.length] in Hl; lia|]. intros a0 b0 Ha. apply HR. right. exact Ha.
Qed.

Lemma NoDup_concat_piece : forall (pieces : list (list (bytes * N))) piece,
  NoDup (map snd (concat pieces)) -> In piece pieces -> NoDup (map snd piece).
Proof.
  induction pieces as [|p0 pieces IH]; intros piece H Hi; [destruct Hi|]. cbn [concat] in H. rewrite map_app in H.
  apply NoDup_app_iff in H. destruct H as (H1 & H2 & _). destruct Hi as [->|Hi]; [exact H1|apply IH; assumption].
Qed.

(* what the tail of [spill_node] wrote, read on a later disk *)
Lemma pieces_disk2 w w' P d : forall sbs dds,
  Forall2 (piece_written w) sbs dds -> wr_agree (map snd sbs) w w' ->
  Forall2 (fun sb dd => first_key dd = Ok (fst sb) /\
                        exists a, dget (apply_wr w' P d) (snd sb) = Some a /\ ap_body a = dd) sbs dds.
Proof.
  induction 1 as [|sb dd sbs dds [Hf Hg] _ IH]; intros Hag; constructor.
  - split; [exact Hf|]. exists (mk_apage P (40 + dsize dd, dd)). split; [|reflexivity]. apply dget_apply_wr_some.
    rewrite Hag; [exact Hg|]. left. reflexivity.
  - apply IH. intros q Hq. apply Hag. right. exact Hq.
Qed.

Lemma branch_heads : forall (out : list (bytes * N)) (pieces : list (list (bytes * N))) (Q : N -> list (bytes * N) -> Prop),
  Forall2 (fun sb piece => first_key (Branches piece) = Ok (fst sb) /\ Q (snd sb) piece) out pieces ->
  Forall2 (fun k (piece : list (bytes * N)) => exists r, map fst piece = k :: r) (map fst out) pieces.
Proof.
  intros out pieces Q H. induction H as [|sb piece out pieces [Hf _] _ IH]; cbn [map]; constructor; [|exact IH].
  destruct piece as [|e r]; [discriminate|]. cbn [first_key] in Hf. inversion Hf. exists (map fst r). reflexivity.
Qed.

(* the pages written by the tail of [spill_node] for a leaf ... *)
Lemma leaf_tail_wf d' h0 (out : list (bytes * N)) l d0 rest s hi :
  split s (Leaves l) = (d0, rest) ->
  Forall2 (fun sb dd => first_key dd = Ok (fst sb) /\ exists a, dget d' (snd sb) = Some a /\ ap_body a = dd) out (d0 :: rest) ->
  sorted_keys (map lkey l) = true -> (forall k, In k (map lkey l) -> lt_hi k hi) ->
  OutInv (S h0) d' out hi /\ tpages (S h0) d' out = map snd out /\
  (forall e, In e out -> ppages (S h0) d' (snd e) = []).
Proof.
  intros Esp Hd2 Hs Hh. pose proof (split_dkeys _ _ _ _ Esp) as Hdk. cbn [dkeys] in Hdk.
  destruct (split_leaves s l) as (l0 & ls & Esp' & _). rewrite Esp' in Esp. inversion Esp; subst d0 rest.
  assert (Hleaf : Forall (fun dd => is_leaf dd = true) (Leaves l0 :: map Leaves ls)).
  { constructor; [reflexivity|]. apply Forall_forall. intros dd Hdd. apply in_map_iff in Hdd.
    destruct Hdd as (x & <- & _). reflexivity. }
  split; [|split; [apply (leaf_tpages_gen d' h0 _ _ Hd2 Hleaf)|apply (leaf_ppages_nil d' h0 _ _ Hd2 Hleaf)]].
  apply (level_OutInv d' h0 out _ Hd2 hi).
  - rewrite Hdk. exact Hs.
  - rewrite Hdk. apply Forall_forall. exact Hh.
  - apply Forall2_trivial.
    + pose proof Hd2 as L. apply Forall2_length in L. rewrite <- L, cbs_length, map_length. reflexivity.
    + intros dd b Hdd es0 E. rewrite Forall_forall in Hleaf. specialize (Hleaf dd Hdd). subst dd. discriminate.
Qed.

(* ... and for a branch whose entries [es_fin] head strict subtrees *)
Lemma branch_tail_wf d' h0 (out es_fin : list (bytes * N)) d0 rest s1 hi :
  split s1 (Branches es_fin) = (d0, rest) ->
  Forall2 (fun sb dd => first_key dd = Ok (fst sb) /\ exists a, dget d' (snd sb) = Some a /\ ap_body a = dd) out (d0 :: rest) ->
  sorted_keys (map fst es_fin) = true -> (forall k, In k (map fst es_fin) -> lt_hi k hi) ->
  OutInv h0 d' es_fin hi -> NoDup (tpages h0 d' es_fin) ->
  NoDup (map snd out) -> (forall q, In q (map snd out) -> ~ In q (tpages h0 d' es_fin)) ->
  OutInv (S h0) d' out hi /\ NoDup (tpages (S h0) d' out) /\
  (forall x, In x (tpages (S h0) d' out) <-> In x (map snd out) \/ In x (tpages h0 d' es_fin)).
Proof.
  intros Esp Hd2 Hs Hh HO HND Hndo Hnew. pose proof (split_dkeys _ _ _ _ Esp) as Hdk. cbn [dkeys] in Hdk.
  destruct (split_branches s1 es_fin) as (e0 & ess & Esp' & Hcat & _). rewrite Esp' in Esp.
  inversion Esp; subst d0 rest. clear Esp.
  change (Branches e0 :: map Branches ess) with (map Branches (e0 :: ess)) in *.
  change (e0 ++ concat ess) with (concat (e0 :: ess)) in Hcat.
  set (pieces := e0 :: ess) in *.
  pose proof (proj1 (Forall2_map_r _ Branches _ pieces) Hd2) as Hd3. cbn beta in Hd3.
  assert (Hbt : Forall2 (fun (sb : bytes * N) piece => exists a, dget d' (snd sb) = Some a /\ ap_body a = Branches piece) out pieces).
  { eapply ListFacts.Forall2_impl; [|exact Hd3]. intros sb piece [_ Ha]. exact Ha. }
  destruct (branch_tpages d' h0 out pieces Hbt) as [Hmem Hnd]. rewrite Hcat in Hmem, Hnd.
  split; [|split; [apply Hnd; assumption|exact Hmem]].
  apply (level_OutInv d' h0 out _ Hd2 hi).
  - rewrite Hdk. exact Hs.
  - rewrite Hdk. apply Forall_forall. exact Hh.
  - apply Forall2_map_l.
    pose proof (branch_heads out pieces
                  (fun q b => exists a0 : apage, dget d' q = Some a0 /\ ap_body a0 = Branches b) Hd3) as Hheads.
    rewrite <- Hcat in HO. pose proof (OutInv_pieces h0 d' pieces (map fst out) hi Hheads HO) as Hop.
    eapply Forall2_impl_in; [|exact Hop]. intros piece b Hpi Hob es0 E. inversion E; subst es0. split; [|exact Hob].
    apply (NoDup_concat_piece pieces piece); [|exact Hpi]. rewrite Hcat. apply (tpages_NoDup_snd h0 d'), HND.
Qed.

(** * The hypotheses on the overlay, with heights and strict committed subtrees *)

(* [swf] of EngineSpillFacts, plus: the node has height at most h (all children of a branch one level below),
   and every child page q without a kid satisfies, on the OLD disk, the strict invariant under its separator
   and below the next one. Lower bound: none is asked ([PInv_tighten] recovers the separator). *)
Inductive swfh (fuel : nat) (d : disk) (keep : list N) : nat -> option bytes -> option bytes -> node -> Prop :=
| swfh_leaf h lo hi pg npg o sq l :
    keys_ok lo hi (map lkey l) ->
    swfh fuel d keep (S h) lo hi (Node pg npg o sq (Leaves l) [])
| swfh_branch h lo hi pg npg o sq es kids :
    keys_ok lo hi (map fst es) ->
    NoDup (map snd es) -> NoDup (map n_page kids) ->
    (forall kd, In kd kids -> exists k, n_orig kd = Some k /\ In (k, n_page kd) es) ->
    (forall l hh e kd, In (l, hh, e) (chb lo hi es) -> find_kid (snd e) kids = Some kd -> swfh fuel d keep h l hh kd) ->
    (forall l hh e, In (l, hh, e) (chb lo hi es) -> find_kid (snd e) kids = None ->
       stable fuel d keep (snd e) /\ PInv h d None hh (Some (fst e)) (snd e)) ->
    swfh fuel d keep (S h) lo hi (Node pg npg o sq (Branches es) kids).

(* the pages of the committed subtrees that the overlay keeps (the children without a kid, and all below) *)
Fixpoint upages (h : nat) (d : disk) (n : node) : list N :=
  match h with O => [] | S h' =>
    match n with
    | Node _ _ _ _ (Leaves _) _ => []
    | Node _ _ _ _ (Branches es) ks =>
        flat_map (fun e => match find_kid (snd e) ks with
                           | Some kd => upages h' d kd
                           | None => snd e :: ppages h' d (snd e) end) es
    end end.

Lemma swfh_swf fuel d keep : forall h lo hi n, swfh fuel d keep h lo hi n -> swf fuel d keep lo hi n.
Proof.
  induction h as [|h IH]; intros lo hi n H; inversion H as [? ? ? ? ? ? ? ? Hk|? ? ? ? ? ? ? ? ? Hk H1 H2 H3 H4 H5]; subst.
  - apply swf_leaf. exact Hk.
  - apply swf_branch; try assumption.
    + intros l hh e kd Hi Hf. apply IH. apply (H4 l hh e kd Hi Hf).
    + intros e He Hf. destruct (chb_In lo hi es e He) as (l & hh & Hi). apply (H5 l hh e Hi Hf).
Qed.

Lemma swfh_pos fuel d keep h lo hi n : swfh fuel d keep h lo hi n -> exists h', h = S h'.
Proof. intros H. inversion H; subst; eexists; reflexivity. Qed.

Lemma swfh_upages_keep fuel d keep : forall h lo hi n, swfh fuel d keep h lo hi n ->
  forall x, In x (upages h d n) -> In x keep.
Proof.
  induction h as [|h IH]; intros lo hi n H x Hx; inversion H as [? ? ? ? ? ? ? ? Hk|? ? ? ? ? ? ? ? ? Hk H1 H2 H3 H4 H5]; subst.
  - destruct Hx.
  - cbn [upages] in Hx. apply in_flat_map in Hx. destruct Hx as (e & He & Hx).
    destruct (chb_In lo hi es e He) as (l & hh & Hi).
    destruct (find_kid (snd e) kids) as [kd|] eqn:Hf.
    + apply (IH _ _ _ (H4 l hh e kd Hi Hf) x Hx).
    + destruct (H5 l hh e Hi Hf) as [Hst _]. apply (stable_ppages d keep h fuel (snd e) x Hst Hx).
Qed.

Lemma chb_fun : forall (es : list (bytes * N)) lo hi l hh l' hh' e, NoDup es ->
  In (l, hh, e) (chb lo hi es) -> In (l', hh', e) (chb lo hi es) -> l = l' /\ hh = hh'.
Proof.
  induction es as [|e0 es IH]; intros lo hi l hh l' hh' e Hnd H1 H2; [destruct H1|].
  inversion Hnd as [|? ? Hn Hnd']; subst. cbn [chb] in H1, H2. destruct H1 as [H1|H1], H2 as [H2|H2].
  - inversion H1; inversion H2; subst. split; reflexivity.
  - inversion H1; subst. exfalso. apply Hn. apply (chb_In_inv _ _ _ _ _ _ H2).
  - inversion H2; subst. exfalso. apply Hn. apply (chb_In_inv _ _ _ _ _ _ H1).
  - apply (IH _ _ _ _ _ _ _ Hnd' H1 H2).
Qed.

Lemma NoDup_map_snd_NoDup (es : list (bytes * N)) : NoDup (map snd es) -> NoDup es.
Proof. apply NoDup_map_inv. Qed.

(** ** statements about every later disk *)
Definition later (d : disk) (keep good : list N) (s' : txs) (Q : disk -> Prop) : Prop :=
  forall w' P, wr_agree good (wr s') w' -> (forall x, In x keep -> wr_get w' x = None) -> Q (apply_wr w' P d).

Lemma later_mono d keep good good2 s' s2 (Q : disk -> Prop) :
  later d keep good s' Q ->
  (forall q, In q good -> In q good2) ->
  (forall q, In q good -> wr_get (wr s2) q = wr_get (wr s') q) ->
  later d keep good2 s2 Q.
Proof.
  intros H Hsub Hwr w' P Hag Hk. apply H; [|exact Hk].
  intros q Hq. rewrite (Hag q (Hsub q Hq)). apply Hwr, Hq.
Qed.

(* the entries [out] returned by a spill: strict subtrees of height <= h in consecutive intervals up to hi,
   no page twice, every page new ([good]) or a kept committed page of [U] *)
Definition wf_out (h : nat) (d : disk) (keep good : list N) (s' : txs)
                  (out : list (bytes * N)) (hi : option bytes) (U : list N) : Prop :=
  later d keep good s' (fun d' =>
    OutInv h d' out hi /\ NoDup (tpages h d' out) /\ forall x, In x (tpages h d' out) -> In x good \/ In x U).

Lemma wf_out_mono h d keep good good2 s' s2 out hi U :
  wf_out h d keep good s' out hi U ->
  (forall q, In q good -> In q good2) ->
  (forall q, In q good -> wr_get (wr s2) q = wr_get (wr s') q) ->
  wf_out h d keep good2 s2 out hi U.
Proof.
  intros H Hsub Hwr w' P Hag Hk.
  assert (Hag' : wr_agree good (wr s') w').
  { intros q Hq. rewrite (Hag q (Hsub q Hq)). apply Hwr, Hq. }
  destruct (H w' P Hag' Hk) as (A & B & C). split; [exact A|]. split; [exact B|].
  intros x Hx. destruct (C x Hx) as [C1|C1]; [left; apply Hsub, C1|right; exact C1].
Qed.

(** * [spill_node]: the specification of EngineSpillFacts with the same page sets, plus [wf_out] *)
Section Spill2.
  Variables (fuel : nat) (d : disk) (keep : list N).

  Definition spill_spec2 (f : nat) : Prop :=
    forall live lo hi n s orig fk p sibs s' h,
      fresh_inv live s -> (forall x, In x keep -> In x live) ->
      swfh fuel d keep h lo hi n -> NoDup (upages h d n) ->
      spill_node f n s = Ok ((orig, (fk, p), sibs), s') ->
      exists alloc dead good,
        node_post fuel d keep live lo hi n s orig fk p sibs s' alloc dead good /\
        wf_out h d keep good s' ((fk, p) :: sibs) hi (upages h d n).

  Section Fold2.
    Variables (f h' : nat) (lo hi : option bytes) (es : list (bytes * N)) (kids : list node).
    Hypothesis IHf : spill_spec2 f.
    Hypothesis Hnd_es : NoDup (map snd es).
    Hypothesis Hnd_kids : NoDup (map n_page kids).
    Hypothesis Horig : forall kd, In kd kids -> exists k, n_orig kd = Some k /\ In (k, n_page kd) es.
    Hypothesis Hkids : forall l hh e kd, In (l, hh, e) (chb lo hi es) -> find_kid (snd e) kids = Some kd ->
                                         swfh fuel d keep h' l hh kd.
    Hypothesis Hup_nd : forall kd, In kd kids -> NoDup (upages h' d kd).
    Hypothesis Hup_disj : forall k1 k2, In k1 kids -> In k2 kids -> n_page k1 <> n_page k2 ->
                                        disj (upages h' d k1) (upages h' d k2).

    Lemma kid_swfh kd : In kd kids ->
      exists l hh k, In (l, hh, (k, n_page kd)) (chb lo hi es) /\ swfh fuel d keep h' l hh kd.
    Proof.
      intros Hkd. destruct (Horig kd Hkd) as (k & _ & Hin). destruct (chb_In lo hi es _ Hin) as (l & hh & Hc).
      exists l, hh, k. split; [exact Hc|].
      apply (Hkids l hh (k, n_page kd) kd Hc). apply (EngineMergeFacts.find_kid_NoDup kids kd Hnd_kids Hkd).
    Qed.

    Lemma kid_upages_keep kd : In kd kids -> forall x, In x (upages h' d kd) -> In x keep.
    Proof.
      intros Hkd. destruct (kid_swfh kd Hkd) as (l & hh & k & _ & Hs). apply (swfh_upages_keep _ _ _ _ _ _ _ Hs).
    Qed.

    Lemma chb_entry_fun l hh k l' hh' k' q :
      In (l, hh, (k, q)) (chb lo hi es) -> In (l', hh', (k', q)) (chb lo hi es) -> k = k' /\ hh = hh'.
    Proof.
      intros H1 H2.
      assert (E : (k, q) = (k', q)).
      { apply (NoDup_map_inj snd es _ _ Hnd_es (chb_In_inv _ _ _ _ _ _ H1) (chb_In_inv _ _ _ _ _ _ H2)). reflexivity. }
      inversion E; subst k'. split; [reflexivity|].
      apply (chb_fun es lo hi l hh l' hh' (k, q) (NoDup_map_snd_NoDup es Hnd_es) H1 H2).
    Qed.

    (* the fold over the kids: [kids_post], and the new subtrees are strict and share no page *)
    Definition kids_done2 (todo : list node) (outs : list (N * list (bytes * N))) (s : txs)
                          (outs' : list (N * list (bytes * N))) (s1 : txs) : Prop :=
      forall live, fresh_inv live s -> (forall x, In x keep -> In x live) -> exists alloc dead good,
        kids_post fuel d keep todo outs' live s s1 alloc dead good /\
        (forall kd, In kd todo -> exists out, find_out outs' (n_page kd) = Some out /\
           forall l hh k, In (l, hh, (k, n_page kd)) (chb lo hi es) ->
             wf_out h' d keep good s1 out hh (upages h' d kd)) /\
        later d keep good s1 (fun d' => forall k1 k2 o1 o2, In k1 todo -> In k2 todo -> n_page k1 <> n_page k2 ->
           find_out outs' (n_page k1) = Some o1 -> find_out outs' (n_page k2) = Some o2 ->
           disj (tpages h' d' o1) (tpages h' d' o2)).

    Lemma kids_done2_nil outs s : kids_done2 [] outs s outs s.
    Proof.
      intros live Hfi _. exists [], [], []. split; [apply kids_post_nil, Hfi|]. split; [intros k []|].
      intros w' P _ _ k1 k2 o1 o2 [].
    Qed.

    Lemma kids_done2_cons kd todo outs s k fk p sibs sk outs' s1 :
      In kd kids -> (forall kd', In kd' todo -> In kd' kids) -> ~ In (n_page kd) (map n_page todo) ->
      In (k, n_page kd) es -> spill_node f kd s = Ok ((Some k, (fk, p), sibs), sk) ->
      find_out outs' (n_page kd) = Some ((fk, p) :: sibs) ->
      kids_done2 todo ((n_page kd, (fk, p) :: sibs) :: outs) sk outs' s1 -> kids_done2 (kd :: todo) outs s outs' s1.
    Proof.
      intros Hkd Hsub Hq_notin Hin_es Hsp HfindK Hrest live Hfi Hkl.
      set (q := n_page kd) in *. set (K := (fk, p) :: sibs) in *.
      destruct (chb_In lo hi es _ Hin_es) as (l & h & Hchb).
      pose proof (Hkids l h (k, q) kd Hchb (EngineMergeFacts.find_kid_NoDup kids kd Hnd_kids Hkd)) as Hswf.
      destruct (IHf _ _ _ _ _ _ _ _ _ _ _ Hfi Hkl Hswf (Hup_nd kd Hkd) Hsp) as (a1 & dd1 & g1 & Hpost & Hwf1).
      pose proof (proj1 Hpost) as Hoc1. pose proof (oc_frame _ _ _ _ _ _ _ Hoc1) as Hfr1.
      pose proof (oc_good _ _ _ _ _ _ _ Hoc1) as Hg1a. pose proof (fr_fresh _ _ _ _ _ Hfr1) as Hfik.
      assert (Hkl1 : forall x, In x keep -> In x (a1 ++ live)).
      { intros x Hx. apply in_or_app. right. apply Hkl, Hx. }
      destruct (Hrest (a1 ++ live) Hfik Hkl1) as (a2 & dd2 & g2 & Hk2 & Hdone & Hpair2).
      pose proof (oc_frame _ _ _ _ _ _ _ (proj1 Hk2)) as Hfr2. pose proof (oc_good _ _ _ _ _ _ _ (proj1 Hk2)) as Hg2a.
      exists (a2 ++ a1), (dd1 ++ dd2), (g2 ++ g1).
      split; [exact (kids_post_cons _ _ _ _ _ _ _ _ _ _ _ _ _ _ _ _ _ _ _ _ _ _ Hfi Hpost HfindK Hk2)|].
      assert (Hwr1 : forall x, In x g1 -> wr_get (wr s1) x = wr_get (wr sk) x).
      { intros x Hx. exact (outcome_keeps _ _ _ _ _ _ _ _ _ _ x Hoc1 Hfr2 Hx). }
      assert (HwfK : forall l' hh' k', In (l', hh', (k', q)) (chb lo hi es) ->
                       wf_out h' d keep (g2 ++ g1) s1 K hh' (upages h' d kd)).
      { intros l' hh' k' Hc. destruct (chb_entry_fun _ _ _ _ _ _ _ Hchb Hc) as [_ <-].
        eapply wf_out_mono; [exact Hwf1| |exact Hwr1]. intros x Hx. apply in_or_app. right. exact Hx. }
      split.
      { intros kd' [<-|Hk'].
        - exists K. split; [exact HfindK|exact HwfK].
        - destruct (Hdone kd' Hk') as (out & Ho & Hw). exists out. split; [exact Ho|].
          intros l' hh' k' Hc. eapply wf_out_mono; [apply (Hw _ _ _ Hc)| |reflexivity].
          intros x Hx. apply in_or_app. left. exact Hx. }
      (* the new subtrees of different kids share no page *)
      intros w' P Hag Hk0.
      assert (Hag2 : wr_agree g2 (wr s1) w').
      { intros x Hx. apply Hag. apply in_or_app. left. exact Hx. }
      assert (Hag1 : wr_agree g1 (wr sk) w').
      { intros x Hx. rewrite (Hag x) by (apply in_or_app; right; exact Hx). apply Hwr1, Hx. }
      specialize (Hpair2 w' P Hag2 Hk0). cbn beta in Hpair2.
      set (d' := apply_wr w' P d) in *.
      assert (HinK : forall x, In x (tpages h' d' K) -> In x g1 \/ In x (upages h' d kd)).
      { destruct (Hwf1 w' P Hag1 Hk0) as (_ & _ & C). exact C. }
      assert (Hin2 : forall k2 o2, In k2 todo -> find_out outs' (n_page k2) = Some o2 ->
                       forall x, In x (tpages h' d' o2) -> In x g2 \/ In x (upages h' d k2)).
      { intros k2 o2 Hk2' Ho2. destruct (Hdone k2 Hk2') as (out & Ho & Hw). rewrite Ho in Ho2.
        inversion Ho2; subst o2.
        destruct (kid_swfh k2 (Hsub k2 Hk2')) as (l2 & hh2 & kk & Hc & _).
        destruct (Hw _ _ _ Hc w' P Hag2 Hk0) as (_ & _ & C). exact C. }
      assert (Hcross : forall k2 o2, In k2 todo -> find_out outs' (n_page k2) = Some o2 ->
                         disj (tpages h' d' K) (tpages h' d' o2)).
      { intros k2 o2 Hk2' Ho2 x Hx1 Hx2.
        pose proof (Hsub k2 Hk2') as Hk2k.
        destruct (HinK x Hx1) as [X1|X1], (Hin2 k2 o2 Hk2' Ho2 x Hx2) as [X2|X2].
        - apply (frame_new _ _ _ _ _ x Hfik Hfr2 (Hg2a x X2)). apply in_or_app. left. apply Hg1a, X1.
        - apply (frame_new _ _ _ _ _ x Hfi Hfr1 (Hg1a x X1)). apply Hkl. apply (kid_upages_keep k2 Hk2k x X2).
        - apply (frame_new _ _ _ _ _ x Hfik Hfr2 (Hg2a x X2)). apply in_or_app. right.
          apply Hkl, (kid_upages_keep kd Hkd x X1).
        - refine (Hup_disj kd k2 Hkd Hk2k _ x X1 X2). intros E. apply Hq_notin. unfold q. rewrite E.
          apply in_map, Hk2'. }
      intros k1 k2 o1 o2 [<-|Hk1] [<-|Hk2'] Hne Ho1 Ho2.
      + contradiction.
      + fold q in Ho1. rewrite HfindK in Ho1. inversion Ho1; subst o1. apply (Hcross k2 o2 Hk2' Ho2).
      + fold q in Ho2. rewrite HfindK in Ho2. inversion Ho2; subst o2.
        intros x Hx1 Hx2. apply (Hcross k1 o1 Hk1 Ho1 x Hx2 Hx1).
      + apply (Hpair2 k1 k2 o1 o2 Hk1 Hk2' Hne Ho1 Ho2).
    Qed.
  End Fold2.
End Spill2.

Lemma in_range_lt_hi lo hi k : EngineSpillFacts.in_range lo hi k -> lt_hi k hi.
Proof. intros [_ H]. exact H. Qed.

Theorem spill_node_spec2 fuel d keep : forall f, spill_spec2 fuel d keep f.
Proof.
  induction f as [|f IHf]; intros live lo hi n s orig fk p sibs s' h Hfi Hkl Hswfh Hupnd H; [discriminate|].
  inversion Hswfh as [h0 lo0 hi0 pg npg o sq l Hkeys
                     |h0 lo0 hi0 pg npg o sq es kids Hes Hnd_es Hnd_kids Horig Hkids Hstab'];
    subst lo0 hi0 n h.
  - (* a leaf: no kids *)
    rewrite spill_node_unfold in H. cbn [n_kids n_data kid_keys fold_res bind isort_by map] in H.
    destruct (spill_tail_spec _ _ _ _ _ _ _ _ _ Hfi H) as (d0 & rest & alloc & stale & Ht).
    eexists _, _, _. split; [exact (leaf_post fuel d keep _ _ _ _ _ _ _ _ _ _ _ _ _ _ _ _ _ _ Hfi Hkeys Ht)|].
    destruct Ht as (Esp & _ & Hpw & Hnd & _). destruct Hkeys as (_ & Hks & Hkr).
    intros w' P Hag Hk0.
    pose proof (pieces_disk2 _ _ P d _ _ Hpw Hag) as Hd2.
    destruct (leaf_tail_wf _ h0 _ _ _ _ _ hi Esp Hd2 Hks (fun k Hk => in_range_lt_hi _ _ _ (Hkr k Hk))) as (HO & HT & _).
    split; [exact HO|]. rewrite HT. split; [exact Hnd|]. intros x Hx. left. exact Hx.
  - (* a branch: the kids first *)
    set (n := Node pg npg o sq (Branches es) kids) in *.
    assert (Hstab : forall e, In e es -> find_kid (snd e) kids = None -> stable fuel d keep (snd e)).
    { intros e He Hf. destruct (chb_In lo hi es e He) as (l & hh & Hi). apply (Hstab' l hh e Hi Hf). }
    (* the kept pages below the kids *)
    unfold n in Hupnd. cbn [upages] in Hupnd.
    set (Uc := fun e : bytes * N => match find_kid (snd e) kids with
                                    | Some kd => upages h0 d kd | None => snd e :: ppages h0 d (snd e) end) in Hupnd.
    assert (HUkid : forall kd, In kd kids -> exists k, In (k, n_page kd) es /\ Uc (k, n_page kd) = upages h0 d kd).
    { intros kd Hkd. destruct (Horig kd Hkd) as (k & _ & Hi). exists k. split; [exact Hi|]. unfold Uc. cbn [snd].
      rewrite (EngineMergeFacts.find_kid_NoDup kids kd Hnd_kids Hkd). reflexivity. }
    assert (Hup_nd : forall kd, In kd kids -> NoDup (upages h0 d kd)).
    { intros kd Hkd. destruct (HUkid kd Hkd) as (k & Hi & <-). apply (NoDup_flat_map_elim Uc es _ Hupnd Hi). }
    assert (Hup_disj : forall k1 k2, In k1 kids -> In k2 kids -> n_page k1 <> n_page k2 ->
                                     disj (upages h0 d k1) (upages h0 d k2)).
    { intros k1 k2 H1 H2 Hne. destruct (HUkid k1 H1) as (a & Ha & <-). destruct (HUkid k2 H2) as (b & Hb & <-).
      unfold disj. apply (NoDup_flat_map_disj Uc es _ _ Hupnd Ha Hb). intros E. inversion E. contradiction. }
    assert (HUkeep : forall e x, In e es -> In x (Uc e) -> In x keep).
    { intros e x He Hx. apply (swfh_upages_keep _ _ _ _ _ _ _ Hswfh). cbn [upages]. apply in_flat_map.
      exists e. split; [exact He|exact Hx]. }
    destruct (spill_branch_inv fuel d keep f lo hi es kids (spill_node_spec fuel d keep f) Hes Hnd_es Hnd_kids Horig
                (fun l hh e kd Hi Hf => swfh_swf _ _ _ _ _ _ _ (Hkids l hh e kd Hi Hf))
                (kids_done2 fuel d keep h0 lo hi es) pg npg o sq live s ((orig, (fk, p), sibs), s')
                (kids_done2_nil fuel d keep h0 lo hi es))
      as (todo & outs & s1 & Hperm & Hsegs & Hnokid & Hdone2 & H1); [|exact Hfi|exact H|].
    { intros kd todo outs0 s0 k fk0 p0 sibs0 sk outs' s1 Hkd Hsub Hq _ Hin.
      exact (kids_done2_cons fuel d keep f h0 lo hi es kids IHf Hnd_es Hnd_kids Horig Hkids Hup_nd Hup_disj
               kd todo outs0 s0 k fk0 p0 sibs0 sk outs' s1 Hkd Hsub Hq Hin). }
    destruct (Hdone2 live Hfi Hkl) as (a1 & dd1 & g1 & Hk1 & Hdone & Hpair).
    pose proof (proj1 Hk1) as Hoc1. pose proof (oc_frame _ _ _ _ _ _ _ Hoc1) as Hfr1.
    pose proof (oc_good _ _ _ _ _ _ _ Hoc1) as Hg1a. pose proof (fr_fresh _ _ _ _ _ Hfr1) as Hfi1.
    destruct (spill_tail_spec _ _ _ _ _ _ _ _ _ Hfi1 H1) as (d0 & rest & a2 & stale & Ht).
    eexists _, _, _.
    split; [exact (branch_post fuel d keep _ _ _ _ _ _ _ _ _ _ _ _ _ _ _ _ _ _ _ _ _ _ _ _ _ Hfi Hes Hstab Hperm Hsegs Hnokid Hk1 Ht)|].
    destruct Ht as (Esp & _ & Hpw & Hnd & Hin & Hfr2 & _). destruct Hes as (_ & Hes_s & Hes_r).
    set (es_fin := flat_map (seg_of outs) es) in *.
    destruct (segs_sorted (seg_of outs) es lo hi Hes_s Hes_r Hsegs) as [Hfin_s Hfin_r].
    assert (Hgood_a2 : forall q, In q (p :: map snd sibs) -> ~ In q (a1 ++ live)).
    { intros q Hq. apply (frame_new _ _ _ _ _ q Hfi1 Hfr2 (proj1 (Hin q Hq))). }
    (* the written pages form a strict tree *)
    intros w' P Hag Hk0.
    assert (Hag1 : wr_agree (map snd ((fk, p) :: sibs)) (wr s') w').
    { intros q Hq. apply Hag. apply in_or_app. left. exact Hq. }
    assert (Hagg : wr_agree g1 (wr s1) w').
    { intros q Hq. rewrite (Hag q) by (apply in_or_app; right; exact Hq).
      exact (outcome_keeps _ _ _ _ _ _ _ _ _ _ q Hoc1 Hfr2 Hq). }
    pose proof (pieces_disk2 _ _ P d _ _ Hpw Hag1) as Hd2.
    pose proof (keep_dget w' P d keep Hk0) as Hkd'.
    specialize (Hpair w' P Hagg Hk0). cbn beta in Hpair.
    set (d' := apply_wr w' P d) in *.
    assert (Htodo : forall kd, In kd kids -> In kd todo) by (intros kd Hkd; exact (Permutation_in _ (Permutation_sym Hperm) Hkd)).
    assert (Hent : forall l hh e, In (l, hh, e) (chb lo hi es) ->
              OutInv h0 d' (seg_of outs e) hh /\ NoDup (tpages h0 d' (seg_of outs e)) /\
              (forall x, In x (tpages h0 d' (seg_of outs e)) ->
                 (In x g1 /\ find_kid (snd e) kids <> None) \/ In x (Uc e))).
    { intros l hh e Hc. pose proof (chb_In_inv _ _ _ _ _ _ Hc) as He.
      pose proof (NoDup_flat_map_elim Uc es e Hupnd He) as HnU. unfold Uc in HnU |- *. cbn beta in HnU |- *.
      destruct (find_kid (snd e) kids) as [kd|] eqn:Hfk.
      - destruct (EngineMergeFacts.find_kid_In _ _ _ Hfk) as [Hkd Epg].
        destruct (Hdone kd (Htodo kd Hkd)) as (out & Ho & Hw). unfold seg_of. rewrite <- Epg, Ho.
        destruct e as [k q']. cbn [snd] in Epg. subst q'.
        destruct (Hw l hh k Hc w' P Hagg Hk0) as (A & B & C). split; [exact A|]. split; [exact B|].
        intros x Hx. destruct (C x Hx) as [C1|C1]; [left; split; [exact C1|discriminate]|right; exact C1].
      - unfold seg_of. rewrite (Hnokid e Hfk). destruct (Hstab' l hh e Hc Hfk) as [Hst0 HP]. destruct e as [k q'].
        cbn [fst snd] in *.
        assert (Et : tpages h0 d' [(k, q')] = q' :: ppages h0 d q').
        { unfold tpages. cbn [flat_map snd]. rewrite app_nil_r.
          rewrite (ppages_keep d d' keep Hkd' h0 fuel q' Hst0). reflexivity. }
        split.
        { apply OutInv_single. apply (PInv_apply_wr_keep d d' keep Hkd' h0 fuel q' _ _ _ Hst0).
          apply (PInv_tighten _ _ None). exact HP. }
        rewrite Et. split; [exact HnU|]. intros x Hx. right. exact Hx. }
    assert (HO : OutInv h0 d' es_fin hi).
    { apply (OutInv_segs h0 d' (seg_of outs) es lo hi). intros l hh e Hc.
      split; [apply Hsegs, Hc|apply (Hent l hh e Hc)]. }
    assert (Hsubset : forall x, In x (tpages h0 d' es_fin) -> In x g1 \/ In x (flat_map Uc es)).
    { intros x Hx. unfold es_fin in Hx. rewrite tpages_flat_map in Hx. apply in_flat_map in Hx.
      destruct Hx as (e & He & Hx). destruct (chb_In lo hi es e He) as (l & hh & Hc).
      destruct (proj2 (proj2 (Hent l hh e Hc)) x Hx) as [[X _]|X]; [left; exact X|right].
      apply in_flat_map. exists e. split; assumption. }
    assert (HND : NoDup (tpages h0 d' es_fin)).
    { unfold es_fin. rewrite tpages_flat_map. apply NoDup_flat_map_intro.
      - apply NoDup_map_snd_NoDup, Hnd_es.
      - intros e He. destruct (chb_In lo hi es e He) as (l & hh & Hc). apply (Hent l hh e Hc).
      - intros e1 e2 He1 He2 Hne x Hx1 Hx2.
        destruct (chb_In lo hi es e1 He1) as (l1 & hh1 & Hc1). destruct (chb_In lo hi es e2 He2) as (l2 & hh2 & Hc2).
        assert (Hpne : snd e1 <> snd e2).
        { intros E. apply Hne. apply (NoDup_map_inj snd es _ _ Hnd_es He1 He2 E). }
        destruct (proj2 (proj2 (Hent _ _ _ Hc1)) x Hx1) as [[X1 K1]|X1],
                 (proj2 (proj2 (Hent _ _ _ Hc2)) x Hx2) as [[X2 K2]|X2].
        + destruct (find_kid (snd e1) kids) as [kd1|] eqn:Hf1; [|contradiction].
          destruct (find_kid (snd e2) kids) as [kd2|] eqn:Hf2; [|contradiction].
          destruct (EngineMergeFacts.find_kid_In _ _ _ Hf1) as [Hk1' Ep1].
          destruct (EngineMergeFacts.find_kid_In _ _ _ Hf2) as [Hk2' Ep2].
          destruct (Hdone kd1 (Htodo kd1 Hk1')) as (o1 & Ho1 & _). destruct (Hdone kd2 (Htodo kd2 Hk2')) as (o2 & Ho2 & _).
          unfold seg_of in Hx1, Hx2. rewrite <- Ep1, Ho1 in Hx1. rewrite <- Ep2, Ho2 in Hx2.
          refine (Hpair kd1 kd2 o1 o2 (Htodo kd1 Hk1') (Htodo kd2 Hk2') _ Ho1 Ho2 x Hx1 Hx2). rewrite Ep1, Ep2. exact Hpne.
        + apply (frame_new _ _ _ _ _ x Hfi Hfr1 (Hg1a x X1)). apply Hkl. apply (HUkeep e2 x He2 X2).
        + apply (frame_new _ _ _ _ _ x Hfi Hfr1 (Hg1a x X2)). apply Hkl. apply (HUkeep e1 x He1 X1).
        + apply (NoDup_flat_map_disj Uc es e1 e2 Hupnd He1 He2 Hne x X1 X2). }
    assert (Hnew : forall q, In q (map snd ((fk, p) :: sibs)) -> ~ In q (tpages h0 d' es_fin)).
    { intros q Hq Hi. apply (Hgood_a2 q Hq). apply in_or_app.
      destruct (Hsubset q Hi) as [X|X]; [left; apply Hg1a, X|right].
      apply in_flat_map in X. destruct X as (e & He & X). apply Hkl, (HUkeep e q He X). }
    destruct (branch_tail_wf d' h0 _ es_fin d0 rest s1 hi Esp Hd2 Hfin_s
                (fun k Hk => in_range_lt_hi _ _ _ (Hfin_r k Hk)) HO HND Hnd Hnew) as (R1 & R2 & R3).
    split; [exact R1|]. split; [exact R2|]. intros x Hx. apply R3 in Hx. destruct Hx as [Hx|Hx].
    + left. apply in_or_app. left. exact Hx.
    + destruct (Hsubset x Hx) as [X|X]; [left; apply in_or_app; right; exact X|right]. exact X.
Qed.

(* the statement with the conjuncts of interest only *)
Corollary spill_node_wf fuel d keep f live lo hi n s orig fk p sibs s' h :
  fresh_inv live s -> (forall x, In x keep -> In x live) ->
  swfh fuel d keep h lo hi n -> NoDup (upages h d n) ->
  spill_node f n s = Ok ((orig, (fk, p), sibs), s') ->
  exists alloc dead good,
    frame live s s' alloc dead /\ (forall q, In q good -> In q alloc) /\
    (forall q, In q (p :: map snd sibs) -> In q good) /\
    keys_ok lo hi (map fst ((fk, p) :: sibs)) /\
    forall w' P, wr_agree good (wr s') w' -> (forall x, In x keep -> wr_get w' x = None) ->
      let d' := apply_wr w' P d in let out := (fk, p) :: sibs in
      Forall2 (fun e b => PInv h d' (fst b) (snd b) (Some (fst e)) (snd e)) out (cbs Some (map fst out) hi) /\
      NoDup (flat_map (fun e => snd e :: ppages h d' (snd e)) out) /\
      (forall x, In x (flat_map (fun e => snd e :: ppages h d' (snd e)) out) -> In x good \/ In x (upages h d n)).
Proof.
  intros Hfi Hkl Hs Hu H.
  destruct (spill_node_spec2 fuel d keep f _ _ _ _ _ _ _ _ _ _ _ Hfi Hkl Hs Hu H)
    as (alloc & dead & good & ([A1 A2 _] & A3 & _ & A5 & _) & A10).
  exists alloc, dead, good. repeat (split; [assumption|]). intros w' P Hag Hk. exact (A10 w' P Hag Hk).
Qed.

(* a leaf without kids, directly: the good pages are the returned ones *)
Theorem spill_leaf_wf live f pg npg o sq l lo hi s orig fk p sibs s' :
  fresh_inv live s -> keys_ok lo hi (map lkey l) ->
  spill_node f (Node pg npg o sq (Leaves l) []) s = Ok ((orig, (fk, p), sibs), s') ->
  forall w' P d, wr_agree (p :: map snd sibs) (wr s') w' ->
    let d' := apply_wr w' P d in let out := (fk, p) :: sibs in
    Forall2 (fun e b => PInv 1 d' (fst b) (snd b) (Some (fst e)) (snd e)) out (cbs Some (map fst out) hi) /\
    (forall e, In e out -> ppages 1 d' (snd e) = []) /\ NoDup (map snd out) /\
    le_lo lo fk.
Proof.
  intros Hfi (Hne & Hks & Hkr) H w' P d Hag. destruct f as [|f]; [discriminate|].
  rewrite spill_node_unfold in H. cbn [n_kids n_data kid_keys fold_res bind isort_by map] in H.
  destruct (spill_tail_spec _ _ _ _ _ _ _ _ _ Hfi H)
    as (d0 & rest & alloc & stale & Esp & Eo & Hpw & Hnd & Hin & Hfr & Hst & _).
  pose proof (pieces_disk2 _ _ P d _ _ Hpw Hag) as Hd2.
  destruct (leaf_tail_wf _ 0 _ _ _ _ _ hi Esp Hd2 Hks (fun k Hk => in_range_lt_hi _ _ _ (Hkr k Hk))) as (HO & _ & HP).
  cbv zeta. split; [exact HO|]. split; [exact HP|]. split; [exact Hnd|].
  assert (Hk : keys_ok lo hi (map fst ((fk, p) :: sibs))).
  { eapply tail_keys_ok; [exact Hpw|apply (split_dkeys _ _ _ _ Esp)|discriminate|exact Hks|exact Hkr]. }
  destruct Hk as (_ & _ & Hr). destruct (Hr fk (or_introl eq_refl)) as [Hlo _]. exact Hlo.
Qed.

(** * [spill_root]: new root levels over the returned entries until one page is left *)

Lemma pieces_ge2 {A} : forall (pieces : list (list A)),
  Forall (fun p => (2 <= List.length p)%nat) pieces -> (2 * List.length pieces <= List.length (concat pieces))%nat.
Proof.
  induction 1 as [|p pieces Hp _ IH]; [cbn; lia|]. cbn [concat List.length]. rewrite app_length. lia.
Qed.

Lemma root_loop2 d keep : forall f live s fk p sibs target m good0 p' s' h U,
  fresh_inv live s -> (forall q, In q good0 -> In q live) -> In p good0 -> (forall x, In x U -> In x live) ->
  ents_ok d keep good0 s m ((fk, p) :: sibs) target ->
  keys_ok None None (map fst ((fk, p) :: sibs)) ->
  wf_out h d keep good0 s ((fk, p) :: sibs) None U ->
  match sibs with
  | [] => Ok (p, s)
  | _ => spill_root f (Node 0 0 (Some fk) 0 (Branches ((fk, p) :: sibs)) []) s
  end = Ok (p', s') ->
  exists alloc dead new lv,
    (lv <= f)%nat /\ root_post d keep live s s' good0 m target p' alloc dead new lv /\
    (exists fk', wf_out (lv + h) d keep (new ++ good0) s' [(fk', p')] None U) /\
    (2 ^ lv <= List.length ((fk, p) :: sibs))%nat.
Proof.
  induction f as [|f IH]; intros live s fk p sibs target m good0 p' s' h U Hfi Hg0 Hp HU Hents Hkeys Hwf H;
    destruct sibs as [|sb sibs]; [|discriminate| |].
  1,2: inversion H; subst p' s'; exists [], [], [], 0%nat; split; [lia|];
       split; [exact (root_post_nil _ _ _ _ _ _ _ _ _ Hfi Hp Hents)|]; split; [exists fk; exact Hwf|cbn; lia].
  set (K := (fk, p) :: sb :: sibs) in *.
  destruct (root_level_inv f fk K s p' s' H) as (o1 & fk1 & p1 & sibs1 & s1 & Hsp & Hloop).
  destruct (spill_tail_spec _ _ _ _ _ _ _ _ _ Hfi Hsp) as (d0 & rest & a1 & stale & Ht).
  destruct (root_post_step d keep _ _ _ _ _ _ _ _ _ _ _ _ _ _ _ _ Hfi Hg0 Hents Ht) as (Hents1 & Hg1 & Hstep).
  destruct Ht as (Esp & _ & Hpw & Hnd1 & Hin & Hfr1 & _).
  set (good1 := (p1 :: map snd sibs1) ++ good0) in *.
  destruct Hkeys as (_ & Hks & Hkr).
  assert (Hkeys1 : keys_ok None None (map fst ((fk1, p1) :: sibs1))).
  { eapply tail_keys_ok; [exact Hpw|apply (split_dkeys _ _ _ _ Esp)|discriminate|exact Hks|exact Hkr]. }
  assert (Hwf1 : wf_out (S h) d keep good1 s1 ((fk1, p1) :: sibs1) None U).
  { intros w' P Hag Hk0.
    assert (Hag1 : wr_agree (map snd ((fk1, p1) :: sibs1)) (wr s1) w').
    { intros q Hq. apply Hag. apply in_or_app. left. exact Hq. }
    assert (Hag0 : wr_agree good0 (wr s) w').
    { intros q Hq. rewrite (Hag q) by (apply in_or_app; right; exact Hq).
      exact (frame_keeps _ _ _ _ _ _ Hfi Hfr1 (Hg0 q Hq)). }
    destruct (Hwf w' P Hag0 Hk0) as (A & B & C).
    pose proof (pieces_disk2 _ _ P d _ _ Hpw Hag1) as Hd2.
    assert (Hnew : forall q, In q (map snd ((fk1, p1) :: sibs1)) -> ~ In q (tpages h (apply_wr w' P d) K)).
    { intros q Hq Hi. apply (frame_new _ _ _ _ _ q Hfi Hfr1 (proj1 (Hin q Hq))).
      destruct (C q Hi) as [X|X]; [apply Hg0, X|apply HU, X]. }
    destruct (branch_tail_wf _ h _ K d0 rest s None Esp Hd2 Hks (fun k _ => I) A B Hnd1 Hnew) as (R1 & R2 & R3).
    split; [exact R1|]. split; [exact R2|]. intros x Hx. apply R3 in Hx. destruct Hx as [Hx|Hx].
    - left. apply in_or_app. left. exact Hx.
    - destruct (C x Hx) as [X|X]; [left; apply in_or_app; right; exact X|right; exact X]. }
  assert (HU1 : forall x, In x U -> In x (a1 ++ live)) by (intros x Hx; apply in_or_app; right; apply HU, Hx).
  destruct (IH (a1 ++ live) s1 fk1 p1 sibs1 target (S m) good1 p' s' (S h) U (fr_fresh _ _ _ _ _ Hfr1) Hg1
               ltac:(left; reflexivity) HU1 Hents1 Hkeys1 Hwf1 Hloop)
    as (a2 & dd2 & new2 & lv & Hlv & Hpost & (fk' & Hwf') & Hpow).
  eexists _, _, _, (S lv). split; [clear - Hlv; lia|]. split; [exact (Hstep _ _ _ _ _ _ Hpost)|].
  split.
  { exists fk'. replace (S lv + h)%nat with (lv + S h)%nat by (clear; lia). rewrite <- (app_assoc new2). exact Hwf'. }
  (* every level at least halves the number of entries *)
  assert (Hhalf : (2 * List.length ((fk1, p1) :: sibs1) <= List.length K)%nat).
  { pose proof Hpw as L. apply Forall2_length in L.
    destruct (split_branches s K) as (e0 & ess & Esp' & Hcat & _ & _ & Hge). rewrite Esp' in Esp.
    inversion Esp; subst d0 rest. rewrite L. cbn [List.length]. rewrite map_length.
    destruct ess as [|e1 ess'].
    - unfold K. cbn [List.length]. clear. lia.
    - specialize (Hge ltac:(discriminate)). rewrite <- Hcat.
      change (e0 ++ concat (e1 :: ess')) with (concat (e0 :: e1 :: ess')).
      change (S (List.length (e1 :: ess'))) with (List.length (e0 :: e1 :: ess')).
      apply pieces_ge2, Hge. }
  cbn [Nat.pow]. fold K. clear - Hpow Hhalf. lia.
Qed.

Lemma PInv_present : forall h d lo hi ok q, PInv h d lo hi ok q -> EngineBridgeFacts.pages_present h d q.
Proof.
  induction h as [|h IH]; intros d lo hi ok q H; [destruct H|]. rewrite PInv_S in H. cbn [EngineBridgeFacts.pages_present].
  destruct H as (a & Hg & _ & Hb). rewrite Hg. destruct (ap_body a) as [l|es]; [exact I|].
  destruct Hb as (_ & _ & _ & _ & HC). intros e He. destruct (In_nth_error _ _ He) as [j Hj].
  destruct (Forall2_nth_error_l _ _ _ _ _ HC Hj) as (b & _ & HP). apply (IH _ _ _ _ _ HP).
Qed.

(* a single returned entry: the root page *)
Lemma wf_out_root h d' fk p U (good : list N) :
  OutInv h d' [(fk, p)] None -> NoDup (tpages h d' [(fk, p)]) ->
  (forall x, In x (tpages h d' [(fk, p)]) -> In x good \/ In x U) ->
  PInv h d' None None None p /\ NoDup (p :: ppages h d' p) /\
  (forall x, In x (p :: ppages h d' p) -> In x good \/ In x U).
Proof.
  unfold tpages. cbn [flat_map snd]. rewrite app_nil_r. intros HO Hn Hi.
  split; [|split; assumption]. apply OutInv_single in HO. apply PInv_okey_none in HO.
  eapply PInv_weaken; [| |exact HO]; exact I.
Qed.

(** ** the root page written by [spill_root] heads a strict tree without shared pages *)
Theorem spill_root_wf_levels fuel d keep live f n s p s' h :
  fresh_inv live s -> (forall x, In x keep -> In x live) ->
  swfh fuel d keep h None None n -> NoDup (upages h d n) ->
  spill_root f n s = Ok (p, s') ->
  exists alloc dead good lv,
    frame live s s' alloc dead /\ (forall q, In q good -> In q alloc) /\ In p good /\ (lv <= f)%nat /\
    (forall x, old_run n x -> In x dead) /\
    (forall L, (forall x, In x L -> In x live) -> old_in L n ->
       forall x, In x dead -> (In x L \/ In x alloc) /\ ~ In x good) /\
    (forall w' P, wr_agree good (wr s') w' -> (forall x, In x keep -> wr_get w' x = None) ->
      let d' := apply_wr w' P d in let H := (lv + h)%nat in
      (forall F, (lv + ndepth n + fuel <= F)%nat -> page_ents F d' p = view_leaves fuel d n) /\
      PInv H d' None None None p /\ NoDup (p :: ppages H d' p) /\
      (forall x, In x (p :: ppages H d' p) -> In x good \/ In x (upages h d n)) /\
      wf_page d' p /\ PageView d' H p (view_leaves fuel d n)) /\
    (* every new level at least halves the number of entries: lv <= log2 of the number of pieces of the root *)
    (forall o fk p1 sibs s1, spill_node fuel0 n s = Ok ((o, (fk, p1), sibs), s1) ->
       (2 ^ lv <= S (List.length sibs))%nat).
Proof.
  intros Hfi Hkl Hswfh Hupnd H. destruct f as [|f]; [discriminate|].
  pose proof (swfh_swf _ _ _ _ _ _ _ Hswfh) as Hswf.
  destruct (spill_root_inv _ _ _ _ _ _ _ _ _ _ Hswf H) as (o & fk & p1 & sibs & s1 & Hsp & Hloop).
  destruct (spill_node_spec2 fuel d keep fuel0 _ _ _ _ _ _ _ _ _ _ _ Hfi Hkl Hswfh Hupnd Hsp)
    as (a1 & dd1 & g1 & (Hoc1 & Hg1p & _ & Hkeys & _ & Hold & Hents) & Hwf).
  assert (Hg1 : forall q, In q g1 -> In q (a1 ++ live)).
  { intros q Hq. apply in_or_app. left. apply (oc_good _ _ _ _ _ _ _ Hoc1), Hq. }
  assert (HU : forall x, In x (upages h d n) -> In x (a1 ++ live)).
  { intros x Hx. apply in_or_app. right. apply Hkl. apply (swfh_upages_keep _ _ _ _ _ _ _ Hswfh x Hx). }
  destruct (root_loop2 d keep f (a1 ++ live) s1 fk p1 sibs _ _ g1 p s' h _ (fr_fresh _ _ _ _ _ (oc_frame _ _ _ _ _ _ _ Hoc1)) Hg1
              (Hg1p _ (or_introl eq_refl)) HU Hents Hkeys Hwf Hloop)
    as (a2 & dd2 & new & lv & Hlv & (Hoc2 & Hp' & Hfin) & (fk' & Hwf') & Hpow).
  destruct (outcome_trans _ _ _ _ _ _ _ _ _ _ _ _ Hfi Hoc1 Hoc2) as [Hfr Hga Hdead].
  exists (a2 ++ a1), (dd1 ++ dd2), (new ++ g1), lv.
  split; [exact Hfr|]. split; [exact Hga|]. split; [exact Hp'|]. split; [clear - Hlv; lia|].
  split; [intros x Hx; apply in_or_app; left; apply Hold, Hx|].
  split; [intros L HL Hol; exact (Hdead L HL (conj Hol I))|].
  split; [|intros o' fk0 p0 sibs0 s0 E0; rewrite Hsp in E0; inversion E0; subst; exact Hpow].
  intros w' P Hag Hk. cbv zeta.
  assert (Hpe : forall F, (lv + ndepth n + fuel <= F)%nat -> page_ents F (apply_wr w' P d) p = view_leaves fuel d n).
  { intros F HF. apply (Hfin w' P Hag Hk). clear - HF. lia. }
  split; [exact Hpe|].
  destruct (Hwf' w' P Hag Hk) as (A & B & C).
  destruct (wf_out_root _ _ _ _ _ _ A B C) as (R1 & R2 & R3).
  split; [exact R1|]. split; [exact R2|]. split; [exact R3|].
  split; [apply (PInv_wf_page _ _ _ _ _ _ R1)|].
  pose proof (EngineBridgeFacts.page_ents_PageView _ _ _ (PInv_present _ _ _ _ _ _ R1)) as Hv.
  set (F := Nat.max (lv + h) (lv + ndepth n + fuel)).
  rewrite <- (Hpe F) by (unfold F; clear; lia).
  rewrite (EngineBridgeFacts.PageView_page_ents _ _ _ _ Hv F) by (unfold F; clear; lia). exact Hv.
Qed.

Theorem spill_root_wf fuel d keep live f n s p s' h :
  fresh_inv live s -> (forall x, In x keep -> In x live) ->
  swfh fuel d keep h None None n -> NoDup (upages h d n) ->
  spill_root f n s = Ok (p, s') ->
  exists alloc dead good lv,
    frame live s s' alloc dead /\ (forall q, In q good -> In q alloc) /\ In p good /\ (lv <= f)%nat /\
    (forall x, old_run n x -> In x dead) /\
    (forall L, (forall x, In x L -> In x live) -> old_in L n ->
       forall x, In x dead -> (In x L \/ In x alloc) /\ ~ In x good) /\
    forall w' P, wr_agree good (wr s') w' -> (forall x, In x keep -> wr_get w' x = None) ->
      let d' := apply_wr w' P d in let H := (lv + h)%nat in
      (forall F, (lv + ndepth n + fuel <= F)%nat -> page_ents F d' p = view_leaves fuel d n) /\
      PInv H d' None None None p /\ NoDup (p :: ppages H d' p) /\
      (forall x, In x (p :: ppages H d' p) -> In x good \/ In x (upages h d n)) /\
      wf_page d' p /\ PageView d' H p (view_leaves fuel d n).
Proof.
  intros Hfi Hkl Hswfh Hupnd H.
  destruct (spill_root_wf_levels fuel d keep live f n s p s' h Hfi Hkl Hswfh Hupnd H)
    as (alloc & dead & good & lv & A1 & A2 & A3 & A4 & A5 & A6 & A7 & _).
  exists alloc, dead, good, lv. repeat (split; [assumption|]). exact A7.
Qed.

(* the empty root (a bucket emptied by the transaction): one empty leaf page *)
Theorem spill_root_empty_wf live f n s p s' :
  fresh_inv live s -> n_data n = Leaves [] -> spill_root f n s = Ok (p, s') ->
  ~ In p live /\
  forall w' P d, wr_agree [p] (wr s') w' ->
    let d' := apply_wr w' P d in
    PInv 1 d' None None None p /\ ppages 1 d' p = [] /\ wf_page d' p /\ PageView d' 1 p [].
Proof.
  intros Hfi Hn H. destruct f as [|f]; [discriminate|]. cbn [spill_root] in H.
  rewrite Hn in H. destruct (write_node s (set_kids n [])) as [n1 s1] eqn:Hw. cbn [bind] in H.
  inversion H; subst p s'. clear H.
  destruct (write_node_frame _ _ _ _ _ Hfi Hw) as (Hfr & _ & Hp2 & Hk0 & _ & Hget).
  assert (Ed : n_data (set_kids n []) = Leaves []) by (destruct n; exact Hn). rewrite Ed in Hget.
  split. { apply (frame_new _ _ _ _ _ (n_page n1) Hfi Hfr). apply In_nrun. lia. }
  intros w' P d Hag. cbv zeta.
  assert (Hg : dget (apply_wr w' P d) (n_page n1) = Some (mk_apage P (node_size (set_kids n []), Leaves []))).
  { apply dget_apply_wr_some. rewrite (Hag _ (or_introl eq_refl)). exact Hget. }
  assert (HP : PInv 1 (apply_wr w' P d) None None None (n_page n1)).
  { rewrite PInv_S. eexists. split; [exact Hg|]. split; [exact I|]. cbn [mk_apage ap_body snd map].
    split; [reflexivity|constructor]. }
  split; [exact HP|]. split; [rewrite ppages_S, Hg; reflexivity|]. split; [apply (PInv_wf_page _ _ _ _ _ _ HP)|].
  eapply PV_leaf; [exact Hg|reflexivity].
Qed.

(** ** at commit time: the write set of any later state of the same transaction qualifies *)
Corollary spill_root_wf_committed fuel d keep live f n s p s' h s'' a2 d2 :
  fresh_inv live s -> (forall x, In x keep -> In x live) -> (forall x, In x keep -> wr_get (wr s) x = None) ->
  swfh fuel d keep h None None n -> NoDup (upages h d n) ->
  spill_root f n s = Ok (p, s') ->
  exists alloc dead lv,
    frame live s s' alloc dead /\ In p alloc /\ ~ In p live /\ (lv <= f)%nat /\
    (frame (alloc ++ live) s' s'' a2 d2 ->
     forall P, let d' := apply_wr (wr s'') P d in let H := (lv + h)%nat in
       PInv H d' None None None p /\ NoDup (ppages H d' p) /\ ~ In p (ppages H d' p) /\
       (forall x, In x (ppages H d' p) -> In x alloc \/ In x (upages h d n)) /\
       wf_page d' p /\ PageView d' H p (view_leaves fuel d n)).
Proof.
  intros Hfi Hkl Hk0 Hs Hu H.
  destruct (spill_root_wf fuel d keep live f n s p s' h Hfi Hkl Hs Hu H)
    as (alloc & dead & good & lv & Hfr & Hga & Hp & Hlv & _ & _ & Hfin).
  exists alloc, dead, lv. split; [exact Hfr|]. split; [apply Hga, Hp|].
  split; [apply (frame_new _ _ _ _ _ _ Hfi Hfr), Hga, Hp|]. split; [exact Hlv|].
  intros Hfr2 P. cbv zeta.
  destruct (frame_later_ok _ _ _ _ _ _ _ _ _ _ Hfi Hfr Hga Hkl Hk0 Hfr2) as [A B].
  destruct (Hfin (wr s'') P A B) as (_ & R1 & R2 & R3 & R4 & R5). cbv zeta in *.
  inversion R2 as [|? ? Hn Hnd]; subst.
  split; [exact R1|]. split; [exact Hnd|]. split; [exact Hn|].
  split; [|split; assumption].
  intros x Hx. destruct (R3 x (or_intror Hx)) as [X|X]; [left; apply Hga, X|right; exact X].
Qed.

(** * Instances: the six-entry leaf (300-byte keys, page size 1024) that splits in three, alone and
       under a parent branch whose other child (page 10) stays on disk *)
Module Examples.
  Notation k300 := EngineFacts.k300.

  Example ex_PInv10 : PInv 1 ex_d None None (Some kM) 10.
  Proof.
    rewrite PInv_S. eexists. split; [vm_compute; reflexivity|]. split; [reflexivity|].
    cbn [ap_body map lkey]. split; [vm_compute; reflexivity|]. repeat constructor.
  Qed.

  Example ex_swfh_leaf : swfh 1 ex_d [10] 1 None (Some kM) ex_n.
  Proof. apply swfh_leaf, ex_keys_ok. Qed.

  Example ex_swfh : swfh 1 ex_d [10] 2 None None ex_br.
  Proof.
    apply swfh_branch.
    - split; [discriminate|]. split; [vm_compute; reflexivity|]. intros k _. split; exact I.
    - cbn [map snd]. repeat constructor; cbn [In]; intuition discriminate.
    - cbn [map n_page ex_n]. repeat constructor; cbn [In]; intuition discriminate.
    - intros kd [<-|[]]. exists (k300 x01). split; [reflexivity|left; reflexivity].
    - intros l h e kd Hi Hf. apply EngineMergeFacts.find_kid_In in Hf. destruct Hf as [[<-|[]] Hp].
      cbn [chb fst] in Hi. destruct Hi as [Hi|[Hi|[]]]; inversion Hi; subst l h e; [exact ex_swfh_leaf|discriminate Hp].
    - intros l h e Hi Hf. cbn [chb fst] in Hi. destruct Hi as [Hi|[Hi|[]]]; inversion Hi; subst l h e; clear Hi.
      + discriminate Hf.
      + split; [|exact ex_PInv10]. cbn [stable snd]. split; [left; reflexivity|]. vm_compute. exact I.
  Qed.

  Example ex_upages : upages 2 ex_d ex_br = [10].
  Proof. vm_compute. reflexivity. Qed.

  (* the leaf alone: three strict leaf pages in the consecutive intervals [k1,k3) [k3,k5) [k5,kM) *)
  Example ex_leaf_wf :
    match spill_node 1 ex_n ex_s with
    | Ok ((_, (fk, p), sibs), s') =>
        (fk, p) :: sibs = [(k300 x01, 5); (k300 x03, 7); (k300 x05, 12)] /\
        forall d, let d' := apply_wr (wr s') 1024 d in
          PInv 1 d' (Some (k300 x01)) (Some (k300 x03)) (Some (k300 x01)) 5 /\
          PInv 1 d' (Some (k300 x03)) (Some (k300 x05)) (Some (k300 x03)) 7 /\
          PInv 1 d' (Some (k300 x05)) (Some kM) (Some (k300 x05)) 12
    | _ => False end.
  Proof.
    rewrite ex_leaf_run.
    pose proof (spill_leaf_wf ex_live 1 3 1 _ 1 ex_leaf6 None (Some kM) ex_s _ _ _ _ _ (proj1 ex_fresh) ex_keys_ok ex_leaf_run)
      as Hwf.
    split; [reflexivity|]. intros d. destruct (Hwf (wr ex_leaf_s') 1024 d (fun q _ => eq_refl)) as (HO & _).
    cbv zeta in HO. cbn [map fst cbs nxt] in HO.
    inversion HO as [|? ? ? ? H1 HO1]; subst. inversion HO1 as [|? ? ? ? H2 HO2]; subst.
    inversion HO2 as [|? ? ? ? H3 _]; subst. cbn [fst snd] in *. repeat split; assumption.
  Qed.

  (* under the parent: [spill_root] returns page 13; in the committed disk it heads a strict tree of
     height 2 whose pages 5, 7, 12 (new) and 10 (kept) are distinct *)
  Example ex_root_wf :
    match spill_root 3 ex_br ex_s with
    | Ok (p, s') =>
        p = 13 /\
        let d' := apply_wr (wr s') 1024 ex_d in
        (exists lv, (lv <= 3)%nat /\ PInv (lv + 2) d' None None None p /\ NoDup (ppages (lv + 2) d' p) /\
                    wf_page d' p /\ PageView d' (lv + 2) p (view_leaves 1 ex_d ex_br)) /\
        ppages 2 d' p = [5; 7; 12; 10] /\
        option_map ap_body (dget d' p) =
          Some (Branches [(k300 x01, 5); (k300 x03, 7); (k300 x05, 12); (kM, 10)]) /\
        map (fun q => option_map (fun a => first_key (ap_body a)) (dget d' q)) [5; 7; 12; 10] =
          [Some (Ok (k300 x01)); Some (Ok (k300 x03)); Some (Ok (k300 x05)); Some (Ok kM)]
    | _ => False end.
  Proof.
    rewrite ex_root_run.
    assert (Hu : NoDup (upages 2 ex_d ex_br)) by (rewrite ex_upages; repeat constructor; intros []).
    destruct (spill_root_wf_committed 1 ex_d [10] ex_live 3 ex_br ex_s _ _ 2 ex_branch_s' [] []
                (proj1 ex_fresh) ex_keep_live ex_keep_wr ex_swfh Hu ex_root_run)
      as (alloc & dead & lv & Hfr & _ & _ & Hlv & Hfin).
    destruct (Hfin (frame_refl _ _ (fr_fresh _ _ _ _ _ Hfr)) 1024) as (R1 & R2 & _ & _ & R5 & R6).
    cbv zeta in *. split; [reflexivity|].
    split; [exists lv; repeat split; assumption|].
    repeat split; reflexivity.
  Qed.

  (* the leaf as a root: a new branch level is written above the three leaf pages (lv = 1, height 2) *)
  Example ex_root_levels_wf :
    match spill_root 3 ex_n ex_s with
    | Ok (p, s') =>
        let d' := apply_wr (wr s') 1024 [] in
        (exists lv, (lv <= 3)%nat /\ PInv (lv + 1) d' None None None p /\ NoDup (ppages (lv + 1) d' p)) /\
        p = 13 /\ ppages 2 d' p = [5; 7; 12]
    | _ => False end.
  Proof.
    rewrite ex_levels_run.
    assert (Hs : swfh 0 [] [] 1 None None ex_n).
    { apply swfh_leaf. destruct ex_keys_ok as (A & B & _). split; [exact A|]. split; [exact B|]. intros k _. split; exact I. }
    destruct (spill_root_wf_committed 0 [] [] ex_live 3 ex_n ex_s _ _ 1 ex_levels_s' [] []
                (proj1 ex_fresh) (fun x (H : In x []) => match H with end) (fun x (H : In x []) => match H with end)
                Hs (NoDup_nil _) ex_levels_run)
      as (alloc & dead & lv & Hfr & _ & _ & Hlv & Hfin).
    destruct (Hfin (frame_refl _ _ (fr_fresh _ _ _ _ _ Hfr)) 1024) as (R1 & R2 & _).
    cbv zeta in *. split; [exists lv; repeat split; assumption|].
    repeat split; reflexivity.
  Qed.
End Examples.

(** * From the rebalance invariant [Inv] / [RInv] of EngineRebalanceFacts to [swfh] *)

(* what [Inv] does not say: a materialised leaf has no kids and is not empty (first_key would panic) *)
Inductive shape_ok : node -> Prop :=
| so_leaf pg npg o sq l : l <> [] -> shape_ok (Node pg npg o sq (Leaves l) [])
| so_branch pg npg o sq es ks : (forall kd, In kd ks -> shape_ok kd) -> shape_ok (Node pg npg o sq (Branches es) ks).

(* [chb] (child 0 inherits the lower bound) against [cbs] (child 0 starts at f of its separator): what holds of
   an entry and its [cbs] bounds holds with the same upper bound and a lower bound that [chb]'s is below *)
Lemma chb_cbs (R : bytes * N -> option bytes * option bytes -> Prop) : forall es f lo hi,
  Forall2 R es (cbs f (map fst es) hi) ->
  (forall e r, es = e :: r -> lo_le lo (f (fst e))) ->
  forall l hh e, In (l, hh, e) (chb lo hi es) -> exists l', R e (l', hh) /\ lo_le l l'.
Proof.
  induction es as [|e0 es IH]; intros f lo hi H Hlo l hh e Hi; [destruct Hi|].
  cbn [map cbs] in H. inversion H as [|x1 y1 l1 l2 H0 H' E1 E2]. subst x1 y1 l1 l2.
  cbn [chb] in Hi. destruct Hi as [Hi|Hi].
  - inversion Hi; subst l hh e. exists (f (fst e0)). split; [|apply (Hlo e0 es eq_refl)].
    destruct es as [|e' es']; exact H0.
  - refine (IH Some (match es with [] => hi | e' :: _ => Some (fst e') end) hi H' _ l hh e Hi).
    intros e1 r E. subst es. cbn. apply bcmp_le_refl.
Qed.

Lemma PInv_stable : forall h d keep lo hi ok q, PInv h d lo hi ok q ->
  (forall x, In x (q :: ppages h d q) -> In x keep) -> forall fuel, (h <= fuel)%nat -> stable fuel d keep q.
Proof.
  induction h as [|h IH]; intros d keep lo hi ok q H Hk fuel Hle; [destruct H|].
  destruct fuel as [|fuel]; [lia|]. cbn [stable]. split; [apply Hk; left; reflexivity|].
  rewrite PInv_S in H. destruct H as (a & Hg & _ & Hb). rewrite ppages_S, Hg in Hk. rewrite Hg.
  destruct (ap_body a) as [l|es]; [exact I|]. destruct Hb as (_ & _ & _ & _ & HC).
  intros e He. destruct (In_nth_error _ _ He) as [j Hj].
  destruct (Forall2_nth_error_l _ _ _ _ _ HC Hj) as (b & _ & HP).
  apply (IH _ _ _ _ _ _ HP); [|lia]. intros x Hx. apply Hk. right. apply in_or_app. destruct Hx as [<-|Hx].
  - left. apply in_map, He.
  - right. apply in_flat_map. exists e. split; assumption.
Qed.

Theorem Inv_swfh : forall h d keep fuel lo hi n,
  Inv h d false lo hi n -> shape_ok n -> (forall x, In x (upages h d n) -> In x keep) -> (h <= fuel)%nat ->
  swfh fuel d keep h lo hi n.
Proof.
  induction h as [|h IH]; intros d keep fuel lo hi n H Hsh Hk Hle; [destruct H|].
  destruct n as [p np o s [l|es] ks].
  - rewrite Inv_leaf_eq in H. destruct H as [Hs Hf]. inversion Hsh as [? ? ? ? ? Hne|]; subst.
    apply swfh_leaf. split; [destruct l; [contradiction|discriminate]|]. split; [exact Hs|].
    rewrite Forall_forall in Hf. exact Hf.
  - rewrite Inv_branch_eq in H. destruct H as (Hne & Hs & Hnd & Hf & [Hndk Hlink] & HC).
    inversion Hsh as [|? ? ? ? ? ? Hshk]; subst.
    assert (Hlo : forall e r, es = e :: r -> lo_le lo (lo0 lo (fst e))).
    { intros e r E. subst es. cbn [map] in Hf. inversion Hf as [|? ? [Hl _] _]; subst. apply lo0_inside, Hl. }
    apply swfh_branch.
    + split; [specialize (Hne eq_refl); destruct es; [contradiction|discriminate]|]. split; [exact Hs|].
      rewrite Forall_forall in Hf. exact Hf.
    + exact Hnd.
    + exact Hndk.
    + intros kd Hkd. rewrite Forall_forall in Hlink. destruct (Hlink kd Hkd) as (key & Hi & Ho).
      exists key. split; assumption.
    + intros l hh e kd Hi Hfk. destruct (chb_cbs _ es (lo0 lo) lo hi HC Hlo l hh e Hi) as (l' & HR & Hll).
      unfold CInv in HR. rewrite Hfk in HR. cbn [fst snd] in HR.
      destruct (EngineMergeFacts.find_kid_In _ _ _ Hfk) as [Hkd _].
      apply IH; [eapply Inv_weaken; [exact Hll|apply hi_le_refl|exact HR]|apply Hshk, Hkd| |lia].
      intros x Hx. apply Hk. cbn [upages]. apply in_flat_map. exists e.
      split; [apply (chb_In_inv _ _ _ _ _ _ Hi)|rewrite Hfk; exact Hx].
    + intros l hh e Hi Hfk. destruct (chb_cbs _ es (lo0 lo) lo hi HC Hlo l hh e Hi) as (l' & HR & Hll).
      unfold CInv in HR. rewrite Hfk in HR. cbn [fst snd] in HR. split.
      * apply (PInv_stable h d keep _ _ _ _ HR); [|lia]. intros x Hx. apply Hk. cbn [upages]. apply in_flat_map.
        exists e. split; [apply (chb_In_inv _ _ _ _ _ _ Hi)|rewrite Hfk; exact Hx].
      * eapply PInv_weaken; [|apply hi_le_refl|exact HR]. exact I.
Qed.

Lemma upages_incl_npages : forall h d n x, In x (upages h d n) -> In x (npages h d n).
Proof.
  induction h as [|h IH]; intros d n x Hx; [destruct Hx|]. destruct n as [p np o s [l|es] ks]; [destruct Hx|].
  rewrite npages_branch_eq. cbn [upages] in Hx. apply in_flat_map in Hx. destruct Hx as (e & He & Hx).
  apply in_or_app. unfold cpages. destruct (find_kid (snd e) ks) as [kd|] eqn:Hfk.
  - right. apply in_flat_map. exists e. split; [exact He|]. rewrite Hfk. apply IH, Hx.
  - destruct Hx as [<-|Hx]; [left; apply in_map, He|right]. apply in_flat_map. exists e.
    split; [exact He|]. rewrite Hfk. exact Hx.
Qed.

Theorem NoDup_npages_upages : forall h d n, NoDup (npages h d n) -> NoDup (upages h d n).
Proof.
  induction h as [|h IH]; intros d n H; [constructor|]. destruct n as [p np o s [l|es] ks]; [constructor|].
  rewrite npages_branch_eq in H. apply NoDup_app_iff in H. destruct H as (HA & HC & HD). cbn [upages].
  assert (HU : forall e x, In e es ->
            In x (match find_kid (snd e) ks with Some kd => upages h d kd | None => snd e :: ppages h d (snd e) end) ->
            x = snd e \/ In x (cpages h d ks (snd e))).
  { intros e x He Hx. unfold cpages. destruct (find_kid (snd e) ks) as [kd|].
    - right. apply upages_incl_npages, Hx.
    - destruct Hx as [<-|Hx]; [left; reflexivity|right; exact Hx]. }
  apply NoDup_flat_map_intro.
  - apply NoDup_map_snd_NoDup, HA.
  - intros e He. pose proof (NoDup_flat_map_elim _ es e HC He) as Hc. unfold cpages in Hc.
    destruct (find_kid (snd e) ks) as [kd|] eqn:Hfk; [apply IH, Hc|]. constructor; [|exact Hc].
    intros Hi. apply (HD (snd e)); [apply in_map, He|]. apply in_flat_map. exists e. split; [exact He|].
    unfold cpages. rewrite Hfk. exact Hi.
  - intros e1 e2 He1 He2 Hne x Hx1 Hx2.
    assert (Hpne : snd e1 <> snd e2) by (intros E; apply Hne; apply (NoDup_map_inj snd es _ _ HA He1 He2 E)).
    destruct (HU e1 x He1 Hx1) as [X1|X1], (HU e2 x He2 Hx2) as [X2|X2].
    + congruence.
    + apply (HD x); [rewrite X1; apply in_map, He1|]. apply in_flat_map. exists e2. split; assumption.
    + apply (HD x); [rewrite X2; apply in_map, He2|]. apply in_flat_map. exists e1. split; assumption.
    + apply (NoDup_flat_map_disj _ es e1 e2 HC He1 He2 Hne x X1 X2).
Qed.

(* the invariant of a bucket's root node after rebalance gives the hypotheses of [spill_root_wf] *)
Corollary RInv_swfh h d s keep fuel n :
  RInv h d s false n -> shape_ok n -> (forall x, In x (upages h d n) -> In x keep) -> (h <= fuel)%nat ->
  swfh fuel d keep h None None n /\ NoDup (upages h d n).
Proof.
  intros (Hi & Hn & _) Hsh Hk Hle. split; [apply Inv_swfh; assumption|apply NoDup_npages_upages, Hn].
Qed.

Print Assumptions PInv_tighten.
Print Assumptions PInv_apply_wr_keep.
Print Assumptions leaf_tail_wf.
Print Assumptions branch_tail_wf.
Print Assumptions spill_node_spec2.
Print Assumptions spill_node_wf.
Print Assumptions spill_leaf_wf.
Print Assumptions root_loop2.
Print Assumptions spill_root_wf_levels.
Print Assumptions spill_root_wf.
Print Assumptions spill_root_empty_wf.
Print Assumptions spill_root_wf_committed.
Print Assumptions Inv_swfh.
Print Assumptions NoDup_npages_upages.
Print Assumptions RInv_swfh.
Print Assumptions Examples.ex_leaf_wf.
Print Assumptions Examples.ex_root_wf.
Print Assumptions Examples.ex_root_levels_wf.
