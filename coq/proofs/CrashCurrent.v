(* instances of the crash theorems for the commit order the translator read from the CURRENT source
   (gen/Consts.v commit_order). These lemmas are the proof obligations that break when write_data's
   order changes (e.g. the sync between data and header is dropped). *)
From Coq Require Import List NArith String.
From Jamm Require Import Bytes Consts PL Crash CrashFacts.
Import ListNotations.

Lemma current_has_barrier : has_barrier commit_order = true.
Proof. vm_compute. reflexivity. Qed.
Lemma current_io_shape : forall written,
  commit_io written = map IoData written ++ [IoSync; IoHeader; IoSync].
Proof. intro written. cbv [commit_io commit_io_of commit_order flat_map step_io String.eqb Ascii.eqb Bool.eqb app]. reflexivity. Qed.
Lemma current_ends_with_sync : forall written, last (commit_io written) IoHeader = IoSync.
Proof.
  intro written. rewrite current_io_shape.
  change [IoSync; IoHeader; IoSync] with ([IoSync; IoHeader] ++ [IoSync]).
  rewrite app_assoc. apply last_last.
Qed.

Theorem power_current : forall d cur newh t written, commit_setting d cur newh t written ->
  forall n fates, pre_or_post d cur newh t written
    (power_image t newh (negb (current_slot d)) d (commit_io written) n fates).
Proof.
  intros. unfold commit_io. eapply C02_power; eauto using current_has_barrier, order_no_data_after_header.
Qed.

Theorem durable_current : forall d cur newh t written, commit_setting d cur newh t written ->
  let ios := commit_io written in forall fates,
  let img := power_image t newh (negb (current_slot d)) d ios (List.length ios) fates in
  select img = Some newh /\ intact (orig_new d t written) img newh.
Proof.
  intros d cur newh t written H. unfold commit_io.
  eapply C02_durable; eauto using current_has_barrier.
  apply current_ends_with_sync.
Qed.

(* C11: under the repaired rule (commit publishes its free list whenever the new header is the visible one:
   [mem_after true]) the in-memory free list is the one of the header the next transaction reads *)
Lemma mem_consistent_repaired : forall d cur newh t written, commit_setting d cur newh t written ->
  forall img, pre_or_post d cur newh t written img ->
  mem_consistent img cur newh (mem_after true false img newh).
Proof.
  intros d cur newh t written S img H.
  assert (Hne : h_tx cur <> h_tx newh).
  { destruct S as [_ Htx Hlt _ _ _]. rewrite Htx. intro E. rewrite E in Hlt. apply N.lt_irrefl in Hlt. exact Hlt. }
  unfold mem_consistent, mem_after. split; intro Hs; rewrite Hs.
  - rewrite N.eqb_refl. reflexivity.
  - destruct (N.eqb_spec (h_tx cur) (h_tx newh)) as [E|E]; [contradiction|reflexivity].
Qed.

(* the hypothesis is the generated flag; [current_publishes_on_visible] discharges it for the current source *)
Theorem fault_mem_current : forall d cur newh t written, commit_setting d cur newh t written ->
  publish_on_visible_header = true ->
  forall k f, let img := fault_image t newh (negb (current_slot d)) d (commit_io written) k f in
  pre_or_post d cur newh t written img /\
  mem_consistent img cur newh (mem_after publish_on_visible_header false img newh).
Proof.
  intros d cur newh t written S Hp k f img. split.
  - apply C11_disk_current; assumption.
  - rewrite Hp. eapply mem_consistent_repaired; eauto. apply C11_disk_current; assumption.
Qed.

Lemma current_publishes_on_visible : publish_on_visible_header = true.
Proof. reflexivity. Qed.

(* the pinned behaviour (publish only after full success) is inconsistent when the final sync fails *)
Theorem fault_mem_pinned_refuted :
  exists d cur newh t written k f, commit_setting d cur newh t written /\
    let img := fault_image t newh (negb (current_slot d)) d (commit_io written) k f in
    select img = Some newh /\ mem_after false false img newh = MemOld.
Proof.
  exists ex_d, ex_cur, ex_newh, 2%N, [4%N; 5%N], 4%nat, Applied.
  split; [exact ex_setting|]. vm_compute. split; reflexivity.
Qed.
