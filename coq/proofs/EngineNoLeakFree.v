(* Completeness of the page walk of delete_bucket: [free_tree] hands back EVERY page run of the footprint of
   the deleted bucket (its own tree, overflow pages, every nested bucket). Converse of EngineOwnOps.free_tree_foot. *)
From Coq Require Import List NArith Bool Arith Lia ZifyN ZifyNat ZifyBool.
From Coq.Strings Require Import Byte.
From Jamm Require Spec.
From Jamm Require Import Bytes BytesFacts Tree Cursor SearchFacts Engine EngineAbs EngineFacts EngineMergeFacts.
From Jamm Require Import EngineModifyFacts EngineSpillFacts EnginePathFacts EngineBridgeFacts EngineRebalanceFacts.
From Jamm Require FreelistFacts EngineAllocFacts EngineSpillWfFacts.
From Jamm Require Import EngineTxInvFacts EngineSpillBucketFacts EngineRefines.
From Jamm Require Import EngineOwnDefs EngineOwnWr EngineOwnOps.
Import ListNotations.
Import Coq.Strings.String.StringSyntax. Delimit Scope string_scope with string.
Local Open Scope list_scope. Local Open Scope nat_scope.
Set Warnings "-abstract-large-number".

(* head page x is reachable from head page q: through branch entries and through nested-bucket entries *)
Inductive breach (d : disk) : N -> N -> Prop :=
| br_self : forall q, breach d q q
| br_kid : forall q a es e x, dget d q = Some a -> ap_body a = Branches es -> In e es ->
    breach d (snd e) x -> breach d q x
| br_sub : forall q a l k r nx x, dget d q = Some a -> ap_body a = Leaves l -> In (LBk k r nx) l ->
    breach d r x -> breach d q x.

Lemma breach_trans : forall d a b c, breach d a b -> breach d b c -> breach d a c.
Proof.
  intros d a b c H. induction H as [q | q a0 es e x Hg Hb He _ IH | q a0 l k r nx x Hg Hb He _ IH]; intros Hc.
  - exact Hc.
  - eapply br_kid; eauto.
  - eapply br_sub; eauto.
Qed.

Lemma subtree_breach : forall d q x, in_subtree d q x -> breach d q x.
Proof.
  intros d q x H. induction H as [q | q a es e x Hg Hb He _ IH]; [apply br_self | eapply br_kid; eauto].
Qed.

(* an entry listed by [page_ents] sits in a leaf page of the subtree *)
Lemma page_ents_leaf_in : forall f d r e, In e (page_ents f d r) ->
  exists q a l, in_subtree d r q /\ dget d q = Some a /\ ap_body a = Leaves l /\ In e l.
Proof.
  induction f as [|f IH]; intros d r e H; [destruct H|]. cbn [page_ents] in H.
  destruct (dget d r) as [a|] eqn:Hg; [|destruct H]. destruct (ap_body a) as [l|es] eqn:Hb.
  - exists r, a, l. split; [apply ist_self | auto].
  - apply in_flat_map in H. destruct H as (e0 & He0 & H). destruct (IH d (snd e0) e H) as (q & a' & l & Hs & Hq & Hl & Hin).
    exists q, a', l. split; [eapply ist_kid; eauto | auto].
Qed.

(* every head page of the footprint is reachable *)
Lemma fpg_breach : forall n d r q, In q (fpg n d r) -> breach d r q.
Proof.
  induction n as [|n IH]; intros d r q H; [destruct H|]. rewrite fpg_S in H. apply in_app_or in H. destruct H as [H|H].
  - destruct H as [<-|H]; [apply br_self|]. apply subtree_breach. eapply ppages_subtree; eauto.
  - apply in_flat_map in H. destruct H as ([k v|k r' nx] & He & H); [destruct H|].
    destruct (page_ents_leaf_in _ _ _ _ He) as (q0 & a & l & Hs & Hg & Hb & Hin).
    eapply breach_trans; [apply subtree_breach; exact Hs|]. eapply br_sub; eauto.
Qed.

Lemma free_tree_mono : forall fuel d stack s s1, free_tree fuel d stack s = Ok s1 ->
  forall x, freed_in_tx s x = true -> freed_in_tx s1 x = true.
Proof.
  induction fuel as [|f IH]; intros d stack s s1 H x Hx; cbn [free_tree] in H; [discriminate|].
  destruct stack as [|p rest]; [inversion H; subst; exact Hx|].
  destruct (dget d p) as [a|]; [|discriminate]. eapply IH; [exact H|]. apply free_pages_freed. now left.
Qed.

(* the walk hands back the run of every page reachable from the stack *)
Theorem free_tree_complete : forall fuel d stack s s1, free_tree fuel d stack s = Ok s1 ->
  forall p q x, In p stack -> breach d p q -> In x (prun d q) -> freed_in_tx s1 x = true.
Proof.
  induction fuel as [|f IH]; intros d stack s s1 H p q x Hp Hq Hx; cbn [free_tree] in H; [discriminate|].
  destruct stack as [|p0 rest]; [destruct Hp|].
  destruct (dget d p0) as [a|] eqn:Hg; [|discriminate].
  destruct Hp as [<-|Hp].
  2:{ eapply (IH _ _ _ _ H p q x); [apply in_or_app; now right | exact Hq | exact Hx]. }
  inversion Hq as [q0 | q0 a0 es e x0 Hg0 Hb0 He Hr | q0 a0 l k r nx x0 Hg0 Hb0 He Hr]; subst.
  - eapply free_tree_mono; [exact H|]. apply free_pages_freed. right. unfold prun in Hx. rewrite Hg in Hx.
    apply In_nrun in Hx. exact Hx.
  - rewrite Hg in Hg0. inversion Hg0; subst a0. rewrite Hb0 in H.
    eapply (IH _ _ _ _ H (snd e) q x); [|exact Hr | exact Hx].
    apply in_or_app. left. apply -> in_rev. now apply in_map.
  - rewrite Hg in Hg0. inversion Hg0; subst a0. rewrite Hb0 in H.
    eapply (IH _ _ _ _ H r q x); [|exact Hr | exact Hx].
    apply in_or_app. left. apply -> in_rev. apply in_flat_map. exists (LBk k r nx). split; [exact He | now left].
Qed.

(* ... in particular the whole footprint of the bucket rooted at r *)
Corollary free_tree_foot_complete : forall fuel d n r s s1, free_tree fuel d [r] s = Ok s1 ->
  forall x, In x (foot d n r) -> freed_in_tx s1 x = true.
Proof.
  intros fuel d n r s s1 H x Hx. unfold foot in Hx. destruct (r =? 0)%N; [destruct Hx|].
  apply In_runs in Hx. destruct Hx as (q & Hq & Hx).
  eapply (free_tree_complete _ _ _ _ _ H r q x); [now left | eapply fpg_breach; eauto | exact Hx].
Qed.

Print Assumptions free_tree_foot_complete.
