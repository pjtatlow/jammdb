(* Carried head pages: every head page of the NEW committed tree that the transaction did not write is a head page
   of the OLD committed tree.  This discharges the hypothesis [carried] of [EngineFallback.commit_holds_new] for the
   transactions of the engine ([run_tx]).
   The page-level statement of [TreeOK] ("every page of the new tree lies in a written run or in the old footprint")
   does not give it (an old overflow page could become a head page); it is a HEAD-level fact that [spill_bucket]
   establishes: a third induction over [spill_bucket] (after [RecOwn_all] and [RecCov_all]), with the postcondition
   "in every later state of the transaction, every head page of the new tree is written or a page of [keep]". *)
From Coq Require Import List NArith Bool Arith Lia ZifyN ZifyNat ZifyBool.
From Coq.Strings Require Import Byte.
From Jamm Require Spec.
From Jamm Require Import ListFacts Bytes BytesFacts Tree Cursor SearchFacts Engine EngineAbs EngineFacts EngineMergeFacts.
From Jamm Require Import EngineModifyFacts EngineSpillFacts EnginePathFacts EngineBridgeFacts EngineRebalanceFacts.
From Jamm Require FreelistFacts EngineAllocFacts EngineSpillWfFacts.
From Jamm Require Import EngineTxInvFacts EngineSpillBucketFacts EngineRefines.
From Jamm Require Import EngineOwnDefs EngineOwnWr EngineOwnOps EngineOwnReb EngineOwnSpill EngineOwnLnk EngineAllocInv.
From Jamm Require Import EngineNoLeakWr EngineNoLeakNode EngineNoLeakCov EngineNoLeakSpill EngineCow.
From Jamm Require EngineFallback.
Import ListNotations.
Import Coq.Strings.String.StringSyntax. Delimit Scope string_scope with string.
Local Open Scope list_scope. Local Open Scope nat_scope.
Set Warnings "-abstract-large-number".

Section SpillHead.
Variables (d : disk) (keep L : list N).
Hypothesis HC : closedR d keep.
Hypothesis Hz : dget d 0%N = None.
Hypothesis HkL : forall q x, In q keep -> In x (prun d q) -> In x L.

Notation ldisk := (later_disk d).

(* every head page of the bucket tree rooted at r on the disk of the later state s is written or kept *)
Definition HeadsOK (n : nat) (s : txs) (r : N) : Prop :=
  forall h, In h (fpg n (ldisk s) r) -> wr_get (wr s) h <> None \/ In h keep.

Definition HeadPost (n : nat) (live : list N) (s : txs) (res : N * N * txs * list bytes) : Prop :=
  let '(r, _, s', _) := res in
  exists alloc dead, frame live s s' alloc dead /\
    Later live alloc s' (fun s4 => cpres n (ldisk s4) r -> HeadsOK n s4 r).

Definition RecHead (rec : bucket -> txs -> list bytes -> res (N * N * txs * list bytes)) : Prop :=
  forall n live b s ord res r0 m, n <= fuel0 ->
    fresh_inv live s -> (forall x, In x L -> In x live) -> unwritten keep s ->
    wr_ok L s -> pend_ok0 s -> pend_ids_ok s ->
    SReady d keep b -> OvlAbs d b m -> SReadyX d keep b ->
    OwnI d n s b r0 -> Lnk d n b r0 -> incl (foot d n r0) L ->
    (forall q, wr_get (wr s) q <> None -> In q live) ->
    rec b s ord = Ok res -> HeadPost n live s res.

(* [RecHead] without its premise on the write set, which no step of the proof needs *)
Definition RecHd (rec : bucket -> txs -> list bytes -> res (N * N * txs * list bytes)) : Prop :=
  forall n live b s ord res r0 m, n <= fuel0 ->
    fresh_inv live s -> (forall x, In x L -> In x live) -> unwritten keep s ->
    wr_ok L s -> pend_ok0 s -> pend_ids_ok s ->
    SReady d keep b -> OvlAbs d b m -> SReadyX d keep b ->
    OwnI d n s b r0 -> Lnk d n b r0 -> incl (foot d n r0) L ->
    rec b s ord = Ok res -> HeadPost n live s res.

(* a kept committed tree on a later disk: its head pages are pages of keep *)
Lemma kept_heads : forall n s r, unwritten keep s -> In r keep -> HeadsOK n s r.
Proof.
  intros n s r Hu Hr h Hh. right.
  rewrite (fpg_kept d (ldisk s) keep HC (fun x => later_disk_kept d keep s x Hu) n r Hr) in Hh.
  exact (fpg_incl_keep d keep HC n r Hr h Hh).
Qed.

(* the bucket that is not dirty *)
Lemma head_clean : forall n live b s ord, n <= fuel0 -> fresh_inv live s -> (forall x, In x L -> In x live) ->
  unwritten keep s -> is_dirty fuel0 b = false -> In (b_root_page b) keep ->
  HeadPost n live s (b_root_page b, b_next b, s, ord).
Proof.
  intros n live b s ord Hn Hfi HLl Hu Ed Hin.
  cbn [HeadPost]. exists [], []. split; [now apply frame_refl|].
  intros s2 a2 d2 Hf2 _. cbn [app] in Hf2.
  pose proof (keep_live d keep L HkL live HLl) as Hkl.
  pose proof (frame_unwritten _ _ _ _ _ keep Hfi Hf2 Hkl Hu) as Hu2.
  now apply kept_heads.
Qed.

Lemma head_assemble : forall n' live s s1 A D (ms : list meta) (l : list leafent) s3 alloc dead p nx ord,
  fresh_inv live s -> (forall x, In x L -> In x live) -> unwritten keep s ->
  frame live s s1 A D ->
  Forall (fun m : meta => Later live A s1 (fun s4 => cpres n' (ldisk s4) (snd (fst m)) -> HeadsOK n' s4 (snd (fst m)))) ms ->
  frame (A ++ live) s1 s3 alloc dead ->
  (forall k r nx, In (LBk k r nx) l -> find (fun m : meta => beq (m_name m) k) ms = None -> In r keep) ->
  Later live (alloc ++ A) s3 (fun s4 => cpres (S n') (ldisk s4) p ->
     page_ents fuel0 (ldisk s4) p = map (patch ms) l /\
     (forall q, In q (p :: ppages fuel0 (ldisk s4) p) -> wr_get (wr s4) q <> None \/ In q keep)) ->
  HeadPost (S n') live s (p, nx, s3, ord).
Proof.
  intros n' live s s1 A D ms l s3 alloc dead p nx ord Hfi HLl Hunw Hfr Hms Hf3 Hunp Hown.
  cbn [HeadPost]. exists (alloc ++ A), (D ++ dead). pose proof (frame_trans _ _ _ _ _ _ _ _ Hfr Hf3) as Hf13.
  split; [exact Hf13|].
  intros s4 a2 d2 Hf4 Hc.
  destruct (Hown s4 a2 d2 Hf4 Hc) as (Epe & O1).
  pose proof (keep_live d keep L HkL live HLl) as Hkl.
  pose proof (frame_trans _ _ _ _ _ _ _ _ Hf13 Hf4) as Hf14.
  pose proof (frame_unwritten _ _ _ _ _ keep Hfi Hf14 Hkl Hunw) as Hu4.
  assert (Hf34 : frame (A ++ live) s1 s4 (a2 ++ alloc) (dead ++ d2)).
  { rewrite <- app_assoc in Hf4. eapply frame_trans; eauto. }
  cbn [cpres] in Hc. destruct Hc as [Hpp Hcall]. rewrite Epe in Hcall. rewrite Forall_forall in Hcall.
  intros h Hh. rewrite fpg_S in Hh. apply in_app_or in Hh. destruct Hh as [Hh|Hh]; [exact (O1 h Hh)|].
  rewrite Epe in Hh. apply in_flat_map in Hh. destruct Hh as (e' & He' & Hh).
  pose proof (Hcall e' He') as Hce. apply in_map_iff in He'. destruct He' as (e & Ee & He).
  destruct e as [k v|k r0 nx0]; [cbn [patch] in Ee; subst e'; destruct Hh|].
  cbn [patch] in Ee. destruct (find (fun m : meta => beq (m_name m) k) ms) as [[[k1 r1] nx1]|] eqn:Ef.
  - subst e'. apply find_some in Ef. destruct Ef as [Hm _]. rewrite Forall_forall in Hms.
    exact (Hms _ Hm s4 _ _ Hf34 Hce h Hh).
  - subst e'. exact (kept_heads n' s4 r0 Hu4 (Hunp k r0 nx0 He Ef) h Hh).
Qed.


Definition SubInvH (n' : nat) (live : list N) (s : txs) (ms : list meta) (s0 : txs) : Prop :=
  exists A D, frame live s s0 A D /\
    Forall (fun m : meta => Later live A s0 (fun s4 => cpres n' (ldisk s4) (snd (fst m)) -> HeadsOK n' s4 (snd (fst m)))) ms.

Section SubFoldH.
Variables (n' : nat) (live : list N) (s : txs) (l : list leafent) (subs : list (bytes * bucket)) (r0 : N).
Variable rec : bucket -> txs -> list bytes -> res (N * N * txs * list bytes).
Hypothesis HRc : RecHd rec.
Hypothesis Hn' : n' <= fuel0.
Hypothesis Hfi : fresh_inv live s.
Hypothesis HLl : forall x, In x L -> In x live.
Hypothesis Hunw : unwritten keep s.
Hypothesis HfootL : incl (foot d (S n') r0) L.
Hypothesis Hent : forall e, In e l -> incl (efoot d n' e) (foot d (S n') r0).
Hypothesis Hent2 : forall e1 e2, In e1 l -> In e2 l -> lkey e1 <> lkey e2 -> disj (efoot d n' e1) (efoot d n' e2).
Hypothesis Hsubs : forall nm sb, In (nm, sb) subs ->
  SReady d keep sb /\ (exists ms, OvlAbs d sb ms) /\ SReadyX d keep sb /\
  exists ro nxo, In (LBk nm ro nxo) l /\ OwnI d n' s sb ro /\ Lnk d n' sb ro.

Lemma sub_step_invH : forall ms s0 nm sb o r nx s' o', In (nm, sb) subs -> ~ In nm (map m_name ms) ->
  SubInvO d L n' live s l ms s0 -> SubInvH n' live s ms s0 ->
  rec sb s0 o = Ok (r, nx, s', o') -> SubInvH n' live s (ms ++ [(nm, r, nx)]) s'.
Proof.
  intros ms s0 nm sb o r nx s' o' Hin Hfresh HI HIc Hrec.
  destruct (Hsubs nm sb Hin) as (HS & [msb Hmsb] & HSX & ro & nxo & Hlro & HOw & HLk).
  destruct (sub_call_own d L Hz n' live s l r0 Hfi HLl HfootL Hent Hent2 ms s0 nm sb ro nxo Hfresh HI Hlro HOw) as [HroL HOw0].
  destruct HI as (_ & _ & _ & _ & Hw0 & Hp0 & Hi0 & _).
  destruct HIc as (A' & D' & Hfr' & Hheads).
  assert (HL' : forall y, In y L -> In y (A' ++ live)) by (intros y Hy; apply in_or_app; right; now apply HLl).
  pose proof (keep_live d keep L HkL live HLl) as Hkl.
  pose proof (HRc n' (A' ++ live) sb s0 o _ ro msb Hn' (fr_fresh _ _ _ _ _ Hfr') HL'
                 (frame_unwritten _ _ _ _ _ keep Hfi Hfr' Hkl Hunw) Hw0 Hp0 Hi0 HS Hmsb HSX HOw0 HLk HroL Hrec) as HP.
  cbn [HeadPost] in HP. destruct HP as (a1 & d1 & Hf1 & HW1).
  exists (a1 ++ A'), (D' ++ d1).
  split; [eapply frame_trans; eauto|].
  apply Forall_app. split.
  - rewrite Forall_forall in Hheads. apply Forall_forall. intros m Hm.
    exact (Henceforth_later live A' s0 s' a1 d1 _ Hf1 (Hheads m Hm)).
  - constructor; [|constructor]. cbn [m_name fst snd]. exact (Henceforth_app _ _ _ _ _ HW1).
Qed.
End SubFoldH.


(* the materialised, non-empty root: every head page of the new own tree is written, or an unloaded (kept) page *)
Lemma tail_rdy_head : forall live' s2 h rn lv p s3,
  fresh_inv live' s2 -> (forall x, In x keep -> In x live') -> unwritten keep s2 ->
  Inv h d false None None rn -> Rdy d keep rn -> NodeView d h rn lv -> h <= fuel0 ->
  incl (npages h d rn) keep -> NoDup (npages h d rn) ->
  spill_root fuel0 rn s2 = Ok (p, s3) ->
  exists alloc dead, frame live' s2 s3 alloc dead /\
    forall s4 a2 d2, frame (alloc ++ live') s3 s4 a2 d2 -> pages_present fuel0 (ldisk s4) p ->
      page_ents fuel0 (ldisk s4) p = lv /\
      (forall q, In q (p :: ppages fuel0 (ldisk s4) p) -> wr_get (wr s4) q <> None \/ In q keep).
Proof.
  intros live' s2 h rn lv p s3 Hfi2 Hk1 Hu2 HI HRd HV Hh Hinc Hnp Hsp.
  pose proof (Rdy_shape_ok _ _ _ _ _ _ HI HRd) as Hsh.
  assert (Hup : forall x, In x (upages h d rn) -> In x keep).
  { intros x Hx. apply Hinc. now apply EngineSpillWfFacts.upages_incl_npages. }
  pose proof (EngineSpillWfFacts.Inv_swfh h d keep h None None rn HI Hsh Hup (le_n h)) as Hsw.
  pose proof (EngineSpillWfFacts.NoDup_npages_upages h d rn Hnp) as Hund.
  destruct (spill_root_wfw h d keep live' fuel0 rn s2 p s3 h Hfi2 Hk1 Hsw Hund Hsp)
    as (alloc & dead & good & lv0 & F1 & F2 & F3 & _ & F6 & Hfin).
  exists alloc, dead. split; [exact F1|].
  intros s4 a2 d2 Hf4 Hp.
  destruct (frame_later_ok _ _ _ _ _ good keep s4 a2 d2 Hfi2 F1 F2 Hk1 Hu2 Hf4) as [G1 G2].
  destruct (Hfin (wr s4) (psz s4) G1 G2) as (R1 & R2 & R3 & R5). cbv zeta in *. fold (later_disk d s4) in *.
  set (d4 := later_disk d s4) in *. set (H := lv0 + h) in *.
  assert (Epp : ppages fuel0 d4 p = ppages H d4 p).
  { pose proof (EngineSpillWfFacts.PInv_present _ _ _ _ _ _ R1) as Hph.
    rewrite <- (ppages_present_stable fuel0 d4 p Hp (Nat.max H fuel0) ltac:(lia)).
    apply (ppages_present_stable H d4 p Hph). lia. }
  split.
  - rewrite (NodeView_view_leaves d h rn _ HV h (le_n h)) in R5.
    eapply PageView_det; [apply page_ents_PageView; exact Hp | exact R5].
  - rewrite Epp. intros q Hq. destruct (R3 q Hq) as [[_ Hwq]|Huq]; [now left | right; now apply Hup].
Qed.

(* the root that is the empty leaf: one written page *)
Lemma tail_empty_head : forall live' s2 rn p s3,
  fresh_inv live' s2 -> n_data rn = Leaves [] -> spill_root fuel0 rn s2 = Ok (p, s3) ->
  exists alloc dead, frame live' s2 s3 alloc dead /\
    forall s4 a2 d2, frame (alloc ++ live') s3 s4 a2 d2 ->
      page_ents fuel0 (ldisk s4) p = [] /\
      (forall q, In q (p :: ppages fuel0 (ldisk s4) p) -> wr_get (wr s4) q <> None \/ In q keep).
Proof.
  intros live' s2 rn p s3 Hfi2 Hemp Hsp.
  destruct (spill_root_empty_w live' fuel0 rn s2 p s3 Hfi2 Hemp Hsp) as (np & v & F1 & Hnp & Hget & Hbody).
  exists (nrun p np), (old_pages rn). split; [exact F1|].
  intros s4 a2 d2 Hf4.
  assert (Hp_al : In p (nrun p np)) by (apply In_nrun; lia).
  assert (Hget4 : wr_get (wr s4) p = Some v).
  { rewrite (fr_wr _ _ _ _ _ Hf4); [exact Hget|]. intros Hi.
    apply (frame_new _ _ _ _ _ p (fr_fresh _ _ _ _ _ F1) Hf4 Hi). apply in_or_app. now left. }
  assert (Hg4 : dget (ldisk s4) p = Some (mk_apage (psz s4) v)) by (apply dget_apply_wr_some, Hget4).
  assert (Epp : ppages fuel0 (ldisk s4) p = []).
  { unfold fuel0. rewrite EngineSpillWfFacts.ppages_S, Hg4. cbn [mk_apage ap_body]. now rewrite Hbody. }
  split.
  - unfold fuel0. eapply page_ents_leaf; [exact Hg4 | exact Hbody].
  - rewrite Epp. intros q [<-|[]]. left. congruence.
Qed.


Lemma RecHd_step : forall f, RecHd (spill_bucket f d) -> RecHd (spill_bucket (S f) d).
Proof.
  intros f HRc n live b s ord res r0 m Hn Hfi HLl Hu Hw Hp0 Hpid HS HO HSX HOw HLk HfL H.
  pose proof (keep_live d keep L HkL live HLl) as Hkl.
  pose proof (RecOwn_all d keep L HC Hz HkL f) as HR.
  destruct (is_dirty fuel0 b) eqn:Ed.
  2:{ rewrite (spill_bucket_clean _ _ _ _ _ Ed) in H. inversion H; subst res.
      inversion HSX as [b0 _ Hsb Hin | b0 Hd]; subst b0; [|congruence]. eapply head_clean; eauto. }
  destruct n as [|n']; [destruct HOw|].
  destruct (SReady_dirty_inv d keep b m HS HO Ed) as (h & l & ents & Hh & HV & HD & Hnd & Hsubs & Hdisk & _).
  destruct (own_dirty_inv d keep Hz n' s b r0 h l Ed HSX HOw HLk Hh HV Hsubs)
    as (HXR & _ & _ & Hpg & Hnb & _ & _ & _ & E3 & E4 & Hsubs4 & Hun).
  assert (Hn' : n' <= fuel0) by (clear - Hn; lia).
  pose proof (fun e He => proj1 (E3 e He)) as E3'.
  destruct (spill_bucket_dirty_inv d keep f b s ord res h l
              (fun ms s0 => SubInvO d L n' live s l ms s0 /\ SubInvH n' live s ms s0) Ed Hh HV HD Hnd
              (fun nm sb Hin => proj1 (Hsubs nm sb Hin)))
    as (metas & s1 & ord1 & [_ (A & D & Hfr & Hheads)] & J3 & Hcov & Hallm & HT); [| |exact H|].
  { split; [exact (SubInvO_start d L n' live s l Hfi Hw Hp0 Hpid)|].
    exists [], []. split; [now apply frame_refl | constructor]. }
  { intros ms s0 nm sb o r nx s' o' Hin Hfresh [HIo HIh] Hrec. split.
    - exact (sub_step_invO d keep L Hz HkL n' live s l (b_subs b) r0 _ HR Hn' Hfi HLl Hu HfL E3' E4 Hsubs4 ms s0 nm sb o r nx s' o' Hin Hfresh HIo Hrec).
    - exact (sub_step_invH n' live s l (b_subs b) r0 _ HRc Hn' Hfi HLl Hu HfL E3' E4 Hsubs4 ms s0 nm sb o r nx s' o' Hin Hfresh HIo HIh Hrec). }
  assert (Hunp : forall k r1 nx1, In (LBk k r1 nx1) l -> find (fun m : meta => beq (m_name m) k) metas = None ->
            In r1 keep).
  { intros k r1 nx1 Hin Hfd. exact (proj1 (Hun k r1 nx1 Hin (unpatched_unopened _ _ _ Hcov Hfd))). }
  pose proof (fr_fresh _ _ _ _ _ Hfr) as Hfi1.
  pose proof (frame_unwritten _ _ _ _ _ keep Hfi Hfr Hkl Hu) as Hu1.
  assert (Hk1 : forall x, In x keep -> In x (A ++ live)) by (intros y Hy; apply in_or_app; right; now apply Hkl).
  destruct HT as [Ern -> HD1 HVp | b1 s2 rn p s3 HSR Hf2 B1 Ern B6 HI HRd B2 Hsp].
  - (* the promoted root that was never loaded *)
    apply (head_assemble n' live s s1 A D [] l s1 [] [] (b_root_page b) (b_next b) ord1 Hfi HLl Hu Hfr Hheads
             (frame_refl _ _ Hfi1) Hunp).
    intros s4 a2 d2 Hf4 Hc. cbn [app] in Hf4.
    pose proof (frame_unwritten _ _ _ _ _ keep Hfi1 Hf4 Hk1 Hu1) as Hu4.
    assert (Hag : forall x, in_subtree d (b_root_page b) x -> dget (ldisk s4) x = dget d x).
    { intros x Hx. apply (later_disk_kept d keep s4 x Hu4), HD1, Hx. }
    rewrite (ppages_transfer d (ldisk s4) fuel0 _ Hag), (page_ents_transfer d (ldisk s4) fuel0 _ Hag).
    rewrite (PageView_page_ents _ _ _ _ HVp fuel0 Hh), patch_nil. split; [reflexivity|].
    intros q Hq. right. apply HD1. destruct Hq as [<-|Hq]; [apply ist_self | eapply ppages_subtree; eauto].
  - destruct (spilled_root_heads d keep HC Hz h b l metas s1 b1 s2 rn HSR HV Hh J3 Hallm Hf2 B1 Ern HXR Hpg) as (Hinc & Hpg1 & Ebo).
    change (bheads d b = hdl rn ++ npages h d rn) in Ebo.
    pose proof (frame_seqc_r _ _ _ _ _ _ Hfr B6) as Hfr02. pose proof (fr_fresh _ _ _ _ _ Hfr02) as Hfi2.
    pose proof (frame_unwritten _ _ _ _ _ keep Hfi Hfr02 Hkl Hu) as Hu2.
    destruct HRd as [Hemp | HRdy].
    + assert (El : map (patch metas) l = []) by (eapply NodeView_empty_leaf; eauto).
      destruct (tail_empty_head (A ++ live) s2 rn p s3 Hfi2 Hemp Hsp) as (alloc & dead & F1 & Hlater).
      pose proof (frame_seqc_l _ _ _ _ _ _ B6 F1) as F1'.
      apply (head_assemble n' live s s1 A D metas l s3 alloc dead p (b_next b) ord1 Hfi HLl Hu Hfr Hheads F1' Hunp).
      intros s4 a2 d2 Hf4 Hc. rewrite <- app_assoc in Hf4.
      destruct (Hlater s4 a2 d2 Hf4) as (Epe & O1). rewrite El. split; [exact Epe | exact O1].
    + assert (Hnp : NoDup (npages h d rn)).
      { unfold bown in Hnb. rewrite Ebo in Hnb. apply NoDup_runs_heads in Hnb. eapply NoDup_app_r; eauto. }
      destruct (tail_rdy_head (A ++ live) s2 h rn _ p s3 Hfi2 Hk1 Hu2 HI HRdy B2 Hh Hinc Hnp Hsp)
        as (alloc & dead & F1 & Hlater).
      pose proof (frame_seqc_l _ _ _ _ _ _ B6 F1) as F1'.
      apply (head_assemble n' live s s1 A D metas l s3 alloc dead p (b_next b) ord1 Hfi HLl Hu Hfr Hheads F1' Hunp).
      intros s4 a2 d2 Hf4 Hc. rewrite <- app_assoc in Hf4.
      assert (Hp : pages_present fuel0 (ldisk s4) p) by (cbn [cpres] in Hc; apply Hc).
      exact (Hlater s4 a2 d2 Hf4 Hp).
Qed.

Lemma RecHd_all : forall f, RecHd (spill_bucket f d).
Proof.
  induction f as [|f IH]; [|now apply RecHd_step].
  intros n live b s ord res r0 m _ _ _ _ _ _ _ _ _ _ _ _ _ H. discriminate.
Qed.

Lemma RecHead_all : forall f, RecHead (spill_bucket f d).
Proof.
  intros f n live b s ord res r0 m Hn Hfi HLl Hu Hw Hp0 Hpid HS HO HSX HOw HLk HfL _. eapply RecHd_all; eassumption.
Qed.

End SpillHead.

Theorem run_tx_write_set_carried : forall st ops ord st', db_okz st -> Forall (op_ok (d_disk st)) ops ->
  run_tx st ops ord = Ok st' ->
  exists w, tx_cow st st' w /\
    (readable st' ->
       (forall x, In x (live_of st' (Rof st')) -> written st st' w x \/ In x (live_of st (Rof st))) /\
       EngineFallback.carried st st' w).
Proof.
  intros st ops ord st' Hok Hops Hrun.
  destruct (run_tx_final st ops ord st' Hok Hops Hrun)
    as (root' & s' & b1 & s1 & r & nx & s2 & ord' & flp & fln & s4 & alloc & Dall & RD & HLx & Hfi & Hsp & Hal & Est & _ & C & Hnew).
  exists (wr s4). split; [exact C|]. intros Hrd. split; [exact (Hnew Hrd)|].
  (* the head-level fact of the spill, in the final state s4 *)
  destruct Hok as [(_ & HA & _) Hz]. destruct HA as (_ & _ & _ & _ & _ & _ & _ & HCR & _).
  destruct RD as [_ _ _ _ _ Hwr _ _ _ _ Hids _ Hp0 _ HS HO HSX HOwn HL].
  assert (HkL : forall q x, In q (Rof st) -> In x (prun (d_disk st) q) -> In x (held st)).
  { intros q x Hq Hx. apply HLx. unfold live_of. apply in_or_app. left. apply in_flat_map. eauto. }
  assert (HfL : incl (foot (d_disk st) 16 (d_root st)) (held st)) by (intros x Hx; apply HLx; now apply foot_live).
  assert (H16 : 16 <= fuel0) by (unfold fuel0; lia).
  assert (Hu : unwritten (Rof st) s1) by (intros x _; rewrite Hwr; reflexivity).
  destruct (RecHd_all (d_disk st) (Rof st) (held st) HCR Hz HkL fuel0 16 (held st) b1 s1 ord (r, nx, s2, ord') (d_root st) _ H16
              Hfi (fun x Hx => Hx) Hu (wr_ok_nil _ s1 Hwr) Hp0 Hids HS HO HSX HOwn HL HfL Hsp) as (allocH & deadH & F1H & HLater).
  destruct (commit_tail_frame (allocH ++ held st) _ _ _ _ _ _ (fr_fresh _ _ _ _ _ F1H) Hal) as [G4 _].
  subst st'. unfold readable in Hrd. cbn [d_disk d_root] in Hrd.
  intros p Hp Hg. unfold Rof at 1 in Hp. cbn [d_disk d_root] in Hp.
  destruct (HLater s4 _ _ G4 Hrd p Hp) as [Hw|Hk]; [contradiction | exact Hk].
Qed.

(* The write set is [wr s4], the final write set of the transaction ([EngineCow.run_tx_final]).
   [forall w, tx_cow st st' w -> carried st st' w] is NOT claimed: [tx_cow] only fixes the resulting disk, and
   a write set from which an entry that rewrites a stale page with its old image has been dropped yields the same
   disk while that (new, written) head page is no old head page. *)
Theorem run_tx_carried : forall st ops ord st', db_okz st -> Forall (op_ok (d_disk st)) ops ->
  run_tx st ops ord = Ok st' -> readable st' ->
  exists w, tx_cow st st' w /\ EngineFallback.carried st st' w.
Proof.
  intros st ops ord st' Hok Hops Hrun Hrd.
  destruct (run_tx_write_set_carried st ops ord st' Hok Hops Hrun) as (w & C & H).
  exists w. split; [exact C | exact (proj2 (H Hrd))].
Qed.

(* The file after a commit of the engine, as an in-place update of a file that holds st, holds st' (and
   still holds st), and has the length of st'. *)
Theorem run_tx_commit_holds : forall st ops ord st' pad P F,
  db_okz st -> Forall (op_ok (d_disk st)) ops -> run_tx st ops ord = Ok st' -> readable st' ->
  EngineFileImage.phys_ok P st -> EngineFileImage.phys_ok P st' -> EngineFileImage.tree_fits P st' ->
  List.length F = N.to_nat (d_np st * P) -> EngineFallback.holds pad P F st ->
  exists w, tx_cow st st' w /\ EngineFallback.carried st st' w /\ db_okz st' /\
    (EngineFallback.writes_fit P st w ->
     let C := EngineFallback.commit_image pad P F st st' w in
     EngineFallback.holds pad P C st' /\ EngineFallback.holds pad P C st /\
     List.length C = N.to_nat (d_np st' * P)).
Proof.
  intros st ops ord st' pad P F Hok Hops Hrun Hrd Hph Hph' Hfit' HlenF HF.
  destruct (run_tx_carried st ops ord st' Hok Hops Hrun Hrd) as (w & HC & Hcar).
  destruct (run_tx_refines' st ops ord st' Hok Hops Hrun Hrd) as [Hok' _].
  exists w. split; [exact HC|]. split; [exact Hcar|]. split; [exact Hok'|].
  intros Hwf C.
  pose proof (EngineFileImage.phys_ok_pos P st Hph) as HP.
  split; [exact (EngineFallback.commit_holds_new pad P F st st' w HP Hok Hok' Hph Hph' HC Hwf HlenF HF Hcar Hfit')|].
  split; [exact (EngineFallback.commit_holds_old pad P F st st' w HP Hok Hok' Hph Hph' HC Hwf HlenF HF)|].
  exact (EngineFallback.commit_length pad P F st st' w HP Hok' Hph' HC Hwf HlenF).
Qed.

(* the other header slot of the commit image holds the header of the previous state, which is older *)
Lemma commit_other_slot : forall pad P F st st' w, (0 < P)%N -> tx_cow st st' w ->
  List.length F = N.to_nat (d_np st * P) ->
  EngineFallback.holds pad P (EngineFallback.commit_image pad P F st st' w) st ->
  EngineFallback.other_slot_ok P (EngineFallback.commit_image pad P F st st' w) st'.
Proof.
  intros pad P F st st' w HP HC HlenF Hold.
  apply (EngineFallback.older_other_slot pad P _ st st' (EngineFallback.slots_differ st st' w HC)); [|exact Hold].
  rewrite (tc_tx _ _ _ HC). lia.
Qed.

(* For the invariant of histories: the IN-PLACE UPDATED file after a commit of the engine holds the new
   state, is accepted by the file checker, and the new state satisfies the invariant again -- so this can be
   iterated along a history, starting from [file_image] of the initial state ([EngineFallback.file_image_holds]). *)
Theorem run_tx_commit_checked : forall st ops ord st' pad P F,
  EngineReopen.db_inv st -> Forall (op_ok (d_disk st)) ops -> run_tx st ops ord = Ok st' -> readable st' ->
  EngineFileImage.phys_ok P st -> EngineFileImage.phys_ok P st' -> EngineFileImage.tree_fits P st' ->
  List.length F = N.to_nat (d_np st * P) -> EngineFallback.holds pad P F st ->
  exists w, tx_cow st st' w /\ EngineFallback.carried st st' w /\ EngineReopen.db_inv st' /\
    (EngineFallback.writes_fit P st w ->
     let C := EngineFallback.commit_image pad P F st st' w in
     EngineFallback.holds pad P C st' /\ List.length C = N.to_nat (d_np st' * P) /\
     Tree.inv_check (Codec.reader_of C) P = Codec.Ok tt /\ CheckM.check_m (Codec.reader_of C) P = Codec.Ok tt).
Proof.
  intros st ops ord st' pad P F Hinv Hops Hrun Hrd Hph Hph' Hfit' HlenF HF.
  destruct (EngineReopen.db_inv_facts st Hinv) as (_ & Hok & _).
  destruct (EngineReopen.run_tx_inv st ops ord st' Hinv Hops Hrun Hrd) as [Hinv' _].
  destruct (EngineReopen.db_inv_facts st' Hinv') as (Hrec' & _ & Hokd' & _).
  pose proof (EngineFileImage.inv_flids_NoDup st' Hinv') as Hnd'.
  destruct (run_tx_commit_holds st ops ord st' pad P F Hok Hops Hrun Hrd Hph Hph' Hfit' HlenF HF)
    as (w & HC & Hcar & Hok' & Hrest).
  exists w. split; [exact HC|]. split; [exact Hcar|]. split; [exact Hinv'|].
  intros Hwf C. destruct (Hrest Hwf) as (Hnew & Hold & Hlen). fold C in Hnew, Hold, Hlen.
  pose proof (EngineFileImage.phys_ok_pos P st Hph) as HP.
  split; [exact Hnew|]. split; [exact Hlen|].
  exact (EngineFallback.inv_check_holds st' pad P C Hrec' Hokd' Hnd' Hph' Hnew
           (commit_other_slot pad P F st st' w HP HC HlenF Hold)).
Qed.

Print Assumptions RecHead_all.
Print Assumptions run_tx_write_set_carried.
Print Assumptions run_tx_carried.
Print Assumptions run_tx_commit_holds.
Print Assumptions run_tx_commit_checked.
