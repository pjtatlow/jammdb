(* The link invariant [Lnk] of the overlay (EngineOwnSpill) holds after the operations and is kept by rebalance, hence
   holds for the overlay that [commit] spills: the premise of [commit_alloc]. *)
From Coq Require Import List NArith Bool Arith Lia ZifyN ZifyNat ZifyBool.
From Coq.Strings Require Import Byte.
From Jamm Require Spec.
From Jamm Require Import ListFacts Bytes BytesFacts Tree Cursor SearchFacts Engine EngineAbs EngineFacts EngineMergeFacts.
From Jamm Require Import EngineModifyFacts EngineSpillFacts EnginePathFacts EngineBridgeFacts EngineRebalanceFacts.
From Jamm Require FreelistFacts EngineAllocFacts EngineSpillWfFacts.
From Jamm Require Import EngineTxInvFacts EngineSpillBucketFacts EngineRefines.
From Jamm Require Import EngineOwnDefs.
From Jamm Require Import EngineOwnOps EngineOwnReb EngineOwnSpill.
Import ListNotations.
Import Coq.Strings.String.StringSyntax. Delimit Scope string_scope with string.
Local Open Scope list_scope. Local Open Scope nat_scope.
Set Warnings "-abstract-large-number".

(* [closedR d R] is not used by the proof; it is kept so that the statement matches the context in which [XDF]
   is available *)
Theorem ops_Lnk : forall d R k n s b r0, closedR d R -> SDeep d s b -> XDF d R k b -> OwnS d n s b r0 -> Lnk d n b r0.
Proof.
  intros d R k n. revert k. induction n as [|n IH]; intros k s b r0 HC HD HX HO; [exact I|].
  destruct (SDeep_inv _ _ _ HD) as (h & l & HL & (_ & HS2 & _)).
  destruct (XDF_inv _ _ _ _ _ _ _ HX HL) as (f' & Ek & _ & HN & _ & _ & HF).
  pose proof (BLoc_bucket_view _ _ _ _ _ HL) as Hv.
  pose proof (BLoc_sorted _ _ _ _ _ HL) as Hsorted.
  destruct (OwnS_inv _ _ _ _ _ _ HO Hv) as (Hrp & _ & _ & _ & _ & _ & _ & _ & E).
  cbn [Lnk]. split; [intros Hd; split; [now apply HN | exact Hrp]|].
  intros k0 sb Hin l2 r nx Hv2 He. rewrite (bucket_view_det _ _ _ _ Hv2 Hv) in He.
  destruct (E k0 sb Hin) as (r' & nx' & He' & HO').
  pose proof (same_key_same_entry l _ _ Hsorted He He' eq_refl) as Eq. inversion Eq; subst r' nx'.
  rewrite Forall_forall in HS2, HF.
  destruct (HS2 _ Hin) as [_ HDs]. pose proof (HF _ Hin) as HXs. cbn [snd] in HDs, HXs.
  exact (IH f' s sb r HC HDs HXs HO').
Qed.

(* the general form, against [Deep] of EngineRebalanceFacts: rebalance keeps every view list and the names of the
   opened sub-buckets; a bucket that was rebalanced is dirty *)
Lemma rebalance_Lnk_deep : forall d f fv n s b v r0 b' s', Deep fv d s b v -> Lnk d n b r0 ->
  rebalance f d b s = Ok (b', s') -> Lnk d n b' r0.
Proof.
  intros d. induction f as [|f IH]; intros fv n s b v r0 b' s' HD HLk H; [discriminate|].
  destruct (rebalance_view (S f) fv d s b v b' s' HD H) as (HD' & _ & _).
  destruct fv as [|fv]; [destruct HD|]. destruct v as [l vs]. cbn [Deep] in HD, HD'.
  destruct HD as [HG HS]. destruct HD' as [HG' _].
  pose proof (BGood_bucket_view _ _ _ _ HG) as Hv. pose proof (BGood_bucket_view _ _ _ _ HG') as Hv'.
  rewrite rebalance_S in H. destruct (negb (is_dirty fuel0 b)).
  { inversion H; subst. exact HLk. }
  apply bind_ok_inv in H. destruct H as ([subs' s1] & Ef & H).
  destruct (merge_nodes_fields _ _ _ _ _ H) as (_ & Es & Edt). cbn [b_subs b_dirty] in Es, Edt.
  destruct (reb_fold_each f d (fun s0 x => exists y, Deep fv d s0 (snd x) y)
              (fun x y => fst x = fst y /\ forall m r, Lnk d m (snd x) r -> Lnk d m (snd y) r))
           with (subs := b_subs b) (s0 := s) (subs' := subs') (s1 := s1) as [R1 _].
  - intros s0 s0' x Hle [y Hy]. exists y. eapply Deep_seqc_mono; eauto.
  - intros s0 x bx sx [y Hy] Ex. destruct (rebalance_view f fv d s0 (snd x) y bx sx Hy Ex) as (_ & Tx & _).
    split; [apply (tx_frame_le _ _ Tx)|]. split; [reflexivity|]. cbn [snd]. intros m r Hm. eapply IH; eauto.
  - eapply Forall2_Forall_l; [exact HS|]. intros x y [_ Hy]. eauto.
  - exact Ef.
  - destruct n as [|n]; [exact I|]. cbn [Lnk] in HLk |- *. destruct HLk as [_ HLk2].
    split; [intros Hc; rewrite Edt in Hc; discriminate|].
    intros k sb' Hin l2 r nx Hv2 He. rewrite Es in Hin. rewrite (bucket_view_det _ _ _ _ Hv2 Hv') in He.
    destruct (Forall2_In_r _ _ _ _ R1 Hin) as ([k0 sb] & Hin0 & Ek & Hp). cbn [fst snd] in Ek, Hp. subst k0.
    apply Hp. exact (HLk2 k sb Hin0 l r nx Hv He).
Qed.

Theorem rebalance_Lnk : forall d f fv n s b r0 b' s', SDeepF fv d s b -> Lnk d n b r0 ->
  rebalance f d b s = Ok (b', s') -> Lnk d n b' r0.
Proof.
  intros d f fv n s b r0 b' s' HD HLk H. destruct (SDeepF_Deep _ _ _ _ HD) as [v Hv].
  eapply rebalance_Lnk_deep; eauto.
Qed.

Theorem run_Lnk : forall st ops root' s' b1 s1, db_ok' st -> Forall (op_ok (d_disk st)) ops ->
  tx_fold st ops (root_bucket st, begin_w st) = Ok (root', s') ->
  rebalance fuel0 (d_disk st) root' s' = Ok (b1, s1) -> Lnk (d_disk st) 16 b1 (d_root st).
Proof.
  intros st ops root' s' b1 s1 Hok _ Hf Hr. pose proof Hok as (Hs & Ha & _ & _).
  pose proof Ha as (_ & _ & _ & _ & _ & _ & _ & HC & _).
  destruct (tx_fold_ownS st ops root' s' Hok Hf) as (HO & _).
  pose proof (tx_ops_SDeep' st ops root' s' Hs Hf) as HD.
  pose proof (tx_ops_XDF st (Rof st) ops root' s' Hs Ha Hf) as HX.
  pose proof (ops_Lnk _ _ _ _ _ _ _ HC HD HX HO) as HL.
  destruct HD as [fv HD]. eapply rebalance_Lnk; eauto.
Qed.

Print Assumptions ops_Lnk.
Print Assumptions rebalance_Lnk.
Print Assumptions run_Lnk.
