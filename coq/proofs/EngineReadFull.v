(* The full read-half invariant on reachable states.
   EngineReadBridge shows that the tree [tree_of] of a strict page ([PInv]) passes the read half's checker
   [Tree.wf_tree] minus its equal-height conjunct ([wf_tree_nh]), and that [PInv] / [db_okz] alone do not give that
   conjunct. EngineDepth / EngineSpillDepth show that the uniform-depth invariant [PDp] / [dbk] / [db_depth] holds of
   every reachable state. This file joins the two: [PInv] + [PDp] give [Tree.wf_tree], for every bucket reached by a path
   after any history, and the tree verdict [Tree.bucket_wf] of the file checker accepts the file image of every
   reachable state. *)
From Coq Require Import List NArith Bool Arith Lia ZifyN ZifyNat ZifyBool.
From Coq.Strings Require Import Byte.
From Jamm Require Spec Tree Cursor Codec CodecFacts BytesFacts.
From Jamm Require Import ListFacts Bytes SearchFacts CursorFacts SeekFacts.
From Jamm Require Import Engine EngineAbs EngineFacts EngineSpillFacts EngineModifyFacts EngineBridgeFacts EngineRebalanceFacts.
From Jamm Require Import EngineTxInvFacts EngineRefines EngineOwnDefs EngineOwnSpill EngineAllocInv.
From Jamm Require Import EngineDepth EngineSpillDepth EngineReadBridge.
Import ListNotations.
Import NH.
Local Open Scope list_scope. Local Open Scope nat_scope.
Set Warnings "-abstract-large-number".

Lemma fold_max_const : forall (ks : list (bytes * tree)) m, ks <> [] ->
  Forall (fun kt => Tree.height (snd kt) = m) ks ->
  fold_right (fun (kt : bytes * tree) acc => Nat.max (Tree.height (snd kt)) acc) 0 ks = m.
Proof.
  induction ks as [|kt ks IH]; intros m Hne HF; [congruence|].
  pose proof (Forall_inv HF) as Hx. pose proof (Forall_inv_tail HF) as Hr. cbn beta in Hx.
  cbn [fold_right]. destruct ks as [|kt' ks'].
  - cbn [fold_right]. lia.
  - rewrite (IH m); [lia | discriminate | exact Hr].
Qed.

Lemma uniform_TB_intro : forall p o (ks : list (bytes * tree)) m,
  Forall (fun kt => uniform (snd kt) = true /\ Tree.height (snd kt) = m) ks -> uniform (TB p o ks) = true.
Proof.
  intros p o ks m HF. cbn [uniform]. apply andb_true_iff. split.
  - apply forallb_forall. rewrite Forall_forall in HF. intros kt Hin. exact (proj1 (HF kt Hin)).
  - destruct ks as [|[k c] ks']; [reflexivity|]. pose proof (proj2 (Forall_inv HF)) as Hc.
    pose proof (Forall_inv_tail HF) as Hr. cbn [snd] in Hc.
    apply forallb_forall. rewrite Forall_forall in Hr. intros kt Hin. apply Nat.eqb_eq.
    rewrite (proj2 (Hr kt Hin)). now rewrite Hc.
Qed.

(* [PDp]'s height is [Tree.height] + 1 (a leaf has [PDp]-height 1, [Tree.height] 0) *)
Theorem PDp_uniform : forall h G d q f t, PDp G h d q -> tree_of f d q = Some t ->
  no_empty_branch t = true -> uniform t = true /\ S (Tree.height t) = h.
Proof.
  induction h as [|h IH]; intros G d q f t HP Ht Hneb; [destruct HP|].
  rewrite PDp_S in HP. destruct HP as (a & Hg & Hb). destruct f as [|f]; [discriminate|].
  destruct (ap_body a) as [l|es] eqn:Eb.
  - rewrite (tree_of_leaf f d q a l Hg Eb) in Ht. inversion Ht; subst t. destruct Hb as [-> _].
    split; reflexivity.
  - destruct Hb as [Hh HF]. destruct (tree_of_branch_inv f d q a es t Hg Eb Ht) as (ks & -> & H2).
    cbn [no_empty_branch] in Hneb. apply andb_true_iff in Hneb. destruct Hneb as [Hne Hall].
    assert (Hks : ks <> []) by (destruct ks; [discriminate | discriminate]).
    assert (Hc : Forall (fun kt : bytes * tree => uniform (snd kt) = true /\ Tree.height (snd kt) = pred h) ks).
    { clear Hne Hks Ht Eb Hg. rewrite forallb_forall in Hall.
      induction H2 as [|e kt es ks [_ He] _ IH2]; constructor.
      - inversion HF as [|? ? Hx _]; subst.
        destruct (IH G d (snd e) f (snd kt) Hx He (Hall kt (or_introl eq_refl))) as [U E]. split; [exact U | lia].
      - inversion HF as [|? ? _ Hr]; subst. apply IH2; [exact Hr|]. intros x Hx. apply Hall. now right. }
    split; [eapply uniform_TB_intro; exact Hc|].
    cbn [Tree.height]. rewrite (fold_max_const ks (pred h) Hks); [lia|].
    eapply Forall_impl; [|exact Hc]. cbn beta. intros kt [_ E]. exact E.
Qed.

Corollary PDp_wf_tree : forall h G d q f t, PDp G h d q -> tree_of f d q = Some t ->
  wf_tree_nh t = true -> Tree.wf_tree t = true /\ S (Tree.height t) = h.
Proof.
  intros h G d q f t HP Ht Hwf. destruct (PDp_uniform h G d q f t HP Ht) as [Hu Hh].
  { apply wf_nh_neb. unfold wf_tree_nh in Hwf. apply andb_true_iff in Hwf. tauto. }
  split; [now apply wf_tree_of_nh | exact Hh].
Qed.

(* the side condition [no_empty_branch] cannot be dropped: [PDp] alone allows an EMPTY branch page at any height >= 2 *)
Module EmptyBranch.
Local Open Scope N_scope.
Definition ka : bytes := ["a"%byte]. Definition kc : bytes := ["c"%byte].
(* root 3 = branch over the EMPTY branch 4 and the branch 5; 5 over branch 6; 6 over leaf 7 *)
Definition dsk : disk :=
  [ (3, {| ap_over := 0; ap_body := Branches [(ka, 4); (kc, 5)] |});
    (4, {| ap_over := 0; ap_body := Branches [] |});
    (5, {| ap_over := 0; ap_body := Branches [(kc, 6)] |});
    (6, {| ap_over := 0; ap_body := Branches [(kc, 7)] |});
    (7, {| ap_over := 0; ap_body := Leaves [LKv kc [x02]] |}) ].
Definition tr : tree :=
  TB 3 0 [(ka, TB 4 0 []); (kc, TB 5 0 [(kc, TB 6 0 [(kc, TL 7 0 [EKv kc [x02]])])])].
Definition uniform_tr := Eval vm_compute in uniform tr.          (* = false *)
Definition height_4 := Eval vm_compute in Tree.height (TB 4 0 []). (* = 1, whereas PDp says 3 *)
End EmptyBranch.

(* the statement "PDp G h d q -> tree_of f d q = Some t -> uniform t = true" is false, and so is the height relation *)
Example PDp_alone_not_uniform :
  PDp (fun _ => True) 4 EmptyBranch.dsk 3%N /\
  bucket_tree EmptyBranch.dsk 3%N = Some EmptyBranch.tr /\
  uniform EmptyBranch.tr = false /\
  PDp (fun _ => True) 3 EmptyBranch.dsk 4%N /\ tree_of 1 EmptyBranch.dsk 4%N = Some (TB 4%N 0%N []) /\
  S (Tree.height (TB 4%N 0%N [])) <> 3.
Proof.
  split; [|split; [vm_compute; reflexivity|split; [vm_compute; reflexivity|split; [|split; [vm_compute; reflexivity|cbn; lia]]]]].
  - rewrite PDp_S. eexists. split; [reflexivity|]. cbn [ap_body]. split; [discriminate|].
    constructor; [|constructor; [|constructor]]; cbn [snd]; rewrite PDp_S.
    + eexists. split; [reflexivity|]. cbn [ap_body]. split; [discriminate | constructor].
    + eexists. split; [reflexivity|]. cbn [ap_body]. split; [discriminate|]. constructor; [|constructor]. cbn [snd].
      rewrite PDp_S. eexists. split; [reflexivity|]. cbn [ap_body]. split; [discriminate|]. constructor; [|constructor].
      cbn [snd]. rewrite PDp_S. eexists. split; [reflexivity|]. cbn [ap_body]. split; [reflexivity|]. repeat constructor.
  - rewrite PDp_S. eexists. split; [reflexivity|]. cbn [ap_body]. split; [discriminate | constructor].
Qed.

Theorem PDp_PInv_wf_tree : forall h' d lo hi ok q G h f t, PInv h' d lo hi ok q -> PDp G h d q ->
  tree_of f d q = Some t -> Tree.wf_tree t = true /\ S (Tree.height t) = h.
Proof.
  intros h' d lo hi ok q G h f t HI HD Ht.
  exact (PDp_wf_tree h G d q f t HD Ht (PInv_wf_tree_nh h' d lo hi ok q f t HI Ht)).
Qed.

(* the exact height is at most the bound [PInv] carries *)
Lemma PDp_PInv_le : forall h' d lo hi ok q G h, PInv h' d lo hi ok q -> PDp G h d q -> h <= h'.
Proof.
  induction h' as [|h' IH]; intros d lo hi ok q G h HI HD; [destruct HI|].
  destruct h as [|h]; [lia|]. cbn [PInv] in HI. rewrite PDp_S in HD.
  destruct HI as (a & Hg & _ & Hb). destruct HD as (a' & Hg' & Hb'). rewrite Hg in Hg'. inversion Hg'; subst a'.
  destruct (ap_body a) as [l|es].
  - destruct Hb' as [-> _]. lia.
  - destruct Hb as (Hne & _ & _ & _ & HC). destruct Hb' as [_ HF].
    destruct es as [|e es]; [congruence|]. inversion HC as [|? b ? ? Hx _]; subst.
    pose proof (Forall_inv HF) as Hy. cbn beta in Hy. specialize (IH _ _ _ _ _ _ _ Hx Hy). lia.
Qed.

Definition lent_okG (G : N -> Prop) (e : lent) : Prop := match e with EBk _ r _ => G r | EKv _ _ => True end.

(* the bucket entries of the decoded tree name roots that satisfy [G] *)
Lemma PDp_flatten_ok : forall G h d q f t, PDp G h d q -> tree_of f d q = Some t -> Forall (lent_okG G) (flatten t).
Proof.
  intros G h d q f t HD Ht. destruct (tree_of_PageView f d q t Ht) as (l & Hv & Hfl). rewrite Hfl.
  pose proof (PDp_view G h d q f l HD Hv) as HF. apply Forall_forall. intros x Hx.
  apply in_map_iff in Hx. destruct Hx as (e & <- & He). rewrite Forall_forall in HF. specialize (HF e He).
  destruct e as [k v|k r nx]; exact HF.
Qed.

Theorem bucket_full : forall n m d r, sbk n d r -> dbk m d r ->
  exists t, bucket_tree d r = Some t /\ Tree.wf_tree t = true.
Proof.
  intros [|n] [|m] d r Hs Hd; try (destruct Hs; fail); try (destruct Hd; fail).
  destruct (sbk_bucket n d r Hs) as (t & l & Ht & Hwf & _). cbn [dbk] in Hd. destruct Hd as [h Hd].
  exists t. split; [exact Ht|]. exact (proj1 (PDp_wf_tree h _ d r fuel0 t Hd Ht Hwf)).
Qed.

(* following a path ([root_at], the cursor's own descent by names) keeps both invariants *)
Lemma root_at_okd : forall path n m d r r', sbk n d r -> dbk m d r -> root_at d r path = Some r' ->
  (exists n', sbk n' d r') /\ (exists m', dbk m' d r').
Proof.
  induction path as [|nm rest IH]; intros n m d r r' Hs Hd H.
  - cbn [root_at] in H. inversion H; subst r'. eauto.
  - destruct n as [|n]; [destruct Hs|]. destruct m as [|m]; [destruct Hd|].
    destruct (sbk_bucket n d r Hs) as (t & l & Ht & Hwf & Hfl & _ & _ & HF).
    cbn [dbk] in Hd. destruct Hd as [h Hd].
    cbn [root_at] in H. rewrite Ht, (get_ent_spec_nh t nm Hwf) in H.
    destruct (find (fun e => beq (lent_key e) nm) (flatten t)) as [e|] eqn:Ef; [|discriminate].
    apply find_some in Ef. destruct Ef as [Hin _].
    destruct e as [k v|k r0 nx]; [discriminate|].
    pose proof (PDp_flatten_ok _ h d r fuel0 t Hd Ht) as HG. rewrite Forall_forall in HG.
    pose proof (HG _ Hin) as Hd0. cbn [lent_okG] in Hd0.
    rewrite Hfl in Hin. apply in_map_iff in Hin. destruct Hin as (e & Ee & He).
    rewrite Forall_forall in HF. specialize (HF e He). destruct e as [k' v'|k' r1 nx']; [discriminate|].
    cbn [ent_of] in Ee. inversion Ee; subst k' r1 nx'. exact (IH n m d r0 r' HF Hd0 H).
Qed.

(* EVERY BUCKET the engine state holds -- whatever path of names leads to it -- passes the full checker *)
Theorem state_buckets_full : forall st, db_okd st ->
  forall path r, root_at (d_disk st) (d_root st) path = Some r ->
  exists t, bucket_tree (d_disk st) r = Some t /\ Tree.wf_tree t = true.
Proof.
  intros st [Hok [m Hd]] path r H. pose proof (db_okz_strict st Hok) as Hs.
  destruct (root_at_okd path 16 m _ _ r Hs Hd H) as [[n' Hs'] [m' Hd']]. eapply bucket_full; eauto.
Qed.

(* [EngineReadBridge.state_read] with the full invariant *)
Theorem state_read_full : forall st path, db_okd st ->
  match Spec.get_at path (abs_db st) with
  | Some (Spec.SBucket o x es) =>
      exists r t, root_at (d_disk st) (d_root st) path = Some r /\ bucket_tree (d_disk st) r = Some t /\
        Tree.wf_tree t = true /\ cursor_agrees t (Spec.SBucket o x es)
  | _ => root_at (d_disk st) (d_root st) path = None
  end.
Proof.
  intros st path Hokd. pose proof (state_read st path (db_okz_strict st (proj1 Hokd))) as H.
  destruct (Spec.get_at path (abs_db st)) as [[v|o x es]|]; try exact H.
  destruct H as (r & Hr & t & Ht & Hwf & Hag). exists r, t. split; [exact Hr|]. split; [exact Ht|].
  split; [|exact Hag]. destruct (state_buckets_full st Hokd path r Hr) as (t' & Ht' & Hfull).
  rewrite Ht in Ht'. inversion Ht'; subst t'. exact Hfull.
Qed.

(* any history from the empty database: [EngineReadBridge.history_read] with [Tree.wf_tree] *)
Theorem history_read_full : forall P txs st', (0 < P)%N -> txs_ok' (init_db P) txs ->
  run_txs (init_db P) txs = Engine.Ok st' ->
  forall path,
  match Spec.get_at path (sem_txs txs (Spec.SBucket 0 0 [])) with
  | Some (Spec.SBucket o x es) =>
      exists r t, root_at (d_disk st') (d_root st') path = Some r /\ bucket_tree (d_disk st') r = Some t /\
        Tree.wf_tree t = true /\ cursor_agrees t (Spec.SBucket o x es)
  | _ => root_at (d_disk st') (d_root st') path = None
  end.
Proof.
  intros P txs st' HP Htx Hrun path.
  destruct (run_txs_refines_init' P txs st' HP Htx Hrun) as [_ Habs].
  pose proof (run_txs_okd txs _ _ (init_db_okd P HP) Htx Hrun) as Hokd.
  rewrite <- Habs. exact (state_read_full st' path Hokd).
Qed.

(* ... and for every bucket the engine state holds, reference or not *)
Corollary history_buckets_full : forall P txs st', (0 < P)%N -> txs_ok' (init_db P) txs ->
  run_txs (init_db P) txs = Engine.Ok st' ->
  forall path r, root_at (d_disk st') (d_root st') path = Some r ->
  exists t, bucket_tree (d_disk st') r = Some t /\ Tree.wf_tree t = true.
Proof.
  intros P txs st' HP Htx Hrun. apply state_buckets_full.
  exact (run_txs_okd txs _ _ (init_db_okd P HP) Htx Hrun).
Qed.

Module FullExamples.
Import Ex3 ExHistory.

(* the nested bucket kb/km after the two-transaction history: the full checker accepts its tree, and the cursor on
   it answers as the reference does *)
Example hist_full_km : exists r t,
  root_at (d_disk hist_st) (d_root hist_st) [kb; km] = Some r /\ bucket_tree (d_disk hist_st) r = Some t /\
  Tree.wf_tree t = true /\ Cursor.get t ke = Some (Spec.IKv ke [x04]) /\
  Cursor.scan t = Cursor.CVal [Spec.IKv ke [x04]].
Proof.
  pose proof (history_read_full 4096 hist hist_st eq_refl hist_ok' hist_run_ok [kb; km]) as H.
  assert (E : Spec.get_at [kb; km] (sem_txs hist (Spec.SBucket 0 0 [])) = Some (Spec.SBucket 0 1 [(ke, Spec.SVal [x04])]))
    by (vm_compute; reflexivity).
  rewrite E in H. destruct H as (r & t & Hr & Ht & Hwf & Hget & Hscan & _). exists r, t.
  rewrite !Hget, Hscan. repeat split; auto.
Qed.

(* every bucket of [hist_st], by the theorem *)
Example hist_all_full : forall path r, root_at (d_disk hist_st) (d_root hist_st) path = Some r ->
  exists t, bucket_tree (d_disk hist_st) r = Some t /\ Tree.wf_tree t = true.
Proof. exact (history_buckets_full 4096 hist hist_st eq_refl hist_ok' hist_run_ok). Qed.

(* the three buckets of [hist_st], evaluated *)
Example hist_full_eval :
  option_map Tree.wf_tree (bucket_tree (d_disk hist_st) (d_root hist_st)) = Some true /\
  option_map Tree.wf_tree (bucket_tree (d_disk hist_st) 3) = Some true /\
  option_map Tree.wf_tree (bucket_tree (d_disk hist_st) 2) = Some true.
Proof. vm_compute. repeat split; reflexivity. Qed.
End FullExamples.

(* The file checker's tree verdict on the file image of a reachable state.
    [Tree.bucket_wf fuel rd P np root] (the tree part of [Tree.inv_check]) builds every bucket's tree with fuel
    [N.to_nat np] (np = the number of pages of the file) and follows nested buckets with fuel [fuel]
    ([inv_check] passes [N.to_nat np] for it too).  Both fuels suffice: a tree of exact height h has h distinct head
    pages, a nesting chain of k buckets k distinct roots, all of them are among the pairwise distinct reachable
    head pages [Rof st], and those are below the high-water mark [d_np st]. *)

(* the tree is already built with fuel = the exact height *)
Lemma PDp_tree_of_exact : forall h G d q f t, PDp G h d q -> tree_of f d q = Some t -> tree_of h d q = Some t.
Proof.
  induction h as [|h IH]; intros G d q f t HP Ht; [destruct HP|].
  rewrite PDp_S in HP. destruct HP as (a & Hg & Hb). destruct f as [|f]; [discriminate|].
  destruct (ap_body a) as [l|es] eqn:Eb.
  - rewrite (tree_of_leaf f d q a l Hg Eb) in Ht. rewrite <- Ht. eapply tree_of_leaf; eauto.
  - destruct Hb as [_ HF]. destruct (tree_of_branch_inv f d q a es t Hg Eb Ht) as (ks & -> & H2).
    eapply tree_of_branch_intro; eauto. clear Ht Eb Hg.
    induction H2 as [|e kt es ks [E1 E2] _ IH2]; constructor.
    + split; [exact E1|]. eapply IH; [exact (Forall_inv HF) | exact E2].
    + apply IH2. exact (Forall_inv_tail HF).
Qed.

(* a strict tree of exact height h has at least h head pages *)
Lemma PInv_PDp_pages : forall h' d lo hi ok q G h f, PInv h' d lo hi ok q -> PDp G h d q -> h <= f ->
  h <= S (List.length (ppages f d q)).
Proof.
  induction h' as [|h' IH]; intros d lo hi ok q G h f HI HD Hf; [destruct HI|].
  destruct h as [|h]; [lia|]. destruct f as [|f]; [lia|]. cbn [PInv] in HI. rewrite PDp_S in HD.
  destruct HI as (a & Hg & _ & Hb). destruct HD as (a' & Hg' & Hb'). rewrite Hg in Hg'. inversion Hg'; subst a'.
  cbn [ppages]. rewrite Hg. destruct (ap_body a) as [l|es].
  - destruct Hb' as [-> _]. lia.
  - destruct Hb as (Hne & _ & _ & _ & HC). destruct Hb' as [_ HF].
    destruct es as [|e es]; [congruence|]. pose proof (Forall_inv HF) as Hy. cbn beta in Hy.
    inversion HC as [|? b ? bs Hx _ E1 E2]. clear E1 E2.
    specialize (IH _ _ _ _ _ _ _ f Hx Hy ltac:(lia)).
    rewrite app_length, map_length. cbn [flat_map List.length]. rewrite app_length. lia.
Qed.

(* pigeonhole on page ids *)
Lemma NoDup_N_bound : forall (l : list N) np, NoDup l -> (forall x, In x l -> (x < np)%N) ->
  List.length l <= N.to_nat np.
Proof.
  intros l np Hnd Hlt. rewrite <- (map_length N.to_nat l), <- (seq_length (N.to_nat np) 0).
  apply NoDup_incl_length.
  - apply FinFun.Injective_map_NoDup; [|exact Hnd]. intros x y E. now apply N2Nat.inj.
  - intros x Hx. apply in_map_iff in Hx. destruct Hx as (y & <- & Hy). apply in_seq. specialize (Hlt y Hy). lia.
Qed.

Lemma NoDup_flat_map_heads : forall {A} (f : A -> list A) l, (forall x, In x (f x)) -> NoDup (flat_map f l) -> NoDup l.
Proof.
  intros A f l Hf. induction l as [|a l IH]; intros H; [constructor|]. cbn [flat_map] in H. constructor.
  - intros Hin. apply (NoDup_app_disj _ _ a H (Hf a)). apply in_flat_map. exists a. split; [exact Hin | apply Hf].
  - apply IH. exact (NoDup_app_r _ _ H).
Qed.

(* the reachable head pages are pairwise distinct and below the high-water mark: there are at most [d_np st] *)
Lemma Rof_length : forall st, db_okz st -> List.length (Rof st) <= N.to_nat (d_np st).
Proof.
  intros st [(_ & Hal & Hnd & _) _]. destruct Hal as (_ & _ & _ & _ & _ & _ & _ & _ & Hlive).
  apply NoDup_N_bound.
  - apply (NoDup_flat_map_heads (prun (d_disk st))); [apply In_prun_self|]. exact (NoDup_app_l _ _ Hnd).
  - intros x Hx. apply (Hlive x). now apply R_live.
Qed.

Lemma flat_map_length_In : forall {A B} (f : A -> list B) l x, In x l -> List.length (f x) <= List.length (flat_map f l).
Proof.
  intros A B f l x. induction l as [|a l IH]; intros Hin; [destruct Hin|]. cbn [flat_map]. rewrite app_length.
  destruct Hin as [->|Hin]; [lia|]. specialize (IH Hin). lia.
Qed.

Module FileChecker.
Import Codec CodecFacts BytesLevel.

Lemma Forall2_all_true : forall {A} (f : A -> res bool) l, (forall x, In x l -> f x = Ok true) ->
  Forall2 (fun x y => f x = Ok y) l (map (fun _ => true) l).
Proof.
  intros A f l. induction l as [|a l IH]; intros H; [constructor|]. cbn [map]. constructor.
  - apply H. now left.
  - apply IH. intros x Hx. apply H. now right.
Qed.

Lemma forallb_all_true : forall {A} (l : list A), forallb (fun b : bool => b) (map (fun _ => true) l) = true.
Proof. induction l as [|a l IH]; [reflexivity | exact IH]. Qed.

(* ONE BUCKET WITH EVERYTHING NESTED IN IT: the checker's verdict is [Ok true] as soon as both fuels cover the number
   of head pages of the bucket's footprint *)
Theorem bucket_wf_ok : forall pad rd P d R np, (0 < P)%N -> closedR d R -> file_encodes pad rd P d R ->
  forall n F r m, sbk n d r -> dbk m d r -> In r R ->
    List.length (fpg n d r) <= F -> List.length (fpg n d r) <= N.to_nat np ->
    Tree.bucket_wf F rd P np r = Ok true.
Proof.
  intros pad rd P d R np HP HC HE. induction n as [|n IH]; intros F r m Hs Hd Hr HF Hnp; [destruct Hs|].
  destruct m as [|m]; [destruct Hd|]. cbn [dbk] in Hd. destruct Hd as [h Hd].
  cbn [sbk] in Hs. destruct Hs as (h' & l & Hh & HI & _ & Hv & HFs).
  rewrite fpg_S, app_length in HF, Hnp. cbn [List.length] in HF, Hnp.
  rewrite (PageView_page_ents d h' r l Hv fuel0 Hh) in HF, Hnp.
  destruct F as [|F]; [lia|].
  destruct (PageView_tree d h' r l Hv fuel0 Hh) as (t & Ht & Hfl & _).
  pose proof (PDp_PInv_le h' d None None None r _ h HI Hd) as Hle.
  pose proof (PInv_PDp_pages h' d None None None r _ h fuel0 HI Hd ltac:(lia)) as Hpg.
  pose proof (PDp_tree_of_exact h _ d r fuel0 t Hd Ht) as Hex.
  pose proof (tree_of_mono h d r t Hex (N.to_nat np) ltac:(lia)) as Hnpt.
  pose proof (build_tree_of pad rd P d R HP HC HE (N.to_nat np) r t Hr Hnpt) as Hbt.
  cbn [Tree.bucket_wf]. rewrite Hbt. cbn [bind].
  rewrite (Forall2_mapM _ (flatten t) (map (fun _ => true) (flatten t))).
  - cbn [bind]. rewrite forallb_all_true, andb_true_r. f_equal.
    exact (proj1 (PDp_PInv_wf_tree h' d None None None r _ h fuel0 t HI Hd Ht)).
  - apply Forall2_all_true. intros x Hx. rewrite Hfl in Hx. apply in_map_iff in Hx. destruct Hx as (e & <- & He).
    destruct e as [k v|k r' nx]; cbn [ent_of]; [reflexivity|].
    pose proof (PDp_view _ h d r h' l Hd Hv) as HG. rewrite Forall_forall in HG, HFs.
    pose proof (HG _ He) as Hd'. pose proof (HFs _ He) as Hs'. cbn [ent_ok] in Hd'. cbn beta iota in Hs'.
    pose proof (closed_view_entry d R h' r l k r' nx HC Hr Hv He) as Hr'.
    pose proof (flat_map_length_In (fun e => match e with LBk _ r' _ => fpg n d r' | LKv _ _ => [] end) l _ He) as Hsub.
    cbn beta iota in Hsub. apply (IH F r' m Hs' Hd' Hr'); lia.
Qed.

(* A STATE: any file holding the bytes the model writes for the reachable pages; the fuels are the ones
   [Tree.inv_check] passes (the number of pages, for the tree height and for the nesting) *)
Theorem state_bucket_wf : forall st pad rd P, db_okd st -> (0 < P)%N ->
  file_encodes pad rd P (d_disk st) (Rof st) ->
  Tree.bucket_wf (N.to_nat (d_np st)) rd P (d_np st) (d_root st) = Ok true.
Proof.
  intros st pad rd P [Hok [m Hd]] HP HE. pose proof (db_okz_strict st Hok) as Hs.
  pose proof (Rof_length st Hok) as Hlen. destruct Hok as [(_ & Hal & _) _].
  destruct Hal as (_ & _ & _ & _ & _ & _ & Hroot & HC & _).
  exact (bucket_wf_ok pad rd P (d_disk st) (Rof st) (d_np st) HP HC HE 16 _ (d_root st) m Hs Hd Hroot Hlen Hlen).
Qed.

(* ANY HISTORY, any such file *)
Theorem history_bucket_wf_bytes : forall P0 txs st' pad rd P, (0 < P0)%N -> txs_ok' (init_db P0) txs ->
  run_txs (init_db P0) txs = Engine.Ok st' -> (0 < P)%N ->
  file_encodes pad rd P (d_disk st') (Rof st') ->
  Tree.bucket_wf (N.to_nat (d_np st')) rd P (d_np st') (d_root st') = Ok true.
Proof.
  intros P0 txs st' pad rd P HP0 Htx Hrun HP HE.
  exact (state_bucket_wf st' pad rd P (run_txs_okd txs _ _ (init_db_okd P0 HP0) Htx Hrun) HP HE).
Qed.

(* in closed form: the image of the reachable pages of the committed state after any history; the only
   hypothesis beyond the history is [page_fits] (8-byte fields, node within its page run) *)
Theorem history_bucket_wf : forall P0 txs st' pad P, (0 < P0)%N -> txs_ok' (init_db P0) txs ->
  run_txs (init_db P0) txs = Engine.Ok st' -> (0 < P)%N ->
  (forall p a, In p (Rof st') -> dget (d_disk st') p = Some a -> page_fits P p a) ->
  let rd := reader_of (image pad P (d_disk st') (Rof st') (zeros (N.to_nat (d_np st' * P)))) in
  Tree.bucket_wf (N.to_nat (d_np st')) rd P (d_np st') (d_root st') = Ok true.
Proof.
  intros P0 txs st' pad P HP0 Htx Hrun HP Hfit rd.
  destruct (run_txs_refines_init' P0 txs st' HP0 Htx Hrun) as [Hok _].
  exact (history_bucket_wf_bytes P0 txs st' pad rd P HP0 Htx Hrun HP (image_encodes st' pad P Hok HP Hfit)).
Qed.

(* the file image of the example history *)
Import Ex3 ExHistory BytesExamples.
Example hist_file_bucket_wf :
  Tree.bucket_wf (N.to_nat (d_np hist_st)) (reader_of hist_file) 4096 (d_np hist_st) (d_root hist_st) = Ok true.
Proof. exact (history_bucket_wf 4096 hist hist_st ex_pad 4096 eq_refl hist_ok' hist_run_ok eq_refl hist_fits). Qed.

Example hist_file_bucket_wf_eval :
  Tree.bucket_wf (N.to_nat (d_np hist_st)) (reader_of hist_file) 4096 (d_np hist_st) (d_root hist_st) = Ok true.
Proof. exact hist_file_bucket_wf. Qed.
End FileChecker.

Print Assumptions PDp_uniform.
Print Assumptions PDp_alone_not_uniform.
Print Assumptions PDp_PInv_wf_tree.
Print Assumptions state_buckets_full.
Print Assumptions state_read_full.
Print Assumptions history_read_full.
Print Assumptions history_buckets_full.
Print Assumptions FullExamples.hist_full_km.
Print Assumptions FileChecker.bucket_wf_ok.
Print Assumptions FileChecker.state_bucket_wf.
Print Assumptions FileChecker.history_bucket_wf_bytes.
Print Assumptions FileChecker.history_bucket_wf.
Print Assumptions FileChecker.hist_file_bucket_wf.
