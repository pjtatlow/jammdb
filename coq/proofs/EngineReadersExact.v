(* Nothing is leaked, with readers: the exact page partition ([EngineNoLeakDefs.no_leak]: every page of [2, d_np) is
   live, free or pending) is kept by a writer that respects open readers, whatever its release bound; hence, along
   every history with readers, the free-list record of each committed state lists exactly its non-live pages (C10). *)
From Coq Require Import List NArith Bool Arith Lia ZifyN ZifyNat ZifyBool.
From Coq.Strings Require Import Byte.
From Jamm Require Spec.
From Jamm Require Import Bytes BytesFacts Tree Cursor SearchFacts Engine EngineAbs EngineFacts EngineMergeFacts.
From Jamm Require Import EngineModifyFacts EngineSpillFacts EnginePathFacts EngineBridgeFacts EngineRebalanceFacts.
From Jamm Require FreelistFacts EngineAllocFacts EngineSpillWfFacts.
From Jamm Require Import EngineTxInvFacts EngineSpillBucketFacts EngineRefines.
From Jamm Require Import EngineOwnDefs EngineOwnWr EngineOwnOps EngineOwnReb EngineOwnSpill EngineOwnLnk EngineAllocInv.
From Jamm Require Import EngineNoLeakDefs EngineNoLeakFree EngineNoLeakWr EngineNoLeakNode EngineNoLeakCov.
From Jamm Require Import EngineNoLeakOps EngineNoLeakReb EngineNoLeakSpill EngineNoLeak.
From Jamm Require Import EngineR EngineRSim EngineRBegin EngineReadersInv EngineReaders.
Import ListNotations.
Import Coq.Strings.String.StringSyntax. Delimit Scope string_scope with string.
Local Open Scope list_scope. Local Open Scope nat_scope.
Set Warnings "-abstract-large-number".

Theorem run_tx_r_no_leak : forall st b ops ord st', db_okr st -> no_leak st -> Forall (op_ok (d_disk st)) ops ->
  run_tx_r st b ops ord = Ok st' -> readable st' -> no_leak st'.
Proof.
  intros st b ops ord st' Hokr Hnl Hops Hrun Hrd.
  destruct (run_tx_r_final st b ops ord st' Hokr Hops Hrun)
    as (HLx & _ & s1 & r & nx & s4 & alloc & flp & fln & Dall & X & F).
  pose proof Hokr as [[Hok' Hz] _].
  pose proof (tf_ovl _ _ _ _ _ _ _ _ _ _ _ _ F) as (root' & s' & b1 & m & ord0 & Hreb & Hc & Hfi & Hwr & Hids & Hp0 & HS & HO & HSX & HOwn & HLnk & HCov).
  apply (commit_no_leak st root' s' ord0 st' b1 s1 m Hok' Hz Hreb (fresh_inv_sub _ _ _ HLx Hfi) Hwr Hids Hp0 HS HO HSX
           HOwn HLnk HCov); [|exact Hc | exact Hrd].
  intros x Hx. rewrite (tf_np1 _ _ _ _ _ _ _ _ _ _ _ _ F) in Hx. rewrite (tf_free1 _ _ _ _ _ _ _ _ _ _ _ _ F).
  destruct (kept_suffix st b) as (rel & E & _ & Hin & _).
  destruct (Hnl x Hx) as [A|[A|A]]; [now left | right; left; apply Hin; now left |].
  rewrite E, PLFacts.pend_all_app in A. apply in_app_or in A. destruct A as [A|A].
  - right; left. apply Hin. now right.
  - right; right. exact (tf_kept1 _ _ _ _ _ _ _ _ _ _ _ _ F x A).
Qed.

(* the invariant with the exact partition and the free-list record *)
Definition db_exactr (st : db) : Prop := db_okr st /\ no_leak st /\ flids_ok st.

Lemma db_exactr_rec : forall st, db_exactr st -> db_exact_rec st.
Proof. intros st ((Hokz & _) & Hnl & Hfl). split; [split; assumption | exact Hfl]. Qed.

Lemma init_db_exactr : forall P, (0 < P)%N -> db_exactr (init_db P).
Proof.
  intros P HP. split; [now apply init_db_okr|]. split; [exact (proj2 (init_db_exact P HP)) | apply init_db_flids].
Qed.

Lemma run_tx_r_flids : forall st b ops ord st', run_tx_r st b ops ord = Ok st' -> flids_ok st'.
Proof.
  intros st b ops ord st' H. rewrite run_tx_r_fold in H. apply bind_ok_inv in H. destruct H as ([rb s] & _ & H).
  exact (commit_flids _ _ _ _ _ H).
Qed.

Theorem run_tx_r_exact : forall st b ops ord st', db_exactr st -> Forall (op_ok (d_disk st)) ops ->
  run_tx_r st b ops ord = Ok st' -> readable st' -> db_exactr st' /\ abs_db st' = sem_tx ops (abs_db st).
Proof.
  intros st b ops ord st' (Hokr & Hnl & _) Hops Hrun Hrd.
  destruct (run_tx_r_refines st b ops ord st' Hokr Hops Hrun Hrd) as [Hokr' Habs]. split; [|exact Habs].
  split; [exact Hokr'|].
  split; [exact (run_tx_r_no_leak st b ops ord st' Hokr Hnl Hops Hrun Hrd) | exact (run_tx_r_flids _ _ _ _ _ Hrun)].
Qed.

Theorem hist_exact_run : forall k es h h', (k <= 1)%N -> HInv h -> no_leak (fst h) -> flids_ok (fst h) ->
  hist_ok k h es -> run_hist_k k h es = Ok h' -> HInv h' /\ db_exactr (fst h').
Proof.
  intros k. induction es as [|e es IH]; intros h h' Hk Hinv Hnl Hfl Hok Hrun; cbn [run_hist_k fold_res] in Hrun.
  - inversion Hrun; subst. split; [exact Hinv|]. split; [exact (proj1 Hinv) | auto].
  - apply bind_ok_inv in Hrun. destruct Hrun as (h1 & H1 & H2). destruct Hok as [Hops Hnext].
    destruct (Hnext h1 H1) as [Hrd Hok1].
    destruct (hist_inv_step k h e h1 Hk Hinv Hops H1 Hrd) as [Hinv1 _].
    assert (Hx1 : no_leak (fst h1) /\ flids_ok (fst h1)).
    { destruct h as [cur rs]. destruct e as [|i|ops ord]; cbn [step_k fst snd] in H1.
      - inversion H1; subst h1. auto.
      - inversion H1; subst h1. auto.
      - apply bind_ok_inv in H1. destruct H1 as (cur' & Hr & E). inversion E; subst h1. cbn [fst snd] in *.
        split; [exact (run_tx_r_no_leak cur _ ops ord cur' (proj1 Hinv) Hnl Hops Hr Hrd) | exact (run_tx_r_flids _ _ _ _ _ Hr)]. }
    exact (IH h1 h' Hk Hinv1 (proj1 Hx1) (proj2 Hx1) Hok1 H2).
Qed.

(* from the empty database, whatever the readers do: each committed state accounts for every page exactly once, and
   its free-list record lists exactly the pages that are not live -- nothing is lost for reuse *)
Corollary hist_exact_init : forall k P es h', (k <= 1)%N -> (0 < P)%N ->
  hist_ok k (init_db P, []) es -> run_hist_k k (init_db P, []) es = Ok h' ->
  db_exact_rec (fst h') /\
  forall x, In x (d_flids (fst h')) <-> ((2 <= x < d_np (fst h'))%N /\ ~ In x (live_of (fst h') (Rof (fst h')))).
Proof.
  intros k P es h' Hk HP Hok Hrun. destruct (init_db_exactr P HP) as (_ & Hnl & Hfl).
  destruct (hist_exact_run k es _ h' Hk (HInv_init P HP) Hnl Hfl Hok Hrun) as [_ Hx].
  pose proof (db_exactr_rec _ Hx) as Hrec. split; [exact Hrec | now apply flids_exact].
Qed.

Print Assumptions run_tx_r_no_leak.
Print Assumptions run_tx_r_exact.
Print Assumptions hist_exact_run.
Print Assumptions hist_exact_init.
