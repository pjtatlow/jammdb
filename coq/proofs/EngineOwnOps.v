(* The operations of a transaction establish the ownership invariant [OwnI] of the overlay, in the stronger form
   [OwnS] that holds before rebalance, freeing only pages of the committed footprint. *)
From Coq Require Import List NArith Bool Arith Lia ZifyN ZifyNat ZifyBool Permutation.
From Coq.Strings Require Import Byte.
From Jamm Require Spec.
From Jamm Require Import ListFacts Bytes BytesFacts Tree Cursor SearchFacts Engine EngineAbs EngineFacts EngineMergeFacts.
From Jamm Require Import EngineModifyFacts EngineSpillFacts EnginePathFacts EngineBridgeFacts EngineRebalanceFacts.
From Jamm Require FreelistFacts EngineAllocFacts EngineSpillWfFacts.
From Jamm Require Import EngineTxInvFacts EngineSpillBucketFacts EngineRefines.
From Jamm Require Import EngineOwnDefs.
Import ListNotations.
Import Coq.Strings.String.StringSyntax. Delimit Scope string_scope with string.
Local Open Scope list_scope. Local Open Scope nat_scope.
Set Warnings "-abstract-large-number".

(** * Closed page sets of strict committed buckets *)

(* below a viewed page: a branch page names pages of [ppages], the entries of a leaf page are entries of the view *)
Lemma PV_closed : forall d h r l, PageView d h r l -> forall q a, In q (r :: ppages h d r) -> dget d q = Some a ->
  match ap_body a with
  | Branches es => forall e, In e es -> In (snd e) (ppages h d r)
  | Leaves l0 => forall e, In e l0 -> In e l
  end.
Proof.
  intros d. induction h as [|h IH]; intros r l HV q a Hq Hg; [inversion HV|].
  inversion HV as [? ? a0 l0 Hg0 Hb0 | ? ? a0 es ls Hg0 Hb0 HF]; subst.
  - cbn [ppages] in Hq. rewrite Hg0, Hb0 in Hq. destruct Hq as [<-|[]]. rewrite Hg0 in Hg. inversion Hg; subst a0.
    rewrite Hb0. auto.
  - cbn [ppages] in Hq |- *. rewrite Hg0, Hb0 in Hq |- *.
    assert (Hcase : q = r \/ exists e, In e es /\ In q (snd e :: ppages h d (snd e))).
    { destruct Hq as [Hq|Hq]; [now left|]. right. apply in_app_or in Hq. destruct Hq as [Hq|Hq].
      - apply in_map_iff in Hq. destruct Hq as (e & <- & He). exists e. split; [exact He | now left].
      - apply in_flat_map in Hq. destruct Hq as (e & He & Hq). exists e. split; [exact He | now right]. }
    destruct Hcase as [->|(e & He & Hqe)].
    + rewrite Hg0 in Hg. inversion Hg; subst a0. rewrite Hb0. intros e He. apply in_or_app. left. now apply in_map.
    + destruct (Forall2_In_l _ _ _ _ HF He) as (le & Hle & Hve).
      specialize (IH _ _ Hve q a Hqe Hg). destruct (ap_body a) as [l1|es1].
      * intros x Hx. apply in_concat. exists le. split; [exact Hle | now apply IH].
      * intros x Hx. apply in_or_app. right. apply in_flat_map. exists e. split; [exact He | now apply IH].
Qed.

Lemma sbk_pos : forall n d r, sbk n d r -> exists n', n = S n'.
Proof. intros [|n] d r H; [destruct H | eauto]. Qed.

(* what [sbk] says in terms of the fuelled readings *)
Lemma sbk_inv : forall n d r, sbk (S n) d r -> exists h, h <= fuel0 /\ PInv h d None None None r /\
  NoDup (ppages fuel0 d r) /\ PageView d h r (page_ents fuel0 d r) /\ ppages fuel0 d r = ppages h d r /\
  Forall (fun e => match e with LBk _ r' _ => sbk n d r' | LKv _ _ => True end) (page_ents fuel0 d r).
Proof.
  intros n d r H. cbn [sbk] in H. destruct H as (h & l & Hh & HP & Hnd & HV & HF). exists h.
  rewrite (PageView_page_ents _ _ _ _ HV fuel0 Hh), (ppages_stable _ _ _ _ _ _ HP fuel0 Hh). auto 8.
Qed.

Lemma fpg_head : forall n d r, In r (fpg (S n) d r).
Proof. intros. rewrite fpg_S. now left. Qed.

Lemma fpg_closed : forall n d r, sbk n d r -> closedR d (fpg n d r).
Proof.
  induction n as [|n IH]; intros d r Hs; [destruct Hs|].
  destruct (sbk_inv _ _ _ Hs) as (h & Hh & HP & Hnd & HV & Epp & HF). rewrite Forall_forall in HF.
  intros q a Hq Hg. rewrite fpg_S in Hq. apply in_app_or in Hq. destruct Hq as [Hq|Hq].
  - rewrite Epp in Hq. pose proof (PV_closed _ _ _ _ HV q a Hq Hg) as HC. destruct (ap_body a) as [l0|es].
    + intros k r' nx He. specialize (HC _ He). rewrite fpg_S. apply in_or_app. right. apply in_flat_map.
      exists (LBk k r' nx). split; [exact HC|]. specialize (HF _ HC). cbn beta iota in HF.
      destruct (sbk_pos _ _ _ HF) as [n' ->]. apply fpg_head.
    + intros e He. rewrite fpg_S, Epp. apply in_or_app. left. right. now apply HC.
  - apply in_flat_map in Hq. destruct Hq as (e0 & He0 & Hq). destruct e0 as [k0 v0|k0 r0 nx0]; [destruct Hq|].
    specialize (HF _ He0). cbn beta iota in HF. specialize (IH d r0 HF q a Hq Hg).
    assert (Hsub : forall x, In x (fpg n d r0) -> In x (fpg (S n) d r)).
    { intros x Hx. rewrite fpg_S. apply in_or_app. right. apply in_flat_map. exists (LBk k0 r0 nx0). auto. }
    destruct (ap_body a) as [l0|es]; [intros k r' nx He; apply Hsub; eapply IH; eauto | intros e He; apply Hsub; now apply IH].
Qed.

(** * The parts of a footprint *)

Lemma region_zero : forall d, region d 0 = [].
Proof. reflexivity. Qed.

Lemma region_prefix : forall d n r, exists rest, foot d (S n) r = region d r ++ rest.
Proof.
  intros d n r. unfold foot, region. destruct (r =? 0)%N; [exists []; reflexivity|].
  rewrite fpg_S, runs_app. eauto.
Qed.

Lemma NoDup_region : forall d n r, NoDup (foot d (S n) r) -> NoDup (region d r).
Proof. intros d n r H. destruct (region_prefix d n r) as [rest E]. rewrite E in H. eapply NoDup_app_l; eauto. Qed.

Lemma ent_foot_in : forall d n r0 k r nx x,
  r = 0%N \/ (r0 <> 0%N /\ In (LBk k r nx) (page_ents fuel0 d r0)) -> In x (foot d n r) -> In x (foot d (S n) r0).
Proof.
  intros d n r0 k r nx x [->|[Hr He]] Hx; [destruct Hx|]. eapply sub_foot; eauto.
Qed.

Notation disj := EngineSpillWfFacts.disj.

(* the region of a bucket and the footprints of its entries are parts of its footprint, pairwise disjoint *)
Lemma foot_entries : forall d n r0 (l : list leafent), NoDup (foot d (S n) r0) ->
  (forall k r nx, In (LBk k r nx) l -> r = 0%N \/ (r0 <> 0%N /\ In (LBk k r nx) (page_ents fuel0 d r0))) ->
  NoDup (region d r0) /\
  (forall e, In e l -> incl (efoot d n e) (foot d (S n) r0) /\ NoDup (efoot d n e) /\ disj (region d r0) (efoot d n e)) /\
  (forall e1 e2, In e1 l -> In e2 l -> lkey e1 <> lkey e2 -> disj (efoot d n e1) (efoot d n e2)).
Proof.
  intros d n r0 l Hnd Hent.
  assert (Hdec : forall e, In e l ->
            efoot d n e = [] \/ (r0 <> 0%N /\ In e (page_ents fuel0 d r0) /\ efoot d n e = eruns d n e)).
  { intros e He. destruct (efoot_eruns d n e) as [E|E]; [now left|]. destruct e as [k v|k r nx]; [now left|].
    destruct (Hent k r nx He) as [->|[Hr Hin]]; [now left | right; auto]. }
  split; [eapply NoDup_region; eauto|]. split.
  - intros e He. destruct (Hdec e He) as [E|(Hr & Hin & E)]; rewrite E.
    + split; [intros x []|]. split; [constructor | intros x _ []].
    + rewrite (foot_S_gen d n r0 Hr) in *. apply ListFacts.NoDup_app_iff in Hnd. destruct Hnd as (_ & N2 & N3).
      split; [intros x Hx; apply in_or_app; right; apply in_flat_map; eauto|].
      split; [eapply ListFacts.NoDup_flat_map_elim; eauto|].
      intros x Hx1 Hx2. apply (N3 x Hx1). apply in_flat_map. eauto.
  - intros e1 e2 H1 H2 Hk. destruct (Hdec e1 H1) as [E|(Hr & I1 & E1)]; [rewrite E; intros x []|].
    destruct (Hdec e2 H2) as [E|(_ & I2 & E2)]; [rewrite E; intros x _ []|].
    rewrite (foot_S_gen d n r0 Hr) in Hnd. rewrite E1, E2.
    intros x. eapply ListFacts.NoDup_flat_map_disj; [eapply NoDup_app_r; exact Hnd | exact I1 | exact I2 | congruence].
Qed.

Lemma foot_nonzero : forall d n r x, In x (foot d n r) -> r <> 0%N.
Proof. intros d n r x H E. subst r. destruct H. Qed.

(** * [free_tree] frees page runs of a closed set only *)

Lemma free_tree_sound : forall fuel d C stack s s1, closedR d C -> (forall p, In p stack -> In p C) ->
  free_tree fuel d stack s = Ok s1 -> frees s s1 (runs d C).
Proof.
  induction fuel as [|f IH]; intros d C stack s s1 HC Hst H x Hx; cbn [free_tree] in H; [discriminate|].
  destruct stack as [|p rest]; [inversion H; subst; now left|].
  destruct (dget d p) as [a|] eqn:Hg; [|discriminate].
  assert (Hp : In p C) by (apply Hst; now left).
  destruct (fun Hst' => IH d C _ _ s1 HC Hst' H x Hx) as [Hf|Hf]; [| | now right].
  - intros q Hq. apply in_app_or in Hq. destruct Hq as [Hq|Hq]; [|apply Hst; now right].
    apply in_rev in Hq. specialize (HC p a Hp Hg). destruct (ap_body a) as [l|es].
    + apply in_flat_map in Hq. destruct Hq as ([k v|k r nx] & He & Hq); [destruct Hq|]. destruct Hq as [<-|[]]. eauto.
    + apply in_map_iff in Hq. destruct Hq as (e & <- & He). now apply HC.
  - apply free_pages_freed in Hf. destruct Hf as [Hf|Hf]; [now left|]. right. apply In_runs. exists p. split; [exact Hp|].
    unfold prun. rewrite Hg. apply In_nrun. exact Hf.
Qed.

Lemma free_tree_pend_ids : forall fuel d stack s s1, free_tree fuel d stack s = Ok s1 -> pend_ids_ok s -> pend_ids_ok s1.
Proof.
  induction fuel as [|f IH]; intros d stack s s1 H Hp; cbn [free_tree] in H; [discriminate|].
  destruct stack as [|p rest]; [inversion H; subst; exact Hp|].
  destruct (dget d p) as [a|]; [|discriminate]. eapply IH; [exact H|]. now apply free_pages_pend_ids.
Qed.

Lemma free_tree_foot : forall fuel d n r s s1, sbk n d r -> r <> 0%N -> free_tree fuel d [r] s = Ok s1 ->
  frees s s1 (foot d n r).
Proof.
  intros fuel d n r s s1 Hs Hr H x Hx. destruct (sbk_pos _ _ _ Hs) as [n' ->].
  destruct (fun Hst' => free_tree_sound fuel d (fpg (S n') d r) [r] s s1 (fpg_closed _ _ _ Hs) Hst' H x Hx) as [Hf|Hf];
    [| now left |].
  - intros p [<-|[]]. apply fpg_head.
  - right. unfold foot. destruct (N.eqb_spec r 0); [contradiction | exact Hf].
Qed.

(* steps that change the sequence counter only *)
Lemma sbs_freed : forall s s' x, same_but_seqc s s' -> freed_in_tx s' x = freed_in_tx s x.
Proof. intros s s' x (_ & Hp & Ht & _). unfold freed_in_tx. now rewrite Hp, Ht. Qed.

Lemma sbs_pend_ids : forall s s', same_but_seqc s s' -> pend_ids_ok s -> pend_ids_ok s'.
Proof. intros s s' (_ & Hp & Ht & _). now apply pend_ids_ok_ext. Qed.

(** * The ownership invariant in the form that holds before rebalance *)

(* [OwnS] is [OwnI] plus: the bucket still sits on the root page its entry names (rebalance may promote another
   page); an entry that is not created by this transaction is a committed entry of a COMMITTED bucket (r0 <> 0) *)
Fixpoint OwnS (d : disk) (n : nat) (s : txs) (b : bucket) (r0 : N) : Prop :=
  match n with
  | O => False
  | S n' =>
      b_root_page b = r0 /\
      (r0 = 0%N \/ sbk (S n') d r0) /\ NoDup (foot d (S n') r0) /\ bpg_ok d b /\
      exists l, bucket_view d b l /\
        NoDup (bown d b) /\
        (forall x, In x (bown d b) -> In x (region d r0) /\ freed_in_tx s x = false) /\
        (forall k r nx, In (LBk k r nx) l -> r = 0%N \/ (r0 <> 0%N /\ In (LBk k r nx) (page_ents fuel0 d r0))) /\
        (forall k r nx, In (LBk k r nx) l -> sub_find k (b_subs b) = None ->
           forall x, In x (foot d n' r) -> freed_in_tx s x = false) /\
        (forall k sb, In (k, sb) (b_subs b) -> exists r nx, In (LBk k r nx) l /\ OwnS d n' s sb r)
  end.

Theorem OwnS_OwnI : forall d n s b r0, OwnS d n s b r0 -> OwnI d n s b r0.
Proof.
  intros d. induction n as [|n IH]; intros s b r0 H; [destruct H|]. cbn [OwnS] in H. cbn [OwnI].
  destruct H as (_ & H1 & H2 & H3 & l & Hv & A & B & C & D & E). repeat (split; [assumption|]).
  exists l. repeat (split; [assumption|]). split; [|split; [exact D|]].
  - intros k r nx He. destruct (C k r nx He) as [->|[_ Hc]]; auto.
  - intros k sb Hk. destruct (E k sb Hk) as (r & nx & He & Ho). exists r, nx. split; [exact He | now apply IH].
Qed.

(* [OwnS] speaks of "not freed" only, and only about pages of the footprint *)
Lemma OwnS_freed_mono : forall d n s s2 b r0, OwnS d n s b r0 ->
  (forall x, In x (foot d n r0) -> freed_in_tx s x = false -> freed_in_tx s2 x = false) -> OwnS d n s2 b r0.
Proof.
  intros d. induction n as [|n IH]; intros s s2 b r0 H Hm; [destruct H|]. cbn [OwnS] in H |- *.
  destruct H as (H0 & H1 & H2 & H3 & l & Hv & A & B & C & D & E). repeat (split; [assumption|]).
  exists l. repeat (split; [assumption|]). split; [|split; [exact C|split]].
  - intros x Hx. destruct (B x Hx) as [B1 B2]. split; [exact B1|]. apply Hm; [now apply region_foot | exact B2].
  - intros k r nx He Hsf x Hx. apply Hm; [eapply ent_foot_in; eauto | eapply D; eauto].
  - intros k sb Hk. destruct (E k sb Hk) as (r & nx & He & Ho). exists r, nx. split; [exact He|].
    apply (IH s s2 sb r Ho). intros x Hx. apply Hm. eapply ent_foot_in; eauto.
Qed.

Lemma OwnS_ext : forall d n s s2 b r0, OwnS d n s b r0 -> (forall x, freed_in_tx s2 x = freed_in_tx s x) ->
  OwnS d n s2 b r0.
Proof. intros d n s s2 b r0 H E. eapply OwnS_freed_mono; [exact H|]. intros x _ Hx. now rewrite E. Qed.

(* a step that frees only pages outside the footprint *)
Lemma OwnS_frame : forall d n s s2 b r0 F, OwnS d n s b r0 -> frees s s2 F ->
  (forall x, In x F -> ~ In x (foot d n r0)) -> OwnS d n s2 b r0.
Proof.
  intros d n s s2 b r0 F H Hf Hd. eapply OwnS_freed_mono; [exact H|]. intros x Hx.
  apply (frees_unfreed _ _ _ _ Hf). intros Hc. exact (Hd x Hc Hx).
Qed.

Lemma bheads_tree : forall d b b', b_root_page b' = b_root_page b -> b_rootn b' = b_rootn b -> bheads d b' = bheads d b.
Proof. intros d b b' E1 E2. unfold bheads. now rewrite E1, E2. Qed.

(* only the tree and the opened sub-buckets matter *)
Lemma OwnS_tree : forall d n s b b' r0, b_root_page b' = b_root_page b -> b_rootn b' = b_rootn b ->
  b_subs b' = b_subs b -> OwnS d n s b r0 -> OwnS d n s b' r0.
Proof.
  intros d [|n] s b b' r0 E1 E2 E3 H; [destruct H|]. cbn [OwnS] in H |- *.
  destruct H as (H0 & H1 & H2 & H3 & l & Hv & A & B & C & D & E).
  unfold bown, bpg_ok in *. rewrite (bheads_tree d b b' E1 E2), E1, E2, E3. repeat (split; [assumption|]).
  exists l. split; [eapply bucket_view_tree; eauto|]. auto.
Qed.

(* the clauses, against a view already at hand *)
Lemma OwnS_inv : forall d n s b r0 l, OwnS d (S n) s b r0 -> bucket_view d b l ->
  b_root_page b = r0 /\ (r0 = 0%N \/ sbk (S n) d r0) /\ NoDup (foot d (S n) r0) /\ bpg_ok d b /\
  NoDup (bown d b) /\
  (forall x, In x (bown d b) -> In x (region d r0) /\ freed_in_tx s x = false) /\
  (forall k r nx, In (LBk k r nx) l -> r = 0%N \/ (r0 <> 0%N /\ In (LBk k r nx) (page_ents fuel0 d r0))) /\
  (forall k r nx, In (LBk k r nx) l -> sub_find k (b_subs b) = None ->
     forall x, In x (foot d n r) -> freed_in_tx s x = false) /\
  (forall k sb, In (k, sb) (b_subs b) -> exists r nx, In (LBk k r nx) l /\ OwnS d n s sb r).
Proof.
  intros d n s b r0 l H Hv. cbn [OwnS] in H. destruct H as (H0 & H1 & H2 & H3 & l' & Hv' & A & B & C & D & E).
  rewrite (bucket_view_det d b l l' Hv Hv'). auto 12.
Qed.

Lemma OwnS_pos : forall d n s b r0, OwnS d n s b r0 -> exists n', n = S n'.
Proof. intros d [|n] s b r0 H; [destruct H | eauto]. Qed.

(* entries of a sorted view and the association list *)
Lemma In_LBk_alookup : forall l k r nx, sorted_keys (map lkey l) = true -> In (LBk k r nx) l ->
  Spec.alookup k (assoc l) = Some (LBk k r nx).
Proof. intros l k r nx Hs H. exact (In_alookup l (LBk k r nx) Hs H). Qed.

Lemma alookup_LBk_In : forall l k k' r nx, Spec.alookup k (assoc l) = Some (LBk k' r nx) -> k' = k /\ In (LBk k r nx) l.
Proof. intros l k k' r nx H. destruct (alookup_assoc_key _ _ _ H) as [E Hin]. cbn [lkey] in E. subst k'. auto. Qed.

(** * [b_modify]: same head pages, page runs as on the committed disk *)

Lemma b_modify_heads : forall d s b h l o b' s', BLoc d s b h l -> (b_rootn b = None -> b_root_page b <> 0%N) ->
  bpg_ok d b -> b_modify d b o s = Ok (b', s') -> bheads d b' = bheads d b /\ bpg_ok d b'.
Proof.
  intros d s b h l o b' s' HL Hnz Hpg H. destruct (b_modify_BLoc _ _ _ _ _ _ _ _ HL H) as (HL' & _).
  destruct HL as (Hh & HB & _). destruct HL' as (_ & HB' & _). unfold b_modify in H.
  apply bind_ok_inv in H. destruct H as ([root s0] & Er & H).
  apply bind_ok_inv in H. destruct H as ([n' s1] & Em & H). inversion H; subst b' s'. clear H.
  unfold BInv in HB'. cbn [b_rootn] in HB'. destruct HB' as (HI' & _).
  unfold bheads, bpg_ok. cbn [b_rootn b_root_page]. unfold BInv, ensure_root, bpg_ok in *. destruct (b_rootn b) as [n|].
  - inversion Er; subst root s0. destruct HB as (HI & _).
    destruct (modify_npages _ _ _ _ _ _ _ _ _ _ _ HI Em) as [P1 P2].
    rewrite P2, (npages_stable _ _ _ _ _ _ HI' fuel0 Hh), P1, <- (npages_stable _ _ _ _ _ _ HI fuel0 Hh).
    split; [reflexivity | eapply modify_pg_ok; eauto].
  - destruct HB as [HP _]. destruct (dget d (b_root_page b)) as [a|] eqn:Hg; [|discriminate].
    cbn [next_seq] in Er. inversion Er; subst root s0.
    pose proof (node_of_page_Inv _ _ _ _ _ _ _ (seqc s) Hg HP) as I0.
    destruct (modify_npages _ _ _ _ _ _ _ _ _ _ _ I0 Em) as [P1 P2]. change (n_page (node_of_page (b_root_page b) a (seqc s))) with (b_root_page b) in P2.
    rewrite P2, (npages_stable _ _ _ _ _ _ HI' fuel0 Hh), P1, (node_of_page_npages h d _ a _ Hg),
      (ppages_stable _ _ _ _ _ _ HP fuel0 Hh).
    specialize (Hnz eq_refl). destruct (N.eqb_spec (b_root_page b) 0) as [E|_]; [contradiction|].
    split; [reflexivity|]. eapply modify_pg_ok; [|exact Em]. now apply pg_ok_node_of_page.
Qed.

(** * The operations preserve [OwnS] *)

Section Ops.
Variables (d : disk) (R : list N).
Hypothesis HCR : closedR d R.
Hypothesis Hnz : forall x, In x R -> x <> 0%N.

Lemma root_in_nz : forall b, root_in d R b -> b_rootn b = None -> b_root_page b <> 0%N.
Proof. intros b H E. unfold root_in in H. rewrite E in H. now apply Hnz. Qed.

(* the result of [b_modify] on the tree of [b] (possibly after pages outside its region were freed, with a new
   counter and a new list of opened sub-buckets) *)
Lemma OwnS_modified : forall n s b r0 h l o s1 b1 b2 s2 nx' subs',
  OwnS d (S n) s b r0 -> BLoc d s1 b1 h l -> b_root_page b1 = b_root_page b -> b_rootn b1 = b_rootn b ->
  root_in d R b ->
  b_modify d b1 o s1 = Ok (b2, s2) ->
  (forall x, In x (region d r0) -> freed_in_tx s x = false -> freed_in_tx s1 x = false) ->
  (forall k r nx, In (LBk k r nx) (apply_lop o l) -> In (LBk k r nx) l \/ r = 0%N) ->
  (forall k r nx, In (LBk k r nx) (apply_lop o l) -> sub_find k subs' = None ->
     forall x, In x (foot d n r) -> freed_in_tx s1 x = false) ->
  (forall k sb, In (k, sb) subs' -> exists r nx, In (LBk k r nx) (apply_lop o l) /\ OwnS d n s1 sb r) ->
  OwnS d (S n) s2 (Bucket (b_root_page b2) nx' true (b_rootn b2) subs') r0.
Proof.
  intros n s b r0 h l o s1 b1 b2 s2 nx' subs' HO HL E1 E2 HR Hm Hreg Hent Hun Hsub.
  assert (Hv : bucket_view d b l) by (eapply (bucket_view_tree d b1); eauto using BLoc_bucket_view).
  destruct (OwnS_inv _ _ _ _ _ _ HO Hv) as (H0 & H1 & H2 & H3 & A & B & C & D & E).
  destruct (b_modify_BLoc _ _ _ _ _ _ _ _ HL Hm) as (HL' & _ & Hr & _ & _ & _ & Hss).
  assert (Hpg1 : bpg_ok d b1) by (unfold bpg_ok in *; now rewrite E2).
  assert (Hnz1 : b_rootn b1 = None -> b_root_page b1 <> 0%N).
  { rewrite E1, E2. now apply root_in_nz. }
  destruct (b_modify_heads _ _ _ _ _ _ _ _ HL Hnz1 Hpg1 Hm) as [Hhd Hpg2].
  rewrite (bheads_tree d b b1 E1 E2) in Hhd.
  set (B' := Bucket (b_root_page b2) nx' true (b_rootn b2) subs').
  assert (Hhd' : bheads d B' = bheads d b) by (rewrite <- Hhd; now apply bheads_tree).
  cbn [OwnS]. split; [cbn [B' b_root_page]; congruence|]. split; [exact H1|]. split; [exact H2|].
  split; [exact Hpg2|]. exists (apply_lop o l).
  split; [eapply (bucket_view_tree d b2); [reflexivity | reflexivity | eapply BLoc_bucket_view; eauto]|].
  unfold bown. rewrite Hhd'. split; [exact A|]. split; [|split; [|split]].
  - intros x Hx. destruct (B x Hx) as [B1 B2]. split; [exact B1|]. rewrite (sbs_freed _ _ _ Hss). auto.
  - intros k r nx He. destruct (Hent k r nx He) as [Hin|Hz]; [eauto | now left].
  - intros k r nx He Hsf x Hx. rewrite (sbs_freed _ _ _ Hss). eapply Hun; eauto.
  - intros k sb Hk. destruct (Hsub k sb Hk) as (r & nx & He & Ho). exists r, nx. split; [exact He|].
    eapply OwnS_ext; [exact Ho|]. intros x. now apply sbs_freed.
Qed.

(* the contract of an operation applied at the end of a path *)
Definition own_pres (f : bucket -> txs -> res (bucket * txs)) : Prop :=
  forall n k b s b' s' r0, 2 <= n -> 2 <= k -> SDeep d s b -> XDF d R k b -> OwnS d n s b r0 -> pend_ids_ok s ->
    f b s = Ok (b', s') ->
    OwnS d n s' b' r0 /\ frees s s' (foot d n r0) /\ pend_ids_ok s'.

(* entries of the view under a leaf operation *)
Lemma apply_lop_In' : forall o l y, In y (apply_lop o l) -> In y l \/ o = OpIns y.
Proof.
  intros [e|k] l y H; cbn [apply_lop] in *.
  - unfold leaf_insert in H. destruct (Engine.bsearch (map lkey l) (lkey e)) as [[|] i].
    + apply replace_at_In in H. destruct H as [->|H]; auto.
    + apply insert_at_In in H. destruct H as [->|H]; auto.
  - unfold leaf_delete in H. destruct (Engine.bsearch (map lkey l) k) as [[|] i]; auto.
    apply remove_at_In in H. auto.
Qed.

Lemma ent_kept : forall o l k r nx, sorted_keys (map lkey l) = true -> In (LBk k r nx) l -> k <> lop_key o ->
  In (LBk k r nx) (apply_lop o l).
Proof.
  intros o l k r nx Hs Hin Hne. pose proof (In_LBk_alookup _ _ _ _ Hs Hin) as Hal.
  assert (Hal' : Spec.alookup k (assoc (apply_lop o l)) = Some (LBk k r nx)).
  { rewrite (apply_lop_assoc o l Hs). destruct o as [e|k0]; cbn [aop lop_key] in *.
    - now rewrite alookup_ainsert, (beq_false_ne _ _ Hne).
    - rewrite alookup_aremove by now rewrite assoc_keys. now rewrite (beq_false_ne _ _ Hne). }
  now apply alookup_LBk_In in Hal'.
Qed.

Lemma no_LBk_of_lookup : forall l k, sorted_keys (map lkey l) = true ->
  (forall k0 r nx, Spec.alookup k (assoc l) <> Some (LBk k0 r nx)) -> forall r nx, ~ In (LBk k r nx) l.
Proof. intros l k Hs Hal r nx Hin. eapply Hal. eapply In_LBk_alookup; eauto. Qed.

Lemma own_unchanged : forall n (b : bucket) (s : txs) r0, OwnS d n s b r0 -> pend_ids_ok s ->
  OwnS d n s b r0 /\ frees s s (foot d n r0) /\ pend_ids_ok s.
Proof. intros. auto using frees_refl. Qed.

(* an operation on a plain key: the nested-bucket entries and the opened sub-buckets are untouched *)
Lemma kvop_own : forall n kk s b r0 o b' s2, SDeep d s b -> XDF d R kk b -> OwnS d n s b r0 -> pend_ids_ok s ->
  kv_done d b o s b' s2 ->
  OwnS d n s2 b' r0 /\ frees s s2 (foot d n r0) /\ pend_ids_ok s2.
Proof.
  intros n kk s b r0 o b' s2 HD HX HO Hp [[-> ->] | (cur & b2 & nx' & Hl & Hnb & Hno & Hm & ->)]; [now apply own_unchanged|].
  destruct (SDeep_inv _ _ _ HD) as (h & l & HL & _).
  rewrite (BLoc_lookup _ _ _ _ _ _ HL) in Hl. inversion Hl; subst cur.
  destruct (XDF_inv _ _ _ _ _ _ _ HX HL) as (f' & _ & HR & _).
  destruct (OwnS_pos _ _ _ _ _ HO) as [n' ->]. pose proof (BLoc_sorted _ _ _ _ _ HL) as Hs.
  destruct (b_modify_BLoc _ _ _ _ _ _ _ _ HL Hm) as (_ & _ & _ & _ & _ & _ & Hss).
  split; [|split; [|eapply sbs_pend_ids; eauto]]; [|intros x Hx; left; now rewrite <- (sbs_freed _ _ x Hss)].
  destruct (OwnS_inv _ _ _ _ _ _ HO (BLoc_bucket_view _ _ _ _ _ HL)) as (H0 & H1 & H2 & H3 & A & B & C & D & E).
  apply (OwnS_modified n' s b r0 h l o s b b2 s2 nx' (b_subs b) HO HL eq_refl eq_refl HR Hm).
  - auto.
  - intros k r nx He. apply apply_lop_In' in He. destruct He as [He|He]; [now left | exfalso; eapply Hno; eauto].
  - intros k r nx He Hsf x Hx. apply apply_lop_In' in He. destruct He as [He|He]; [|exfalso; eapply Hno; eauto].
    eapply D; eauto.
  - intros k sb Hk. destruct (E k sb Hk) as (r & nx & He & Ho). exists r, nx. split; [|exact Ho].
    apply ent_kept; [exact Hs | exact He|]. intros ->. eapply (no_LBk_of_lookup l); eauto.
Qed.

(** ** Opening and creating buckets *)

(* a freshly opened committed bucket *)
Lemma open_OwnS : forall n s r nx, r <> 0%N -> sbk (S n) d r -> NoDup (foot d (S n) r) ->
  (forall x, In x (foot d (S n) r) -> freed_in_tx s x = false) -> OwnS d (S n) s (Bucket r nx false None []) r.
Proof.
  intros n s r nx Hr Hs Hnd Hfr. destruct (sbk_inv _ _ _ Hs) as (h & Hh & HP & _ & HV & _ & HF).
  cbn [OwnS]. split; [reflexivity|]. split; [now right|]. split; [exact Hnd|]. split; [exact I|].
  exists (page_ents fuel0 d r). split; [exists h; split; [exact Hh | exact HV]|].
  assert (Eb : bown d (Bucket r nx false None []) = region d r).
  { unfold bown, bheads, region. cbn [b_rootn b_root_page]. destruct (N.eqb_spec r 0); [contradiction | reflexivity]. }
  rewrite Eb. split; [eapply NoDup_region; eauto|]. split; [|split; [|split]].
  - intros x Hx. split; [exact Hx|]. apply Hfr. now apply region_foot.
  - intros k r' nx' He. right. auto.
  - intros k r' nx' He _ x Hx. apply Hfr. eapply sub_foot; eauto.
  - intros k sb [].
Qed.

(* a freshly created bucket *)
Lemma new_OwnS : forall n s sq, OwnS d (S n) s (Bucket 0 0 true (Some (Node 0 0 None sq (Leaves []) [])) []) 0.
Proof.
  intros n s sq. cbn [OwnS]. split; [reflexivity|]. split; [now left|]. split; [rewrite foot_zero; constructor|]. split.
  - unfold bpg_ok. cbn [b_rootn]. constructor; cbn [n_page n_kids]; [intros Hc; now contradiction Hc | intros k []].
  - exists []. split.
    + exists 1. split; [unfold fuel0; lia|]. unfold BucketView. cbn [b_rootn]. apply NV_leaf.
    + assert (Eb : bown d (Bucket 0 0 true (Some (Node 0 0 None sq (Leaves []) [])) []) = []).
      { unfold bown, bheads. cbn [b_rootn n_page]. rewrite N.eqb_refl, npages_leaf by reflexivity. reflexivity. }
      rewrite Eb. split; [constructor|]. split; [intros x []|]. split; [intros k r nx []|].
      split; [intros k r nx [] | intros k sb []].
Qed.

Lemma In_sub_put : forall name sb subs x, In x (sub_put name sb subs) -> x = (name, sb) \/ In x subs.
Proof.
  intros name sb. induction subs as [|[n' b'] r IH]; intros x H; cbn [sub_put] in H.
  - destruct H as [<-|[]]. now left.
  - destruct (beq n' name).
    + destruct H as [<-|H]; [now left | right; now right].
    + destruct H as [<-|H]; [right; now left|]. destruct (IH x H) as [->|Hr]; [now left | right; now right].
Qed.

(* a new list of opened sub-buckets (and a later transaction state) over the same tree *)
Lemma OwnS_resub : forall n s s2 b r0 l nx' dt' subs', OwnS d (S n) s b r0 -> bucket_view d b l ->
  (forall x, In x (region d r0) -> freed_in_tx s x = false -> freed_in_tx s2 x = false) ->
  (forall k r nx, In (LBk k r nx) l -> sub_find k subs' = None -> forall x, In x (foot d n r) -> freed_in_tx s2 x = false) ->
  (forall k sb, In (k, sb) subs' -> exists r nx, In (LBk k r nx) l /\ OwnS d n s2 sb r) ->
  OwnS d (S n) s2 (Bucket (b_root_page b) nx' dt' (b_rootn b) subs') r0.
Proof.
  intros n s s2 b r0 l nx' dt' subs' HO Hv Hreg Hun Hsub.
  destruct (OwnS_inv _ _ _ _ _ _ HO Hv) as (H0 & H1 & H2 & H3 & A & B & C & D & E).
  set (B' := Bucket (b_root_page b) nx' dt' (b_rootn b) subs').
  cbn [OwnS]. split; [exact H0|]. split; [exact H1|]. split; [exact H2|]. split; [exact H3|]. exists l.
  split; [eapply (bucket_view_tree d b); [reflexivity | reflexivity | exact Hv]|].
  unfold bown. rewrite (bheads_tree d b B' eq_refl eq_refl). split; [exact A|]. split; [|auto].
  intros x Hx. destruct (B x Hx) as [B1 B2]. auto.
Qed.

(* the bucket opened under an entry that was not opened yet *)
Lemma entry_sub : forall n s b r0 l name r nx, OwnS d (S (S n)) s b r0 -> bucket_view d b l ->
  In (LBk name r nx) l -> r <> 0%N -> sub_find name (b_subs b) = None ->
  OwnS d (S n) s (Bucket r nx false None []) r.
Proof.
  intros n s b r0 l name r nx HO Hv He Hr Hsf.
  destruct (OwnS_inv _ _ _ _ _ _ HO Hv) as (H0 & H1 & H2 & H3 & A & B & C & D & E).
  destruct (C _ _ _ He) as [Hz|[Hr0 Hc]]; [contradiction|]. destruct H1 as [H1|H1]; [contradiction|].
  destruct (sbk_inv _ _ _ H1) as (h & _ & _ & _ & _ & _ & HF). rewrite Forall_forall in HF. specialize (HF _ Hc).
  cbn beta iota in HF. destruct (foot_entries d (S n) r0 l H2 C) as (_ & P2 & _). destruct (P2 _ He) as (_ & Hnd & _).
  apply open_OwnS; auto. intros x Hx. eapply D; eauto.
Qed.

Lemma opened_own : forall n kk s b r0 name b0, SDeep d s b -> XDF d R kk b -> OwnS d (S (S n)) s b r0 ->
  opened d b name b0 -> OwnS d (S (S n)) s b0 r0.
Proof.
  intros n kk s b r0 name b0 HD HX HO [sb _ | k0 r nx Hsf Hl]; [exact HO|].
  destruct (SDeep_inv _ _ _ HD) as (h & l & HL & _). pose proof (BLoc_lookup_LBk _ _ _ _ _ _ _ _ _ HL Hl) as Hal.
  pose proof (BLoc_bucket_view _ _ _ _ _ HL) as Hv.
  destruct (XDF_inv _ _ _ _ _ _ _ HX HL) as (f' & _ & _ & _ & HU & _).
  assert (Hr : r <> 0%N) by (apply Hnz; eapply HU; eauto).
  destruct (alookup_LBk_In _ _ _ _ _ Hal) as [_ He].
  destruct (OwnS_inv _ _ _ _ _ _ HO Hv) as (H0 & H1 & H2 & H3 & A & B & C & D & E).
  apply (OwnS_resub (S n) s s b r0 l _ _ _ HO Hv); [auto | |].
  - intros k r' nx' He' Hs x Hx. apply sub_find_put_None in Hs. destruct Hs as [_ Hs]. eapply D; eauto.
  - intros k sb Hk. apply In_sub_put in Hk. destruct Hk as [Hk|Hk]; [|now apply E].
    inversion Hk; subst k sb. exists r, nx. split; [exact He|]. eapply entry_sub; eauto.
Qed.

Lemma In_apply_ins : forall l e, sorted_keys (map lkey l) = true -> In e (apply_lop (OpIns e) l).
Proof.
  intros l e Hs. assert (Hal : Spec.alookup (lkey e) (assoc (apply_lop (OpIns e) l)) = Some e).
  { rewrite (apply_lop_assoc _ l Hs). cbn [aop]. now rewrite alookup_ainsert, EngineFacts.beq_refl. }
  now apply alookup_assoc_key in Hal.
Qed.

Theorem goc_own : forall name n kk b s b' s' r0, 2 <= n -> 2 <= kk -> SDeep d s b -> XDF d R kk b -> OwnS d n s b r0 ->
  pend_ids_ok s -> b_get_or_create d b name s = Ok (b', s') ->
  OwnS d n s' b' r0 /\ (forall x, freed_in_tx s' x = freed_in_tx s x) /\ pend_ids_ok s'.
Proof.
  intros name n kk b s b' s' r0 Hn Hkk HD HX HO Hp H. destruct n as [|[|n]]; try lia.
  destruct (b_get_or_create_ok_inv _ _ _ _ _ _ H) as [[Ho ->] | (Hsf & _ & b2 & Hm & ->)].
  { split; [eapply opened_own; eauto | auto]. }
  destruct (SDeep_inv _ _ _ HD) as (h & l & HL & HS).
  destruct (XDF_inv _ _ _ _ _ _ _ HX HL) as (f' & _ & HR & _).
  pose proof (BLoc_sorted _ _ _ _ _ HL) as Hs. pose proof (BLoc_bucket_view _ _ _ _ _ HL) as Hv.
  assert (Hle1 : (seqc s <= seqc (snd (next_seq s)))%N) by (cbn; lia).
  pose proof (BLoc_seqc_mono _ _ _ _ _ _ Hle1 HL) as HL1.
  pose proof (same_but_seqc_next s) as Hss1.
  destruct (b_modify_BLoc _ _ _ _ _ _ _ _ HL1 Hm) as (_ & _ & _ & _ & _ & _ & Hss).
  destruct (OwnS_inv _ _ _ _ _ _ HO Hv) as (H0 & H1 & H2 & H3 & A & B & C & D & E).
  assert (Hfr : forall x, freed_in_tx s' x = freed_in_tx s x).
  { intros x. now rewrite (sbs_freed _ _ x Hss), (sbs_freed _ _ x Hss1). }
  split; [|split; [exact Hfr | eapply sbs_pend_ids; [exact Hss | eapply sbs_pend_ids; eauto]]].
  apply (OwnS_modified (S n) s b r0 h l _ (snd (next_seq s)) b b2 s' _ _ HO HL1 eq_refl eq_refl HR Hm).
  + intros x _ Hx. now rewrite (sbs_freed _ _ x Hss1).
  + intros k r nx He. apply apply_lop_In' in He. destruct He as [He|He]; [now left | inversion He; now right].
  + intros k r nx He Hs' x Hx. apply sub_find_put_None in Hs'. destruct Hs' as [Hne Hs'].
    apply apply_lop_In' in He. destruct He as [He|He]; [|inversion He; subst; destruct Hx].
    rewrite (sbs_freed _ _ x Hss1). eapply D; eauto.
  + intros k sb Hk. apply In_sub_put in Hk. destruct Hk as [Hk|Hk].
    * inversion Hk; subst k sb. exists 0%N, 0%N. split; [now apply In_apply_ins | apply new_OwnS].
    * destruct (E k sb Hk) as (r & nx & He & Ho). exists r, nx. split.
      -- apply ent_kept; [exact Hs | exact He|]. cbn [lop_key lkey].
         exact (sub_find_None_In _ _ _ Hsf Hk).
      -- eapply OwnS_ext; [exact Ho|]. intros x. now apply sbs_freed.
Qed.

(** ** [at_path] *)

Lemma In_sub_put_strong : forall name sb subs x, NoDup (map fst subs) -> In x (sub_put name sb subs) ->
  x = (name, sb) \/ (In x subs /\ fst x <> name).
Proof.
  intros name sb. induction subs as [|[n' b'] r IH]; intros x Hnd H; cbn [sub_put] in H.
  - destruct H as [<-|[]]. now left.
  - cbn [map fst] in Hnd. inversion Hnd as [|? ? Hni Hnd']; subst. destruct (beq n' name) eqn:Eb.
    + apply beq_true in Eb. subst n'. destruct H as [<-|H]; [now left|]. right. split; [now right|].
      intros Ex. apply Hni. rewrite <- Ex. now apply in_map.
    + destruct H as [<-|H].
      * right. split; [now left|]. cbn [fst]. intros Ex. subst n'. rewrite EngineFacts.beq_refl in Eb. discriminate.
      * destruct (IH x Hnd' H) as [->|[Hr Hne]]; [now left | right; split; [now right | exact Hne]].
Qed.

(* the footprint of one entry is disjoint from the region and from the footprints of the other entries *)
Lemma sub_disj : forall n r0 l nm r nx, NoDup (foot d (S n) r0) ->
  (forall k r nx, In (LBk k r nx) l -> r = 0%N \/ (r0 <> 0%N /\ In (LBk k r nx) (page_ents fuel0 d r0))) ->
  In (LBk nm r nx) l ->
  (forall x, In x (foot d n r) -> ~ In x (region d r0)) /\
  (forall k r' nx', In (LBk k r' nx') l -> k <> nm -> forall x, In x (foot d n r') -> In x (foot d n r) -> False).
Proof.
  intros n r0 l nm r nx Hnd C He. destruct (foot_entries d n r0 l Hnd C) as (_ & P2 & P3). split.
  - intros x X1 X2. destruct (P2 _ He) as (_ & _ & Hdj). exact (Hdj x X2 X1).
  - intros k r' nx' He' Hne. exact (P3 _ _ He' He Hne).
Qed.

(* storing the modified sub-bucket back into its parent *)
Lemma put_back_own : forall n s1 s2 b r0 h l nm sb' r nx,
  OwnS d (S n) s1 b r0 -> BLoc d s1 b h l -> NoDup (map fst (b_subs b)) ->
  In (LBk nm r nx) l -> OwnS d n s2 sb' r ->
  frees s1 s2 (foot d n r) ->
  OwnS d (S n) s2 (Bucket (b_root_page b) (b_next b) (b_dirty b) (b_rootn b) (sub_put nm sb' (b_subs b))) r0.
Proof.
  intros n s1 s2 b r0 h l nm sb' r nx HO HL Hnd He Ho' Hfr. pose proof (BLoc_bucket_view _ _ _ _ _ HL) as Hv.
  destruct (OwnS_inv _ _ _ _ _ _ HO Hv) as (H0 & H1 & H2 & H3 & A & B & C & D & E).
  destruct (sub_disj n r0 l nm r nx H2 C He) as [Q1 Q2].
  apply (OwnS_resub n s1 s2 b r0 l _ _ _ HO Hv).
  - intros x Hx. apply (frees_unfreed _ _ _ _ Hfr). intros Hc. exact (Q1 x Hc Hx).
  - intros k r' nx' He' Hs x Hx. apply sub_find_put_None in Hs. destruct Hs as [Hne Hs].
    apply (frees_unfreed _ _ _ _ Hfr); [intros Hc; exact (Q2 _ _ _ He' Hne x Hx Hc) | exact (D _ _ _ He' Hs x Hx)].
  - intros k sbk Hk. apply (In_sub_put_strong _ _ _ _ Hnd) in Hk. destruct Hk as [Hk|[Hk Hne]].
    + inversion Hk; subst k sbk. eauto.
    + cbn [fst] in Hne. destruct (E k sbk Hk) as (rk & nxk & Hek & Hok). exists rk, nxk. split; [exact Hek|].
      apply (OwnS_frame d n s1 s2 sbk rk _ Hok Hfr). intros x X1 X2. eapply Q2; eauto.
Qed.

(* every level of the path uses one level of the nesting budgets [n] and [k] *)
Theorem at_path_own : forall f, own_pres f -> forall path fuel n k b s b' s' r0,
  length path + 2 <= n -> length path + 2 <= k ->
  SDeep d s b -> XDF d R k b -> OwnS d n s b r0 -> pend_ids_ok s -> at_path fuel d b path f s = Ok (b', s') ->
  OwnS d n s' b' r0 /\ frees s s' (foot d n r0) /\ pend_ids_ok s'.
Proof.
  intros f Hf path fuel n k b s b' s' r0 Hn Hk HD HX HO Hp H. revert n k r0 Hn Hk HD HX HO Hp.
  pattern path, b, s, b', s'. apply (at_path_ok_ind d f) with (3 := H).
  - intros b0 s0 b0' s0' H0 n k r0 Hn Hk HD HX HO Hp. exact (Hf n k b0 s0 b0' s0' r0 Hn Hk HD HX HO Hp H0).
  - intros nm rest b0 s0 b1 s1 sb sb' s2 Hg Hsf IH n k r0 Hn Hk HD HX HO Hp. cbn [length] in Hn, Hk.
    destruct (b_get_or_create_pres d nm b0 s0 b1 s1 HD Hg) as [HD1 _].
    destruct (b_get_or_create_xd d R HCR nm k b0 s0 b1 s1 ltac:(lia) HD HX Hg) as [HX1 _].
    destruct (goc_own nm n k b0 s0 b1 s1 r0 ltac:(lia) ltac:(lia) HD HX HO Hp Hg) as (HO1 & Hfr1 & Hp1).
    destruct (SDeep_inv _ _ _ HD1) as (h1 & l1 & HL1 & (Hnd1 & _)).
    destruct n as [|n]; [lia|]. destruct k as [|k]; [lia|].
    destruct (OwnS_inv _ _ _ _ _ _ HO1 (BLoc_bucket_view _ _ _ _ _ HL1)) as (_ & _ & _ & _ & _ & _ & C & _ & E).
    destruct (E nm sb (sub_find_In _ _ _ Hsf)) as (r & nx & He & Ho).
    destruct (IH n k r ltac:(lia) ltac:(lia) (SDeep_sub _ _ _ _ _ HD1 Hsf) (XDF_sub d R _ _ _ _ HX1 Hsf) Ho Hp1)
      as (Ho' & Hfr2 & Hp2).
    split; [eapply put_back_own; eauto|]. split; [|exact Hp2].
    intros x Hx. destruct (Hfr2 x Hx) as [Hc|Hc]; [left; now rewrite <- Hfr1|]. right. eapply ent_foot_in; eauto.
Qed.

(** ** [b_delete_bucket] *)

Lemma OwnS_root : forall n s b r0, OwnS d n s b r0 -> b_root_page b = r0 /\ (r0 = 0%N \/ sbk n d r0).
Proof. intros [|n] s b r0 H; [destruct H|]. cbn [OwnS] in H. destruct H as (H0 & H1 & _). auto. Qed.

Lemma del_key_gone : forall l k e, sorted_keys (map lkey l) = true -> In e (apply_lop (OpDel k) l) -> lkey e <> k.
Proof.
  intros l k e Hs Hin Ek. pose proof (In_alookup _ e (apply_lop_sorted (OpDel k) l Hs) Hin) as Hal.
  rewrite (apply_lop_assoc _ l Hs) in Hal. cbn [aop] in Hal.
  rewrite alookup_aremove in Hal by now rewrite assoc_keys. rewrite Ek, EngineFacts.beq_refl in Hal. discriminate.
Qed.

Lemma delb_phase2_own : forall n kk b0 name sb s0 b' s' r0, SDeep d s0 b0 -> XDF d R kk b0 -> OwnS d (S n) s0 b0 r0 ->
  pend_ids_ok s0 -> sub_find name (b_subs b0) = Some sb -> delb_phase2 d b0 name s0 = Ok (b', s') ->
  OwnS d (S n) s' b' r0 /\ frees s0 s' (foot d (S n) r0) /\ pend_ids_ok s'.
Proof.
  intros n kk b0 name sb s0 b' s' r0 HD HX HO Hp Hsf H.
  destruct (delb_phase2_inv _ _ _ _ _ _ _ HD Hsf H)
    as (h & l & r1 & nx1 & rest & s1 & HL & HS & Hal & Hnone & Hother & Hnd' & Hin & Hft & Hle1 & HL1 & Hm).
  pose proof (BLoc_bucket_view _ _ _ _ _ HL) as Hv. pose proof (BLoc_sorted _ _ _ _ _ HL) as Hs.
  destruct (XDF_inv _ _ _ _ _ _ _ HX HL) as (f' & _ & HR & _).
  destruct (OwnS_inv _ _ _ _ _ _ HO Hv) as (H0 & H1 & HN & H3 & A & B & C & D & E).
  destruct (E name sb (sub_find_In _ _ _ Hsf)) as (r & nx & He & Ho).
  destruct (OwnS_root _ _ _ _ Ho) as [Hrp Hsb]. destruct (sub_disj n r0 l name r nx HN C He) as [Q1 Q2].
  rewrite Hrp in Hft.
  assert (Hs1 : pend_ids_ok s1 /\ frees s0 s1 (foot d n r)).
  { destruct (N.eqb_spec r 0) as [Ez|Ez]; [inversion Hft; subst s1; auto using frees_refl|].
    destruct Hsb as [Hsb|Hsb]; [contradiction|]. split; [eapply free_tree_pend_ids | eapply free_tree_foot]; eauto. }
  destruct Hs1 as (Hp1 & Hfr).
  destruct (b_modify_BLoc _ _ _ _ _ _ _ _ HL1 Hm) as (_ & _ & _ & _ & _ & _ & Hss).
  destruct (b_modify_ok_inv _ _ _ _ _ _ Hm) as [n' ->]. cbn [b_root_page b_next b_subs].
  split; [|split; [|eapply sbs_pend_ids; eauto]].
  - apply (OwnS_modified n s0 b0 r0 h l _ s1 _ _ s' _ _ HO HL1 eq_refl eq_refl HR Hm).
    + intros x Hx. apply (frees_unfreed _ _ _ _ Hfr). intros Hc. exact (Q1 x Hc Hx).
    + intros k r' nx' He'. apply apply_lop_In' in He'. destruct He' as [He'|He']; [now left | discriminate].
    + intros k r' nx' He' Hsf' x Hx. pose proof (del_key_gone _ _ _ Hs He') as Hne. cbn [lkey] in Hne.
      apply apply_lop_In' in He'. destruct He' as [He'|He']; [|discriminate].
      rewrite (Hother k Hne) in Hsf'.
      apply (frees_unfreed _ _ _ _ Hfr); [intros Hc; exact (Q2 _ _ _ He' Hne x Hx Hc) | exact (D _ _ _ He' Hsf' x Hx)].
    + intros k sbk Hk. pose proof (sub_find_None_In _ _ _ Hnone Hk) as Hne. cbn [fst] in Hne.
      destruct (E k sbk (Hin _ Hk)) as (rk & nxk & Hek & Hok). exists rk, nxk. split; [now apply ent_kept|].
      apply (OwnS_frame d n s0 s1 sbk rk _ Hok Hfr). intros x X1 X2. eapply Q2; eauto.
  - intros x Hx. rewrite (sbs_freed _ _ x Hss) in Hx. destruct (Hfr x Hx) as [Hc|Hc]; [now left|]. right.
    eapply ent_foot_in; eauto.
Qed.

Theorem op_run_own : forall o, own_pres (op_run d o).
Proof.
  intros [p k v|p k|p nm|p] n kk b s b' s' r0 Hn Hkk HD HX HO Hp H; cbn [op_run] in H.
  - exact (kvop_own _ _ _ _ _ _ _ _ HD HX HO Hp (soft_put_inv _ _ _ _ _ _ _ H)).
  - exact (kvop_own _ _ _ _ _ _ _ _ HD HX HO Hp (soft_delete_inv _ _ _ _ _ _ H)).
  - destruct (soft_delete_bucket_inv _ _ _ _ _ _ H) as [[-> ->] | (b0 & sb & Ho & Hsf & H2)]; [now apply own_unchanged|].
    destruct n as [|[|n]]; try lia.
    destruct (opened_XDF d R HCR kk s b nm b0 Hkk HD HX Ho) as [HX0 _].
    exact (delb_phase2_own _ _ _ _ _ _ _ _ _ (opened_SDeep _ _ _ _ _ HD Ho) HX0 (opened_own _ _ _ _ _ _ _ HD HX HO Ho) Hp Hsf H2).
  - inversion H; subst. now apply own_unchanged.
Qed.

(** ** The steps of a transaction *)

Theorem tx_step_own : forall o rb s rb' s' n k r0, 9 <= n -> 9 <= k -> SDeep d s rb -> XDF d R k rb ->
  OwnS d n s rb r0 -> pend_ids_ok s -> tx_step d (rb, s) o = Ok (rb', s') ->
  OwnS d n s' rb' r0 /\ frees s s' (foot d n r0) /\ pend_ids_ok s'.
Proof.
  intros o rb s rb' s' n k r0 Hn Hk HD HX HO Hp H.
  destruct (tx_step_ok_inv _ _ _ _ _ _ H) as [[-> ->] | [Hlen H']]; [now apply own_unchanged|].
  apply (at_path_own _ (op_run_own o) (op_path o) 8 n k rb s rb' s' r0); auto; lia.
Qed.

Theorem tx_fold_own_gen : forall st ops rb s root' s' n k r0, d_disk st = d -> 9 <= n -> 9 <= k ->
  SDeep d s rb -> XDF d R k rb -> OwnS d n s rb r0 -> pend_ids_ok s -> tx_fold st ops (rb, s) = Ok (root', s') ->
  OwnS d n s' root' r0 /\ frees s s' (foot d n r0) /\ pend_ids_ok s'.
Proof.
  intros st ops rb s root' s' n k r0 Ed Hn Hk HD HX HO Hp H.
  apply (tx_fold_inv st (fun rb' s' => SDeep d s' rb' /\ XDF d R k rb' /\ OwnS d n s' rb' r0 /\
           frees s s' (foot d n r0) /\ pend_ids_ok s'))
    with (3 := H); [|auto 6 using frees_refl].
  intros o rb1 s1 rb2 s2 (HD1 & HX1 & HO1 & Hf1 & Hp1) Hst. rewrite Ed in Hst.
  destruct (tx_step_own _ _ _ _ _ _ _ _ Hn Hk HD1 HX1 HO1 Hp1 Hst) as (HO2 & Hf2 & Hp2).
  split; [eapply tx_step_SDeep; eauto|]. split; [eapply (tx_step_xd d R HCR); eauto|]. split; [exact HO2|].
  split; [eapply frees_trans; eauto | exact Hp2].
Qed.

End Ops.

(** * From a committed state *)

(* a committed state without batches of future transactions: the writer starts with nothing pending *)
Lemma begin_w_pending : forall st, pend_le st -> pending (begin_w st) = [].
Proof.
  intros st H. unfold begin_w.
  destruct (EngineAllocFacts.release_all (d_tx st + 1) (d_pending st) (d_free st)) as [fr' E].
  { eapply Forall_impl; [|exact H]. cbn beta. intros b Hb. lia. }
  rewrite E. reflexivity.
Qed.

Lemma begin_w_unfreed : forall st x, pend_le st -> freed_in_tx (begin_w st) x = false.
Proof. intros st x H. unfold freed_in_tx. now rewrite (begin_w_pending st H). Qed.

(* the fresh root bucket owns the committed footprint *)
Lemma root_bucket_OwnS : forall st, db_ok' st -> OwnS (d_disk st) 16 (begin_w st) (root_bucket st) (d_root st).
Proof.
  intros st (Hs & Ha & Hnd & Hpl). pose proof Ha as (_ & _ & _ & _ & _ & _ & Hroot & _ & Hlive).
  assert (Hr : d_root st <> 0%N).
  { destruct (Hlive _ (R_live st _ _ Hroot)) as [Hge _]. lia. }
  unfold root_bucket. apply open_OwnS; [exact Hr | exact Hs | |].
  - unfold foot. destruct (N.eqb_spec (d_root st) 0); [contradiction|]. unfold live_of in Hnd.
    exact (NoDup_app_l _ _ Hnd).
  - intros x _. now apply begin_w_unfreed.
Qed.

(* the operations of a transaction establish the ownership invariant, in its strong form *)
Theorem tx_fold_ownS : forall st ops root' s', db_ok' st ->
  tx_fold st ops (root_bucket st, begin_w st) = Ok (root', s') ->
  OwnS (d_disk st) 16 s' root' (d_root st) /\
  (forall x, freed_in_tx s' x = true -> In x (foot (d_disk st) 16 (d_root st))) /\
  pend_ids_ok s' /\ pend_all (pending (begin_w st)) = [].
Proof.
  intros st ops root' s' Hok H. pose proof Hok as (Hs & Ha & Hnd & Hpl).
  pose proof Ha as (_ & _ & _ & _ & _ & _ & Hroot & HC & Hlive).
  assert (Hnz : forall x, In x (Rof st) -> x <> 0%N).
  { intros x Hx. destruct (Hlive _ (R_live st _ _ Hx)) as [Hge _]. lia. }
  destruct (tx_fold_own_gen (d_disk st) (Rof st) HC Hnz st ops (root_bucket st) (begin_w st) root' s' 16 9 (d_root st))
    as (HO & Hf & Hp); auto; try lia.
  - apply root_bucket_SDeep. exact Hs.
  - unfold root_bucket. eapply XDF_mono; [apply open_XDF; eauto | lia].
  - now apply root_bucket_OwnS.
  - unfold pend_ids_ok. rewrite (begin_w_pending st Hpl). constructor.
  - split; [exact HO|]. split; [|split; [exact Hp | now rewrite (begin_w_pending st Hpl)]].
    intros x Hx. destruct (Hf x Hx) as [Hc|Hc]; [|exact Hc]. rewrite (begin_w_unfreed st x Hpl) in Hc. discriminate.
Qed.

Theorem tx_fold_own : forall st ops root' s', db_ok' st ->
  tx_fold st ops (root_bucket st, begin_w st) = Ok (root', s') ->
  OwnI (d_disk st) 16 s' root' (d_root st) /\
  (forall x, freed_in_tx s' x = true -> In x (foot (d_disk st) 16 (d_root st))) /\
  pend_ids_ok s' /\ pend_all (pending (begin_w st)) = [].
Proof.
  intros st ops root' s' Hok H. destruct (tx_fold_ownS st ops root' s' Hok H) as (HO & Hrest).
  split; [now apply OwnS_OwnI | exact Hrest].
Qed.

Print Assumptions fpg_closed.
Print Assumptions tx_fold_ownS.
Print Assumptions tx_fold_own.
