(* Completeness of [spill_node]: every page written is a page of the output subtrees or was handed back; every
   committed child page the overlay did not load is a child of an output page; the old run of every loaded node
   is handed back. *)
From Coq Require Import List NArith Bool Arith Lia ZifyN ZifyNat ZifyBool Permutation.
From Coq.Strings Require Import Byte.
From Jamm Require Spec.
From Jamm Require Import ListFacts Bytes BytesFacts Tree Cursor SearchFacts Engine EngineAbs EngineFacts EngineMergeFacts.
From Jamm Require Import EngineModifyFacts EngineSpillFacts EnginePathFacts EngineBridgeFacts EngineRebalanceFacts.
From Jamm Require FreelistFacts EngineAllocFacts.
From Jamm Require Import EngineSpillWfFacts.
From Jamm Require Import EngineTxInvFacts EngineSpillBucketFacts EngineRefines.
From Jamm Require Import EngineOwnDefs EngineOwnWr EngineNoLeakWr.
Import ListNotations.
Import Coq.Strings.String.StringSyntax. Delimit Scope string_scope with string.
Local Open Scope list_scope. Local Open Scope nat_scope.
Set Warnings "-abstract-large-number".

(* q is reached from p through branch pages written by the running transaction *)
Inductive wsub (w : list (N * (N * ndata))) : N -> N -> Prop :=
| ws_self : forall p, wsub w p p
| ws_kid : forall p sz es e q, wr_get w p = Some (sz, Branches es) -> In e es -> wsub w (snd e) q -> wsub w p q.

Lemma wsub_mono : forall w w' p q, (forall x v, wr_get w x = Some v -> wr_get w' x = Some v) -> wsub w p q -> wsub w' p q.
Proof.
  intros w w' p q Hm H. induction H as [p | p sz es e q Hg He _ IH]; [apply ws_self | eapply ws_kid; eauto].
Qed.

Lemma wsub_trans : forall w a b c, wsub w a b -> wsub w b c -> wsub w a c.
Proof.
  intros w a b c H. induction H as [p | p sz es e q Hg He _ IH]; intros Hc; [exact Hc | eapply ws_kid; eauto].
Qed.

(* the child pages named by the overlay below n that have no materialised node *)
Inductive uhead : node -> N -> Prop :=
| uh_here : forall p np o sq es ks e, In e es -> find_kid (snd e) ks = None -> uhead (Node p np o sq (Branches es) ks) (snd e)
| uh_kid : forall p np o sq es ks e kd q, In e es -> find_kid (snd e) ks = Some kd -> uhead kd q ->
    uhead (Node p np o sq (Branches es) ks) q.

(* the old page runs of the materialised nodes at and below n *)
Fixpoint oldruns (n : node) : list N :=
  match n with Node p np _ _ _ ks => (if (p =? 0)%N then [] else nrun p np) ++ flat_map oldruns ks end.

Lemma oldruns_eq : forall n, oldruns n = old_pages n ++ flat_map oldruns (n_kids n).
Proof. intros [p np o s dd ks]. reflexivity. Qed.

Lemma frame_heads : forall live s s' alloc dead, frame live s s' alloc dead ->
  (forall q, wr_get (wr s) q <> None -> In q live) -> forall q, wr_get (wr s') q <> None -> In q (alloc ++ live).
Proof.
  intros live s s' alloc dead Hfr Hwl q Hq. apply in_or_app.
  destruct (in_dec N.eq_dec q alloc) as [Hi|Hn]; [now left | right].
  apply Hwl. now rewrite <- (fr_wr _ _ _ _ _ Hfr q Hn).
Qed.

(* an entry of the data written by the tail is a child of an output page *)
Lemma tail_entry : forall w (outl : list (bytes * N)) (pieces : list (list (bytes * N))) e,
  Forall2 (piece_written w) outl (map Branches pieces) -> In e (concat pieces) ->
  exists o, In o outl /\ wsub w (snd o) (snd e).
Proof.
  intros w outl pieces e H. revert outl H. induction pieces as [|pc pieces IH]; intros outl H He; [destruct He|].
  cbn [map] in H. inversion H as [|o dd outl' dds Hpw HF]; subst. cbn [concat] in He. apply in_app_or in He.
  destruct He as [He|He].
  - exists o. split; [now left|]. destruct Hpw as [_ Hg]. eapply ws_kid; [exact Hg | exact He | apply ws_self].
  - destruct (IH outl' HF He) as (o' & Ho' & Hw). exists o'. split; [now right | exact Hw].
Qed.

Section Cov.
Variables (fuel : nat) (d : disk) (keep : list N).

Definition spill_cov (f : nat) : Prop :=
  forall live lo hi n s orig fk p sibs s' h,
    fresh_inv live s -> (forall x, In x keep -> In x live) -> (forall q, wr_get (wr s) q <> None -> In q live) ->
    swfh fuel d keep h lo hi n -> NoDup (upages h d n) ->
    spill_node f n s = Ok ((orig, (fk, p), sibs), s') ->
    xframe s s' /\
    (forall x, In x (oldruns n) -> freed_in_tx s' x = true) /\
    (forall q, uhead n q -> exists e, In e ((fk, p) :: sibs) /\ wsub (wr s') (snd e) q) /\
    (forall q v x, wr_get (wr s') q = Some v -> In x (wrun (psz s') q v) ->
       wr_get (wr s) q <> None \/ freed_in_tx s' x = true \/
       exists e, In e ((fk, p) :: sibs) /\ wsub (wr s') (snd e) q).

Section Fold.
  Variables (f h' : nat) (lo hi : option bytes) (es : list (bytes * N)) (kids : list node).
  Hypothesis IHf : spill_spec2 fuel d keep f.
  Hypothesis IHc : spill_cov f.
  Hypothesis Hnd_kids : NoDup (map n_page kids).
  Hypothesis Hkids : forall l hh e kd, In (l, hh, e) (chb lo hi es) -> find_kid (snd e) kids = Some kd ->
                                       swfh fuel d keep h' l hh kd.
  Hypothesis Hup_nd : forall kd, In kd kids -> NoDup (upages h' d kd).

  Definition cov_done (todo : list node) (outs : list (N * list (bytes * N))) (s : txs)
                      (outs' : list (N * list (bytes * N))) (s1 : txs) : Prop :=
    forall live, fresh_inv live s -> (forall x, In x keep -> In x live) -> (forall q, wr_get (wr s) q <> None -> In q live) ->
    exists alloc,
      xframe s s1 /\ fresh_inv (alloc ++ live) s1 /\ (forall q, wr_get (wr s1) q <> None -> In q (alloc ++ live)) /\
      (forall kd, In kd todo -> exists out, find_out outs' (n_page kd) = Some out /\
           (forall x, In x (oldruns kd) -> freed_in_tx s1 x = true) /\
           (forall q, uhead kd q -> exists e, In e out /\ wsub (wr s1) (snd e) q)) /\
      (forall q v x, wr_get (wr s1) q = Some v -> In x (wrun (psz s1) q v) ->
         wr_get (wr s) q <> None \/ freed_in_tx s1 x = true \/
         exists kd out e, In kd todo /\ find_out outs' (n_page kd) = Some out /\ In e out /\ wsub (wr s1) (snd e) q).

  Lemma cov_done_nil outs s : cov_done [] outs s outs s.
  Proof.
    intros live Hfi _ Hwl. exists []. split; [apply xframe_refl|]. split; [exact Hfi|]. split; [exact Hwl|].
    split; [intros k []|]. intros q v x Hq _. left. congruence.
  Qed.

  Lemma cov_done_cons kd todo outs s k fk p sibs sk outs' s1 :
    In kd kids -> In (k, n_page kd) es -> spill_node f kd s = Ok ((Some k, (fk, p), sibs), sk) ->
    find_out outs' (n_page kd) = Some ((fk, p) :: sibs) ->
    cov_done todo ((n_page kd, (fk, p) :: sibs) :: outs) sk outs' s1 -> cov_done (kd :: todo) outs s outs' s1.
  Proof.
    intros Hkd Hin_es Hsp HfindK Hrest live Hfi Hkl Hwl. set (K := (fk, p) :: sibs) in *.
    destruct (chb_In lo hi es _ Hin_es) as (l & h & Hchb).
    pose proof (Hkids l h (k, n_page kd) kd Hchb (EngineMergeFacts.find_kid_NoDup kids kd Hnd_kids Hkd)) as Hswf.
    destruct (IHf _ _ _ _ _ _ _ _ _ _ _ Hfi Hkl Hswf (Hup_nd kd Hkd) Hsp) as (a1 & dd1 & g1 & ([Hfr1 _ _] & _) & _).
    destruct (IHc _ _ _ _ _ _ _ _ _ _ _ Hfi Hkl Hwl Hswf (Hup_nd kd Hkd) Hsp) as (X1 & Ho1 & Hu1 & Hw1).
    destruct (Hrest (a1 ++ live) (fr_fresh _ _ _ _ _ Hfr1) (fun x Hx => in_or_app _ _ _ (or_intror (Hkl x Hx)))
                (frame_heads _ _ _ _ _ Hfr1 Hwl)) as (a2 & X2 & Hfi2 & Hwl2 & Hdone & Hwr2).
    exists (a2 ++ a1). split; [eapply xframe_trans; eauto|].
    split; [now rewrite <- app_assoc|]. split; [now rewrite <- app_assoc|].
    split.
    { intros kd' [<-|Hk'].
      - exists K. split; [exact HfindK|]. split.
        + intros x Hx. apply (xf_freed _ _ X2), Ho1, Hx.
        + intros q0 Hq0. destruct (Hu1 q0 Hq0) as (e & He & Hw). exists e. split; [exact He|].
          eapply wsub_mono; [apply (xf_wr _ _ X2) | exact Hw].
      - exact (Hdone kd' Hk'). }
    intros q0 v x Hq0 Hx. destruct (Hwr2 q0 v x Hq0 Hx) as [A0|[A0|(kd' & out & e & A1 & A2 & A3 & A4)]].
    + destruct (wr_get (wr sk) q0) as [v'|] eqn:Ev; [|congruence].
      assert (v' = v) by (pose proof (xf_wr _ _ X2 _ _ Ev) as E'; congruence). subst v'.
      rewrite (xf_psz _ _ X2) in Hx.
      destruct (Hw1 q0 v x Ev Hx) as [B0|[B0|(e & B1 & B2)]].
      * now left.
      * right; left. apply (xf_freed _ _ X2), B0.
      * right; right. exists kd, K, e. split; [now left|]. split; [exact HfindK|]. split; [exact B1|].
        eapply wsub_mono; [apply (xf_wr _ _ X2) | exact B2].
    + right; left. exact A0.
    + right; right. exists kd', out, e. split; [now right|]. auto.
  Qed.
End Fold.
End Cov.

Lemma out_page_entry : forall (fk : bytes) (p : N) (sibs : list (bytes * N)) q w,
  In q (p :: map snd sibs) -> exists e, In e ((fk, p) :: sibs) /\ wsub w (snd e) q.
Proof.
  intros fk p sibs q w [<-|H].
  - exists (fk, p). split; [now left | apply ws_self].
  - apply in_map_iff in H. destruct H as (e & <- & He). exists e. split; [now right | apply ws_self].
Qed.

Theorem spill_node_cov fuel d keep : forall f, spill_cov fuel d keep f.
Proof.
  induction f as [|f IHc]; intros live lo hi n s orig fk p sibs s' h Hfi Hkl Hwl Hswfh Hupnd H; [discriminate|].
  inversion Hswfh as [h0 lo0 hi0 pg npg o sq l Hkeys
                     |h0 lo0 hi0 pg npg o sq es kids Hes Hnd_es Hnd_kids Horig Hkids Hstab'];
    subst lo0 hi0 n h.
  - (* a leaf *)
    rewrite spill_node_unfold in H. cbn [n_kids n_data kid_keys fold_res bind isort_by map] in H.
    set (n := Node pg npg o sq (Leaves l) []) in *.
    destruct (spill_tail_cov live n _ s orig fk p sibs s' Hfi Hwl H) as (X & Hold & Hw).
    split; [exact X|]. split; [|split].
    + intros x Hx. rewrite oldruns_eq in Hx. cbn [n n_kids flat_map] in Hx. rewrite app_nil_r in Hx.
      apply Hold. now apply In_old_pages.
    + intros q Hq. inversion Hq.
    + intros q v x Hq Hx. destruct (Hw q v x Hq Hx) as [A|[A|A]]; [now left | | now (right; left)].
      right; right. now apply out_page_entry.
  - (* a branch *)
    set (n := Node pg npg o sq (Branches es) kids) in *.
    assert (Hup_nd : forall kd, In kd kids -> NoDup (upages h0 d kd)).
    { intros kd Hkd. destruct (Horig kd Hkd) as (k & _ & Hi). unfold n in Hupnd. cbn [upages] in Hupnd.
      pose proof (NoDup_flat_map_elim _ es _ Hupnd Hi) as Hn. cbn [snd] in Hn.
      rewrite (EngineMergeFacts.find_kid_NoDup kids kd Hnd_kids Hkd) in Hn. exact Hn. }
    destruct (spill_branch_inv fuel d keep f lo hi es kids (spill_node_spec fuel d keep f) Hes Hnd_es Hnd_kids Horig
                (fun l hh e kd Hi Hf => swfh_swf _ _ _ _ _ _ _ (Hkids l hh e kd Hi Hf))
                (cov_done keep) pg npg o sq live s ((orig, (fk, p), sibs), s') (cov_done_nil keep))
      as (todo & outs & s1 & Hperm & _ & Hnokid & Hdone0 & H1); [|exact Hfi|exact H|].
    { intros kd todo outs0 s0 k fk0 p0 sibs0 sk outs' s1 Hkd _ _ _ Hin.
      exact (cov_done_cons fuel d keep f h0 lo hi es kids (spill_node_spec2 fuel d keep f) IHc Hnd_kids Hkids Hup_nd
               kd todo outs0 s0 k fk0 p0 sibs0 sk outs' s1 Hkd Hin). }
    destruct (Hdone0 live Hfi Hkl Hwl) as (a1 & X1 & Hfi1 & Hwl1 & Hdone & Hwr1).
    set (es_fin := flat_map (seg_of outs) es) in *.
    destruct (spill_tail_spec _ _ _ _ _ _ _ _ _ Hfi1 H1)
      as (d0 & rest & a2 & stale & Esp & Eo & Hpw & _).
    destruct (spill_tail_cov _ n _ s1 orig fk p sibs s' Hfi1 Hwl1 H1) as (X2 & Hold & Hw2).
    destruct (split_branches s1 es_fin) as (e0 & ess & Esp' & Hcat & _). rewrite Esp' in Esp.
    inversion Esp; subst d0 rest.
    change (Branches e0 :: map Branches ess) with (map Branches (e0 :: ess)) in Hpw.
    (* an entry of the final data is a child of an output page *)
    assert (Hfin : forall e, In e es_fin -> exists o, In o ((fk, p) :: sibs) /\ wsub (wr s') (snd o) (snd e)).
    { intros e He. apply (tail_entry _ _ (e0 :: ess) e Hpw). cbn [concat]. now rewrite Hcat. }
    (* what a kid reaches is reached from an output page *)
    assert (Hvia : forall kd out e q, In kd todo -> find_out outs (n_page kd) = Some out -> In e out ->
              wsub (wr s1) (snd e) q -> exists o, In o ((fk, p) :: sibs) /\ wsub (wr s') (snd o) q).
    { intros kd out e q Hkt Ho He Hw.
      assert (Hkd : In kd kids) by (apply (Permutation_in _ Hperm Hkt)).
      destruct (Horig kd Hkd) as (k & _ & Hin).
      assert (Hef : In e es_fin).
      { unfold es_fin. apply in_flat_map. exists (k, n_page kd). split; [exact Hin|]. unfold seg_of. cbn [snd]. now rewrite Ho. }
      destruct (Hfin e Hef) as (o0 & Ho0 & Hw0). exists o0. split; [exact Ho0|].
      eapply wsub_trans; [exact Hw0|]. eapply wsub_mono; [apply (xf_wr _ _ X2) | exact Hw]. }
    split; [eapply xframe_trans; eauto|]. split; [|split].
    + intros x Hx. rewrite oldruns_eq in Hx. apply in_app_or in Hx. destruct Hx as [Hx|Hx].
      * apply Hold. now apply In_old_pages.
      * cbn [n n_kids] in Hx. apply in_flat_map in Hx. destruct Hx as (kd & Hkd & Hx).
        assert (Hkt : In kd todo) by (apply (Permutation_in _ (Permutation_sym Hperm) Hkd)).
        destruct (Hdone kd Hkt) as (out & _ & Hfo & _). apply (xf_freed _ _ X2), Hfo, Hx.
    + intros q Hq. inversion Hq as [? ? ? ? ? ? e He Hf | ? ? ? ? ? ? e kd q0 He Hf Hu]; subst.
      * apply Hfin. unfold es_fin. apply in_flat_map. exists e. split; [exact He|].
        unfold seg_of. rewrite (Hnokid e Hf). now left.
      * destruct (EngineMergeFacts.find_kid_In _ _ _ Hf) as [Hkd Epg].
        assert (Hkt : In kd todo) by (apply (Permutation_in _ (Permutation_sym Hperm) Hkd)).
        destruct (Hdone kd Hkt) as (out & Ho & _ & Hu1). destruct (Hu1 q Hu) as (e1 & He1 & Hw1).
        eapply Hvia; eauto.
    + intros q v x Hq Hx. destruct (Hw2 q v x Hq Hx) as [A|[A|A]].
      * destruct (wr_get (wr s1) q) as [v'|] eqn:Ev; [|congruence].
        assert (v' = v) by (pose proof (xf_wr _ _ X2 _ _ Ev) as E'; congruence). subst v'.
        rewrite (xf_psz _ _ X2) in Hx.
        destruct (Hwr1 q v x Ev Hx) as [B|[B|(kd & out & e & B1 & B2 & B3 & B4)]].
        -- now left.
        -- right; left. apply (xf_freed _ _ X2), B.
        -- right; right. eapply Hvia; eauto.
      * right; right. now apply out_page_entry.
      * right; left. exact A.
Qed.

Print Assumptions spill_node_cov.

Lemma root_loop_cov : forall f live s fk p sibs p' s',
  fresh_inv live s -> (forall q, wr_get (wr s) q <> None -> In q live) ->
  match sibs with
  | [] => Ok (p, s)
  | _ => spill_root f (Node 0 0 (Some fk) 0 (Branches ((fk, p) :: sibs)) []) s
  end = Ok (p', s') ->
  xframe s s' /\
  (forall e, In e ((fk, p) :: sibs) -> wsub (wr s') p' (snd e)) /\
  (forall q v x, wr_get (wr s') q = Some v -> In x (wrun (psz s') q v) ->
     wr_get (wr s) q <> None \/ freed_in_tx s' x = true \/ wsub (wr s') p' q).
Proof.
  induction f as [|f IH]; intros live s fk p sibs p' s' Hfi Hwl H.
  - destruct sibs as [|sb sibs]; [|discriminate]. inversion H; subst p' s'.
    split; [apply xframe_refl|]. split; [intros e [<-|[]]; apply ws_self|]. intros q v x Hq _. left. congruence.
  - destruct sibs as [|sb sibs].
    + inversion H; subst p' s'.
      split; [apply xframe_refl|]. split; [intros e [<-|[]]; apply ws_self|]. intros q v x Hq _. left. congruence.
    + set (K := (fk, p) :: sb :: sibs) in *.
      destruct (root_level_inv f fk K s p' s' H) as (o1 & fk1 & p1 & sibs1 & s1 & Hsp & Hloop).
      set (nr := Node 0 0 (Some fk) 0 (Branches K) []) in *.
      destruct (spill_tail_spec _ _ _ _ _ _ _ _ _ Hfi Hsp)
        as (d0 & rest & a1 & stale & Esp & _ & Hpw & _ & _ & Hfr1 & _).
      destruct (spill_tail_cov live nr _ s o1 fk1 p1 sibs1 s1 Hfi Hwl Hsp) as (X1 & _ & Hw1).
      destruct (split_branches s K) as (e0 & ess & Esp' & Hcat & _). rewrite Esp' in Esp.
      inversion Esp; subst d0 rest.
      change (Branches e0 :: map Branches ess) with (map Branches (e0 :: ess)) in Hpw.
      destruct (IH (a1 ++ live) s1 fk1 p1 sibs1 p' s' (fr_fresh _ _ _ _ _ Hfr1) (frame_heads _ _ _ _ _ Hfr1 Hwl) Hloop)
        as (X2 & Hent2 & Hw2).
      split; [eapply xframe_trans; eauto|]. split.
      * intros e He.
        destruct (tail_entry (wr s1) _ (e0 :: ess) e Hpw) as (o & Ho & Hwo); [cbn [concat]; now rewrite Hcat|].
        eapply wsub_trans; [apply Hent2, Ho|]. eapply wsub_mono; [apply (xf_wr _ _ X2) | exact Hwo].
      * intros q v x Hq Hx. destruct (Hw2 q v x Hq Hx) as [A|[A|A]]; [|now (right; left) | now (right; right)].
        destruct (wr_get (wr s1) q) as [v'|] eqn:Ev; [|congruence].
        assert (v' = v) by (pose proof (xf_wr _ _ X2 _ _ Ev) as E'; congruence). subst v'.
        rewrite (xf_psz _ _ X2) in Hx.
        destruct (Hw1 q v x Ev Hx) as [B|[B|B]]; [now left | | right; left; apply (xf_freed _ _ X2), B].
        right; right. destruct (out_page_entry fk1 p1 sibs1 q (wr s1) B) as (e & He & Hwe).
        eapply wsub_trans; [apply Hent2, He|]. eapply wsub_mono; [apply (xf_wr _ _ X2) | exact Hwe].
Qed.

(* the root node of a dirty bucket that is not the empty leaf *)
Theorem spill_root_cov fuel d keep live f n s p s' h :
  fresh_inv live s -> (forall x, In x keep -> In x live) -> (forall q, wr_get (wr s) q <> None -> In q live) ->
  swfh fuel d keep h None None n -> NoDup (upages h d n) ->
  spill_root f n s = Ok (p, s') ->
  xframe s s' /\
  (forall x, In x (oldruns n) -> freed_in_tx s' x = true) /\
  (forall q, uhead n q -> wsub (wr s') p q) /\
  (forall q v x, wr_get (wr s') q = Some v -> In x (wrun (psz s') q v) ->
     wr_get (wr s) q <> None \/ freed_in_tx s' x = true \/ wsub (wr s') p q).
Proof.
  intros Hfi Hkl Hwl Hswfh Hupnd H. destruct f as [|f]; [discriminate|].
  pose proof (swfh_swf _ _ _ _ _ _ _ Hswfh) as Hswf.
  destruct (spill_root_inv _ _ _ _ _ _ _ _ _ _ Hswf H) as (o & fk & p1 & sibs & s1 & Hsp & Hloop).
  destruct (spill_node_spec2 fuel d keep fuel0 _ _ _ _ _ _ _ _ _ _ _ Hfi Hkl Hswfh Hupnd Hsp)
    as (a1 & dd1 & g1 & ([Hfr1 _ _] & _) & _).
  destruct (spill_node_cov fuel d keep fuel0 _ _ _ _ _ _ _ _ _ _ _ Hfi Hkl Hwl Hswfh Hupnd Hsp) as (X1 & Ho1 & Hu1 & Hw1).
  destruct (root_loop_cov f (a1 ++ live) s1 fk p1 sibs p s' (fr_fresh _ _ _ _ _ Hfr1) (frame_heads _ _ _ _ _ Hfr1 Hwl) Hloop)
    as (X2 & Hent2 & Hw2).
  split; [eapply xframe_trans; eauto|]. split; [intros x Hx; apply (xf_freed _ _ X2), Ho1, Hx|]. split.
  - intros q Hq. destruct (Hu1 q Hq) as (e & He & Hwe).
    eapply wsub_trans; [apply Hent2, He|]. eapply wsub_mono; [apply (xf_wr _ _ X2) | exact Hwe].
  - intros q v x Hq Hx. destruct (Hw2 q v x Hq Hx) as [A|[A|A]]; [|now (right; left) | now (right; right)].
    destruct (wr_get (wr s1) q) as [v'|] eqn:Ev; [|congruence].
    assert (v' = v) by (pose proof (xf_wr _ _ X2 _ _ Ev) as E'; congruence). subst v'.
    rewrite (xf_psz _ _ X2) in Hx.
    destruct (Hw1 q v x Ev Hx) as [B|[B|(e & He & Hwe)]]; [now left | right; left; apply (xf_freed _ _ X2), B|].
    right; right. eapply wsub_trans; [apply Hent2, He|]. eapply wsub_mono; [apply (xf_wr _ _ X2) | exact Hwe].
Qed.

(* the root that is the empty leaf: one write *)
Lemma spill_root_empty_cov : forall live f n s p s', fresh_inv live s -> (forall q, wr_get (wr s) q <> None -> In q live) ->
  n_data n = Leaves [] -> spill_root f n s = Ok (p, s') ->
  xframe s s' /\ (forall x, old_run n x -> freed_in_tx s' x = true) /\
  (forall q, wr_get (wr s') q <> None -> wr_get (wr s) q <> None \/ q = p).
Proof.
  intros live f n s p s' Hfi Hwl Hn H. destruct f as [|f]; [discriminate|]. cbn [spill_root] in H.
  rewrite Hn in H. destruct (write_node s (set_kids n [])) as [n1 s1] eqn:Hw. cbn [bind] in H.
  inversion H; subst p s'. clear H.
  pose proof (write_node_cov live s _ n1 s1 Hfi Hwl Hw) as C. cbv zeta in C.
  destruct C as (X & _ & _ & _ & Ewr & _ & Hfreed & _).
  split; [exact X|]. split.
  - intros x Hx. apply Hfreed. right. destruct n; exact Hx.
  - intros q Hq. rewrite Ewr, wr_get_put in Hq. destruct (N.eqb_spec (n_page n1) q) as [E|E]; [now right | now left].
Qed.

Print Assumptions spill_root_cov.
