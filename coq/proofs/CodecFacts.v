(* Round trip of the page codec: decode_page (encode_page ...) = Ok ..., for every [pad], the function that
   supplies the bytes the library leaves uninitialised (struct padding and the slack at the end of the buffer). *)
From Coq Require Import List Arith NArith Bool Lia ZifyN ZifyBool ZifyNat.
From Coq.Strings Require Import Byte.
From Jamm Require Import Bytes Consts CLayout Meta Codec BytesFacts.
Import ListNotations.
Local Open Scope list_scope. Local Open Scope N_scope.

Arguments le_enc : simpl never. Arguments padN : simpl never.

Lemma pow256_8 : 256 ^ N.of_nat 8 = 2 ^ 64. Proof. reflexivity. Qed.
Lemma pow256_1 : 256 ^ N.of_nat 1 = 256. Proof. reflexivity. Qed.

Lemma blen_nil : blen [] = 0. Proof. reflexivity. Qed.
Lemma blen_app a b : blen (a ++ b) = blen a + blen b.
Proof. unfold blen. rewrite app_length. lia. Qed.
Lemma llen_cons {A} (x : A) l : llen (x :: l) = llen l + 1.
Proof. unfold llen. cbn [length]. lia. Qed.
Lemma blen_le_enc n x : blen (le_enc n x) = N.of_nat n.
Proof. unfold blen. now rewrite le_enc_length. Qed.
Lemma blen_padN pad s n : blen (padN pad s n) = N.of_nat n.
Proof.
  unfold blen. f_equal. revert s.
  induction n as [|n IH]; intros s; unfold padN; fold padN; cbn [length]; auto.
Qed.

(* [At buf o b]: the bytes [b] occur in [buf] at offset [o] *)
Definition At (buf : bytes) (o : N) (b : bytes) : Prop :=
  exists pre post, buf = pre ++ b ++ post /\ blen pre = o.

Lemma At_here b c : At (b ++ c) 0 b.
Proof. exists [], c. split; reflexivity. Qed.
Lemma At_app_r a c o b : At c o b -> At (a ++ c) (blen a + o) b.
Proof.
  intros (pre & post & -> & <-). exists (a ++ pre), post. split.
  - rewrite <- app_assoc. reflexivity.
  - apply blen_app.
Qed.
Lemma At_app_l a c o b : At a o b -> At (a ++ c) o b.
Proof.
  intros (pre & post & -> & <-). exists pre, (post ++ c). split; [|reflexivity].
  rewrite <- !app_assoc. reflexivity.
Qed.
Lemma At_split buf o x y : At buf o (x ++ y) -> At buf o x /\ At buf (o + blen x) y.
Proof.
  intros (pre & post & -> & <-). split.
  - exists pre, (y ++ post). rewrite <- app_assoc. auto.
  - exists (pre ++ x), post. split.
    + rewrite <- !app_assoc. reflexivity.
    + apply blen_app.
Qed.
Lemma At_bound buf o b : At buf o b -> o + blen b <= blen buf.
Proof. intros (pre & post & -> & <-). rewrite !blen_app. lia. Qed.
Lemma At_slice buf o b l : At buf o b -> l = blen b -> slice buf o l = Some b.
Proof.
  intros (pre & post & -> & <-) ->. unfold slice, blen. rewrite !Nat2N.id.
  rewrite skipn_app, skipn_all, Nat.sub_diag. cbn [skipn app].
  rewrite firstn_app, firstn_all, Nat.sub_diag. cbn [firstn]. rewrite app_nil_r.
  replace (Nat.leb _ _) with true; auto.
  symmetry; apply Nat.leb_le. rewrite !app_length. lia.
Qed.
Lemma slice_app_mid a b c : slice (a ++ b ++ c) (blen a) (blen b) = Some b.
Proof. apply At_slice; [|reflexivity]. exists a, c. auto. Qed.

Lemma rd_le_at buf o n x :
  At buf o (le_enc n x) -> x < 256 ^ N.of_nat n -> rd_le buf o n = Some x.
Proof.
  intros H Hx. unfold rd_le. rewrite (At_slice buf o (le_enc n x)); auto.
  - cbn [option_map]. rewrite le_dec_enc_small; auto.
  - rewrite blen_le_enc; auto.
Qed.

Definition reads_buffer (rd : reader) (base : N) (buf : bytes) : Prop :=
  forall o l, o + l <= blen buf -> rd (base + o) l = slice buf o l.

Lemma rd_at rd base buf a o b l :
  reads_buffer rd base buf -> At buf o b -> a = base + o -> l = blen b -> rd a l = Some b.
Proof.
  intros Hrd Hat -> ->. rewrite Hrd.
  - apply At_slice; auto.
  - apply At_bound; auto.
Qed.
Lemma rdN_at rd base buf a o n x :
  reads_buffer rd base buf -> At buf o (le_enc n x) -> a = base + o -> x < 256 ^ N.of_nat n ->
  rdN rd a n = Ok x.
Proof.
  intros Hrd Hat Ha Hx. unfold rdN.
  rewrite (rd_at rd base buf a o (le_enc n x)); auto.
  - rewrite le_dec_enc_small; auto.
  - rewrite blen_le_enc; auto.
Qed.
Lemma rdN8_at rd base buf a o x :
  reads_buffer rd base buf -> At buf o (le_enc 8 x) -> a = base + o -> x < 2 ^ 64 ->
  rdN rd a 8 = Ok x.
Proof. intros. eapply rdN_at; eauto. Qed.
Lemma rdN1_at rd base buf a o x :
  reads_buffer rd base buf -> At buf o (le_enc 1 x) -> a = base + o -> x < 256 ->
  rdN rd a 1 = Ok x.
Proof. intros. eapply rdN_at; eauto. Qed.

Lemma in_run_ok P h pid buf off len o :
  blen buf <= (ph_overflow h + 1) * P -> off = pid * P + o -> o + len <= blen buf ->
  in_run P h pid off len = true.
Proof.
  intros Hroom -> Hb. unfold in_run. apply andb_true_intro; split; apply N.leb_le; lia.
Qed.

Lemma nth_error_llen {A} (l : list A) i e : nth_error l i = Some e -> N.of_nat i < llen l.
Proof.
  intros H. assert (Hn : (i < length l)%nat) by (apply nth_error_Some; congruence).
  unfold llen. lia.
Qed.

Lemma mapM_seqN {B} (f : N -> res B) (l : list B) : forall s,
  (forall i e, nth_error l i = Some e -> f (s + N.of_nat i) = Ok e) ->
  mapM f (seqN s (length l)) = Ok l.
Proof.
  induction l as [|x l IH]; intros s H; cbn [length seqN mapM].
  - reflexivity.
  - assert (E : f s = Ok x).
    { specialize (H 0%nat x eq_refl). change (N.of_nat 0) with 0 in H.
      rewrite N.add_0_r in H. exact H. }
    rewrite E. cbn [bind]. rewrite IH.
    + reflexivity.
    + intros i e Hi. specialize (H (S i) e Hi).
      replace (s + 1 + N.of_nat i) with (s + N.of_nat (S i)) by lia. exact H.
Qed.

Definition hdr_bytes (pad : N -> byte) (pid over : N) (b : pbody) : bytes :=
  le_enc 8 pid ++ le_enc 1 (body_type b) ++ padN pad 9 7 ++ le_enc 8 (body_count b) ++ le_enc 8 over.
Definition kv (e : lent) : bytes := lent_key e ++ lent_val e.
Definition payload_bytes (pad : N -> byte) (b : pbody) : bytes :=
  match b with
  | PLeaf l => enc_leaf_hdrs pad l (llen l) 0 payload_off ++ flat_map kv l
  | PBranch es => enc_branch_hdrs es (llen es) 0 ++ flat_map fst es
  | PFree ids => flat_map (le_enc 8) ids
  end.
Definition used_bytes pad pid over b := hdr_bytes pad pid over b ++ payload_bytes pad b.

Lemma encode_page_eq pad pid over b :
  encode_page pad pid over b =
  hdr_bytes pad pid over b ++ payload_bytes pad b ++
  padN pad (blen (used_bytes pad pid over b))
       (N.to_nat (body_size b) - length (used_bytes pad pid over b)).
Proof.
  unfold encode_page, used_bytes, hdr_bytes. destruct b; cbn [payload_bytes];
    symmetry; apply app_assoc.
Qed.

Lemma blen_hdr_bytes pad pid over b : blen (hdr_bytes pad pid over b) = 32.
Proof. unfold hdr_bytes. rewrite !blen_app, !blen_le_enc, blen_padN. reflexivity. Qed.

Lemma blen_enc_leaf_hdrs pad l : forall n doff at_,
  blen (enc_leaf_hdrs pad l n doff at_) = 32 * llen l.
Proof.
  induction l as [|e l IH]; intros n doff at_; cbn [enc_leaf_hdrs].
  - reflexivity.
  - rewrite !blen_app, !blen_le_enc, blen_padN, IH, llen_cons. lia.
Qed.
Lemma blen_enc_branch_hdrs es : forall n doff,
  blen (enc_branch_hdrs es n doff) = 24 * llen es.
Proof.
  induction es as [|[k pg] es IH]; intros n doff; cbn [enc_branch_hdrs].
  - reflexivity.
  - rewrite !blen_app, !blen_le_enc, IH, llen_cons. lia.
Qed.
Lemma blen_flat_le8 ids : blen (flat_map (le_enc 8) ids) = 8 * llen ids.
Proof.
  induction ids as [|x ids IH]; cbn [flat_map].
  - reflexivity.
  - rewrite blen_app, blen_le_enc, IH, llen_cons. lia.
Qed.
Lemma fold_leaf_size l : forall a,
  fold_left (fun acc e => acc + blen (lent_key e) + blen (lent_val e)) l a = a + blen (flat_map kv l).
Proof.
  induction l as [|e l IH]; intros a; cbn [fold_left flat_map].
  - rewrite blen_nil. lia.
  - rewrite IH. unfold kv at 2. rewrite !blen_app. lia.
Qed.
Lemma fold_branch_size (es : list (bytes * N)) : forall a,
  fold_left (fun acc e => acc + blen (fst e)) es a = a + blen (flat_map fst es).
Proof.
  induction es as [|e es IH]; intros a; cbn [fold_left flat_map].
  - rewrite blen_nil. lia.
  - rewrite IH. rewrite !blen_app. rewrite N.add_assoc. reflexivity.
Qed.

Lemma payload_size pad b : 40 + blen (payload_bytes pad b) = body_size b.
Proof.
  unfold body_size, page_hdr_size. f_equal. destruct b as [l|es|ids]; cbn [payload_bytes].
  - rewrite fold_leaf_size, blen_app, blen_enc_leaf_hdrs. reflexivity.
  - rewrite fold_branch_size, blen_app, blen_enc_branch_hdrs. reflexivity.
  - apply blen_flat_le8.
Qed.

(* src/page.rs computes sizes with HEADER_SIZE = 40 = sizeof Page, but the payload starts at the field [ptr],
   offset 32: every buffer ends in 8 unused bytes. Exactly 8: the truncated subtraction in encode_page never
   truncates. *)
Lemma used_length pad pid over b : blen (used_bytes pad pid over b) + 8 = body_size b.
Proof.
  unfold used_bytes. rewrite blen_app, blen_hdr_bytes, <- (payload_size pad b). lia.
Qed.

Lemma encode_page_length pad pid over b : blen (encode_page pad pid over b) = body_size b.
Proof.
  rewrite encode_page_eq. rewrite app_assoc. fold (used_bytes pad pid over b).
  rewrite blen_app, blen_padN.
  pose proof (used_length pad pid over b) as H. unfold blen in *. lia.
Qed.

Lemma At_hdr pad pid over b : At (encode_page pad pid over b) 0 (hdr_bytes pad pid over b).
Proof. rewrite encode_page_eq. apply At_here. Qed.
Lemma At_payload pad pid over b o x :
  At (payload_bytes pad b) o x -> At (encode_page pad pid over b) (32 + o) x.
Proof.
  intros H. rewrite encode_page_eq.
  replace (32 + o) with (blen (hdr_bytes pad pid over b) + o)
    by (rewrite blen_hdr_bytes; reflexivity).
  apply At_app_r, At_app_l, H.
Qed.

Lemma body_type_small b : body_type b < 256.
Proof. destruct b; cbn [body_type]; unfold type_leaf, type_branch, type_freelist; lia. Qed.

Lemma read_phdr_enc pad P pid over b rd :
  pid < 2 ^ 64 -> over < 2 ^ 64 -> body_count b < 2 ^ 64 ->
  reads_buffer rd (pid * P) (encode_page pad pid over b) ->
  read_phdr rd P pid = Ok (mkPhdr pid (body_type b) (body_count b) over).
Proof.
  intros Hpid Hover Hcnt Hrd.
  pose proof (At_hdr pad pid over b) as H. unfold hdr_bytes in H.
  apply At_split in H as [Hid H]. apply At_split in H as [Hty H].
  apply At_split in H as [_ H]. apply At_split in H as [Hc Ho].
  rewrite !blen_le_enc, blen_padN in *.
  unfold read_phdr, off_pg_id, off_pg_type, off_pg_count, off_pg_overflow.
  rewrite (rdN8_at rd _ _ _ _ pid Hrd Hid) by lia. cbn [bind].
  rewrite (rdN1_at rd _ _ _ _ _ Hrd Hty) by (try apply body_type_small; lia). cbn [bind].
  rewrite (rdN8_at rd _ _ _ _ _ Hrd Hc) by lia. cbn [bind].
  rewrite (rdN8_at rd _ _ _ _ _ Hrd Ho) by lia. cbn [bind].
  reflexivity.
Qed.

Definition lent_ok (e : lent) : Prop :=
  blen (lent_key e) < 2^64 /\ blen (lent_val e) < 2^64 /\
  match e with EBk _ r n => r < 2^64 /\ n < 2^64 | EKv _ _ => True end.
Definition body_ok (b : pbody) : Prop :=
  match b with
  | PLeaf l => Forall lent_ok l
  | PBranch es => Forall (fun e => blen (fst e) < 2^64 /\ snd e < 2^64) es
  | PFree ids => Forall (fun i => i < 2^64) ids
  end.

Lemma free_layout : forall ids i x,
  nth_error ids i = Some x -> At (flat_map (le_enc 8) ids) (8 * N.of_nat i) (le_enc 8 x).
Proof.
  induction ids as [|y ids IH]; intros [|i] x H; cbn [nth_error] in H; try discriminate;
    cbn [flat_map].
  - injection H as ->. replace (8 * N.of_nat 0) with 0 by lia. apply At_here.
  - replace (8 * N.of_nat (S i)) with (blen (le_enc 8 y) + 8 * N.of_nat i)
      by (rewrite blen_le_enc; lia).
    apply At_app_r, IH, H.
Qed.

Lemma body_count_bound b : body_count b <= body_size b.
Proof.
  rewrite <- (payload_size (fun _ => x00) b).
  destruct b as [l|es|ids]; cbn [body_count payload_bytes].
  - rewrite blen_app, blen_enc_leaf_hdrs. lia.
  - rewrite blen_app, blen_enc_branch_hdrs. lia.
  - rewrite blen_flat_le8. lia.
Qed.

(* On an encoded page the header reads back and the count passes the bound: what is left of decode_page is
   the loop over the elements. *)
Lemma decode_page_enc pad P pid over b rd :
  pid < 2^64 -> over < 2^64 -> body_size b < 2^64 -> body_size b <= (over + 1) * P ->
  reads_buffer rd (pid * P) (encode_page pad pid over b) ->
  let h := mkPhdr pid (body_type b) (body_count b) over in
  decode_page rd P pid =
    match b with
    | PLeaf l => l' <- mapM (read_leaf_elem rd P h pid) (seqN 0 (length l)) ;; Ok (h, PLeaf l')
    | PBranch es => l' <- mapM (read_branch_elem rd P h pid) (seqN 0 (length es)) ;; Ok (h, PBranch l')
    | PFree ids =>
        l' <- mapM (fun i => rdN rd (pid * P + payload_off + i * 8) 8) (seqN 0 (length ids)) ;; Ok (h, PFree l')
    end.
Proof.
  intros Hpid Hover Hsz Hroom Hrd h. subst h.
  pose proof (body_count_bound b) as Hcb. pose proof (payload_size pad b) as Hps.
  unfold decode_page. rewrite (read_phdr_enc pad P pid over b rd) by (auto; lia).
  cbn [bind ph_id ph_type ph_count ph_overflow]. rewrite N.eqb_refl. cbn [negb].
  destruct b as [l|es|ids]; cbn [body_type body_count payload_bytes] in *.
  - change (type_leaf =? type_leaf) with true. cbv iota.
    rewrite blen_app, blen_enc_leaf_hdrs in Hps.
    destruct (N.ltb_spec ((over + 1) * P) (payload_off + llen l * leaf_hdr)) as [Hlt|_];
      [unfold payload_off, leaf_hdr in Hlt; lia|].
    replace (N.to_nat (llen l)) with (length l) by (unfold llen; lia). reflexivity.
  - change (type_branch =? type_leaf) with false. change (type_branch =? type_branch) with true. cbv iota.
    rewrite blen_app, blen_enc_branch_hdrs in Hps.
    destruct (N.ltb_spec ((over + 1) * P) (payload_off + llen es * branch_hdr)) as [Hlt|_];
      [unfold payload_off, branch_hdr in Hlt; lia|].
    replace (N.to_nat (llen es)) with (length es) by (unfold llen; lia). reflexivity.
  - change (type_freelist =? type_leaf) with false. change (type_freelist =? type_branch) with false.
    change (type_freelist =? type_freelist) with true. cbv iota.
    rewrite blen_flat_le8 in Hps.
    destruct (N.ltb_spec ((over + 1) * P) (payload_off + llen ids * 8)) as [Hlt|_];
      [unfold payload_off in Hlt; lia|].
    replace (N.to_nat (llen ids)) with (length ids) by (unfold llen; lia). reflexivity.
Qed.

(* element i: its header sits at i*24 in the header array, with pos = (n-i)*24 + doff + d where d
   is the offset of its key in the packed key area *)
Lemma branch_layout : forall es i k pg n doff,
  nth_error es i = Some (k, pg) ->
  exists d,
    At (enc_branch_hdrs es n doff) (N.of_nat i * 24)
       (le_enc 8 pg ++ le_enc 8 (blen k) ++ le_enc 8 ((n - N.of_nat i) * 24 + doff + d))
    /\ At (flat_map fst es) d k.
Proof.
  induction es as [|[k0 pg0] es IH]; intros [|i] k pg n doff H; cbn [nth_error] in H;
    try discriminate; cbn [enc_branch_hdrs flat_map fst].
  - injection H as -> ->. exists 0. split.
    + replace (N.of_nat 0 * 24) with 0 by lia.
      replace ((n - N.of_nat 0) * 24 + doff + 0) with (n * branch_hdr + doff)
        by (unfold branch_hdr; lia).
      apply At_here.
    + apply At_here.
  - destruct (IH i k pg (n - 1) (doff + blen k0) H) as (d & Hh & Hd).
    exists (blen k0 + d). split.
    + replace (N.of_nat (S i) * 24)
        with (blen (le_enc 8 pg0 ++ le_enc 8 (blen k0) ++ le_enc 8 (n * branch_hdr + doff))
              + N.of_nat i * 24) by (rewrite !blen_app, !blen_le_enc; lia).
      replace ((n - N.of_nat (S i)) * 24 + doff + (blen k0 + d))
        with ((n - 1 - N.of_nat i) * 24 + (doff + blen k0) + d) by lia.
      apply At_app_r, Hh.
    + apply At_app_r, Hd.
Qed.

Lemma read_branch_elem_ok rd P h pid buf i k pg pos :
  reads_buffer rd (pid * P) buf -> blen buf <= (ph_overflow h + 1) * P ->
  At buf (32 + i * 24) (le_enc 8 pg ++ le_enc 8 (blen k) ++ le_enc 8 pos) ->
  At buf (32 + i * 24 + pos) k ->
  blen k < 2^64 -> pg < 2^64 -> pos < 2^64 ->
  read_branch_elem rd P h pid i = Ok (k, pg).
Proof.
  intros Hrd Hroom Hh Hk Hks Hpg Hpos.
  pose proof (At_bound _ _ _ Hh) as Bh. pose proof (At_bound _ _ _ Hk) as Bk.
  apply At_split in Hh as [Hp Hh]. apply At_split in Hh as [Hs Ho].
  rewrite ?blen_app, ?blen_le_enc in *.
  unfold read_branch_elem, payload_off, branch_hdr, bo_page, bo_ksz, bo_pos.
  rewrite (in_run_ok P h pid buf _ _ (32 + i * 24) Hroom) by lia. cbn [negb].
  rewrite (rdN8_at rd _ _ _ _ _ Hrd Hp) by lia. cbn [bind].
  rewrite (rdN8_at rd _ _ _ _ _ Hrd Hs) by lia. cbn [bind].
  rewrite (rdN8_at rd _ _ _ _ _ Hrd Ho) by lia. cbn [bind].
  rewrite (in_run_ok P h pid buf _ _ (32 + i * 24 + pos) Hroom) by lia. cbn [negb].
  rewrite (rd_at rd _ _ _ _ _ _ Hrd Hk) by (auto; lia). cbn [of_opt bind].
  reflexivity.
Qed.

(* 32 = payload_off, 24 = branch_hdr; [pos] is relative to the address of the element's own header *)
Lemma branch_elem_in_page pad pid over es i k pg :
  nth_error es i = Some (k, pg) ->
  exists pos,
    At (encode_page pad pid over (PBranch es)) (32 + N.of_nat i * 24)
       (le_enc 8 pg ++ le_enc 8 (blen k) ++ le_enc 8 pos) /\
    At (encode_page pad pid over (PBranch es)) (32 + N.of_nat i * 24 + pos) k /\
    32 + N.of_nat i * 24 + pos + blen k <= body_size (PBranch es).
Proof.
  intros Hi.
  pose proof (nth_error_llen _ _ _ Hi) as Hil.
  destruct (branch_layout es i k pg (llen es) 0 Hi) as (d & Hh & Hd).
  exists ((llen es - N.of_nat i) * 24 + 0 + d).
  assert (Hd' : At (encode_page pad pid over (PBranch es))
                   (32 + N.of_nat i * 24 + ((llen es - N.of_nat i) * 24 + 0 + d)) k).
  { replace (32 + N.of_nat i * 24 + ((llen es - N.of_nat i) * 24 + 0 + d))
      with (32 + (blen (enc_branch_hdrs es (llen es) 0) + d))
      by (rewrite blen_enc_branch_hdrs; lia).
    apply At_payload. cbn [payload_bytes]. apply At_app_r, Hd. }
  split; [|split].
  - apply At_payload. cbn [payload_bytes]. apply At_app_l, Hh.
  - exact Hd'.
  - rewrite <- (encode_page_length pad pid over). apply At_bound, Hd'.
Qed.

Definition leaf_hdr_bytes (pad : N -> byte) (e : lent) (pos at_ : N) : bytes :=
  le_enc 1 (lent_type e) ++ padN pad (at_ + 1) 7 ++ le_enc 8 pos ++
  le_enc 8 (blen (lent_key e)) ++ le_enc 8 (blen (lent_val e)).

Lemma blen_leaf_hdr_bytes pad e pos at_ : blen (leaf_hdr_bytes pad e pos at_) = 32.
Proof. unfold leaf_hdr_bytes. rewrite !blen_app, !blen_le_enc, blen_padN. reflexivity. Qed.

Lemma leaf_layout pad : forall l i e n doff at_,
  nth_error l i = Some e ->
  exists d at',
    At (enc_leaf_hdrs pad l n doff at_) (N.of_nat i * 32)
       (leaf_hdr_bytes pad e ((n - N.of_nat i) * 32 + doff + d) at')
    /\ At (flat_map kv l) d (kv e).
Proof.
  induction l as [|e0 l IH]; intros [|i] e n doff at_ H; cbn [nth_error] in H;
    try discriminate; cbn [enc_leaf_hdrs flat_map].
  - injection H as ->. exists 0, at_. split.
    + replace (N.of_nat 0 * 32) with 0 by lia.
      replace ((n - N.of_nat 0) * 32 + doff + 0) with (n * leaf_hdr + doff)
        by (unfold leaf_hdr; lia).
      apply At_here.
    + apply At_here.
  - destruct (IH i e (n - 1) (doff + blen (lent_key e0) + blen (lent_val e0)) (at_ + leaf_hdr) H)
      as (d & at' & Hh & Hd).
    exists (blen (kv e0) + d), at'. split.
    + fold (leaf_hdr_bytes pad e0 (n * leaf_hdr + doff) at_).
      replace (N.of_nat (S i) * 32)
        with (blen (leaf_hdr_bytes pad e0 (n * leaf_hdr + doff) at_) + N.of_nat i * 32)
        by (rewrite blen_leaf_hdr_bytes; lia).
      replace ((n - N.of_nat (S i)) * 32 + doff + (blen (kv e0) + d))
        with ((n - 1 - N.of_nat i) * 32 + (doff + blen (lent_key e0) + blen (lent_val e0)) + d)
        by (unfold kv; rewrite blen_app; lia).
      apply At_app_r, Hh.
    + apply At_app_r, Hd.
Qed.

Lemma lent_type_small e : lent_type e < 256.
Proof. destruct e; cbn [lent_type]; unfold type_data, type_bucket; lia. Qed.

Lemma read_leaf_elem_ok pad rd P h pid buf i e pos at' :
  reads_buffer rd (pid * P) buf -> blen buf <= (ph_overflow h + 1) * P ->
  At buf (32 + i * 32) (leaf_hdr_bytes pad e pos at') ->
  At buf (32 + i * 32 + pos) (kv e) ->
  lent_ok e -> pos < 2^64 ->
  read_leaf_elem rd P h pid i = Ok e.
Proof.
  intros Hrd Hroom Hh Hd (Hks & Hvs & Hok) Hpos.
  pose proof (At_bound _ _ _ Hh) as Bh. rewrite blen_leaf_hdr_bytes in Bh.
  pose proof (At_bound _ _ _ Hd) as Bd. unfold kv in Bd, Hd. rewrite blen_app in Bd.
  unfold leaf_hdr_bytes in Hh.
  apply At_split in Hh as [Ht Hh]. apply At_split in Hh as [_ Hh].
  apply At_split in Hh as [Hp Hh]. apply At_split in Hh as [Hk Hv].
  apply At_split in Hd as [Hdk Hdv].
  rewrite ?blen_le_enc, ?blen_padN in *.
  unfold read_leaf_elem, payload_off, leaf_hdr, lo_type, lo_pos, lo_ksz, lo_vsz.
  rewrite (in_run_ok P h pid buf _ _ (32 + i * 32) Hroom) by lia. cbn [negb].
  rewrite (rdN1_at rd _ _ _ _ _ Hrd Ht) by (try apply lent_type_small; lia). cbn [bind].
  rewrite (rdN8_at rd _ _ _ _ _ Hrd Hp) by lia. cbn [bind].
  rewrite (rdN8_at rd _ _ _ _ _ Hrd Hk) by lia. cbn [bind].
  rewrite (rdN8_at rd _ _ _ _ _ Hrd Hv) by lia. cbn [bind].
  rewrite (in_run_ok P h pid buf _ _ (32 + i * 32 + pos) Hroom) by lia. cbn [negb].
  rewrite (rd_at rd _ _ _ _ _ _ Hrd Hdk) by (auto; lia). cbn [of_opt bind].
  rewrite (rd_at rd _ _ _ _ _ _ Hrd Hdv) by (auto; lia). cbn [of_opt bind].
  destruct e as [k v|k r n]; cbn [lent_type lent_key lent_val] in *.
  - change (type_data =? type_data) with true. reflexivity.
  - change (type_bucket =? type_data) with false.
    change (type_bucket =? type_bucket) with true. cbv iota.
    rewrite blen_app, !blen_le_enc.
    change (N.of_nat 8 + N.of_nat 8 =? bmeta_size) with true. cbn [negb].
    destruct Hok as [Hr Hn].
    unfold bm_root, bm_next.
    rewrite (rd_le_at _ 0 8 r) by (try apply At_here; exact Hr). cbn [of_opt bind].
    rewrite (rd_le_at _ 8 8 n); [cbn [of_opt bind]; reflexivity| |exact Hn].
    replace 8 with (blen (le_enc 8 r) + 0) at 1 by (rewrite blen_le_enc; reflexivity).
    apply At_app_r. rewrite <- (app_nil_r (le_enc 8 n)) at 1. apply At_here.
Qed.

(* 32 = payload_off, and 32 = leaf_hdr *)
Lemma leaf_elem_in_page pad pid over l i e :
  nth_error l i = Some e ->
  exists pos at',
    At (encode_page pad pid over (PLeaf l)) (32 + N.of_nat i * 32) (leaf_hdr_bytes pad e pos at') /\
    At (encode_page pad pid over (PLeaf l)) (32 + N.of_nat i * 32 + pos) (kv e) /\
    32 + N.of_nat i * 32 + pos + blen (kv e) <= body_size (PLeaf l).
Proof.
  intros Hi.
  pose proof (nth_error_llen _ _ _ Hi) as Hil.
  destruct (leaf_layout pad l i e (llen l) 0 payload_off Hi) as (d & at' & Hh & Hd).
  exists ((llen l - N.of_nat i) * 32 + 0 + d), at'.
  assert (Hd' : At (encode_page pad pid over (PLeaf l))
                   (32 + N.of_nat i * 32 + ((llen l - N.of_nat i) * 32 + 0 + d)) (kv e)).
  { replace (32 + N.of_nat i * 32 + ((llen l - N.of_nat i) * 32 + 0 + d))
      with (32 + (blen (enc_leaf_hdrs pad l (llen l) 0 payload_off) + d))
      by (rewrite blen_enc_leaf_hdrs; lia).
    apply At_payload. cbn [payload_bytes]. apply At_app_r, Hd. }
  split; [|split].
  - apply At_payload. cbn [payload_bytes]. apply At_app_l, Hh.
  - exact Hd'.
  - rewrite <- (encode_page_length pad pid over). apply At_bound, Hd'.
Qed.

(* no [0 < P]: [body_size b <= (over + 1) * P] excludes P = 0, as [body_size] is at least 40 *)
Theorem decode_encode_page pad P pid over b rd :
  pid < 2^64 -> over < 2^64 -> body_ok b -> body_size b < 2^64 ->
  body_size b <= (over + 1) * P ->
  reads_buffer rd (pid * P) (encode_page pad pid over b) ->
  decode_page rd P pid = Ok (mkPhdr pid (body_type b) (body_count b) over, b).
Proof.
  intros Hpid Hover Hok Hsz Hroom Hrd.
  pose proof (encode_page_length pad pid over b) as Hlen.
  rewrite (decode_page_enc pad P pid over b) by assumption. cbv zeta.
  destruct b as [l|es|ids]; cbn [body_ok] in Hok; rewrite Forall_forall in Hok;
    (rewrite mapM_seqN; [reflexivity|]).
  - intros i e Hi.
    destruct (leaf_elem_in_page pad pid over l i e Hi) as (pos & at' & Hh' & Hd' & Bd).
    replace (N.of_nat i) with (0 + N.of_nat i) in Hh', Hd', Bd by lia.
    eapply read_leaf_elem_ok; eauto using nth_error_In.
    + cbn [ph_overflow]. rewrite Hlen. exact Hroom.
    + lia.
  - intros i [k pg] Hi.
    destruct (branch_elem_in_page pad pid over es i k pg Hi) as (pos & Hh' & Hd' & Bd).
    replace (N.of_nat i) with (0 + N.of_nat i) in Hh', Hd', Bd by lia.
    destruct (Hok (k, pg) (nth_error_In _ _ Hi)) as [Hk Hpg]. cbn [fst snd] in Hk, Hpg.
    eapply read_branch_elem_ok; eauto.
    + cbn [ph_overflow]. rewrite Hlen. exact Hroom.
    + lia.
  - intros i x Hi. pose proof (nth_error_llen _ _ _ Hi) as Hil.
    eapply rdN8_at.
    + exact Hrd.
    + apply At_payload. cbn [payload_bytes]. apply free_layout, Hi.
    + unfold payload_off. lia.
    + apply Hok. eapply nth_error_In, Hi.
Qed.

Theorem codec_page_free pad P pid over ids rd :
  let b := PFree ids in
  pid < 2^64 -> over < 2^64 -> body_ok b -> body_size b < 2^64 ->
  body_size b <= (over + 1) * P ->
  reads_buffer rd (pid * P) (encode_page pad pid over b) ->
  decode_page rd P pid = Ok (mkPhdr pid (body_type b) (body_count b) over, b).
Proof. intros b. apply (decode_encode_page pad). Qed.

Theorem codec_page : forall pad P pid over b rd,
  0 < P -> pid < 2^64 -> over < 2^64 -> body_ok b -> body_size b < 2^64 ->
  body_size b <= (over + 1) * P ->
  reads_buffer rd (pid * P) (encode_page pad pid over b) ->
  decode_page rd P pid = Ok (mkPhdr pid (body_type b) (body_count b) over, b).
Proof. intros pad P pid over b rd _. apply (decode_encode_page pad). Qed.

Print Assumptions encode_page_length.
Print Assumptions codec_page.
