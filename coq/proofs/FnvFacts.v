(* FNV-1a 64: every step is injective in the 64-bit state and in the byte, hence two inputs that differ
   in exactly one byte have different hashes. *)
From Coq Require Import List NArith Bool Lia ZifyN ZifyBool.
From Coq.Strings Require Import Byte.
From Jamm Require Import Bytes Fnv BytesFacts.
Import ListNotations.
Open Scope N_scope.

Lemma two64_pow : two64 = 2 ^ 64.
Proof. reflexivity. Qed.

Lemma two64_pos : two64 <> 0.
Proof. discriminate. Qed.

Lemma fnv_basis_lt : fnv_basis < two64.
Proof. reflexivity. Qed.

(* fnv_prime is odd: its inverse modulo 2^64 *)
Definition fnv_prime_inv : N := 14886173955864302971.

Lemma fnv_prime_inv_ok : (fnv_prime * fnv_prime_inv) mod two64 = 1.
Proof. vm_compute. reflexivity. Qed.

Lemma mul_prime_inj a b :
  a < two64 -> b < two64 -> (a * fnv_prime) mod two64 = (b * fnv_prime) mod two64 -> a = b.
Proof.
  intros Ha Hb E.
  assert (K : forall x, x < two64 -> (((x * fnv_prime) mod two64) * fnv_prime_inv) mod two64 = x).
  { intros x Hx. rewrite N.mul_mod_idemp_l by apply two64_pos.
    rewrite <- N.mul_assoc, <- N.mul_mod_idemp_r by apply two64_pos.
    rewrite fnv_prime_inv_ok, N.mul_1_r. now apply N.mod_small. }
  rewrite <- (K a Ha), <- (K b Hb), E. reflexivity.
Qed.

Lemma lxor_lt_two64 a b : a < two64 -> b < two64 -> N.lxor a b < two64.
Proof.
  intros Ha Hb. rewrite two64_pow in *.
  destruct (N.eq_dec (N.lxor a b) 0) as [E|NE]; [rewrite E; reflexivity|].
  apply N.log2_lt_pow2; [lia|].
  pose proof (N.log2_lxor a b) as HL.
  assert (La : N.log2 a < 64).
  { destruct (N.eq_dec a 0) as [->|Na]; [reflexivity|]. apply N.log2_lt_pow2; lia. }
  assert (Lb : N.log2 b < 64).
  { destruct (N.eq_dec b 0) as [->|Nb]; [reflexivity|]. apply N.log2_lt_pow2; lia. }
  lia.
Qed.

Lemma byte_lt_two64 b : Byte.to_N b < two64.
Proof. pose proof (to_N_lt b). unfold two64. lia. Qed.

Lemma lxor_cancel_r a b c : N.lxor a c = N.lxor b c -> a = b.
Proof.
  intros E. apply (f_equal (fun x => N.lxor x c)) in E.
  now rewrite !N.lxor_assoc, !N.lxor_nilpotent, !N.lxor_0_r in E.
Qed.

Lemma lxor_cancel_l a b c : N.lxor c a = N.lxor c b -> a = b.
Proof. rewrite !(N.lxor_comm c). apply lxor_cancel_r. Qed.

Lemma fnv_step_lt h b : fnv_step h b < two64.
Proof. unfold fnv_step. apply N.mod_upper_bound, two64_pos. Qed.

Lemma fnv_step_inj h1 h2 b :
  h1 < two64 -> h2 < two64 -> fnv_step h1 b = fnv_step h2 b -> h1 = h2.
Proof.
  unfold fnv_step. intros H1 H2 E.
  apply mul_prime_inj in E; try (apply lxor_lt_two64; [assumption|apply byte_lt_two64]).
  eapply lxor_cancel_r; eassumption.
Qed.

Lemma fnv_step_byte_inj h b1 b2 : h < two64 -> fnv_step h b1 = fnv_step h b2 -> b1 = b2.
Proof.
  unfold fnv_step. intros H E.
  apply mul_prime_inj in E; try (apply lxor_lt_two64; [assumption|apply byte_lt_two64]).
  apply lxor_cancel_l in E. now apply to_N_inj.
Qed.

Lemma fnv_fold_lt bs h : h < two64 -> fold_left fnv_step bs h < two64.
Proof.
  revert h. induction bs as [|b bs IH]; intros h H; [exact H|].
  cbn [fold_left]. apply IH, fnv_step_lt.
Qed.

Lemma fnv_lt bs : fnv bs < two64.
Proof. apply fnv_fold_lt, fnv_basis_lt. Qed.

Lemma fnv_fold_inj bs h1 h2 :
  h1 < two64 -> h2 < two64 -> fold_left fnv_step bs h1 = fold_left fnv_step bs h2 -> h1 = h2.
Proof.
  revert h1 h2. induction bs as [|b bs IH]; intros h1 h2 H1 H2 E; [exact E|].
  cbn [fold_left] in E. apply IH in E; try apply fnv_step_lt.
  eapply fnv_step_inj; eassumption.
Qed.

Theorem fnv_one_byte : forall (pre suf : bytes) (b1 b2 : byte),
  b1 <> b2 -> fnv (pre ++ b1 :: suf) <> fnv (pre ++ b2 :: suf).
Proof.
  intros pre suf b1 b2 NE E. unfold fnv in E.
  rewrite !fold_left_app in E. cbn [fold_left] in E.
  apply fnv_fold_inj in E; try apply fnv_step_lt.
  apply fnv_step_byte_inj in E; [contradiction|].
  apply fnv_fold_lt, fnv_basis_lt.
Qed.
Print Assumptions fnv_step_lt.
Print Assumptions fnv_step_inj.
Print Assumptions fnv_step_byte_inj.
Print Assumptions fnv_one_byte.

Definition one_diff (l l' : bytes) : Prop :=
  exists p x y s, l = p ++ x :: s /\ l' = p ++ y :: s /\ x <> y.

Lemma fnv_one_diff A B X X' : one_diff X X' -> fnv (A ++ X ++ B) <> fnv (A ++ X' ++ B).
Proof.
  intros (p & x & y & s & -> & -> & NE).
  rewrite <- !(app_assoc p), <- !app_comm_cons, !(app_assoc A p).
  now apply fnv_one_byte.
Qed.
