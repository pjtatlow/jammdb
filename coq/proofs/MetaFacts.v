(* Header ("meta") pages: encode/decode round trip, and what a single damaged byte does to a slot. *)
From Coq Require Import List NArith Bool String Lia ZifyN ZifyBool.
From Coq.Strings Require Import Byte.
From Jamm Require Import Bytes Fnv Consts CLayout Meta BytesFacts FnvFacts.
Import ListNotations.
Local Open Scope string_scope. Local Open Scope list_scope. Local Open Scope N_scope.

(* [String] is imported for the field names of CLayout; its [length] hides the one on lists *)
Notation length := List.length.

Lemma hash_covers_all_fields :
  forallb field_hashed
    ["meta_page";"magic";"version";"pagesize";"root.root_page";"root.next_int";
     "num_pages";"freelist_page";"tx_id"]%string = true.
Proof. vm_compute. reflexivity. Qed.

Lemma stored_fields_pinned :
  CLayout.field_names "Meta" =
    ["meta_page";"magic";"version";"pagesize";"root.root_page";"root.next_int";
     "num_pages";"freelist_page";"tx_id";"hash"]%string.
Proof. vm_compute. reflexivity. Qed.

Print Assumptions hash_covers_all_fields.
Print Assumptions stored_fields_pinned.

Ltac offs :=
  unfold off_pg_id, off_pg_type, off_pg_count, off_pg_overflow, o_meta_page, o_magic, o_version,
         o_pagesize, o_root, o_next, o_np, o_fl, o_tx, o_hash, meta_end, type_meta in *.

Lemma le_dec_enc_4 x : x < 2 ^ 32 -> le_dec (le_enc 4 x) = x.
Proof. exact (le_dec_enc_small 4 x). Qed.
Lemma le_dec_enc_8 x : x < 2 ^ 64 -> le_dec (le_enc 8 x) = x.
Proof. exact (le_dec_enc_small 8 x). Qed.

(* the writes that make up a header page, in the order of their offsets; [h] = the bytes of the checksum
   field, which is all that the current and the legacy format differ in *)
Definition hdr_writes (m : meta) (h : bytes) : list (N * bytes) :=
  [ (off_pg_id, le_enc 8 (m_page m));
    (off_pg_type, le_enc 1 type_meta);
    (o_meta_page, le_enc 4 (m_page m));
    (o_magic, le_enc 4 (m_magic m));
    (o_version, le_enc 4 (m_version m));
    (o_pagesize, le_enc 8 (m_psz m));
    (o_root, le_enc 8 (m_root m));
    (o_next, le_enc 8 (m_next m));
    (o_np, le_enc 8 (m_np m));
    (o_fl, le_enc 8 (m_fl m));
    (o_tx, le_enc 8 (m_tx m));
    (o_hash, h) ].

(* unfolding only the encoder keeps the offsets folded; a bare [reflexivity] compares them as numbers *)
Lemma encode_eq P m :
  encode_meta_page P m = puts (hdr_writes m (le_enc 8 (m_hash m))) (zeros (N.to_nat P)).
Proof. cbv [encode_meta_page puts hdr_writes fold_left put fst snd]. reflexivity. Qed.

Lemma hdr_laid P m h :
  o_hash + N.of_nat (length h) <= P -> laid 0 (hdr_writes m h) (N.of_nat (length (zeros (N.to_nat P)))).
Proof.
  intros H. rewrite zeros_length, N2Nat.id. cbn [laid hdr_writes fst snd]. rewrite !le_enc_length.
  offs. lia.
Qed.

Lemma encode_length P m : meta_end <= P -> length (encode_meta_page P m) = N.to_nat P.
Proof.
  intros HP. rewrite encode_eq, (puts_length 0) by exact (hdr_laid P m (le_enc 8 (m_hash m)) HP). apply zeros_length.
Qed.

(* what the decoders read of a page: the type byte, the nine fields, and [w] bytes of checksum *)
Definition windows (pg st sa sb sc sd se sf sg sh si : bytes) (w : N) (sj : bytes) : Prop :=
  slice pg off_pg_type 1 = Some st /\
  slice pg o_meta_page 4 = Some sa /\ slice pg o_magic 4 = Some sb /\ slice pg o_version 4 = Some sc /\
  slice pg o_pagesize 8 = Some sd /\ slice pg o_root 8 = Some se /\ slice pg o_next 8 = Some sf /\
  slice pg o_np 8 = Some sg /\ slice pg o_fl 8 = Some sh /\ slice pg o_tx 8 = Some si /\
  slice pg o_hash w = Some sj.

(* the windows of a page that carries the fields of [m] *)
Definition windows_of (pg : bytes) (m : meta) : N -> bytes -> Prop :=
  windows pg
    (le_enc 1 type_meta) (le_enc 4 (m_page m)) (le_enc 4 (m_magic m)) (le_enc 4 (m_version m))
    (le_enc 8 (m_psz m)) (le_enc 8 (m_root m)) (le_enc 8 (m_next m)) (le_enc 8 (m_np m))
    (le_enc 8 (m_fl m)) (le_enc 8 (m_tx m)).

Lemma hdr_windows P m h :
  o_hash + N.of_nat (length h) <= P ->
  windows_of (puts (hdr_writes m h) (zeros (N.to_nat P))) m (N.of_nat (length h)) h.
Proof.
  intros H. pose proof (puts_holds _ _ _ (hdr_laid P m h H)) as W.
  cbn [holds hdr_writes fst snd] in W. rewrite !le_enc_length in W.
  destruct W as (_ & W). repeat split; apply W.
Qed.

Lemma encode_windows P m :
  meta_end <= P ->
  windows_of (encode_meta_page P m) m 8 (le_enc 8 (m_hash m)).
Proof. intros HP. rewrite encode_eq. exact (hdr_windows P m (le_enc 8 (m_hash m)) HP). Qed.

Lemma decode_windows {pg st sa sb sc sd se sf sg sh si sj} :
  windows pg st sa sb sc sd se sf sg sh si 8 sj ->
  page_type_of pg = Some (le_dec st) /\
  decode_meta pg =
    Some (mkMeta (le_dec sa) (le_dec sb) (le_dec sc) (le_dec sd) (le_dec se) (le_dec sf)
                 (le_dec sg) (le_dec sh) (le_dec si) (le_dec sj)).
Proof.
  intros (Ht & Ha & Hb & Hc & Hd & He & Hf & Hg & Hh & Hi & Hj).
  unfold page_type_of, decode_meta, rd_le.
  change (N.of_nat 1) with 1. change (N.of_nat 4) with 4. change (N.of_nat 8) with 8.
  rewrite Ht, Ha, Hb, Hc, Hd, He, Hf, Hg, Hh, Hi, Hj. cbn [option_map]. split; reflexivity.
Qed.

Lemma read_slot_decoded ct pg t m :
  page_type_of pg = Some t -> decode_meta pg = Some m ->
  read_slot ct pg =
    if t =? type_meta then (if meta_valid m then SlotValid m else SlotInvalid)
    else if ct then SlotInvalid else SlotPanic.
Proof. intros Ht Hm. unfold read_slot. now rewrite Ht, Hm. Qed.

Lemma type_byte : le_dec (le_enc 1 type_meta) = type_meta.
Proof. reflexivity. Qed.

Lemma encode_decoded P m :
  meta_wf m -> meta_end <= P ->
  page_type_of (encode_meta_page P m) = Some type_meta /\
  decode_meta (encode_meta_page P m) = Some m.
Proof.
  intros (?&?&?&?&?&?&?&?&?&?) HP.
  destruct (decode_windows (encode_windows P m HP)) as [Ht Hm].
  rewrite Ht, Hm, type_byte, !le_dec_enc_4, !le_dec_enc_8 by assumption.
  destruct m; split; reflexivity.
Qed.

Theorem decode_encode_meta : forall P m,
  meta_wf m -> meta_end <= P -> decode_meta (encode_meta_page P m) = Some m.
Proof. intros P m WF HP. now apply encode_decoded. Qed.
Print Assumptions decode_encode_meta.

Theorem page_type_encode : forall P m,
  meta_end <= P -> page_type_of (encode_meta_page P m) = Some Consts.type_meta.
Proof.
  intros P m HP. destruct (decode_windows (encode_windows P m HP)) as [Ht _]. now rewrite Ht, type_byte.
Qed.
Print Assumptions page_type_encode.

Lemma hash_input_eq m : hash_input m =
  be_enc 4 (m_page m) ++ be_enc 4 (m_magic m) ++ be_enc 4 (m_version m) ++ be_enc 8 (m_psz m) ++
  be_enc 8 (m_root m) ++ be_enc 8 (m_next m) ++ be_enc 8 (m_np m) ++ be_enc 8 (m_fl m) ++
  be_enc 8 (m_tx m) ++ [].
Proof. reflexivity. Qed.

Lemma meta_hash_with_hash m : meta_hash (with_hash m) = meta_hash m.
Proof. unfold meta_hash. rewrite !hash_input_eq. reflexivity. Qed.

Lemma meta_hash_lt m : meta_hash m < 2 ^ 64.
Proof. unfold meta_hash. rewrite <- two64_pow. apply fnv_lt. Qed.

Lemma with_hash_wf m : meta_wf m -> meta_wf (with_hash m).
Proof.
  unfold meta_wf, with_hash. cbn [m_page m_magic m_version m_psz m_root m_next m_np m_fl m_tx m_hash].
  intros (H1&H2&H3&H4&H5&H6&H7&H8&H9&_).
  pose proof (meta_hash_lt m) as H10.
  exact (conj H1 (conj H2 (conj H3 (conj H4 (conj H5 (conj H6 (conj H7 (conj H8 (conj H9 H10))))))))).
Qed.

Lemma with_hash_valid m : meta_valid (with_hash m) = true.
Proof. unfold meta_valid. rewrite meta_hash_with_hash. cbn [with_hash m_hash]. apply N.eqb_refl. Qed.

Lemma read_slot_encode_valid ct P m :
  meta_wf m -> meta_valid m = true -> meta_end <= P ->
  read_slot ct (encode_meta_page P m) = SlotValid m.
Proof.
  intros WF V HP. destruct (encode_decoded P m WF HP) as [Ht Hm].
  rewrite (read_slot_decoded ct _ _ _ Ht Hm), N.eqb_refl, V. reflexivity.
Qed.

Theorem read_slot_encode : forall ct P m,
  meta_wf m -> meta_end <= P ->
  read_slot ct (encode_meta_page P (with_hash m)) = SlotValid (with_hash m).
Proof.
  intros ct P m WF HP. apply read_slot_encode_valid; [now apply with_hash_wf | apply with_hash_valid | exact HP].
Qed.
Print Assumptions read_slot_encode.

Lemma damage_length pg off b : (N.to_nat off < length pg)%nat -> length (damage pg off b) = length pg.
Proof. intros H. unfold damage. apply splice_length. cbn [length]. lia. Qed.

Lemma in_range_spec off o n : in_range off o n = true <-> o <= off < o + n.
Proof. unfold in_range. lia. Qed.

(* what a window at [o] that held [s] holds once byte [off] of the page is overwritten *)
Definition dmg (off : N) (b : byte) (o n : N) (s : bytes) : bytes :=
  if in_range off o n then damage s (off - o) b else s.

Lemma slice_damage pg off b o n s :
  (N.to_nat off < length pg)%nat -> slice pg o n = Some s ->
  slice (damage pg off b) o n = Some (dmg off b o n s).
Proof.
  intros H Hs. unfold dmg, in_range, damage.
  destruct (N.leb_spec o off), (N.ltb_spec off (o + n)); cbn [andb];
    [ apply slice_splice_inside; cbn [length]; try lia; exact Hs
    | rewrite <- Hs; apply slice_splice_other; cbn [length]; lia .. ].
Qed.

Lemma windows_damage {pg st sa sb sc sd se sf sg sh si w sj} off b :
  (N.to_nat off < length pg)%nat -> windows pg st sa sb sc sd se sf sg sh si w sj ->
  windows (damage pg off b)
    (dmg off b off_pg_type 1 st) (dmg off b o_meta_page 4 sa) (dmg off b o_magic 4 sb)
    (dmg off b o_version 4 sc) (dmg off b o_pagesize 8 sd) (dmg off b o_root 8 se)
    (dmg off b o_next 8 sf) (dmg off b o_np 8 sg) (dmg off b o_fl 8 sh) (dmg off b o_tx 8 si)
    w (dmg off b o_hash w sj).
Proof.
  intros L (Ht & Ha & Hb & Hc & Hd & He & Hf & Hg & Hh & Hi & Hj). repeat split; now apply slice_damage.
Qed.

(* The side condition is a closed boolean when the two ranges are numerals: [reflexivity] proves it. *)
Lemma dmg_far off b lo hi o n s :
  lo <= off < hi -> (hi <=? o) || (o + n <=? lo) = true -> dmg off b o n s = s.
Proof. intros H D. unfold dmg, in_range. replace (_ && _) with false by lia. reflexivity. Qed.

(* the window of the [n]-byte little-endian image of [v] is hit *)
Section FieldDamage.
  Variables (pg : bytes) (off : N) (b : byte) (o : N) (n : nat) (v : N).
  Hypothesis Hs : slice pg o (N.of_nat n) = Some (le_enc n v).
  Hypothesis Hin : o <= off < o + N.of_nat n.
  Hypothesis Hb : nth_error pg (N.to_nat off) <> Some b.
  Let d := dmg off b o (N.of_nat n) (le_enc n v).

  Lemma field_damage_split : exists p x s, le_enc n v = p ++ x :: s /\ d = p ++ b :: s /\ x <> b.
  Proof.
    unfold d, dmg, damage. rewrite (proj2 (in_range_spec _ _ _) Hin).
    rewrite (nth_error_in_slice _ _ _ _ off Hs) in Hb by lia.
    destruct (nth_error (le_enc n v) (N.to_nat (off - o))) as [x|] eqn:E.
    - pose proof (splice_one (le_enc n v) (N.to_nat (off - o)) b) as E2. rewrite N2Nat.id in E2.
      exists (firstn (N.to_nat (off - o)) (le_enc n v)), x, (skipn (S (N.to_nat (off - o))) (le_enc n v)).
      split; [now apply nth_error_split_at|]. split; [exact E2|congruence].
    - apply nth_error_None in E. rewrite le_enc_length in E. lia.
  Qed.

  Lemma field_damage_length : length d = n.
  Proof.
    destruct field_damage_split as (p & x & s & E1 & -> & _).
    rewrite <- (le_enc_length n v), E1, !app_length. reflexivity.
  Qed.

  Lemma field_damage_be : one_diff (be_enc n v) (be_enc n (le_dec d)).
  Proof.
    rewrite <- field_damage_length at 2. rewrite be_enc_le_dec. unfold be_enc.
    destruct field_damage_split as (p & x & s & -> & -> & NE).
    exists (rev s), x, b, (rev p).
    rewrite !rev_app_distr. cbn [rev]. rewrite <- !app_assoc. cbn [app]. auto.
  Qed.

  Lemma field_damage_neq : le_dec d <> le_dec (le_enc n v).
  Proof.
    intros E. apply le_dec_inj in E; [|now rewrite field_damage_length, le_enc_length].
    destruct field_damage_split as (p & x & s & E1 & E2 & NE).
    rewrite E2 in E. rewrite E1 in E. apply app_inv_head in E. congruence.
  Qed.
End FieldDamage.

Lemma fnv_one_diff_pre (As : list bytes) B X X' :
  one_diff X X' -> fnv (fold_right (@app byte) (X ++ B) As) <> fnv (fold_right (@app byte) (X' ++ B) As).
Proof.
  intros H.
  assert (K : forall Z, fold_right (@app byte) Z As = List.concat As ++ Z).
  { intros Z. induction As as [|A As' IH]; cbn [fold_right List.concat app]; [reflexivity|].
    now rewrite IH, app_assoc. }
  rewrite !K. now apply fnv_one_diff.
Qed.

Section HashFields.
  Variables a b c d e f g h i j j' : N.

  Ltac mh As :=
    let H := fresh in
    intros H; unfold meta_hash; rewrite !hash_input_eq;
    cbn [m_page m_magic m_version m_psz m_root m_next m_np m_fl m_tx m_hash];
    refine (not_eq_sym (fnv_one_diff_pre As _ _ _ H)).

  Lemma mh_page x : one_diff (be_enc 4 a) (be_enc 4 x) ->
    meta_hash (mkMeta x b c d e f g h i j') <> meta_hash (mkMeta a b c d e f g h i j).
  Proof. mh (@nil bytes). Qed.
  Lemma mh_magic x : one_diff (be_enc 4 b) (be_enc 4 x) ->
    meta_hash (mkMeta a x c d e f g h i j') <> meta_hash (mkMeta a b c d e f g h i j).
  Proof. mh [be_enc 4 a]. Qed.
  Lemma mh_version x : one_diff (be_enc 4 c) (be_enc 4 x) ->
    meta_hash (mkMeta a b x d e f g h i j') <> meta_hash (mkMeta a b c d e f g h i j).
  Proof. mh [be_enc 4 a; be_enc 4 b]. Qed.
  Lemma mh_psz x : one_diff (be_enc 8 d) (be_enc 8 x) ->
    meta_hash (mkMeta a b c x e f g h i j') <> meta_hash (mkMeta a b c d e f g h i j).
  Proof. mh [be_enc 4 a; be_enc 4 b; be_enc 4 c]. Qed.
  Lemma mh_root x : one_diff (be_enc 8 e) (be_enc 8 x) ->
    meta_hash (mkMeta a b c d x f g h i j') <> meta_hash (mkMeta a b c d e f g h i j).
  Proof. mh [be_enc 4 a; be_enc 4 b; be_enc 4 c; be_enc 8 d]. Qed.
  Lemma mh_next x : one_diff (be_enc 8 f) (be_enc 8 x) ->
    meta_hash (mkMeta a b c d e x g h i j') <> meta_hash (mkMeta a b c d e f g h i j).
  Proof. mh [be_enc 4 a; be_enc 4 b; be_enc 4 c; be_enc 8 d; be_enc 8 e]. Qed.
  Lemma mh_np x : one_diff (be_enc 8 g) (be_enc 8 x) ->
    meta_hash (mkMeta a b c d e f x h i j') <> meta_hash (mkMeta a b c d e f g h i j).
  Proof. mh [be_enc 4 a; be_enc 4 b; be_enc 4 c; be_enc 8 d; be_enc 8 e; be_enc 8 f]. Qed.
  Lemma mh_fl x : one_diff (be_enc 8 h) (be_enc 8 x) ->
    meta_hash (mkMeta a b c d e f g x i j') <> meta_hash (mkMeta a b c d e f g h i j).
  Proof. mh [be_enc 4 a; be_enc 4 b; be_enc 4 c; be_enc 8 d; be_enc 8 e; be_enc 8 f; be_enc 8 g]. Qed.
  Lemma mh_tx x : one_diff (be_enc 8 i) (be_enc 8 x) ->
    meta_hash (mkMeta a b c d e f g h x j') <> meta_hash (mkMeta a b c d e f g h i j).
  Proof. mh [be_enc 4 a; be_enc 4 b; be_enc 4 c; be_enc 8 d; be_enc 8 e; be_enc 8 f; be_enc 8 g; be_enc 8 h]. Qed.
  Lemma mh_hash : meta_hash (mkMeta a b c d e f g h i j') = meta_hash (mkMeta a b c d e f g h i j).
  Proof. unfold meta_hash. rewrite !hash_input_eq. reflexivity. Qed.
End HashFields.

(* The numerals are the offsets [offs] unfolds to (src/page.rs, src/meta.rs, repr(C)): 8 is the page-type byte
   of the page header, the Meta struct starts at [payload_off] = 32, its three u32 fields end at 44, bytes 44-47
   are the padding in front of the u64 [pagesize], and the u64 fields with the checksum end at [meta_end] = 104. *)
Lemma significant_spec ct off :
  significant ct off = true <->
  ((ct = true /\ off = 8) \/ (32 <= off /\ off < 44) \/ (48 <= off /\ off < 104)).
Proof.
  unfold significant. pose proof hash_covers_all_fields as H. cbn [forallb] in H.
  repeat (apply andb_prop in H as [-> H]).
  cbn [andb]. unfold in_range. offs. destruct ct; cbn [andb orb]; lia.
Qed.

Lemma significant_false ct off :
  significant ct off = false <->
  (~ (ct = true /\ off = 8) /\ ~ (32 <= off /\ off < 44) /\ ~ (48 <= off /\ off < 104)).
Proof.
  rewrite <- not_true_iff_false, significant_spec. tauto.
Qed.

(* [C : lo <= off < hi] places the damaged byte: every window that does not meet [lo, hi) is unchanged *)
Ltac untouched C :=
  repeat match goal with |- context [dmg ?off ?b ?o ?n ?s] =>
    rewrite (dmg_far off b _ _ o n s C eq_refl) end;
  rewrite ?type_byte, ?le_dec_enc_4, ?le_dec_enc_8 by assumption.

(* [Sx] is the [n]-byte window of a hashed field and [mh] says that the checksum sees that field *)
Ltac hashed_case C n Sx mh V Hb :=
  untouched C; rewrite N.eqb_refl; unfold meta_valid; cbn [m_hash];
  match goal with |- _ = (if significant ?c ?off then _ else _) =>
    replace (significant c off) with true by (symmetry; apply significant_spec; clear - C; lia)
  end;
  let E := fresh "E" in
  match goal with |- (if ?x =? ?y then _ else _) = _ =>
    destruct (N.eqb_spec x y) as [E|E]; [exfalso|reflexivity]
  end;
  rewrite V in E; symmetry in E; revert E;
  apply mh, (field_damage_be _ _ _ _ n _ Sx); [clear - C; offs; lia|exact Hb].

Theorem damage_one_byte_valid ct P m off b :
  meta_wf m -> meta_valid m = true -> meta_end <= P -> off < P ->
  let pg := encode_meta_page P m in
  nth_error pg (N.to_nat off) <> Some b ->
  read_slot ct (damage pg off b) =
    if significant ct off then SlotInvalid
    else if off =? off_pg_type then SlotPanic else SlotValid m.
Proof.
  intros (B1&B2&B3&B4&B5&B6&B7&B8&B9&B10) V HP Hoff pg Hb.
  pose proof (encode_windows P m HP) as W. fold pg in W.
  assert (L : (N.to_nat off < length pg)%nat) by (unfold pg; rewrite encode_length by exact HP; lia).
  destruct (decode_windows (windows_damage off b L W)) as [Ht Hm].
  rewrite (read_slot_decoded ct _ _ _ Ht Hm). clear Ht Hm L.
  destruct W as (St & Sa & Sb & Sc & Sd & Se & Sf & Sg & Sh & Si & Sj).
  unfold meta_valid in V. apply N.eqb_eq in V.
  destruct m as [a b0 c d e f g h i j].
  cbn [m_page m_magic m_version m_psz m_root m_next m_np m_fl m_tx m_hash] in *.
  clearbody pg.
  (* one case per window of [windows], then the bytes no decoder looks at *)
  assert (C : 8 <= off < 9 \/ 32 <= off < 36 \/ 36 <= off < 40 \/ 40 <= off < 44 \/
              48 <= off < 56 \/ 56 <= off < 64 \/ 64 <= off < 72 \/
              72 <= off < 80 \/ 80 <= off < 88 \/ 88 <= off < 96 \/ 96 <= off < 104 \/
              (off <> 8 /\ ~ (32 <= off /\ off < 44) /\ ~ (48 <= off /\ off < 104))) by (clear; lia).
  destruct C as [C|[C|[C|[C|[C|[C|[C|[C|[C|[C|[C|C]]]]]]]]]]].
  - (* the page-type byte *)
    untouched C.
    destruct (N.eqb_spec (le_dec (dmg off b off_pg_type 1 (le_enc 1 type_meta))) type_meta) as [E|E].
    + exfalso. revert E. apply (field_damage_neq _ _ _ _ 1%nat _ St); [clear - C; offs; lia|exact Hb].
    + destruct ct.
      * replace (significant true off) with true by (symmetry; apply significant_spec; clear - C; lia).
        reflexivity.
      * replace (significant false off) with false by (symmetry; apply significant_false; clear - C; lia).
        replace (off =? off_pg_type) with true by (clear - C; offs; lia). reflexivity.
  - hashed_case C 4%nat Sa mh_page V Hb.
  - hashed_case C 4%nat Sb mh_magic V Hb.
  - hashed_case C 4%nat Sc mh_version V Hb.
  - hashed_case C 8%nat Sd mh_psz V Hb.
  - hashed_case C 8%nat Se mh_root V Hb.
  - hashed_case C 8%nat Sf mh_next V Hb.
  - hashed_case C 8%nat Sg mh_np V Hb.
  - hashed_case C 8%nat Sh mh_fl V Hb.
  - hashed_case C 8%nat Si mh_tx V Hb.
  - (* the stored checksum *)
    untouched C. rewrite N.eqb_refl. unfold meta_valid. cbn [m_hash].
    replace (significant ct off) with true by (symmetry; apply significant_spec; clear - C; lia).
    match goal with |- (if ?x =? ?y then _ else _) = _ => destruct (N.eqb_spec x y) as [E|E] end;
      [exfalso|reflexivity].
    rewrite (mh_hash a b0 c d e f g h i j), <- V in E.
    apply (field_damage_neq pg off b o_hash 8%nat j Sj); [clear - C; offs; lia|exact Hb|now rewrite le_dec_enc_8].
  - (* anywhere else *)
    unfold dmg, in_range. offs.
    repeat match goal with |- context [(?x <=? off) && ?y] =>
      replace ((x <=? off) && y) with false by (clear - C; lia) end.
    rewrite ?type_byte, ?le_dec_enc_4, ?le_dec_enc_8 by assumption.
    rewrite N.eqb_refl. unfold meta_valid. rewrite <- V. cbn [m_hash]. rewrite N.eqb_refl.
    replace (significant ct off) with false by (symmetry; apply significant_false; clear - C; lia).
    replace (off =? 8) with false by (clear - C; lia). reflexivity.
Qed.
Print Assumptions damage_one_byte_valid.

Theorem damage_one_byte : forall ct P m off b,
  meta_wf m -> meta_end <= P -> off < P ->
  let pg := encode_meta_page P (with_hash m) in
  nth_error pg (N.to_nat off) <> Some b ->
  read_slot ct (damage pg off b) =
    if significant ct off then SlotInvalid
    else if (off =? off_pg_type) then SlotPanic
    else SlotValid (with_hash m).
Proof.
  intros ct P m off b WF HP Hoff pg Hb.
  apply damage_one_byte_valid; auto using with_hash_wf, with_hash_valid.
Qed.
Print Assumptions damage_one_byte.

(* The same with the page as a variable of its own. Where the page is a defined constant, applying
   [damage_one_byte] to the hypothesis about its byte makes unification unfold the encoder (seconds); here that
   hypothesis fixes [pg] as it stands and the equation is left to [reflexivity]. *)
Lemma damage_one_byte_of ct P m pg off b :
  meta_wf m -> meta_end <= P -> off < P -> nth_error pg (N.to_nat off) <> Some b ->
  pg = encode_meta_page P (with_hash m) ->
  read_slot ct (damage pg off b) =
    if significant ct off then SlotInvalid
    else if (off =? off_pg_type) then SlotPanic
    else SlotValid (with_hash m).
Proof. intros WF HP Hoff Hb ->. now apply damage_one_byte. Qed.

Lemma significant_true_type off : significant true off = false -> (off =? off_pg_type) = false.
Proof.
  intros H. apply significant_false in H. apply N.eqb_neq. offs. intros ->. tauto.
Qed.

Lemma with_hash_psz m : m_psz (with_hash m) = m_psz m.
Proof. reflexivity. Qed.

Theorem open_after_damage : forall P m0 m1 (slot : bool) off b,
  meta_wf m0 -> meta_wf m1 -> meta_end <= P -> off < P -> m_psz m0 = P -> m_psz m1 = P ->
  let pg0 := encode_meta_page P (with_hash m0) in let pg1 := encode_meta_page P (with_hash m1) in
  let d := fun pg => damage pg off b in
  nth_error (if slot then pg1 else pg0) (N.to_nat off) <> Some b ->
  select_slots P (read_slot true (if slot then pg0 else d pg0)) (read_slot true (if slot then d pg1 else pg1)) =
    if significant true off then SelMeta (with_hash (if slot then m0 else m1))
    else select_slots P (SlotValid (with_hash m0)) (SlotValid (with_hash m1)).
Proof.
  intros P m0 m1 slot off b WF0 WF1 HP Hoff P0 P1 pg0 pg1 d Hb.
  destruct slot; unfold d.
  - unfold pg0 at 1. rewrite (read_slot_encode true P m0 WF0 HP).
    unfold pg1. rewrite (damage_one_byte true P m1 off b WF1 HP Hoff Hb).
    destruct (significant true off) eqn:S.
    + cbn [select_slots]. rewrite with_hash_psz, P0, N.eqb_refl. reflexivity.
    + now rewrite (significant_true_type off S).
  - unfold pg1 at 1. rewrite (read_slot_encode true P m1 WF1 HP).
    unfold pg0. rewrite (damage_one_byte true P m0 off b WF0 HP Hoff Hb).
    destruct (significant true off) eqn:S.
    + cbn [select_slots]. rewrite with_hash_psz, P1, N.eqb_refl. reflexivity.
    + now rewrite (significant_true_type off S).
Qed.
Print Assumptions open_after_damage.
