(* Fallback to the previous header, end to end (property C12 together with copy-on-write).
   The file after a commit is modelled as an UPDATE of the previous file ([commit_image]): the page runs of the write
   set, the new free-list run and the new header are spliced in, every other byte stays.  A file [holds] a state when
   it contains the encoding of its reachable tree pages, its free-list run and its header slot, whatever the other
   bytes are.  The commit image of a file that holds st holds st' and, by copy-on-write, STILL holds st; so when the
   current header page is overwritten or damaged, open_db returns the PREVIOUS header, the previous contents read
   back, and the file checker accepts the previous state. *)
From Coq Require Import List NArith Bool Arith Lia ZifyN ZifyNat ZifyBool Permutation.
From Coq.Strings Require Import Byte.
From Jamm Require Spec Tree Cursor Codec CodecFacts BytesFacts Meta MetaFacts OldMeta CheckM CheckFacts Consts.
From Jamm Require Import Bytes.
From Jamm Require Import Engine EngineAbs EngineFacts EngineSpillFacts EngineModifyFacts EngineBridgeFacts EngineRebalanceFacts.
From Jamm Require Import EnginePathFacts EngineTxInvFacts EngineRefines EngineOwnDefs EngineOwnSpill EngineAllocInv EngineCow.
From Jamm Require Import EngineDepth EngineSpillDepth EngineReadBridge EngineReadFull.
From Jamm Require Import EngineNoLeakDefs EngineNoLeak EngineReopen EngineFileImage.
Import ListNotations.
Local Open Scope list_scope. Local Open Scope N_scope.
Set Warnings "-abstract-large-number".

Import BytesLevel.

(** * Intervals and slices *)

(* the byte ranges of two non-empty page intervals without a common page are apart *)
Lemma ranges_apart : forall P a n b m o l len, 0 < n -> 0 < m -> o + l <= n * P -> len <= m * P ->
  (forall x, a <= x < a + n -> b <= x < b + m -> False) ->
  (a * P + o) + l <= b * P \/ b * P + len <= a * P + o.
Proof.
  intros P a n b m o l len Hn Hm H1 H2 H. pose proof (H a) as Ha. pose proof (H b) as Hb.
  destruct (N.le_gt_cases a b) as [L|L].
  - left. assert (a + n <= b) by (apply N.le_ngt; intros C; apply Hb; lia). nia.
  - right. assert (b + m <= a) by (apply N.le_ngt; intros C; apply Ha; lia). nia.
Qed.

Lemma slice_app_l : forall (F Z : bytes) off l, (N.to_nat off + N.to_nat l <= List.length F)%nat ->
  slice (F ++ Z) off l = slice F off l.
Proof.
  intros F Z off l H. rewrite BytesFacts.slice_some by (rewrite app_length; lia).
  rewrite BytesFacts.slice_some by lia. f_equal. apply BytesFacts.nth_error_ext'. intros i.
  rewrite !BytesFacts.nth_error_firstn'. destruct (Nat.ltb_spec i (N.to_nat l)) as [L|L]; [|reflexivity].
  rewrite !BytesFacts.nth_error_skipn'. apply nth_error_app1. lia.
Qed.

(* [image] away from the pages it writes *)
Lemma image_frame : forall pad P d R z off l,
  (forall p a, In p R -> dget d p = Some a ->
     (N.to_nat (p * P) + List.length (page_bytes pad p a) <= List.length z)%nat /\
     (off + l <= p * P \/ p * P + blen (page_bytes pad p a) <= off)) ->
  List.length (image pad P d R z) = List.length z /\ slice (image pad P d R z) off l = slice z off l.
Proof.
  intros pad P d R z off l. induction R as [|q R IH]; intros H; [split; reflexivity|].
  cbn [image fold_right]. fold (image pad P d R z).
  destruct (IH (fun p a Hp => H p a (or_intror Hp))) as [IHlen IHs].
  destruct (dget d q) as [aq|] eqn:Hq; [|split; assumption].
  destruct (H q aq (or_introl eq_refl) Hq) as [Hfit Hap].
  split.
  - rewrite BytesFacts.splice_length by (rewrite IHlen; exact Hfit). exact IHlen.
  - rewrite BytesFacts.slice_splice_other; [exact IHs | rewrite IHlen; exact Hfit | exact Hap].
Qed.

Lemma wr_get_in : forall w q, In q (map fst w) -> exists v, wr_get w q = Some v.
Proof.
  intros w q H. unfold wr_get. destruct (find (fun x => fst x =? q) w) as [e|] eqn:E; [exists (snd e); reflexivity|].
  exfalso. apply in_map_iff in H. destruct H as (e & He & Hin).
  pose proof (find_none _ _ E e Hin) as Hn. cbn beta in Hn. rewrite He, N.eqb_refl in Hn. discriminate.
Qed.

(** * A file that holds a state; the file after a commit *)

(* the bytes G contain the state st: its tree pages, its free-list page run, and a header in slot [d_tx st mod 2]
   that the reader decodes as [meta_of P st].  Nothing is said about the rest of G (the other slot, free pages). *)
Record holds (pad : N -> byte) (P : N) (G : bytes) (st : db) : Prop := {
  h_tree : file_encodes pad (Codec.reader_of G) P (d_disk st) (Rof st);
  h_fl : CodecFacts.reads_buffer (Codec.reader_of G) (d_fl st * P) (fl_bytes pad st);
  h_hdr : Meta.read_slot true (Tree.read_header_page (Codec.reader_of G) P (slot_of st)) = Meta.SlotValid (meta_of P st) }.

(* the head pages of a write set, each once *)
Definition wheads (w : list (N * (N * ndata))) : list N := nodup N.eq_dec (map fst w).

(* the file after the commit st -> st' with write set w, as an update of the previous file F: the page runs of w,
   the new free-list run and the new header (slot d_tx st' mod 2) are spliced into F (extended with zeros when the
   file grows); every other byte is a byte of F *)
Definition commit_image (pad : N -> byte) (P : N) (F : bytes) (st st' : db) (w : list (N * (N * ndata))) : bytes :=
  let Z := F ++ zeros (N.to_nat ((d_np st' - d_np st) * P)) in
  let T := image pad P (d_disk st') (wheads w) Z in
  splice (splice T (d_fl st' * P) (fl_bytes pad st')) (slot_of st' * P) (meta_page P st').

(* every page of the write set respects the physical limits (decidable; for the pages of the write set that are
   reachable in st' this is [tree_fits P st']) *)
Definition writes_fit (P : N) (st : db) (w : list (N * (N * ndata))) : Prop :=
  forall q v, wr_get w q = Some v -> page_fits P q (mk_apage (d_psz st) v).

(* the file image of EngineFileImage holds its state *)
Theorem file_image_holds : forall st pad P other, db_okz st -> 0 < P -> tree_fits P st -> phys_ok P st ->
  List.length other = N.to_nat P ->
  holds pad P (file_image pad P st other) st /\ List.length (file_image pad P st other) = N.to_nat (d_np st * P).
Proof.
  intros st pad P other Hok HP Hfit Hph Hlen. split; [constructor|].
  - now apply image_encodes_tree.
  - now apply image_reads_fl.
  - rewrite (image_hdr_slot st pad P other Hok HP Hfit Hph Hlen). exact (image_slot_valid st P Hok Hph).
  - now apply image_length.
Qed.

(* the two header slots of consecutive transactions differ *)
Lemma slots_differ : forall st st' w, tx_cow st st' w -> slot_of st' = 1 - slot_of st.
Proof.
  intros st st' w HC. unfold slot_of. rewrite (tc_tx _ _ _ HC).
  pose proof (N.mod_lt (d_tx st) 2 ltac:(lia)) as H1. pose proof (N.mod_lt (d_tx st + 1) 2 ltac:(lia)) as H2.
  pose proof (N.div_mod (d_tx st) 2 ltac:(lia)) as E1. pose proof (N.div_mod (d_tx st + 1) 2 ltac:(lia)) as E2. lia.
Qed.

Section Commit.
Variables (pad : N -> byte) (P : N) (F : bytes) (st st' : db) (w : list (N * (N * ndata))).
Hypothesis HP : 0 < P.
Hypothesis Hok : db_okz st.
Hypothesis Hok' : db_okz st'.
Hypothesis Hph : phys_ok P st.
Hypothesis Hph' : phys_ok P st'.
Hypothesis HC : tx_cow st st' w.
Hypothesis Hwf : writes_fit P st w.
Hypothesis HlenF : List.length F = N.to_nat (d_np st * P).

Let Z := F ++ zeros (N.to_nat ((d_np st' - d_np st) * P)).
Let T := image pad P (d_disk st') (wheads w) Z.
Let T1 := splice T (d_fl st' * P) (fl_bytes pad st').
Let C := commit_image pad P F st st' w.
Let LF := okz_layout st Hok.
Let LF' := okz_layout st' Hok'.

Lemma Z_length : List.length Z = N.to_nat (d_np st' * P).
Proof. unfold Z. rewrite app_length, BytesFacts.zeros_length, HlenF. pose proof (tc_np _ _ _ HC). nia. Qed.

(* a head of the write set: its page on the new disk, its run *)
Lemma whead_page : forall q, In q (wheads w) -> exists v, wr_get w q = Some v /\
  dget (d_disk st') q = Some (mk_apage (d_psz st) v) /\ prun (d_disk st') q = wrun (d_psz st) q v.
Proof.
  intros q Hq. unfold wheads in Hq. apply nodup_In in Hq. destruct (wr_get_in w q Hq) as [v Hv]. exists v.
  split; [exact Hv|]. rewrite (tc_disk _ _ _ HC). split; [now apply dget_apply_wr_some | now apply prun_written].
Qed.

Lemma whead_fits : forall p a, In p (wheads w) -> dget (d_disk st') p = Some a -> page_fits P p a.
Proof.
  intros p a Hp Hg. destruct (whead_page p Hp) as (v & Hv & Hd & _). rewrite Hd in Hg. inversion Hg; subst a. now apply Hwf.
Qed.

Lemma whead_written : forall p a x, In p (wheads w) -> dget (d_disk st') p = Some a -> p <= x < p + (ap_over a + 1) ->
  In x (wr_pages (d_psz st) w).
Proof.
  intros p a x Hp Hg Hx. destruct (whead_page p Hp) as (v & Hv & Hd & Hr). apply In_wr_pages. exists p, v. split; [exact Hv|].
  rewrite <- Hr, (prun_some _ p a Hg). now apply In_nrun.
Qed.

(* the new free-list run *)
Lemma fl'_bounds : 1 <= d_fln st' /\ 2 <= d_fl st' /\ d_fl st' + d_fln st' <= d_np st' /\
  blen (fl_bytes pad st') <= d_fln st' * P.
Proof.
  destruct (fl_run_bounds st' P Hok' Hph') as (A & B & D). repeat split; try assumption. now apply fl_bytes_fit.
Qed.

(* the tree pages of the write set in T *)
Lemma T_spec : List.length T = N.to_nat (d_np st' * P) /\
  forall p a, In p (wheads w) -> dget (d_disk st') p = Some a -> forall o l, o + l <= blen (page_bytes pad p a) ->
    slice T (p * P + o) l = slice (page_bytes pad p a) o l.
Proof.
  assert (Hnd : NoDup (flat_map (prun (d_disk st')) (wheads w))).
  { apply (NoDup_runs_intro (d_disk st') (wheads w)); [apply NoDup_nodup|].
    intros x y Hx Hy Hne z Hz1 Hz2. apply Hne.
    destruct (whead_page x Hx) as (vx & Gx & _ & Rx). destruct (whead_page y Hy) as (vy & Gy & _ & Ry).
    rewrite Rx in Hz1. rewrite Ry in Hz2. exact (tc_disj _ _ _ HC x vx y vy z Gx Gy Hz1 Hz2). }
  destruct (image_spec pad P (d_disk st') (d_np st') HP (wheads w) Z Z_length Hnd whead_fits) as [Hlen Hrd].
  { intros x Hx. apply in_flat_map in Hx. destruct Hx as (q & Hq & Hx).
    destruct (whead_page q Hq) as (v & Gv & _ & Rv). rewrite Rv in Hx.
    apply (tc_range _ _ _ HC x). left. apply In_wr_pages. eauto. }
  split; [|exact Hrd]. unfold T. rewrite Hlen. exact Z_length.
Qed.

(* a page range no page of which is in the write set: T has the bytes of Z there *)
Lemma T_frame : forall x0 n o l, 0 < n -> o + l <= n * P ->
  (forall x, x0 <= x < x0 + n -> ~ In x (wr_pages (d_psz st) w)) ->
  slice T (x0 * P + o) l = slice Z (x0 * P + o) l.
Proof.
  intros x0 n o l Hn Hol Hnw. unfold T. apply image_frame. intros p a Hp Hg.
  destruct (whead_fits p a Hp Hg) as (_ & _ & _ & _ & Hroom).
  pose proof (CodecFacts.encode_page_length pad p (ap_over a) (body_of a)) as Hlp. fold (page_bytes pad p a) in Hlp.
  assert (Hlast : p + ap_over a < d_np st').
  { apply (tc_range _ _ _ HC). left. apply (whead_written p a _ Hp Hg). lia. }
  split.
  - rewrite Z_length. unfold blen in Hlp. nia.
  - rewrite Hlp. apply (ranges_apart P x0 n p (ap_over a + 1) o l _ Hn ltac:(lia) Hol Hroom).
    intros x Hx1 Hx2. apply (Hnw x Hx1). exact (whead_written p a x Hp Hg Hx2).
Qed.

Lemma T1_fit : (N.to_nat (d_fl st' * P) + List.length (fl_bytes pad st') <= List.length T)%nat.
Proof. destruct fl'_bounds as (A & B & D & E). rewrite (proj1 T_spec). unfold blen in E. nia. Qed.
Lemma T1_length : List.length T1 = N.to_nat (d_np st' * P).
Proof. unfold T1. rewrite BytesFacts.splice_length by exact T1_fit. exact (proj1 T_spec). Qed.
Lemma C_fit : (N.to_nat (slot_of st' * P) + List.length (meta_page P st') <= List.length T1)%nat.
Proof. rewrite T1_length, (meta_page_len P st' Hph'). pose proof (slot_of_lt st'). pose proof (lf_np st' LF'). nia. Qed.
Lemma C_eq : C = splice T1 (slot_of st' * P) (meta_page P st').
Proof. reflexivity. Qed.

Theorem commit_length : List.length C = N.to_nat (d_np st' * P).
Proof. rewrite C_eq, BytesFacts.splice_length by exact C_fit. exact T1_length. Qed.

(* a page range that contains neither the new header slot nor a page of the new free-list run: C has the bytes of T *)
Lemma C_outside : forall x0 n o l, 0 < n -> o + l <= n * P ->
  (forall x, x0 <= x < x0 + n -> x <> slot_of st' /\ ~ In x (nrun (d_fl st') (d_fln st'))) ->
  slice C (x0 * P + o) l = slice T (x0 * P + o) l.
Proof.
  intros x0 n o l Hn Hol Hnw. destruct fl'_bounds as (A & B & D & E).
  rewrite C_eq. rewrite BytesFacts.slice_splice_other; [| exact C_fit |].
  2:{ apply (ranges_apart P x0 n (slot_of st') 1 o l _ Hn ltac:(lia) Hol); [rewrite (meta_page_len P st' Hph'); lia|].
      intros x Hx1 Hx2. apply (proj1 (Hnw x Hx1)). lia. }
  unfold T1. apply BytesFacts.slice_splice_other; [exact T1_fit|].
  apply (ranges_apart P x0 n (d_fl st') (d_fln st') o l _ Hn ltac:(lia) Hol E).
  intros x Hx1 Hx2. apply (proj2 (Hnw x Hx1)). now apply In_nrun.
Qed.

(* frame: a page range of the old file that contains neither the new header slot nor a written page keeps its bytes *)
Lemma C_frame : forall x0 n o l, 0 < n -> o + l <= n * P -> x0 + n <= d_np st ->
  (forall x, x0 <= x < x0 + n -> x <> slot_of st' /\ ~ written st st' w x) ->
  slice C (x0 * P + o) l = slice F (x0 * P + o) l.
Proof.
  intros x0 n o l Hn Hol Hin Hnw.
  rewrite (C_outside x0 n o l Hn Hol).
  2:{ intros x Hx. split; [exact (proj1 (Hnw x Hx)) | intros Hr; apply (proj2 (Hnw x Hx)); now right]. }
  rewrite (T_frame x0 n o l Hn Hol).
  2:{ intros x Hx Hw. apply (proj2 (Hnw x Hx)). now left. }
  unfold Z. apply slice_app_l. rewrite HlenF. nia.
Qed.

(* the pages of the write set *)
Lemma C_tree_hit : forall p a, In p (wheads w) -> dget (d_disk st') p = Some a ->
  CodecFacts.reads_buffer (Codec.reader_of C) (p * P) (page_bytes pad p a).
Proof.
  intros p a Hp Hg o l Hol. unfold Codec.reader_of.
  destruct (whead_fits p a Hp Hg) as (_ & _ & _ & _ & Hroom).
  pose proof (CodecFacts.encode_page_length pad p (ap_over a) (body_of a)) as Hlp. fold (page_bytes pad p a) in Hlp.
  rewrite (C_outside p (ap_over a + 1) o l); [exact (proj2 T_spec p a Hp Hg o l Hol) | lia | lia |].
  intros x Hx. pose proof (whead_written p a x Hp Hg Hx) as Hw. split.
  - pose proof (tc_range _ _ _ HC x (or_introl Hw)). pose proof (slot_of_lt st'). lia.
  - exact (tc_fl _ _ _ HC x Hw).
Qed.

(* the new free-list run *)
Lemma C_fl_hit : CodecFacts.reads_buffer (Codec.reader_of C) (d_fl st' * P) (fl_bytes pad st').
Proof.
  intros o l Hol. unfold Codec.reader_of. destruct fl'_bounds as (A & B & D & E).
  rewrite C_eq. rewrite BytesFacts.slice_splice_other; [| exact C_fit |].
  2:{ apply (ranges_apart P (d_fl st') (d_fln st') (slot_of st') 1 o l _ ltac:(lia) ltac:(lia) ltac:(lia));
        [rewrite (meta_page_len P st' Hph'); lia|].
      pose proof (slot_of_lt st'). lia. }
  unfold T1. apply slice_splice_inside; [exact T1_fit | exact Hol].
Qed.

(* the new header page *)
Lemma C_hdr_hit : forall o l, o + l <= P -> slice C (slot_of st' * P + o) l = slice (meta_page P st') o l.
Proof.
  intros o l Hol. rewrite C_eq. apply slice_splice_inside; [exact C_fit|]. unfold blen. rewrite (meta_page_len P st' Hph'). lia.
Qed.

(** ** The commit image still holds the PREVIOUS state (copy-on-write) *)
Hypothesis HF : holds pad P F st.

Lemma live_not_touched : forall x, In x (live_of st (Rof st)) -> x <> slot_of st' /\ ~ written st st' w x.
Proof.
  intros x Hx. split; [|intros Hw; exact (tc_cow _ _ _ HC x Hw Hx)].
  pose proof (lf_live st LF x Hx). pose proof (slot_of_lt st'). lia.
Qed.

(* the previous header page is untouched *)
Lemma commit_keeps_old_header : forall o l, o + l <= P ->
  slice C (slot_of st * P + o) l = slice F (slot_of st * P + o) l.
Proof.
  intros o l Hol. apply (C_frame (slot_of st) 1 o l); [lia | lia | |].
  - pose proof (lf_np st LF). pose proof (slot_of_lt st). lia.
  - intros x Hx. assert (x = slot_of st) by lia. subst x. pose proof (slot_of_lt st) as Hs. split.
    + rewrite (slots_differ st st' w HC). lia.
    + intros Hw. pose proof (tc_range _ _ _ HC _ Hw). lia.
Qed.

Theorem commit_holds_old : holds pad P C st.
Proof.
  constructor.
  - intros p a Hp Hg. destruct (h_tree _ _ _ _ HF p a Hp Hg) as [Hfit Hrd]. split; [exact Hfit|].
    intros o l Hol. rewrite <- (Hrd o l Hol). unfold Codec.reader_of.
    destruct Hfit as (_ & _ & _ & _ & Hroom).
    pose proof (CodecFacts.encode_page_length pad p (ap_over a) (body_of a)) as Hlp. fold (page_bytes pad p a) in Hlp.
    assert (Hrun : forall x, p <= x < p + (ap_over a + 1) -> In x (live_of st (Rof st))).
    { intros x Hx. apply in_or_app. left. apply In_runs. exists p. split; [exact Hp|]. rewrite (prun_some _ p a Hg). now apply In_nrun. }
    apply (C_frame p (ap_over a + 1) o l); [lia | lia | |].
    + pose proof (lf_live st LF (p + ap_over a) (Hrun (p + ap_over a) ltac:(lia))). lia.
    + intros x Hx. apply live_not_touched. now apply Hrun.
  - intros o l Hol. rewrite <- (h_fl _ _ _ _ HF o l Hol). unfold Codec.reader_of.
    destruct (fl_run_bounds st P Hok Hph) as (A & B & D). pose proof (fl_bytes_fit pad P st Hph) as E.
    apply (C_frame (d_fl st) (d_fln st) o l); [lia | lia | lia |].
    intros x Hx. apply live_not_touched. apply in_or_app. right. now apply In_nrun.
  - rewrite <- (h_hdr _ _ _ _ HF). f_equal. unfold Tree.read_header_page, Codec.reader_of.
    pose proof (commit_keeps_old_header 0 (N.min P 256) ltac:(lia)) as E. rewrite !N.add_0_r in E. now rewrite E.
Qed.

(** ** The commit image holds the NEW state *)

(* every head page of the new tree that the commit did not write is a head page of the old tree (copy-on-write
   carries unchanged nodes over).  Decidable; true for the engine's commit, but not among the exported facts of
   [tx_cow] (which speak of pages, not head pages): a hypothesis here, discharged for engine transactions in
   EngineCarried. *)
Definition carried : Prop := forall p, In p (Rof st') -> wr_get w p = None -> In p (Rof st).

Lemma C_hdr_new : Tree.read_header_page (Codec.reader_of C) P (slot_of st') = hdr_prefix P (meta_page P st').
Proof.
  unfold Tree.read_header_page, Codec.reader_of.
  pose proof (C_hdr_hit 0 (N.min P 256) ltac:(lia)) as E. rewrite N.add_0_r in E. rewrite E.
  rewrite slice_whole_prefix by (rewrite (meta_page_len P st' Hph'); lia). reflexivity.
Qed.

Theorem commit_holds_new : carried -> tree_fits P st' -> holds pad P C st'.
Proof.
  intros Hcar Hfit'. constructor.
  - intros p a Hp Hg. split; [now apply Hfit'|]. destruct (wr_get w p) as [v|] eqn:Hv.
    + apply C_tree_hit; [|exact Hg]. unfold wheads. apply nodup_In. exact (wr_get_head w p v Hv).
    + pose proof (Hcar p Hp Hv) as Hp0. rewrite (tc_disk _ _ _ HC), (dget_apply_wr_none w _ _ p Hv) in Hg.
      exact (proj2 (h_tree _ _ _ _ commit_holds_old p a Hp0 Hg)).
  - exact C_fl_hit.
  - rewrite C_hdr_new. exact (image_slot_valid st' P Hok' Hph').
Qed.
End Commit.

(** * Opening and checking a file that holds a state *)

(* the other header slot, as the reader decodes it: invalid, or a valid header of an older transaction *)
Definition other_slot_ok (P : N) (G : bytes) (st : db) : Prop :=
  let so := Meta.read_slot true (Tree.read_header_page (Codec.reader_of G) P (1 - slot_of st)) in
  so = Meta.SlotInvalid \/ exists m', so = Meta.SlotValid m' /\ Meta.m_psz m' = P /\ Meta.m_tx m' < d_tx st.

(* a file that holds st', and st in the other slot: for st' the other slot is valid and older *)
Lemma older_other_slot : forall pad P G st st', slot_of st' = 1 - slot_of st -> d_tx st < d_tx st' ->
  holds pad P G st -> other_slot_ok P G st'.
Proof.
  intros pad P G st st' Hs Ht HH. right. exists (meta_of P st). pose proof (slot_of_lt st).
  replace (1 - slot_of st') with (slot_of st) by lia. split; [exact (h_hdr _ _ _ _ HH)|]. split; [reflexivity | exact Ht].
Qed.

(* opening: the header, the recorded free ids, the free-list run of the state the file holds; only the header slot
   and the free-list run matter *)
Theorem open_parts : forall st pad P G, db_okz st -> 0 < P -> phys_ok P st ->
  Forall (fun i => i < 2^64) (d_flids st) ->
  CodecFacts.reads_buffer (Codec.reader_of G) (d_fl st * P) (fl_bytes pad st) ->
  Meta.read_slot true (Tree.read_header_page (Codec.reader_of G) P (slot_of st)) = Meta.SlotValid (meta_of P st) ->
  other_slot_ok P G st ->
  Tree.open_db (Codec.reader_of G) P =
    Codec.Ok (Tree.mkOpened (meta_of P st) (d_flids st) (Codec.seqN (d_fl st) (N.to_nat (d_fln st)))).
Proof.
  intros st pad P G Hok HP Hph Hids Hfl Hhd Hso.
  destruct (open_meta_slots st P (Codec.reader_of G) (eq (meta_of P st)) eq_refl Hhd) as (m & Hm & <-).
  { destruct Hso as [H|(m' & A & B & D)]; [now left | right; exists m'; auto]. }
  exact (open_db_parts st pad P _ _ Hok Hph Hids Hfl Hm eq_refl).
Qed.

Theorem open_holds : forall st pad P G, db_okz st -> 0 < P -> phys_ok P st ->
  Forall (fun i => i < 2^64) (d_flids st) -> holds pad P G st -> other_slot_ok P G st ->
  Tree.open_db (Codec.reader_of G) P =
    Codec.Ok (Tree.mkOpened (meta_of P st) (d_flids st) (Codec.seqN (d_fl st) (N.to_nat (d_fln st)))).
Proof.
  intros st pad P G Hok HP Hph Hids HH Hso.
  exact (open_parts st pad P G Hok HP Hph Hids (h_fl _ _ _ _ HH) (h_hdr _ _ _ _ HH) Hso).
Qed.

(* checking: the file checker accepts every file that holds a state of the invariant -- whatever the bytes of
   the pages the state does not use, whatever the length of the file *)
Theorem inv_check_holds : forall st pad P G,
  db_exact_rec st -> db_okd st -> NoDup (d_flids st) -> phys_ok P st ->
  holds pad P G st -> other_slot_ok P G st ->
  Tree.inv_check (Codec.reader_of G) P = Codec.Ok tt /\ CheckM.check_m (Codec.reader_of G) P = Codec.Ok tt.
Proof.
  intros st pad P G Hrec Hokd Hnd Hph HH Hso.
  exact (inv_check_parts st pad P _ _ Hrec Hokd Hnd Hph (h_tree _ _ _ _ HH)
           (open_holds st pad P G (proj1 Hokd) (phys_ok_pos P st Hph) Hph (flids_small st P Hrec Hph) HH Hso)
           eq_refl eq_refl).
Qed.

(** * Overwriting a header page *)

Lemma splice_page_frame : forall (G : bytes) P s pg' off l, List.length pg' = N.to_nat P ->
  (N.to_nat ((s + 1) * P) <= List.length G)%nat -> off + l <= s * P \/ (s + 1) * P <= off ->
  slice (splice G (s * P) pg') off l = slice G off l.
Proof.
  intros G P s pg' off l Hl HG Hap. apply BytesFacts.slice_splice_other; [rewrite Hl; lia|]. rewrite Hl. lia.
Qed.

Lemma splice_page_read : forall (G : bytes) P s pg', 0 < P -> List.length pg' = N.to_nat P ->
  (N.to_nat ((s + 1) * P) <= List.length G)%nat ->
  Tree.read_header_page (Codec.reader_of (splice G (s * P) pg')) P s = hdr_prefix P pg'.
Proof.
  intros G P s pg' HP Hl HG. unfold Tree.read_header_page, Codec.reader_of.
  assert (E : slice (splice G (s * P) pg') (s * P + 0) (N.min P 256) = slice pg' 0 (N.min P 256)).
  { apply slice_splice_inside; [rewrite Hl; lia | unfold blen; rewrite Hl; lia]. }
  rewrite N.add_0_r in E. rewrite E.
  rewrite slice_whole_prefix by (rewrite Hl; lia). reflexivity.
Qed.

Lemma splice_page_read_other : forall (G : bytes) P s s' pg', List.length pg' = N.to_nat P ->
  (N.to_nat ((s + 1) * P) <= List.length G)%nat -> s' <> s ->
  Tree.read_header_page (Codec.reader_of (splice G (s * P) pg')) P s' = Tree.read_header_page (Codec.reader_of G) P s'.
Proof.
  intros G P s s' pg' Hl HG Hne. unfold Tree.read_header_page, Codec.reader_of.
  rewrite (splice_page_frame G P s pg' (s' * P) (N.min P 256) Hl HG); [reflexivity|]. nia.
Qed.

(* overwriting the OTHER header page: the file still holds the state *)
Theorem holds_overwrite_other : forall st pad P G pg', db_okz st -> 0 < P -> phys_ok P st -> holds pad P G st ->
  List.length pg' = N.to_nat P -> (N.to_nat (2 * P) <= List.length G)%nat ->
  holds pad P (splice G ((1 - slot_of st) * P) pg') st.
Proof.
  intros st pad P G pg' Hok HP Hph HH Hl HG. pose proof (slot_of_lt st) as Hs. pose proof (okz_layout st Hok) as LF.
  assert (HG' : (N.to_nat ((1 - slot_of st + 1) * P) <= List.length G)%nat) by nia.
  constructor.
  - intros p a Hp Hg. destruct (h_tree _ _ _ _ HH p a Hp Hg) as [Hfit Hrd]. split; [exact Hfit|].
    intros o l Hol. rewrite <- (Hrd o l Hol). unfold Codec.reader_of. apply splice_page_frame; [exact Hl | exact HG' |].
    assert (2 <= p).
    { apply (lf_live st LF). apply in_or_app. left. apply In_runs. exists p. split; [exact Hp | apply In_prun_self]. }
    right. nia.
  - intros o l Hol. rewrite <- (h_fl _ _ _ _ HH o l Hol). unfold Codec.reader_of. apply splice_page_frame; [exact Hl | exact HG' |].
    destruct (fl_run_bounds st P Hok Hph) as (A & B & D). right. nia.
  - rewrite splice_page_read_other; [exact (h_hdr _ _ _ _ HH) | exact Hl | exact HG' | lia].
Qed.

(** * Fallback: the current header of the commit image is overwritten / damaged *)

(* one byte of the encoded header of [st'] is changed: the page keeps its length, and reads as invalid when the byte
   is significant, as the same header otherwise *)
Lemma meta_page_damage : forall st' P off b, db_okz st' -> phys_ok P st' -> off < P ->
  nth_error (meta_page P st') (N.to_nat off) <> Some b ->
  List.length (Meta.damage (meta_page P st') off b) = N.to_nat P /\
  Meta.read_slot true (Meta.damage (meta_page P st') off b) =
    if Meta.significant true off then Meta.SlotInvalid else Meta.SlotValid (meta_of P st').
Proof.
  intros st' P off b Hok' Hph' Hoff Hb. pose proof Hph' as (_ & _ & _ & _ & Hme).
  pose proof (meta_of_wf st' P Hok' Hph') as Hwfm. pose proof (meta_page_len P st' Hph') as Hl0.
  split.
  - rewrite MetaFacts.damage_length; [exact Hl0 | lia].
  - (* the page stays the variable it is; applying [damage_one_byte] directly makes unification unfold the encoder *)
    rewrite (MetaFacts.damage_one_byte_of true P _ _ off b Hwfm Hme Hoff Hb ltac:(reflexivity)).
    destruct (Meta.significant true off) eqn:Sg; [reflexivity|]. now rewrite (MetaFacts.significant_true_type off Sg).
Qed.

(* the file after the commit with the page of the CURRENT header (slot d_tx st' mod 2) replaced by pg' *)
Definition damaged_image (pad : N -> byte) (P : N) (F : bytes) (st st' : db) (w : list (N * (N * ndata))) (pg' : bytes) : bytes :=
  splice (commit_image pad P F st st' w) (slot_of st' * P) pg'.

Definition opened_of (P : N) (st : db) : Tree.opened :=
  Tree.mkOpened (meta_of P st) (d_flids st) (Codec.seqN (d_fl st) (N.to_nat (d_fln st))).

Section Fallback.
Variables (pad : N -> byte) (P : N) (F : bytes) (st st' : db) (w : list (N * (N * ndata))).
Hypothesis HP : 0 < P.
Hypothesis Hok : db_okz st.
Hypothesis Hok' : db_okz st'.
Hypothesis Hph : phys_ok P st.
Hypothesis Hph' : phys_ok P st'.
Hypothesis HC : tx_cow st st' w.
Hypothesis Hwf : writes_fit P st w.
Hypothesis HlenF : List.length F = N.to_nat (d_np st * P).
Hypothesis HF : holds pad P F st.

Let C := commit_image pad P F st st' w.
Let Hdiff := slots_differ st st' w HC.
Let HlenC := commit_length pad P F st st' w HP Hok' Hph' HC Hwf HlenF.
Let HoldC := commit_holds_old pad P F st st' w HP Hok Hok' Hph Hph' HC Hwf HlenF HF.

Lemma C_len2 : (N.to_nat (2 * P) <= List.length C)%nat.
Proof. unfold C. rewrite HlenC. pose proof (lf_np st' (okz_layout st' Hok')). nia. Qed.

(* copy-on-write + C12: whatever is written over the current header page, the file still holds the PREVIOUS state:
   its tree pages, its free-list run and its header are bytes of the old file *)
Theorem fallback_holds : forall pg', List.length pg' = N.to_nat P ->
  holds pad P (damaged_image pad P F st st' w pg') st.
Proof.
  intros pg' Hl. unfold damaged_image. rewrite Hdiff.
  exact (holds_overwrite_other st pad P C pg' Hok HP Hph HoldC Hl C_len2).
Qed.

Lemma damaged_cur_slot : forall pg', List.length pg' = N.to_nat P ->
  Meta.read_slot true (Tree.read_header_page (Codec.reader_of (damaged_image pad P F st st' w pg')) P (slot_of st')) =
  Meta.read_slot true pg'.
Proof.
  intros pg' Hl. pose proof Hph' as (_ & _ & _ & _ & Hme).
  unfold damaged_image. rewrite splice_page_read; [now apply read_hdr_prefix | exact HP | exact Hl |].
  pose proof C_len2. pose proof (slot_of_lt st'). fold C. nia.
Qed.

(* the current header reads INVALID: open returns the previous header, the previous free ids, the previous run *)
Theorem fallback_open : forall pg', List.length pg' = N.to_nat P -> Forall (fun i => i < 2^64) (d_flids st) ->
  Meta.read_slot true pg' = Meta.SlotInvalid ->
  Tree.open_db (Codec.reader_of (damaged_image pad P F st st' w pg')) P = Codec.Ok (opened_of P st).
Proof.
  intros pg' Hl Hids Hinv. apply (open_holds st pad P _ Hok HP Hph Hids (fallback_holds pg' Hl)).
  left. rewrite <- Hdiff, (damaged_cur_slot pg' Hl). exact Hinv.
Qed.

(* the whole previous database reads back from the bytes: every bucket answers the reference's contents *)
Theorem fallback_reads : forall pg', List.length pg' = N.to_nat P ->
  let rd := Codec.reader_of (damaged_image pad P F st st' w pg') in
  forall path,
  match Spec.get_at path (abs_db st) with
  | Some (Spec.SBucket o x es) =>
      exists r t, root_at_b rd P (d_root st) path = Some r /\ Tree.build_tree fuel0 rd P r = Codec.Ok t /\
        NH.wf_tree_nh t = true /\ cursor_agrees t (Spec.SBucket o x es)
  | _ => root_at_b rd P (d_root st) path = None
  end.
Proof.
  intros pg' Hl rd path. exact (state_read_bytes st pad rd P Hok HP (h_tree _ _ _ _ (fallback_holds pg' Hl)) path).
Qed.

(* the file checker accepts the file as the previous database: the pages the lost transaction wrote are,
   for the previous header, free pages or pages beyond its page count *)
Theorem fallback_inv_check : forall pg', List.length pg' = N.to_nat P ->
  db_exact_rec st -> db_okd st -> NoDup (d_flids st) -> Meta.read_slot true pg' = Meta.SlotInvalid ->
  let rd := Codec.reader_of (damaged_image pad P F st st' w pg') in
  Tree.inv_check rd P = Codec.Ok tt /\ CheckM.check_m rd P = Codec.Ok tt.
Proof.
  intros pg' Hl Hrec Hokd Hnd Hinv rd. apply (inv_check_holds st pad P _ Hrec Hokd Hnd Hph (fallback_holds pg' Hl)).
  left. rewrite <- Hdiff, (damaged_cur_slot pg' Hl). exact Hinv.
Qed.

(* when the current header still reads as the header of st', open returns st' *)
Lemma cur_valid_open : forall G, Forall (fun i => i < 2^64) (d_flids st') ->
  CodecFacts.reads_buffer (Codec.reader_of G) (d_fl st' * P) (fl_bytes pad st') ->
  Meta.read_slot true (Tree.read_header_page (Codec.reader_of G) P (slot_of st')) = Meta.SlotValid (meta_of P st') ->
  holds pad P G st ->
  Tree.open_db (Codec.reader_of G) P = Codec.Ok (opened_of P st').
Proof.
  intros G Hids Hfl Hhd HH. apply (open_parts st' pad P G Hok' HP Hph' Hids Hfl Hhd).
  apply (older_other_slot pad P G st st' Hdiff); [rewrite (tc_tx _ _ _ HC); lia | exact HH].
Qed.

(* the commit image opens as st' (its other slot holds the valid, older header of st) *)
Theorem commit_open : Forall (fun i => i < 2^64) (d_flids st') ->
  Tree.open_db (Codec.reader_of C) P = Codec.Ok (opened_of P st').
Proof.
  intros Hids. apply (cur_valid_open C Hids).
  - exact (C_fl_hit pad P F st st' w HP Hok' Hph' HC Hwf HlenF).
  - unfold C. rewrite (C_hdr_new pad P F st st' w HP Hok' Hph' HC Hwf HlenF).
    exact (image_slot_valid st' P Hok' Hph').
  - exact HoldC.
Qed.

Theorem still_current_open : forall pg', List.length pg' = N.to_nat P -> Forall (fun i => i < 2^64) (d_flids st') ->
  Meta.read_slot true pg' = Meta.SlotValid (meta_of P st') ->
  Tree.open_db (Codec.reader_of (damaged_image pad P F st st' w pg')) P = Codec.Ok (opened_of P st').
Proof.
  intros pg' Hl Hids Hv. apply (cur_valid_open _ Hids).
  - intros o l Hol. rewrite <- (C_fl_hit pad P F st st' w HP Hok' Hph' HC Hwf HlenF o l Hol).
    unfold damaged_image, Codec.reader_of. apply splice_page_frame; [exact Hl | |].
    + pose proof C_len2. pose proof (slot_of_lt st'). fold C. nia.
    + destruct (fl_run_bounds st' P Hok' Hph') as (A & B & D).
      pose proof (slot_of_lt st'). right. nia.
  - rewrite (damaged_cur_slot pg' Hl). exact Hv.
  - exact (fallback_holds pg' Hl).
Qed.

(* C12 end to end: any change of ONE BYTE of the current header page of the file after a commit.
   Either the byte matters ([Meta.significant]): the header is invalid and open returns the PREVIOUS header with the
   previous free ids and free-list run; or it does not (padding): open returns the current header as before. *)
Theorem fallback_damage : forall off b, off < P ->
  nth_error (meta_page P st') (N.to_nat off) <> Some b ->
  Forall (fun i => i < 2^64) (d_flids st) -> Forall (fun i => i < 2^64) (d_flids st') ->
  let G := damaged_image pad P F st st' w (Meta.damage (meta_page P st') off b) in
  Tree.open_db (Codec.reader_of G) P =
    Codec.Ok (if Meta.significant true off then opened_of P st else opened_of P st').
Proof.
  intros off b Hoff Hb Hids Hids' G. destruct (meta_page_damage st' P off b Hok' Hph' Hoff Hb) as [Hl Hd].
  destruct (Meta.significant true off).
  - exact (fallback_open _ Hl Hids Hd).
  - exact (still_current_open _ Hl Hids' Hd).
Qed.
End Fallback.

(** * From a transaction of the engine *)

(* a significant byte of the encoded header changed: the page has the same length and reads as invalid *)
Lemma damage_invalid : forall st' P off b, db_okz st' -> phys_ok P st' -> off < P ->
  nth_error (meta_page P st') (N.to_nat off) <> Some b -> Meta.significant true off = true ->
  List.length (Meta.damage (meta_page P st') off b) = N.to_nat P /\
  Meta.read_slot true (Meta.damage (meta_page P st') off b) = Meta.SlotInvalid.
Proof.
  intros st' P off b Hok' Hph' Hoff Hb Sg. destruct (meta_page_damage st' P off b Hok' Hph' Hoff Hb) as [Hl Hd].
  rewrite Sg in Hd. exact (conj Hl Hd).
Qed.

(* st satisfies the invariant of histories; a transaction leads to st'; F is the complete
   file image of st (any page in its other slot); the commit updates F in place (copy-on-write); afterwards the page
   of the CURRENT header is replaced by anything that does not read as a valid header.  Then the file opens as the
   PREVIOUS state, is accepted by the file checker as the previous state, and reads back the previous contents. *)
Theorem run_tx_fallback : forall st ops ord st' pad P other,
  db_inv st -> Forall (op_ok (d_disk st)) ops -> run_tx st ops ord = Ok st' -> readable st' ->
  tree_fits P st -> phys_ok P st -> phys_ok P st' -> List.length other = N.to_nat P ->
  exists w, tx_cow st st' w /\
    (writes_fit P st w ->
     forall pg', List.length pg' = N.to_nat P -> Meta.read_slot true pg' = Meta.SlotInvalid ->
     let rd := Codec.reader_of (damaged_image pad P (file_image pad P st other) st st' w pg') in
     Tree.open_db rd P = Codec.Ok (opened_of P st) /\
     Tree.inv_check rd P = Codec.Ok tt /\ CheckM.check_m rd P = Codec.Ok tt /\
     forall path,
       match Spec.get_at path (abs_db st) with
       | Some (Spec.SBucket o x es) =>
           exists r t, root_at_b rd P (d_root st) path = Some r /\ Tree.build_tree fuel0 rd P r = Codec.Ok t /\
             NH.wf_tree_nh t = true /\ cursor_agrees t (Spec.SBucket o x es)
       | _ => root_at_b rd P (d_root st) path = None
       end).
Proof.
  intros st ops ord st' pad P other Hinv Hops Hrun Hrd Hfit Hph Hph' Hlo.
  destruct (db_inv_facts st Hinv) as (Hrec & Hok & Hokd & _). pose proof (inv_flids_NoDup st Hinv) as Hnd.
  destruct (run_tx_refines' st ops ord st' Hok Hops Hrun Hrd) as [Hok' _].
  destruct (run_tx_write_set st ops ord st' Hok Hops Hrun) as [w HC]. exists w. split; [exact HC|].
  intros Hwf pg' Hl Hbad rd. pose proof (phys_ok_pos P st Hph) as HP.
  destruct (file_image_holds st pad P other Hok HP Hfit Hph Hlo) as [HF HlenF].
  split; [exact (fallback_open pad P _ st st' w HP Hok Hok' Hph Hph' HC Hwf HlenF HF pg' Hl (flids_small st P Hrec Hph) Hbad)|].
  destruct (fallback_inv_check pad P _ st st' w HP Hok Hok' Hph Hph' HC Hwf HlenF HF pg' Hl Hrec Hokd Hnd Hbad) as [A B].
  split; [exact A|]. split; [exact B|].
  exact (fallback_reads pad P _ st st' w HP Hok Hok' Hph Hph' HC Hwf HlenF HF pg' Hl).
Qed.

(** * The hypotheses on concrete states *)

(* only the head pages of a write set enter the image *)
Lemma commit_image_heads : forall pad P F st st' w w', wheads w = wheads w' ->
  commit_image pad P F st st' w = commit_image pad P F st st' w'.
Proof. intros pad P F st st' w w' E. unfold commit_image. now rewrite E. Qed.

Lemma damaged_image_heads : forall pad P F st st' w w' pg', wheads w = wheads w' ->
  damaged_image pad P F st st' w pg' = damaged_image pad P F st st' w' pg'.
Proof. intros pad P F st st' w w' pg' E. unfold damaged_image. now rewrite (commit_image_heads pad P F st st' w w' E). Qed.

Lemma damaged_length : forall pad P F st st' w pg', db_okz st' ->
  List.length (commit_image pad P F st st' w) = N.to_nat (d_np st' * P) -> List.length pg' = N.to_nat P ->
  List.length (damaged_image pad P F st st' w pg') = N.to_nat (d_np st' * P).
Proof.
  intros pad P F st st' w pg' Hok' HlC Hl. unfold damaged_image. rewrite BytesFacts.splice_length; [exact HlC|].
  rewrite Hl, HlC. pose proof (slot_of_lt st'). pose proof (lf_np st' (okz_layout st' Hok')). nia.
Qed.

(* [tx_cow] for a given write set: four equations on the states, and a decidable condition on the written pages
   (no page twice; each outside the old snapshot, free after [begin_w] or new, in range, not free afterwards) *)
Definition cow_pagesb (st st' : db) (w : list (N * (N * ndata))) : bool :=
  let L := wr_pages (d_psz st) w ++ nrun (d_fl st') (d_fln st') in
  nodupb L &&
  forallb (fun x => negb (memb x (live_of st (Rof st))) && (memb x (free (begin_w st)) || (d_np st <=? x)) &&
                    (2 <=? x) && (x <? d_np st') && negb (memb x (d_free st'))) L.

Lemma tx_cow_intro : forall st st' w, d_disk st' = apply_wr w (d_psz st) (d_disk st) -> d_psz st' = d_psz st ->
  d_tx st' = d_tx st + 1 -> d_np st <= d_np st' -> cow_pagesb st st' w = true -> tx_cow st st' w.
Proof.
  intros st st' w Hd Hp Ht Hn Hb. unfold cow_pagesb in Hb. cbv zeta in Hb. apply andb_true_iff in Hb. destruct Hb as [Hnd Hall].
  apply nodupb_ok in Hnd. apply ListFacts.NoDup_app_iff in Hnd. destruct Hnd as (Hndw & _ & Hdis).
  assert (Hw : forall x, written st st' w x -> ~ In x (live_of st (Rof st)) /\ (In x (free (begin_w st)) \/ d_np st <= x) /\
                 2 <= x < d_np st' /\ ~ In x (d_free st')).
  { intros x Hx. rewrite forallb_forall in Hall. specialize (Hall x (proj2 (in_app_iff _ _ x) Hx)).
    rewrite !andb_true_iff, !negb_true_iff, orb_true_iff, memb_In in Hall. destruct Hall as ((((A & B) & C) & D) & E).
    split; [now apply memb_false|]. split; [destruct B; [now left | right; lia]|]. split; [lia | now apply memb_false]. }
  constructor; try assumption; try (intros x Hx; apply (Hw x Hx)).
  (* two entries with a common page: the page would occur twice in [wr_pages] *)
  intros q1 v1 q2 v2 x G1 G2 X1 X2. destruct (N.eq_dec q1 q2) as [E|E]; [exact E|]. exfalso.
  refine (ListFacts.NoDup_flat_map_disj _ _ q1 q2 Hndw (wr_get_head w q1 v1 G1) (wr_get_head w q2 v2 G2) E x _ _).
  - now rewrite G1.
  - now rewrite G2.
Qed.

(* the pages of the write set are on the new disk: they fit when the new disk's pages at these ids do *)
Lemma writes_fit_new : forall P st st' w, tx_cow st st' w ->
  (forall p a, In p (map fst w) -> dget (d_disk st') p = Some a -> page_fits P p a) -> writes_fit P st w.
Proof.
  intros P st st' w HC Hfit q v Hg. apply Hfit; [exact (wr_get_head w q v Hg)|].
  rewrite (tc_disk _ _ _ HC). now apply dget_apply_wr_some.
Qed.

(* [carried], decided; it depends on the heads of the write set only *)
Lemma carried_heads : forall st st' w w', map fst w = map fst w' ->
  forallb (fun p => match wr_get w p with Some _ => true | None => memb p (Rof st) end) (Rof st') = true ->
  carried st st' w'.
Proof.
  intros st st' w w' E H p Hp Hn. rewrite forallb_forall in H. specialize (H p Hp).
  destruct (wr_get w p) as [v|] eqn:G; [|now apply memb_In].
  apply wr_get_head in G. rewrite E in G. destruct (wr_get_in w' p G) as [v' G']. congruence.
Qed.

(* the root bucket of a state, read from a file that holds the state *)
Lemma holds_reads_root : forall st pad P G, db_okz st -> 0 < P -> holds pad P G st ->
  exists t, Tree.build_tree fuel0 (Codec.reader_of G) P (d_root st) = Codec.Ok t /\ cursor_agrees t (abs_db st).
Proof.
  intros st pad P G Hok HP HH. pose proof (state_read_bytes st pad _ P Hok HP (h_tree _ _ _ _ HH) []) as R.
  cbn [Spec.get_at root_at_b] in R. destruct (abs_db st) as [v|o x es]; [discriminate R|].
  destruct R as (r & t & Hr & Ht & _ & Hag). injection Hr as <-. eauto.
Qed.

(** * The example history: two transactions from [init_db 4096] *)

(* The files are 7 and 9 pages of 4096 bytes.  No proof below evaluates them (quick on the virtual machine, slow for
   a checker that has the kernel's lazy reduction only): the two states are states of the engine, so the theorems
   apply, and what is left to evaluate concerns a handful of page ids. *)
Module FallbackExample.
Import BytesExamples ExHistory ExCow Ex3.
(* only the head pages of the write set enter [commit_image]; the second transaction wrote the runs of 7, 3, 2 *)
Definition wex : list (N * (N * ndata)) := map (fun q => (q, (0, Leaves []))) [7; 3; 2].
(* the file after the first transaction (its other slot still holds a header written by init_file, db.rs) *)
Definition F1 : bytes := file_image ex_pad 4096 hist_st1 (Meta.encode_meta_page 4096 (Meta.init_meta 4096 0)).
(* the second commit as an update of F1; then ONE byte of the current header (the low byte of tx_id) is changed *)
Definition C2 : bytes := commit_image ex_pad 4096 F1 hist_st1 hist_st wex.
Definition G2 : bytes :=
  damaged_image ex_pad 4096 F1 hist_st1 hist_st wex (Meta.damage (meta_page 4096 hist_st) Meta.o_tx "255"%byte).

(* the write set of the second transaction with its contents, read off the new disk (sizes in whole pages) *)
Definition wgen : list (N * (N * ndata)) :=
  map (fun q => (q, match dget (d_disk hist_st) q with
                    | Some a => ((ap_over a + 1) * 4096, ap_body a)
                    | None => (0, Leaves []) end)) [7; 3; 2].
(* C2 and G2 in terms of it.  These are used by [rewrite]: the two sides are never compared by unfolding *)
Lemma C2_eq : C2 = commit_image ex_pad 4096 F1 hist_st1 hist_st wgen.
Proof. exact (commit_image_heads ex_pad 4096 F1 hist_st1 hist_st wex wgen eq_refl). Qed.
Lemma G2_eq : G2 = damaged_image ex_pad 4096 F1 hist_st1 hist_st wgen (Meta.damage (meta_page 4096 hist_st) Meta.o_tx "255"%byte).
Proof. exact (damaged_image_heads ex_pad 4096 F1 hist_st1 hist_st wex wgen _ eq_refl). Qed.

(* the hypotheses of the sections Commit and Fallback for  hist_st1 --tx2--> hist_st *)
Lemma hist_st1_inv : db_inv hist_st1.
Proof.
  refine (proj1 (run_tx_inv (init_db 4096) (fst tx1) (snd tx1) hist_st1 (init_db_inv 4096 eq_refl) _ hist_run1_ok _)).
  - repeat constructor; cbn; lia.
  - apply readableb_ok. reflexivity.
Qed.
Lemma phys1 : phys_ok 4096 hist_st1.
Proof. apply phys_okb_ok. reflexivity. Qed.
Lemma phys2 : phys_ok 4096 hist_st.
Proof. apply phys_okb_ok. reflexivity. Qed.
Lemma hist_fits1 : tree_fits 4096 hist_st1.
Proof. unfold tree_fits. apply fitsb_ok. reflexivity. Qed.
Lemma hist_cow : tx_cow hist_st1 hist_st wgen.
Proof. apply tx_cow_intro; [reflexivity | reflexivity | reflexivity | discriminate | reflexivity]. Qed.
Lemma hist_writes_fit : writes_fit 4096 hist_st1 wgen.
Proof. exact (writes_fit_new 4096 hist_st1 hist_st wgen hist_cow hist_fits). Qed.
Lemma F1_holds : holds ex_pad 4096 F1 hist_st1 /\ List.length F1 = N.to_nat (d_np hist_st1 * 4096).
Proof.
  apply (file_image_holds hist_st1 ex_pad 4096 _ hist_st1_okz eq_refl hist_fits1 phys1).
  apply MetaFacts.encode_length. discriminate.
Qed.
(* the damaged header page: byte [o_tx] of the header of transaction 2 is 2, not 255 *)
Lemma hdr_damaged : List.length (Meta.damage (meta_page 4096 hist_st) Meta.o_tx "255"%byte) = N.to_nat 4096 /\
  Meta.read_slot true (Meta.damage (meta_page 4096 hist_st) Meta.o_tx "255"%byte) = Meta.SlotInvalid.
Proof.
  apply (damage_invalid hist_st 4096 Meta.o_tx _ hist_st_okz phys2); [reflexivity | | reflexivity].
  assert (E : nth_error (meta_page 4096 hist_st) (N.to_nat Meta.o_tx) = Some "002"%byte) by reflexivity.
  rewrite E. discriminate.
Qed.

(* a theorem of Section Commit or Section Fallback at this history *)
Local Notation at_hist T :=
  (T ex_pad 4096 F1 hist_st1 hist_st wgen eq_refl hist_st1_okz hist_st_okz phys1 phys2 hist_cow hist_writes_fit
     (proj2 F1_holds) (proj1 F1_holds)).

(* the hypothesis [carried] of [commit_holds_new] holds here: unwritten heads of the new tree are old heads *)
Example hist_carried :
  forallb (fun p => match wr_get wex p with Some _ => true | None => memb p (Rof hist_st1) end) (Rof hist_st) = true.
Proof. vm_compute. reflexivity. Qed.

(* C2 holds both states, G2 the previous one *)
Lemma C2_holds_old : holds ex_pad 4096 C2 hist_st1.
Proof. rewrite C2_eq. exact (at_hist commit_holds_old). Qed.
Lemma C2_holds : holds ex_pad 4096 C2 hist_st.
Proof.
  rewrite C2_eq. exact (at_hist commit_holds_new (carried_heads hist_st1 hist_st wex wgen eq_refl hist_carried) hist_fits).
Qed.
Lemma G2_holds : holds ex_pad 4096 G2 hist_st1.
Proof. rewrite G2_eq. exact (at_hist fallback_holds _ (proj1 hdr_damaged)). Qed.

Example sizes : (blen F1, blen C2, blen G2, slot_of hist_st, Meta.significant true Meta.o_tx) = (28672, 36864, 36864, 0, true).
Proof.
  pose proof (commit_length ex_pad 4096 F1 hist_st1 hist_st wgen eq_refl hist_st_okz phys2 hist_cow hist_writes_fit
                (proj2 F1_holds)) as HC.
  pose proof (damaged_length ex_pad 4096 F1 hist_st1 hist_st wgen _ hist_st_okz HC (proj1 hdr_damaged)) as HG.
  rewrite <- C2_eq in HC. rewrite <- G2_eq in HG.
  unfold blen. rewrite (proj2 F1_holds), HC, HG, !N2Nat.id. reflexivity.
Qed.
(* undamaged: the current header (tx 2), its free ids and free-list run *)
Example C2_opens_current : Tree.open_db (Codec.reader_of C2) 4096 = Codec.Ok (opened_of 4096 hist_st).
Proof. rewrite C2_eq. exact (at_hist commit_open (flids_small _ _ (proj1 (db_inv_facts _ hist_st_inv)) phys2)). Qed.
(* damaged: the PREVIOUS header (tx 1) with the previous free ids [2;3] -- the very pages the lost transaction
   overwrote, free for the previous header -- and the previous free-list run [6] *)
Example G2_opens_previous : Tree.open_db (Codec.reader_of G2) 4096 = Codec.Ok (opened_of 4096 hist_st1).
Proof.
  rewrite G2_eq.
  exact (at_hist fallback_open _ (proj1 hdr_damaged) (flids_small _ _ (proj1 (db_inv_facts _ hist_st1_inv)) phys1)
           (proj2 hdr_damaged)).
Qed.
Example G2_previous_fields : (d_tx hist_st1, d_flids hist_st1, d_fl hist_st1, d_fln hist_st1, d_np hist_st1, d_np hist_st) = (1, [2; 3], 6, 1, 7, 9).
Proof. vm_compute. reflexivity. Qed.
(* the checker accepts the damaged file (as the previous database) and the undamaged one *)
Example G2_checked : Tree.inv_check (Codec.reader_of G2) 4096 = Codec.Ok tt /\ CheckM.check_m (Codec.reader_of G2) 4096 = Codec.Ok tt /\
  Tree.inv_check (Codec.reader_of C2) 4096 = Codec.Ok tt.
Proof.
  destruct (db_inv_facts _ hist_st1_inv) as (Hrec & _ & Hokd & _). destruct (db_inv_facts _ hist_st_inv) as (Hrec' & _ & Hokd' & _).
  rewrite G2_eq.
  destruct (at_hist fallback_inv_check _ (proj1 hdr_damaged) Hrec Hokd (inv_flids_NoDup _ hist_st1_inv) (proj2 hdr_damaged))
    as [A B].
  split; [exact A|]. split; [exact B|].
  refine (proj1 (inv_check_holds hist_st ex_pad 4096 C2 Hrec' Hokd' (inv_flids_NoDup _ hist_st_inv) phys2 C2_holds _)).
  exact (older_other_slot ex_pad 4096 C2 hist_st1 hist_st eq_refl eq_refl C2_holds_old).
Qed.
(* the previous contents read back: key a (deleted by the lost transaction) is there again *)
Example G2_reads_previous :
  match Tree.build_tree fuel0 (Codec.reader_of G2) 4096 (d_root hist_st1) with
  | Codec.Ok t => Cursor.get t ka = Some (Spec.IKv ka [x01]) /\ Cursor.scan t = Cursor.CVal [Spec.IKv ka [x01]; Spec.IBk kb]
  | _ => False end /\
  match Tree.build_tree fuel0 (Codec.reader_of C2) 4096 (d_root hist_st) with
  | Codec.Ok t => Cursor.get t ka = None /\ Cursor.scan t = Cursor.CVal [Spec.IBk kb]
  | _ => False end.
Proof.
  (* the cursor on each tree agrees with the reference on [abs_db] of the state the file holds *)
  split.
  - destruct (holds_reads_root hist_st1 ex_pad 4096 G2 hist_st1_okz eq_refl G2_holds) as (t & Ht & Hget & Hscan & _).
    rewrite Ht, Hget, Hscan. split; reflexivity.
  - destruct (holds_reads_root hist_st ex_pad 4096 C2 hist_st_okz eq_refl C2_holds) as (t & Ht & Hget & Hscan & _).
    rewrite Ht, Hget, Hscan. split; reflexivity.
Qed.
End FallbackExample.

Print Assumptions file_image_holds.
Print Assumptions commit_length.
Print Assumptions commit_holds_old.
Print Assumptions commit_holds_new.
Print Assumptions commit_keeps_old_header.
Print Assumptions open_holds.
Print Assumptions inv_check_holds.
Print Assumptions commit_open.
Print Assumptions fallback_holds.
Print Assumptions fallback_open.
Print Assumptions fallback_reads.
Print Assumptions fallback_inv_check.
Print Assumptions still_current_open.
Print Assumptions fallback_damage.
Print Assumptions damage_invalid.
Print Assumptions run_tx_fallback.
