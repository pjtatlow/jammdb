(* Parametricity of the engine in the pending list.  Every function of the write path touches the allocator state [txs] only through five primitives:
   [next_seq], [free_pages] (free_run), [tx_allocate], [upd_wr] and the reads [psz] / [wr].  Hence, for any
   transformation [A] of allocator states that commutes with the primitives on the states satisfying a predicate
   [J] kept by the primitives, every function [F] satisfies
        J s  ->  F (A s) is F s with A applied to the resulting state, and J holds of that state      ([simr])
   for all functions of the operations, rebalance and spill (section [Sim]).  The instance used
   for read transactions: [A := addp old] = "the pending batches [old] of OTHER (older) transactions are in front
   of the list", [J s] := every batch of [pending s] is filed under [txid s] (EngineRBegin.v). *)
From Coq Require Import List NArith Bool Arith Lia ZifyN ZifyNat ZifyBool.
From Coq.Strings Require Import Byte.
From Jamm Require Import Bytes Engine EngineR EngineMergeFacts EnginePathFacts.
Import ListNotations.
Local Open Scope list_scope. Local Open Scope nat_scope.

(* [simr m P r1 r2]: r1 is r2 with its value mapped by m; the value of r2 satisfies P *)
Definition simr {R : Type} (m : R -> R) (P : R -> Prop) (r1 r2 : res R) : Prop :=
  match r2 with
  | Ok y => r1 = Ok (m y) /\ P y
  | Panic e => r1 = Panic e
  | Err e => r1 = Err e
  end.

Lemma simr_bind : forall {R T} (m : R -> R) (P : R -> Prop) (m' : T -> T) (P' : T -> Prop)
  (r1 r2 : res R) (k1 k2 : R -> res T),
  simr m P r1 r2 -> (forall y, P y -> simr m' P' (k1 (m y)) (k2 y)) -> simr m' P' (bind r1 k1) (bind r2 k2).
Proof.
  intros R T m P m' P' r1 r2 k1 k2 H Hk. destruct r2 as [y|e|e]; cbn [simr] in H.
  - destruct H as [-> Hy]. cbn [bind]. now apply Hk.
  - subst r1. reflexivity.
  - subst r1. reflexivity.
Qed.

(* a pure computation in front *)
Lemma simr_bind_pure : forall {R T} (m' : T -> T) (P' : T -> Prop) (r : res R) (k1 k2 : R -> res T),
  (forall y, simr m' P' (k1 y) (k2 y)) -> simr m' P' (bind r k1) (bind r k2).
Proof. intros R T m' P' r k1 k2 Hk. destruct r as [y|e|e]; cbn [bind simr]; [apply Hk | reflexivity | reflexivity]. Qed.

Lemma simr_ok : forall {R} (m : R -> R) (P : R -> Prop) y, P y -> simr m P (Ok (m y)) (Ok y).
Proof. intros. cbn [simr]. auto. Qed.
Lemma simr_err : forall {R} (m : R -> R) (P : R -> Prop) e, simr m P (Err e) (Err e).
Proof. reflexivity. Qed.
Lemma simr_panic : forall {R} (m : R -> R) (P : R -> Prop) e, simr m P (Panic e) (Panic e).
Proof. reflexivity. Qed.

Lemma simr_fold_res : forall {R B} (m : R -> R) (P : R -> Prop) (f : R -> B -> res R) (l : list B),
  (forall a x, In x l -> P a -> simr m P (f (m a) x) (f a x)) ->
  forall a, P a -> simr m P (fold_res f l (m a)) (fold_res f l a).
Proof.
  intros R B m P f l. induction l as [|x l IH]; intros Hf a Ha; cbn [fold_res].
  - now apply simr_ok.
  - eapply simr_bind; [apply Hf; [now left | exact Ha]|]. intros y Hy. apply IH; [|exact Hy].
    intros a' x' Hx'. apply Hf. now right.
Qed.

(* the maps on the usual result shapes *)
Definition m2 {X} (A : txs -> txs) (y : X * txs) : X * txs := (fst y, A (snd y)).
Definition p2 {X} (J : txs -> Prop) (y : X * txs) : Prop := J (snd y).

Section Sim.
Variable A : txs -> txs.
Variable J : txs -> Prop.
Hypothesis A_psz : forall s, psz (A s) = psz s.
Hypothesis A_wr : forall s, wr (A s) = wr s.
Hypothesis A_seq : forall s, J s -> next_seq (A s) = (fst (next_seq s), A (snd (next_seq s))).
Hypothesis J_seq : forall s, J s -> J (snd (next_seq s)).
Hypothesis A_freep : forall s p n, J s -> free_pages (A s) p n = A (free_pages s p n).
Hypothesis J_freep : forall s p n, J s -> J (free_pages s p n).
Hypothesis A_alloc : forall s b, J s -> tx_allocate (A s) b = (fst (tx_allocate s b), A (snd (tx_allocate s b))).
Hypothesis J_alloc : forall s b, J s -> J (snd (tx_allocate s b)).
Hypothesis A_updwr : forall s w, J s -> upd_wr (A s) w = A (upd_wr s w).
Hypothesis J_updwr : forall s w, J s -> J (upd_wr s w).

Notation S2 := (simr (m2 A) (p2 J)).

Lemma ok2 : forall {X} (x : X) s, J s -> S2 (Ok (x, A s)) (Ok (x, s)).
Proof. intros X x s H. exact (simr_ok (m2 A) (p2 J) (x, s) H). Qed.

Lemma modify_sim : forall f d n o s, J s -> S2 (modify f d n o (A s)) (modify f d n o s).
Proof.
  induction f as [|f IH]; intros d n o s HJ; [reflexivity|]. cbn [modify].
  destruct n as [p npg og sq [l|es] ks]; [now apply ok2|].
  destruct (index_of (Branches es) (lop_key o)) as [i ex]. destruct (nthN es i) as [[k q]|]; [|reflexivity].
  destruct (find_kid q ks) as [kd|].
  - eapply simr_bind; [apply IH; exact HJ|]. intros [kd' s'] Hy. cbn [m2 fst snd]. apply ok2. exact Hy.
  - destruct (dget d q) as [a|]; [|reflexivity]. rewrite (A_seq s HJ).
    destruct (next_seq s) as [sq' s1] eqn:E. cbn [fst snd].
    assert (HJ1 : J s1) by (pose proof (J_seq s HJ) as H; rewrite E in H; exact H).
    eapply simr_bind; [apply IH; exact HJ1|]. intros [kd' s'] Hy. cbn [m2 fst snd]. apply ok2. exact Hy.
Qed.

Lemma ensure_root_sim : forall d b s, J s -> S2 (ensure_root d b (A s)) (ensure_root d b s).
Proof.
  intros d b s HJ. unfold ensure_root. destruct (b_rootn b) as [n|]; [now apply ok2|].
  destruct (dget d (b_root_page b)) as [a|]; [|reflexivity]. rewrite (A_seq s HJ).
  destruct (next_seq s) as [sq s1] eqn:E. cbn [fst snd]. apply ok2.
  pose proof (J_seq s HJ) as H. rewrite E in H. exact H.
Qed.

Lemma b_modify_sim : forall d b o s, J s -> S2 (b_modify d b o (A s)) (b_modify d b o s).
Proof.
  intros d b o s HJ. unfold b_modify.
  eapply simr_bind; [apply ensure_root_sim; exact HJ|]. intros [n s1] H1. cbn [m2 fst snd].
  eapply simr_bind; [apply modify_sim; exact H1|]. intros [n' s2] H2. cbn [m2 fst snd]. apply ok2. exact H2.
Qed.

Lemma b_put_sim : forall d b k v s, J s -> S2 (b_put d b k v (A s)) (b_put d b k v s).
Proof.
  intros d b k v s HJ. unfold b_put. apply simr_bind_pure. intros [e|].
  - destruct (is_kv e); [now apply b_modify_sim | reflexivity].
  - eapply simr_bind; [apply b_modify_sim; exact HJ|]. intros [b' s'] H. cbn [m2 fst snd]. apply ok2. exact H.
Qed.

Lemma b_delete_sim : forall d b k s, J s -> S2 (b_delete d b k (A s)) (b_delete d b k s).
Proof.
  intros d b k s HJ. unfold b_delete. apply simr_bind_pure. intros [e|]; [|reflexivity].
  destruct (is_kv e); [now apply b_modify_sim | reflexivity].
Qed.

Lemma b_get_or_create_sim : forall d b name s, J s -> S2 (b_get_or_create d b name (A s)) (b_get_or_create d b name s).
Proof.
  intros d b name s HJ. unfold b_get_or_create. destruct (sub_find name (b_subs b)); [now apply ok2|].
  apply simr_bind_pure. intros [[k v|k r nx]|]; [reflexivity | now apply ok2 |].
  unfold new_bucket. rewrite (A_seq s HJ). destruct (next_seq s) as [sq s1] eqn:E. cbn [fst snd].
  assert (HJ1 : J s1) by (pose proof (J_seq s HJ) as H; rewrite E in H; exact H).
  eapply simr_bind; [apply b_modify_sim; exact HJ1|]. intros [b' s2] H. cbn [m2 fst snd]. apply ok2. exact H.
Qed.

Lemma free_tree_sim : forall f d stack s, J s -> simr A J (free_tree f d stack (A s)) (free_tree f d stack s).
Proof.
  induction f as [|f IH]; intros d stack s HJ; [reflexivity|]. cbn [free_tree].
  destruct stack as [|p rest]; [now apply simr_ok|]. destruct (dget d p) as [a|]; [|reflexivity].
  rewrite (A_freep s p (ap_over a + 1)%N HJ). apply IH. now apply J_freep.
Qed.

Lemma b_delete_bucket_sim : forall d b name s, J s -> S2 (b_delete_bucket d b name (A s)) (b_delete_bucket d b name s).
Proof.
  intros d b name s HJ. unfold b_delete_bucket.
  eapply (simr_bind (m2 A) (p2 J)).
  { destruct (sub_find name (b_subs b)); [now apply ok2|]. apply simr_bind_pure.
    intros [[k v|k r nx]|]; [reflexivity | now apply ok2 | reflexivity]. }
  intros [b0 s0] H0. cbn [m2 fst snd]. unfold p2 in H0. cbn [snd] in H0.
  destruct (take_sub name (b_subs b0)) as [[sb rest]|]; [|reflexivity].
  eapply (simr_bind A J).
  { destruct (b_root_page sb =? 0)%N; [now apply simr_ok | now apply free_tree_sim]. }
  intros s1 H1. apply simr_bind_pure. intros [e|]; [|reflexivity].
  destruct (is_kv e); [reflexivity | now apply b_modify_sim].
Qed.

Lemma at_path_sim : forall (g : bucket -> txs -> res (bucket * txs)),
  (forall b s, J s -> S2 (g b (A s)) (g b s)) ->
  forall fuel d b path s, J s -> S2 (at_path fuel d b path g (A s)) (at_path fuel d b path g s).
Proof.
  intros g Hg. induction fuel as [|fu IH]; intros d b path s HJ; [reflexivity|]. cbn [at_path].
  destruct path as [|nm rest]; [now apply Hg|].
  eapply simr_bind; [apply b_get_or_create_sim; exact HJ|]. intros [b1 s1] H1. cbn [m2 fst snd].
  destruct (sub_find nm (b_subs b1)) as [sb|]; [|reflexivity].
  eapply simr_bind; [apply IH; exact H1|]. intros [sb' s2] H2. cbn [m2 fst snd]. apply ok2. exact H2.
Qed.

Lemma soft_sim : forall {X} (x : X) s r1 r2, J s -> S2 r1 r2 -> S2 (soft (x, A s) r1) (soft (x, s) r2).
Proof.
  intros X x s r1 r2 HJ H. destruct r2 as [y|e|e]; cbn [simr] in H.
  - destruct H as [-> Hy]. cbn [soft]. split; [reflexivity | exact Hy].
  - subst r1. reflexivity.
  - subst r1. cbn [soft]. now apply ok2.
Qed.

Lemma tx_step_sim : forall d rb s o, J s -> S2 (tx_step d (rb, A s) o) (tx_step d (rb, s) o).
Proof.
  intros d rb s o HJ. unfold tx_step. destruct o as [p k v|p k|p nm|p]; apply soft_sim; try exact HJ; apply at_path_sim; try exact HJ.
  - intros b s0 H0. apply soft_sim; [exact H0 | now apply b_put_sim].
  - intros b s0 H0. apply soft_sim; [exact H0 | now apply b_delete_sim].
  - intros b s0 H0. apply soft_sim; [exact H0 | now apply b_delete_bucket_sim].
  - intros b s0 H0. now apply ok2.
Qed.

Lemma tx_fold_sim : forall st ops rb s, J s -> S2 (tx_fold st ops (rb, A s)) (tx_fold st ops (rb, s)).
Proof.
  intros st ops rb s HJ. unfold tx_fold.
  apply (simr_fold_res (m2 A) (p2 J) (tx_step (d_disk st)) ops) with (a := (rb, s)); [|exact HJ].
  intros [rb' s'] o _ H. cbn [m2 fst snd]. now apply tx_step_sim.
Qed.

Lemma needs_merging_A : forall s k, needs_merging (A s) k = needs_merging s k.
Proof. intros s k. unfold needs_merging. now rewrite A_psz. Qed.

Lemma free_node_page_A : forall s k, J s -> free_node_page (A s) k = A (free_node_page s k) /\ J (free_node_page s k).
Proof.
  intros s k HJ. unfold free_node_page. destruct (n_page k =? 0)%N; [auto|]. split; [now apply A_freep | now apply J_freep].
Qed.

Definition m3 (y : node * txs * bool) : node * txs * bool := (fst (fst y), A (snd (fst y)), snd y).
Definition p3 (y : node * txs * bool) : Prop := J (snd (fst y)).

Lemma sib_of_sim : forall d ks q s, J s -> simr m3 p3 (sib_of d ks q (A s)) (sib_of d ks q s).
Proof.
  intros d ks q s HJ. unfold sib_of. destruct (find_kid q ks) as [sb|]; [exact (simr_ok m3 p3 (sb, s, false) HJ)|].
  destruct (dget d q) as [a|]; [|reflexivity]. rewrite (A_seq s HJ).
  destruct (next_seq s) as [sq' s1] eqn:E. cbn [fst snd].
  assert (HJ1 : J s1) by (pose proof (J_seq s HJ) as H; rewrite E in H; exact H).
  exact (simr_ok m3 p3 (node_of_page q a sq', s1, true) HJ1).
Qed.

Lemma try_merge_sim : forall d par k s, J s -> S2 (try_merge d par k (A s)) (try_merge d par k s).
Proof.
  intros d par k s HJ. rewrite !try_merge_unfold, needs_merging_A.
  destruct (negb (needs_merging s k)); [now apply ok2|].
  destruct (n_data par) as [l|es]; [reflexivity|].
  destruct ((llen es =? 1)%N && (0 <? dlen (n_data k))%N); [now apply ok2|].
  destruct (n_orig k) as [ok|]; [|reflexivity].
  destruct (bsearch (map fst es) ok) as [[|] idx]; [|reflexivity].
  destruct (0 <? dlen (n_data k))%N.
  - destruct (sib_entry es idx) as [[kq q]|]; [|reflexivity].
    eapply (simr_bind m3 p3); [now apply sib_of_sim|].
    intros [[sib s1] isnew] H1. unfold m3, p3 in *. cbn [fst snd] in *.
    apply simr_bind_pure. intros md. destruct (free_node_page_A s1 k H1) as [E HJ2]. rewrite E. now apply ok2.
  - destruct (free_node_page_A s k HJ) as [E HJ2]. rewrite E. now apply ok2.
Qed.

Lemma rebalance_kids_sim : forall f d n s, J s -> S2 (rebalance_kids f d n (A s)) (rebalance_kids f d n s).
Proof.
  induction f as [|f IH]; intros d n s HJ; [reflexivity|]. rewrite !rebalance_kids_S.
  apply (simr_fold_res (m2 A) (p2 J) (rk_body f d)) with (a := (n, s)); [|exact HJ].
  intros [n0 s0] sq _ H0. cbn [m2 fst snd rk_body]. unfold p2 in H0. cbn [snd] in H0.
  destruct (find (fun k => (n_seq k =? sq)%N) (n_kids n0)) as [k|]; [|now apply ok2].
  eapply (simr_bind (m2 A) (p2 J)).
  { destruct (is_leaf (n_data k)); [now apply ok2 | now apply IH]. }
  intros [k1 s1] H1. cbn [m2 fst snd]. now apply try_merge_sim.
Qed.

Lemma merge_nodes_sim : forall d b s, J s -> S2 (merge_nodes d b (A s)) (merge_nodes d b s).
Proof.
  intros d b s HJ. unfold merge_nodes.
  eapply simr_bind; [apply ensure_root_sim; exact HJ|]. intros [root s0] H0. cbn [m2 fst snd]. unfold p2 in H0. cbn [snd] in H0.
  eapply (simr_bind (m2 A) (p2 J)).
  { destruct (is_leaf (n_data root)); [now apply ok2 | now apply rebalance_kids_sim]. }
  intros [root1 s1] H1. cbn [m2 fst snd]. unfold p2 in H1. cbn [snd] in H1. rewrite needs_merging_A.
  destruct (needs_merging s1 root1 && negb (is_leaf (n_data root1)) && (dlen (n_data root1) =? 1)%N).
  - destruct (n_data root1) as [l|[|[k q] es]]; try reflexivity.
    destruct (free_node_page_A s1 root1 H1) as [E HJ2]. rewrite E. now apply ok2.
  - destruct (negb (is_leaf (n_data root1)) && (dlen (n_data root1) =? 0)%N); now apply ok2.
Qed.

Lemma rebalance_sim : forall f d b s, J s -> S2 (rebalance f d b (A s)) (rebalance f d b s).
Proof.
  induction f as [|f IH]; intros d b s HJ; [reflexivity|]. rewrite !rebalance_S.
  destruct (negb (is_dirty fuel0 b)); [now apply ok2|].
  eapply (simr_bind (m2 A) (p2 J)).
  { apply (simr_fold_res (m2 A) (p2 J) (reb_body f d)) with (a := (@nil (bytes * bucket), s)); [|exact HJ].
    intros [l s0] x _ H0. cbn [m2 fst snd reb_body].
    eapply simr_bind; [apply IH; exact H0|]. intros [b' s'] H'. cbn [m2 fst snd]. now apply ok2. }
  intros [subs' s1] H1. cbn [m2 fst snd]. now apply merge_nodes_sim.
Qed.

Lemma split_A : forall s dd, split (A s) dd = split s dd.
Proof. intros s dd. unfold split. now rewrite A_psz. Qed.

Lemma write_node_A : forall s n, J s ->
  write_node (A s) n = (fst (write_node s n), A (snd (write_node s n))) /\ J (snd (write_node s n)).
Proof.
  intros s n HJ. unfold write_node. destruct (free_node_page_A s n HJ) as [E HJ1]. rewrite E.
  rewrite (A_alloc _ (node_size n) HJ1). pose proof (J_alloc _ (node_size n) HJ1) as HJ2.
  destruct (tx_allocate (free_node_page s n) (node_size n)) as [[p npg] s2]. cbn [fst snd] in *.
  rewrite A_wr. rewrite (A_updwr _ _ HJ2). split; [reflexivity | now apply J_updwr].
Qed.

Lemma spill_node_sim : forall f n s, J s -> S2 (spill_node f n (A s)) (spill_node f n s).
Proof.
  induction f as [|f IH]; intros n s HJ; [reflexivity|]. cbn [spill_node].
  apply simr_bind_pure. intros ks.
  eapply (simr_bind (m2 A) (p2 J)).
  { apply (simr_fold_res (m2 A) (p2 J)) with (a := (n_data n, s)); [|exact HJ].
    intros [dd s0] k _ H0. cbn [m2 fst snd]. unfold p2 in H0. cbn [snd] in H0.
    eapply simr_bind; [apply IH; exact H0|]. intros [[[ko kb] sibs] s'] H'. cbn [m2 fst snd].
    destruct dd as [l|es]; [reflexivity|]. apply simr_bind_pure. intros es1. apply simr_bind_pure. intros es2.
    now apply ok2. }
  intros [d1 s1] H1. cbn [m2 fst snd]. unfold p2 in H1. cbn [snd] in H1. rewrite split_A.
  destruct (split s1 d1) as [d0 rest].
  destruct (write_node_A s1 (set_kids (set_data n d0) []) H1) as [E1 HJ2]. rewrite E1.
  destruct (write_node s1 (set_kids (set_data n d0) [])) as [n1 s2]. cbn [fst snd] in *.
  assert (H23 : (match rest with [] => (n1, A s2) | _ :: _ => write_node (A s2) n1 end)
                = (fst (match rest with [] => (n1, s2) | _ :: _ => write_node s2 n1 end),
                   A (snd (match rest with [] => (n1, s2) | _ :: _ => write_node s2 n1 end))) /\
                J (snd (match rest with [] => (n1, s2) | _ :: _ => write_node s2 n1 end))).
  { destruct rest; [cbn [fst snd]; auto | now apply write_node_A]. }
  destruct H23 as [E2 HJ3]. rewrite E2.
  destruct (match rest with [] => (n1, s2) | _ :: _ => write_node s2 n1 end) as [n2 s3]. cbn [fst snd] in *.
  eapply (simr_bind (m2 A) (p2 J)).
  { apply (simr_fold_res (m2 A) (p2 J)) with (a := (@nil (bytes * N), s3)); [|exact HJ3].
    intros [l s0] dd _ H0. cbn [m2 fst snd]. unfold p2 in H0. cbn [snd] in H0.
    apply simr_bind_pure. intros fk.
    destruct (write_node_A s0 (Node 0 0 (Some fk) 0 dd []) H0) as [E HJ']. rewrite E.
    destruct (write_node s0 (Node 0 0 (Some fk) 0 dd [])) as [sn s']. cbn [fst snd] in *. now apply ok2. }
  intros [sibs s4] H4. cbn [m2 fst snd]. apply simr_bind_pure. intros fk0. now apply ok2.
Qed.

Lemma spill_root_sim : forall f n s, J s -> simr (m2 A) (p2 J) (spill_root f n (A s)) (spill_root f n s).
Proof.
  induction f as [|f IH]; intros n s HJ; [reflexivity|]. cbn [spill_root].
  eapply (simr_bind (m2 A) (p2 J)).
  { destruct (n_data n) as [[|e l]|es]; try (now apply spill_node_sim).
    destruct (write_node_A s (set_kids n []) HJ) as [E HJ']. rewrite E.
    destruct (write_node s (set_kids n [])) as [n1 s']. cbn [fst snd] in *. now apply ok2. }
  intros [[[og [fk p]] sibs] s1] H1. cbn [m2 fst snd]. unfold p2 in H1. cbn [snd] in H1.
  destruct sibs; [now apply ok2 | now apply IH].
Qed.

Definition m4 (y : N * N * txs * list bytes) : N * N * txs * list bytes :=
  (fst (fst (fst y)), snd (fst (fst y)), A (snd (fst y)), snd y).
Definition p4 (y : N * N * txs * list bytes) : Prop := J (snd (fst y)).
Definition m4a (y : list (bytes * N * N) * txs * list bytes * list (bytes * bucket)) :=
  (fst (fst (fst y)), A (snd (fst (fst y))), snd (fst y), snd y).
Definition p4a (y : list (bytes * N * N) * txs * list bytes * list (bytes * bucket)) : Prop := J (snd (fst (fst y))).

Lemma spill_bucket_sim : forall f d b s ord, J s -> simr m4 p4 (spill_bucket f d b (A s) ord) (spill_bucket f d b s ord).
Proof.
  induction f as [|f IH]; intros d b s ord HJ; [reflexivity|]. cbn [spill_bucket].
  destruct (negb (is_dirty fuel0 b)); [exact (simr_ok m4 p4 (b_root_page b, b_next b, s, ord) HJ)|].
  eapply (simr_bind m4a p4a).
  { apply (simr_fold_res m4a p4a) with (a := (@nil (bytes * N * N), s, ord, b_subs b)); [|exact HJ].
    intros [[[l s0] o] remaining] x _ H0. unfold m4a, p4a in *. cbn [fst snd] in *.
    destruct o as [|nm o']; [reflexivity|]. destruct (take_sub nm remaining) as [[sb rem']|]; [|reflexivity].
    eapply simr_bind; [apply IH; exact H0|]. intros [[[r nx] s'] o''] H'. unfold m4, p4 in *. cbn [fst snd] in *.
    exact (simr_ok m4a p4a (l ++ [(nm, r, nx)], s', o'', rem') H'). }
  intros [[[metas s1] ord1] rem] H1. unfold m4a, p4a in H1 |- *. cbn [fst snd] in *.
  eapply (simr_bind (m2 A) (p2 J)).
  { apply (simr_fold_res (m2 A) (p2 J)) with (a := (b, s1)); [|exact H1].
    intros [bb s0] [[nm r] nx] _ H0. cbn [m2 fst snd]. unfold p2 in H0. cbn [snd] in H0.
    apply simr_bind_pure. intros [e|].
    - destruct (is_kv e); [reflexivity | now apply b_modify_sim].
    - eapply simr_bind; [apply b_modify_sim; exact H0|]. intros [b' s'] H'. cbn [m2 fst snd]. now apply ok2. }
  intros [b1 s2] H2. cbn [m2 fst snd]. unfold p2 in H2. cbn [snd] in H2.
  destruct (b_rootn b1) as [rn|]; [|exact (simr_ok m4 p4 (b_root_page b1, b_next b1, s2, ord1) H2)].
  eapply simr_bind; [apply spill_root_sim; exact H2|]. intros [p s3] H3. cbn [m2 fst snd].
  exact (simr_ok m4 p4 (p, b_next b1, s3, ord1) H3).
Qed.

End Sim.

Print Assumptions spill_bucket_sim.
Print Assumptions tx_fold_sim.
Print Assumptions rebalance_sim.
