(* Examples for EngineReaders: a history on [init_db 4096] with a reader held across two page-reusing transactions
   (library bound, k = 0), and the counterexample for the bound "oldest reader id + 2". *)
From Coq Require Import List NArith Bool Arith Lia ZifyN ZifyNat ZifyBool.
From Coq.Strings Require Import Byte.
From Jamm Require Spec.
From Jamm Require Import Bytes BytesFacts Tree Cursor SearchFacts Engine EngineAbs EngineFacts EngineMergeFacts.
From Jamm Require Import EngineModifyFacts EngineSpillFacts EnginePathFacts EngineBridgeFacts EngineRebalanceFacts.
From Jamm Require FreelistFacts EngineAllocFacts EngineSpillWfFacts.
From Jamm Require Import EngineTxInvFacts EngineSpillBucketFacts EngineRefines.
Import ListNotations.
Import Coq.Strings.String.StringSyntax. Delimit Scope string_scope with string.
Local Open Scope list_scope. Local Open Scope nat_scope.
Set Warnings "-abstract-large-number".

From Jamm Require Import EngineOwnDefs EngineOwnSpill EngineAllocInv.
From Jamm Require Import EngineR EngineRBegin EngineReadersInv EngineReaders EngineReadersExact.
From Jamm Require EngineNoLeak EngineCow.

Module ExReaders.
Import Ex3.
Notation tx1 := ExHistory.tx1. Notation tx2 := ExHistory.tx2.

Definition T (t : list op * list bytes) : hstep := Tx (fst t) (snd t).
Definition tx3 : list op * list bytes := ([Put [] ka [x05]; Put [kb] kd [x06]], [kb]).
Definition tx4 : list op * list bytes := ([Put [] kc [x07]; Del [kb] kd], [kb]).
Definition tx5 : list op * list bytes := ([Put [] kd [x08]], []).
Definition H0 : hstate := (init_db 4096, []).

(* reader A begins after tx1 and keeps the batches 1 and 2 pending over tx2, tx3; reader B begins after tx3; A ends;
   tx4 begins with bound 3 (= B's id): the batches 1 and 2 are released and tx4 REUSES the pages 2, 3, 4; tx5 reuses
   the pages 5, 6.  B is held across both *)
Definition histB : list hstep := [T tx1; Begin_reader; T tx2; T tx3; Begin_reader; End_reader 0; T tx4; T tx5].

Definition histB_run := Eval vm_compute in run_hist H0 histB.
Definition histB_end : hstate := match histB_run with Ok h => h | _ => H0 end.
Example histB_run_ok : run_hist_k 0%N H0 histB = Ok histB_end.
Proof. vm_compute. reflexivity. Qed.

Example histB_ok : EngineReaders.hist_ok 0%N H0 histB.
Proof. apply hist_okb_ok. vm_compute. reflexivity. Qed.

Definition curB : db := fst histB_end.
Definition rB : reader := match snd histB_end with r :: _ => r | [] => init_db 4096 end.

Example histB_readers : snd histB_end = [rB] /\ r_id rB = 3%N.
Proof. vm_compute. split; reflexivity. Qed.

(* through the theorem: B's pages are unchanged on the final disk, B reads its frozen contents, the final state
   satisfies the invariant and means what the specification says *)
Example histB_isolation :
  (forall p, In p (snap rB) -> dget (d_disk curB) p = dget (d_disk rB) p) /\
  abs_bucket 16 (d_disk curB) (d_root rB) (d_next rB) = abs_db rB /\
  db_okr curB /\ abs_db curB = sem_hist histB (SBucket 0 0 []).
Proof.
  destruct (snapshot_isolation_init 0%N 4096%N histB histB_end (N.le_0_l 1) eq_refl histB_ok histB_run_ok) as (A & B & C).
  destruct (A rB) as [A1 A2]; [rewrite (proj1 histB_readers); now left|]. auto.
Qed.

(* nothing is leaked along the way; the free-list record of the final state lists exactly its non-live pages *)
Example histB_exact :
  EngineNoLeak.db_exact_rec curB /\
  forall x, In x (d_flids curB) <-> ((2 <= x < d_np curB)%N /\ ~ In x (live_of curB (Rof curB))).
Proof. exact (hist_exact_init 0%N 4096%N histB histB_end (N.le_0_l 1) eq_refl histB_ok histB_run_ok). Qed.
Example histB_flids : d_flids curB = [3; 4; 8; 9; 10; 11; 12; 13]%N.
Proof. vm_compute. reflexivity. Qed.

(* the pages concerned.  B's snapshot is [12; 11; 7] + free-list page 13; when B begins
   the batches 1 = [3; 2], 2 = [4; 5; 6], 3 = [8; 9; 10] are pending; tx4 (bound 3) is written to the released pages
   3, 2 and 4 (its free-list page), tx5 to 5 and 6; the final tree is [5; 2; 7] + free-list page 6; the pages 11, 12,
   13 of B's snapshot, handed back by tx4, are pending under 4 -- not reusable while B is open *)
Example histB_pages :
  snap rB = [12; 11; 7; 13]%N /\
  d_pending rB = [(1, [3; 2]); (2, [4; 5; 6]); (3, [8; 9; 10])]%N /\
  live_of curB (Rof curB) = [5; 2; 7; 6]%N /\ d_free curB = [] /\
  d_pending curB = [(3, [8; 9; 10]); (4, [11; 12; 13]); (5, [3; 4])]%N /\ d_np curB = 14%N.
Proof. vm_compute. repeat split; reflexivity. Qed.

Example histB_frozen_eval :
  abs_bucket 16 (d_disk curB) (d_root rB) (d_next rB) = abs_db rB /\ abs_db curB <> abs_db rB.
Proof. split; [vm_compute; reflexivity | vm_compute; discriminate]. Qed.

(* the state after tx4 (first reusing transaction, B open) *)
Definition histB4_end : hstate :=
  match run_hist H0 [T tx1; Begin_reader; T tx2; T tx3; Begin_reader; End_reader 0; T tx4] with Ok h => h | _ => H0 end.
Example histB4_pages :
  live_of (fst histB4_end) (Rof (fst histB4_end)) = [3; 2; 7; 4]%N /\ d_free (fst histB4_end) = [5; 6]%N /\
  d_pending (fst histB4_end) = [(3, [8; 9; 10]); (4, [11; 12; 13])]%N.
Proof. vm_compute. repeat split; reflexivity. Qed.

(* Counterexample: the bound "oldest reader id + 2" (k = 2, i.e. [release] with <= instead of < on reader id + 1).
   The reader begins after tx2 (id 2, snapshot [7; 3; 2] + free-list page 8).  tx3 hands back 3, 7, 8 under id 3.
   tx4 begins with bound min (2 + 2) 5 = 4: batch 3 is released and tx4 is written to 7, 3, 2, 8 -- the reader's pages.
   Every step is admissible and every state readable ([hist_ok]); the reader no longer reads its contents. *)
Definition histC : list hstep := [T tx1; T tx2; Begin_reader; T tx3; T tx4].
Definition histC_run := Eval vm_compute in run_hist_k 2 H0 histC.
Definition histC_end : hstate := match histC_run with Ok h => h | _ => H0 end.
Definition rC : reader := match snd histC_end with r :: _ => r | [] => init_db 4096 end.

Example histC_ok : EngineReaders.hist_ok 2%N H0 histC.
Proof. apply hist_okb_ok. vm_compute. reflexivity. Qed.

Example k2_breaks_reader :
  run_hist_k 2 H0 histC = Ok histC_end /\ snd histC_end = [rC] /\ r_id rC = 2%N /\
  snap rC = [7; 3; 2; 8]%N /\ live_of (fst histC_end) (Rof (fst histC_end)) = [7; 3; 2; 8]%N /\
  dget (d_disk (fst histC_end)) 7%N <> dget (d_disk rC) 7%N /\
  abs_bucket 16 (d_disk (fst histC_end)) (d_root rC) (d_next rC) <> abs_db rC.
Proof.
  split; [vm_compute; reflexivity|]. split; [vm_compute; reflexivity|]. split; [vm_compute; reflexivity|].
  split; [vm_compute; reflexivity|]. split; [vm_compute; reflexivity|].
  split; vm_compute; discriminate.
Qed.

(* hence [snapshot_isolation] is false for k = 2 *)
Example snapshot_isolation_false_k2 :
  ~ (forall es h h', HInv h -> EngineReaders.hist_ok 2%N h es -> run_hist_k 2 h es = Ok h' ->
       forall r, In r (snd h') -> abs_bucket 16 (d_disk (fst h')) (d_root r) (d_next r) = abs_db r).
Proof.
  intros H. destruct k2_breaks_reader as (Hrun & Hrs & _ & _ & _ & _ & Hne). apply Hne.
  apply (H histC H0 histC_end (HInv_init 4096%N eq_refl) histC_ok Hrun). rewrite Hrs. now left.
Qed.

(* the same history with the tight bound k = 1 and with the library's k = 0: the reader is intact *)
Example histC_k1_intact : forall h', run_hist_k 1 H0 histC = Ok h' ->
  forall r, In r (snd h') -> abs_bucket 16 (d_disk (fst h')) (d_root r) (d_next r) = abs_db r.
Proof.
  intros h' Hrun r Hr.
  assert (Hok : EngineReaders.hist_ok 1%N H0 histC) by (apply hist_okb_ok; vm_compute; reflexivity).
  destruct (snapshot_isolation_init 1%N 4096%N histC h' ltac:(lia) eq_refl Hok Hrun) as (A & _).
  exact (proj2 (A r Hr)).
Qed.
(* The strengthened invariant is needed: [db_okz] alone (which suffices without readers) is not kept by [run_tx_r].
   [st1m]: the state after tx1 with page 3 listed in two pending batches (0 and 1): [db_okz] holds, [pend_inv] does
   not.  A writer with bound 1 releases batch 0 only; page 3 is allocated and written while it is still pending
   under 1: in the new state page 3 is live AND pending. *)
Definition st1 : db := EngineCow.ExCow.hist_st1.
Definition st1m : db :=
  {| d_disk := d_disk st1; d_root := d_root st1; d_next := d_next st1; d_np := d_np st1; d_fl := d_fl st1; d_fln := d_fln st1;
     d_flids := d_flids st1; d_tx := d_tx st1; d_free := d_free st1; d_pending := [(0, [3]); (1, [3; 2])]%N; d_psz := d_psz st1 |}.
Definition st1m_run := Eval vm_compute in run_tx_r st1m 1 (fst ExHistory.tx2) (snd ExHistory.tx2).
Definition st1m' : db := match st1m_run with Ok st => st | _ => st1m end.

Example pend_inv_needed :
  db_okz st1m /\ ~ pend_inv st1m /\ Forall (op_ok (d_disk st1m)) (fst ExHistory.tx2) /\
  run_tx_r st1m 1 (fst ExHistory.tx2) (snd ExHistory.tx2) = Ok st1m' /\ readable st1m' /\
  In 3%N (live_of st1m' (Rof st1m')) /\ In 3%N (pend_all (d_pending st1m')) /\ ~ db_okz st1m'.
Proof.
  assert (H3l : In 3%N (live_of st1m' (Rof st1m'))) by (vm_compute; tauto).
  assert (H3p : In 3%N (pend_all (d_pending st1m'))) by (vm_compute; tauto).
  split. { split; [|vm_compute; reflexivity]. apply db_ok'b_ok; [|vm_compute; reflexivity].
           exact (proj1 (proj1 EngineCow.ExCow.hist_st1_okz)). }
  split. { intros [Hnd _]. vm_compute in Hnd. inversion Hnd as [|x l Hx _]; subst. apply Hx. now left. }
  split; [repeat constructor; cbn; lia|]. split; [vm_compute; reflexivity|].
  split; [apply readableb_ok; vm_compute; reflexivity|]. split; [exact H3l|]. split; [exact H3p|].
  intros Hok. exact (proj2 (proj2 (ok_live _ (db_ok'_facts _ (proj1 Hok)) 3%N H3l)) H3p).
Qed.
End ExReaders.

Print Assumptions ExReaders.histB_isolation.
Print Assumptions ExReaders.histB_exact.
Print Assumptions ExReaders.k2_breaks_reader.
Print Assumptions ExReaders.snapshot_isolation_false_k2.
Print Assumptions ExReaders.histC_k1_intact.
Print Assumptions ExReaders.pend_inv_needed.
