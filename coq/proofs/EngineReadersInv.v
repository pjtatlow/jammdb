(* One transaction of a writer that respects open readers ([run_tx_r]).
   Invariant of committed states with readers: [db_okr st] := [db_okz st] (EngineAllocInv) and [pend_inv st]:
   no page is listed twice in the pending batches, no pending page is free.  (Without readers the second part is
   not needed: [begin_w] releases every batch.  With readers a batch may stay pending over several transactions
   while older batches are released and their pages handed out again.)
   Method: [EngineRBegin.run_tx_r_decomp] runs the reader-less transaction on [hat st b] next to the transaction
   with readers; the invariants of the overlay ([OwnI], [SReady], ...) established by the layers EngineOwn* for the
   reader-less run hold verbatim for the run with readers (they mention the allocator state only through
   [freed_in_tx], which ignores the batches of older transactions); EngineOwnWr / EngineOwnSpill ([commit_states]) are generic
   in the pending list and in the protected set, taken here as [heldr st b] = every page below the high-water mark
   that is not free after the bounded release -- the live pages AND the pages of the batches that stay pending. *)
From Coq Require Import List NArith Bool Arith Lia ZifyN ZifyNat ZifyBool.
From Coq.Strings Require Import Byte.
From Jamm Require Spec.
From Jamm Require Import Bytes BytesFacts Tree Cursor SearchFacts Engine EngineAbs EngineFacts EngineMergeFacts.
From Jamm Require Import EngineModifyFacts EngineSpillFacts EnginePathFacts EngineBridgeFacts EngineRebalanceFacts.
From Jamm Require FreelistFacts EngineAllocFacts EngineSpillWfFacts.
From Jamm Require Import EngineTxInvFacts EngineSpillBucketFacts EngineRefines.
Import ListNotations.
Import Coq.Strings.String.StringSyntax. Delimit Scope string_scope with string.
Local Open Scope list_scope. Local Open Scope nat_scope.
Set Warnings "-abstract-large-number".

From Jamm Require Import EngineOwnDefs EngineOwnWr EngineOwnOps EngineOwnReb EngineOwnSpill EngineOwnLnk EngineAllocInv.
From Jamm Require Import EngineNoLeakDefs EngineNoLeakCov EngineNoLeak.
From Jamm Require Import EngineCow EngineR EngineRSim EngineRBegin.

(* no page is listed twice in the pending batches; no pending page is free *)
Definition pend_inv (st : db) : Prop :=
  NoDup (pend_all (d_pending st)) /\ (forall x, In x (pend_all (d_pending st)) -> ~ In x (d_free st)).

Definition db_okr (st : db) : Prop := db_okz st /\ pend_inv st.

Fixpoint pend_invb_aux (l : list N) (fr : list N) : bool :=
  match l with [] => true | x :: l' => negb (memb x l') && negb (memb x fr) && pend_invb_aux l' fr end.
Definition pend_invb (st : db) : bool := pend_invb_aux (pend_all (d_pending st)) (d_free st).
Lemma pend_invb_ok : forall st, pend_invb st = true -> pend_inv st.
Proof.
  intros st. unfold pend_invb, pend_inv. generalize (pend_all (d_pending st)) as l. generalize (d_free st) as fr.
  intros fr. induction l as [|x l IH]; intros H; [split; [constructor | intros x []]|].
  cbn [pend_invb_aux] in H. apply andb_true_iff in H. destruct H as [H H3]. apply andb_true_iff in H. destruct H as [H1 H2].
  destruct (IH H3) as [A B]. apply negb_true_iff in H1, H2. split.
  - constructor; [now apply memb_false | exact A].
  - intros y [->|Hy]; [now apply memb_false | now apply B].
Qed.

Lemma init_db_okr : forall P, (0 < P)%N -> db_okr (init_db P).
Proof. intros P HP. split; [now apply init_db_okz|]. split; [constructor | intros x []]. Qed.

(* the protected set of a writer that begins with bound b: every page below the high-water mark that is not free
   after the bounded release (the live pages, the pages of the batches that stay pending, leaked pages, 0, 1) *)
Definition heldr (st : db) (b : N) : list N :=
  filter (fun x => negb (memb x (rfree st b))) (nrun 0 (d_np st)).

Lemma In_heldr : forall st b x, In x (heldr st b) <-> (x < d_np st)%N /\ ~ In x (rfree st b).
Proof.
  intros st b x. unfold heldr. rewrite filter_In, In_nrun, negb_true_iff. split.
  - intros [A B]. split; [lia|]. now apply memb_false.
  - intros [A B]. split; [lia|]. destruct (memb x (rfree st b)) eqn:E; [|reflexivity].
    exfalso. apply B. now apply memb_In.
Qed.

Lemma not_heldr : forall st b x, ~ In x (heldr st b) -> In x (rfree st b) \/ (d_np st <= x)%N.
Proof.
  intros st b x H. destruct (N.lt_ge_cases x (d_np st)) as [Hlt|Hge]; [|now right]. left.
  destruct (in_dec N.eq_dec x (rfree st b)) as [Hi|Hn]; [exact Hi|]. exfalso. apply H. apply In_heldr. auto.
Qed.

(* what the bounded release frees was free or pending *)
Lemma rfree_src : forall st b x, In x (rfree st b) -> In x (d_free st) \/ In x (pend_all (d_pending st)).
Proof.
  intros st b x Hx. destruct (kept_suffix st b) as (rel & E & _ & Hin & _). apply Hin in Hx.
  destruct Hx as [Hx|Hx]; [now left | right]. rewrite E, PLFacts.pend_all_app. apply in_or_app. now left.
Qed.

Lemma kept_sub : forall st b x, In x (pend_all (kept st b)) -> In x (pend_all (d_pending st)).
Proof.
  intros st b x Hx. destruct (kept_suffix st b) as (rel & E & _). rewrite E, PLFacts.pend_all_app. apply in_or_app. now right.
Qed.

(* with [pend_inv]: the pages that stay pending are not free after the release *)
Lemma kept_not_rfree : forall st b x, pend_inv st -> In x (pend_all (kept st b)) -> ~ In x (rfree st b).
Proof.
  intros st b x [Hnd Hnf] Hx Hf. destruct (kept_suffix st b) as (rel & E & _ & Hin & _). apply Hin in Hf.
  rewrite E, PLFacts.pend_all_app in Hnd, Hnf. destruct Hf as [Hf|Hf].
  - apply (Hnf x); [apply in_or_app; now right | exact Hf].
  - apply ListFacts.NoDup_app_iff in Hnd. destruct Hnd as (_ & _ & Hd). exact (Hd x Hf Hx).
Qed.

Lemma hat_okz : forall st b, db_okz st -> db_okz (hat st b).
Proof.
  intros st b [(Hs & HA & Hnd & Hpl) Hz]. split; [|exact Hz]. split; [exact Hs|]. split; [|split; [exact Hnd | constructor]].
  destruct HA as (Hpsz & Hnp & Hasc & Hge & Hlt & Hpd & Hroot & HC & Hlive).
  destruct (kept_suffix st b) as (rel & E & _ & Hin & Hasc').
  unfold alloc_ok. change (Rof (hat st b)) with (Rof st). change (live_of (hat st b) (Rof st)) with (live_of st (Rof st)).
  cbn [d_psz d_np d_free d_pending d_root d_disk hat].
  rewrite Forall_forall in Hpd.
  split; [exact Hpsz|]. split; [exact Hnp|]. split; [now apply Hasc'|]. split.
  { unfold FreelistFacts.ge2. apply Forall_forall. intros x Hx. destruct (rfree_src st b x Hx) as [H|H].
    - unfold FreelistFacts.ge2 in Hge. rewrite Forall_forall in Hge. now apply Hge.
    - apply (Hpd x H). }
  split. { intros x Hx. destruct (rfree_src st b x Hx) as [H|H]; [now apply Hlt | apply (Hpd x H)]. }
  split; [constructor|]. split; [exact Hroot|]. split; [exact HC|].
  intros x Hx. destruct (Hlive x Hx) as (L1 & L2 & L3). split; [exact L1|]. split; [|intros []].
  intros Hf. destruct (rfree_src st b x Hf); tauto.
Qed.

(* the last step of [commit] keeps the older batches in front *)
Lemma commit_tail_addp : forall st r nx old s2, Jt old s2 ->
  exists s4h, Jt old s4h /\ d_pending (commit_tail st r nx (addp old s2)) = old ++ pending s4h /\
    d_tx (commit_tail st r nx (addp old s2)) = txid s4h.
Proof.
  intros st r nx old s2 HJ. unfold commit_tail. rewrite (addp_freep old s2 _ _ HJ).
  pose proof (Jt_freep old s2 (d_fl st) (d_fln st) HJ) as HJ3. set (sh3 := free_pages s2 (d_fl st) (d_fln st)) in *.
  rewrite (addp_alloc old sh3 _ HJ3).
  pose proof (Jt_alloc old sh3 (40 + 8 * llen (all_pages (addp old sh3)))%N HJ3) as HJ4.
  destruct (tx_allocate sh3 (40 + 8 * llen (all_pages (addp old sh3)))%N) as [[flp fln] s4h]. cbn [fst snd] in *.
  exists s4h. split; [exact HJ4|]. cbn [d_pending d_tx]. split; reflexivity.
Qed.

(* the final allocator state of a transaction with readers *)
Record txr_final (st : db) (b : N) (st' : db) (s1 : txs) (r nx : N) (s4 : txs) (alloc : list N) (flp fln : N)
  (Dall : list N) (X : list (N * list N)) : Prop := {
  tf_free1 : free s1 = rfree st b;
  tf_np1 : np s1 = d_np st;
  tf_psz1 : psz s1 = d_psz st;
  tf_txid1 : txid s1 = (d_tx st + 1)%N;
  tf_pend1 : forall x, In x (pend_all (pending s1)) ->
               In x (pend_all (kept st b)) \/ In x (foot (d_disk st) 16 (d_root st));
  tf_kept1 : forall x, In x (pend_all (kept st b)) -> In x (pend_all (pending s1));
  tf_freed1 : forall x, freed_in_tx s1 x = true -> In x (foot (d_disk st) 16 (d_root st));
  tf_st' : st' = {| d_disk := apply_wr (wr s4) (psz s4) (d_disk st); d_root := r; d_next := nx; d_np := np s4;
                    d_fl := flp; d_fln := fln; d_flids := all_pages s4; d_tx := txid s4; d_free := free s4;
                    d_pending := pending s4; d_psz := psz s4 |};
  tf_pend4 : pending s4 = kept st b ++ X;
  tf_Xid : Forall (fun bt : N * list N => fst bt = (d_tx st + 1)%N) X;
  tf_Xnd : NoDup (pend_all X);
  tf_final : commit_final st (heldr st b) s1 r s4 alloc flp fln Dall;
  (* the overlay after rebalance, with the allocator state s1 of the run with readers *)
  tf_ovl : exists root' s' b1 m ord,
    rebalance fuel0 (d_disk st) root' s' = Ok (b1, s1) /\ commit st root' s' ord = Ok st' /\
    fresh_inv (heldr st b) s1 /\ wr s1 = [] /\ pend_ids_ok s1 /\ pend_ok0 s1 /\
    SReady (d_disk st) (Rof st) b1 /\ OvlAbs (d_disk st) b1 m /\ SReadyX (d_disk st) (Rof st) b1 /\
    OwnI (d_disk st) 16 s1 b1 (d_root st) /\ Lnk (d_disk st) 16 b1 (d_root st) /\ Cov (d_disk st) 16 s1 b1 (d_root st) }.

Lemma run_tx_r_final : forall st b ops ord st', db_okr st -> Forall (op_ok (d_disk st)) ops ->
  run_tx_r st b ops ord = Ok st' ->
  incl (live_of st (Rof st)) (heldr st b) /\
  (exists sth', run_tx (hat st b) ops ord = Ok sth' /\ d_disk sth' = d_disk st' /\ d_root sth' = d_root st' /\
                d_next sth' = d_next st') /\
  exists s1 r nx s4 alloc flp fln Dall X, txr_final st b st' s1 r nx s4 alloc flp fln Dall X.
Proof.
  intros st b ops ord st' [Hokz Hpi] Hops Hrun. pose proof Hokz as [Hok' Hz]. pose proof Hok' as (Hdb & HA & Hnd & Hpl).
  destruct (run_tx_r_decomp st b ops ord st' Hpl Hrun) as (root' & sh' & b1 & sh1 & r & nx & sh2 & ord' & D).
  pose proof (hat_okz st b Hokz) as Hokh.
  destruct D as [Dfh Drh Drunh DJ1 DJ2 Dr Ds Dc Dst].
  destruct (run_tx_ready (hat st b) ops ord _ Hokh Hops Drunh) as (root2 & s2' & b2 & s12 & RD).
  pose proof (rd_fold _ _ _ _ _ _ _ _ RD) as Hf2. rewrite Dfh in Hf2. inversion Hf2; subst root2 s2'. clear Hf2.
  pose proof (rd_reb _ _ _ _ _ _ _ _ RD) as Hr2. change (d_disk (hat st b)) with (d_disk st) in Hr2. rewrite Drh in Hr2.
  inversion Hr2; subst b2 s12. clear Hr2.
  pose proof (tx_ready_cov _ _ _ _ _ _ _ _ Hokh RD) as HCov.
  destruct RD as [_ _ _ _ Hfih Hwr Etx Efree Enp Epsz Hidh Hcur _ Hfoot HS HO HSX HOwn HLnk].
  change (d_disk (hat st b)) with (d_disk st) in *. change (d_root (hat st b)) with (d_root st) in *.
  change (Rof (hat st b)) with (Rof st) in *. change (live_of (hat st b) (Rof st)) with (live_of st (Rof st)) in *.
  change (d_tx (hat st b)) with (d_tx st) in *. change (d_np (hat st b)) with (d_np st) in *.
  change (d_psz (hat st b)) with (d_psz st) in *. change (abs_db (hat st b)) with (abs_db st) in *.
  rewrite begin_w_hat in Efree. cbn [free] in Efree.
  pose proof DJ1 as (HJa & HJb & HJc).
  set (old := kept st b) in *. set (s1 := addp old sh1).
  assert (HLx : incl (live_of st (Rof st)) (heldr st b)).
  { intros x Hx. apply In_heldr. destruct (fi_live _ _ Hfih x Hx) as [A B]. rewrite <- Enp, <- Efree. auto. }
  assert (Hfi : fresh_inv (heldr st b) s1).
  { destruct Hfih as [G1 G2 G3 G4 G5 G6]. constructor; try assumption.
    intros x Hx. apply In_heldr in Hx. unfold s1. rewrite addp_np, addp_free, Enp, Efree. exact Hx. }
  assert (Hids : pend_ids_ok s1).
  { unfold pend_ids_ok, s1. rewrite addp_pending, addp_txid. apply Forall_app. split.
    - eapply Forall_impl; [|exact HJa]. cbn beta. intros a Ha. lia.
    - eapply Forall_impl; [|exact HJb]. cbn beta. intros a Ha. lia. }
  assert (Hpend1 : forall x, In x (pend_all (pending s1)) -> In x (pend_all old) \/ In x (foot (d_disk st) 16 (d_root st))).
  { intros x Hx. unfold s1 in Hx. rewrite addp_pending, PLFacts.pend_all_app in Hx. apply in_app_or in Hx.
    destruct Hx as [Hx|Hx]; [now left | right]. apply Hfoot, Hcur, Hx. }
  assert (Hp0 : pend_ok0 s1).
  { intros x Hx. unfold s1 at 1 2. rewrite addp_np, addp_free, Enp, Efree. destruct (Hpend1 x Hx) as [Hk|Hf].
    - split; [|now apply kept_not_rfree].
      destruct HA as (_ & _ & _ & _ & _ & Hpd & _). rewrite Forall_forall in Hpd. apply (Hpd x). now apply (kept_sub st b).
    - apply In_heldr, HLx. now apply foot_live. }
  assert (HOwn1 : OwnI (d_disk st) 16 s1 b1 (d_root st)).
  { apply (OwnI_later (d_disk st) Hz 16 sh1 s1 b1 (d_root st) HOwn). intros x _ Hx. unfold s1 in Hx.
    now rewrite (freed_old old sh1 x HJa) in Hx. }
  destruct (commit_ok_inv _ _ _ _ _ _ _ Dr Dc) as (r4 & nx4 & s2 & ord4 & flp & fln & s4 & Hsp & Hal & Est).
  destruct (commit_states W1a W1b W1c W1d st b1 s1 ord _ (heldr st b) r4 nx4 s2 ord4 flp fln s4 Hok' Hz HLx Hfi Hwr Hids Hp0
              HS HO HSX HOwn1 HLnk Hsp Hal) as (alloc & Dall & CF).
  pose proof (cf_frame _ _ _ _ _ _ _ _ _ CF) as F14.
  rewrite Ds in Hsp. inversion Hsp; subst r4 nx4 s2 ord4. clear Hsp.
  pose proof Dst as Est2.
  destruct (commit_tail_addp st r nx old sh2 DJ2) as (s4h & (_ & HJ4b & HJ4c) & Ep & Et).
  rewrite <- Est2 in Ep, Et.
  assert (Etx4 : txid s4 = (d_tx st + 1)%N) by (rewrite (fr_txid _ _ _ _ _ F14); unfold s1; now rewrite addp_txid).
  split; [exact HLx|]. split.
  { exists (commit_tail (hat st b) r nx sh2). split; [exact Drunh|].
    rewrite Est2. unfold commit_tail. rewrite (addp_freep old sh2 _ _ DJ2).
    change (d_fl (hat st b)) with (d_fl st). change (d_fln (hat st b)) with (d_fln st). change (d_disk (hat st b)) with (d_disk st).
    set (sh3 := free_pages sh2 (d_fl st) (d_fln st)).
    unfold tx_allocate. cbn [free psz np addp upd_pending].
    destruct (fl_allocate (free sh3) _) as [[p1 f1]|]; destruct (fl_allocate (free sh3) _) as [[p2 f2]|]; cbn; auto. }
  exists s1, r, nx, s4, alloc, flp, fln, Dall, (pending s4h).
  constructor; try assumption.
  - intros x Hx. unfold s1. rewrite addp_pending, PLFacts.pend_all_app. apply in_or_app. now left.
  - intros x Hx. apply Hfoot. unfold s1 in Hx. now rewrite (freed_old old sh1 x HJa) in Hx.
  - rewrite Est in Ep. cbn [d_pending] in Ep. exact Ep.
  - rewrite Est in Et. cbn [d_tx] in Et. rewrite <- Et, Etx4 in HJ4b. exact HJ4b.
  - exists root', (addp old sh'), b1, (sem_tx ops (abs_db st)), ord. repeat (split; [assumption|]).
    apply (Cov_mono (d_disk st) 16 sh1 s1 b1 (d_root st)); [|exact HCov].
    intros x Hx. unfold s1. now rewrite (freed_old old sh1 x HJa).
Qed.

(* the pages that stay pending are protected *)
Lemma kept_heldr : forall st b x, db_okr st -> In x (pend_all (kept st b)) -> In x (heldr st b).
Proof.
  intros st b x [[(_ & HA & _) _] Hpi] Hx. apply In_heldr. split; [|now apply kept_not_rfree].
  destruct HA as (_ & _ & _ & _ & _ & Hpd & _). rewrite Forall_forall in Hpd. apply (Hpd x). now apply (kept_sub st b).
Qed.

(* the new state satisfies the invariant: [EngineOwnSpill.final_okz] with the batches that stay pending *)
Lemma txr_final_okr : forall st b st' s1 r nx s4 alloc flp fln Dall X,
  db_okr st -> incl (live_of st (Rof st)) (heldr st b) ->
  txr_final st b st' s1 r nx s4 alloc flp fln Dall X ->
  readable st' -> db_strict st' -> closedR (d_disk st') (Rof st') -> db_okr st'.
Proof.
  intros st b st' s1 r nx s4 alloc flp fln Dall X Hokr HLx F Hrd Hstrict' Hcl.
  pose proof Hokr as [[Hok' Hz] [Hpnd Hpnf]]. pose proof Hok' as (_ & HA & _).
  destruct F as [_ _ _ Etx _ _ Hfreed1 Est Ep4 HXid HXnd CF (_ & _ & _ & _ & _ & _ & _ & Hfi & _)].
  pose proof CF as [F14 HD _ _ _ _ P4 _ _ _].
  pose proof HA as (_ & _ & _ & _ & _ & Hpd & _ & _ & Hlive). rewrite Forall_forall in Hpd.
  assert (HXf : forall x, In x (pend_all X) -> freed_in_tx s4 x = true).
  { intros x. apply (own_pages_freed s4 X x); [rewrite Ep4; apply incl_appr, incl_refl|].
    now rewrite (fr_txid _ _ _ _ _ F14), Etx. }
  assert (HK : forall x, In x (pend_all (kept st b)) ->
            (2 <= x)%N /\ In x (heldr st b) /\ ~ In x (live_of st (Rof st))).
  { intros x Hx. pose proof (kept_sub st b x Hx) as Hp. split; [apply (Hpd x Hp)|]. split; [now apply kept_heldr|].
    intros Hl. exact (proj2 (proj2 (Hlive x Hl)) Hp). }
  destruct (final_okz st (heldr st b) s1 r nx s4 alloc flp fln Dall (pend_all (kept st b)) st' Hok' Hz HLx CF Hfreed1)
    as (A1 & A2 & A3 & A4); try assumption.
  { intros x Hx. rewrite Ep4, PLFacts.pend_all_app in Hx. apply in_app_or in Hx. destruct Hx as [Hx|Hx]; [now left | right; now apply HXf]. }
  split; [split; [split; [exact Hstrict'|]; auto | exact A4]|].
  (* the pending pages: no page twice, none free *)
  subst st'. unfold pend_inv. cbn [d_pending d_free]. split; [|intros x Hx; apply (P4 x Hx)].
  rewrite Ep4, PLFacts.pend_all_app. apply ListFacts.NoDup_app_iff. split; [|split; [exact HXnd|]].
  - destruct (kept_suffix st b) as (rel & E & _). rewrite E, PLFacts.pend_all_app in Hpnd.
    apply ListFacts.NoDup_app_iff in Hpnd. tauto.
  - intros x Hk Hx. destruct (HK x Hk) as (_ & HkH & HkL). apply HXf, (fr_freed _ _ _ _ _ F14) in Hx.
    destruct Hx as [Hx|Hx]; [apply HkL; now apply foot_live, Hfreed1|].
    destruct (HD x Hx) as [Ha|Hl]; [|exact (HkL Hl)].
    exact (frame_new _ _ _ _ _ x Hfi F14 (in_or_app _ _ _ (or_intror Ha)) HkH).
Qed.

(* refinement for any release bound: the invariant is re-established and the new state means what the
   specification says *)
Theorem run_tx_r_refines : forall st b ops ord st', db_okr st -> Forall (op_ok (d_disk st)) ops ->
  run_tx_r st b ops ord = Ok st' -> readable st' -> db_okr st' /\ abs_db st' = sem_tx ops (abs_db st).
Proof.
  intros st b ops ord st' Hokr Hops Hrun Hrd.
  destruct (run_tx_r_final st b ops ord st' Hokr Hops Hrun)
    as (HLx & (sth' & Hrunh & Ed & Er & En) & s1 & r & nx & s4 & alloc & flp & fln & Dall & X & F).
  assert (Hrdh : readable sth') by (unfold readable in *; now rewrite Ed, Er).
  destruct (run_tx_refines' (hat st b) ops ord sth' (hat_okz st b (proj1 Hokr)) Hops Hrunh Hrdh) as [[(Hs & HA & _) _] Habs].
  assert (Hs' : db_strict st') by (unfold db_strict in *; now rewrite <- Ed, <- Er).
  assert (Hcl : closedR (d_disk st') (Rof st')).
  { destruct HA as (_ & _ & _ & _ & _ & _ & _ & HC & _). unfold Rof in *. now rewrite <- Ed, <- Er. }
  split; [exact (txr_final_okr st b st' s1 r nx s4 alloc flp fln Dall X Hokr HLx F Hrd Hs' Hcl)|].
  unfold abs_db in *. rewrite <- Ed, <- Er, <- En. exact Habs.
Qed.

(* COPY-ON-WRITE with readers.  [w] is the write set of the commit from st to st' with release bound b; [X] the
   batches the transaction files (all under its own id) *)
Record tx_cow_r (st : db) (b : N) (st' : db) (w : list (N * (N * ndata))) (X : list (N * list N)) : Prop := {
  tr_disk : d_disk st' = apply_wr w (d_psz st) (d_disk st);
  tr_psz : d_psz st' = d_psz st;
  tr_tx : d_tx st' = (d_tx st + 1)%N;
  tr_np : (d_np st <= d_np st')%N;
  (* no written page is protected: not live, not in a batch that stays pending *)
  tr_cow : forall x, written st st' w x -> ~ In x (heldr st b);
  tr_range : forall x, written st st' w x -> (2 <= x < d_np st')%N;
  tr_taken : forall x, written st st' w x -> ~ In x (d_free st');
  (* the new free list is part of the free list after the bounded release *)
  tr_free : forall x, In x (d_free st') -> In x (rfree st b);
  (* the batches that stayed pending are still there, in front; the new ones are the transaction's own *)
  tr_pend : d_pending st' = kept st b ++ X;
  tr_Xid : Forall (fun bt : N * list N => fst bt = (d_tx st + 1)%N) X;
  tr_disj : forall q1 v1 q2 v2 x, wr_get w q1 = Some v1 -> wr_get w q2 = Some v2 ->
              In x (wrun (d_psz st) q1 v1) -> In x (wrun (d_psz st) q2 v2) -> q1 = q2;
  tr_fl : forall x, In x (wr_pages (d_psz st) w) -> ~ In x (nrun (d_fl st') (d_fln st')) }.

Theorem run_tx_r_write_set : forall st b ops ord st', db_okr st -> Forall (op_ok (d_disk st)) ops ->
  run_tx_r st b ops ord = Ok st' ->
  incl (live_of st (Rof st)) (heldr st b) /\ exists w X, tx_cow_r st b st' w X.
Proof.
  intros st b ops ord st' Hokr Hops Hrun.
  destruct (run_tx_r_final st b ops ord st' Hokr Hops Hrun)
    as (HLx & _ & s1 & r & nx & s4 & alloc & flp & fln & Dall & X & F).
  split; [exact HLx|].
  destruct F as [Efree Enp Epsz Etx _ _ _ Est Ep4 HXid _ CF _].
  destruct (final_written st (heldr st b) st' s1 r nx s4 alloc flp fln Dall Enp Epsz Etx Est CF)
    as (C1 & C2 & C3 & C4 & Hw & C5 & C6 & _).
  exists (wr s4), X. constructor; try assumption; try (intros x Hx; apply (Hw x Hx)).
  - intros x Hx. subst st'. cbn [d_free] in Hx. rewrite <- Efree. exact (fr_free _ _ _ _ _ (cf_frame _ _ _ _ _ _ _ _ _ CF) x Hx).
  - subst st'. exact Ep4.
Qed.

(* every protected page -- below the old high-water mark and not free after the bounded release -- has the same
   image on the new disk *)
Theorem run_tx_r_protected_intact : forall st b ops ord st', db_okr st -> Forall (op_ok (d_disk st)) ops ->
  run_tx_r st b ops ord = Ok st' ->
  forall p, (p < d_np st)%N -> ~ In p (rfree st b) -> dget (d_disk st') p = dget (d_disk st) p.
Proof.
  intros st b ops ord st' Hokr Hops Hrun p Hlt Hnf.
  destruct (run_tx_r_write_set st b ops ord st' Hokr Hops Hrun) as (_ & w & X & C).
  rewrite (tr_disk _ _ _ _ _ C), dget_apply_wr. destruct (wr_get w p) as [v|] eqn:Hg; [|reflexivity].
  exfalso. apply (tr_cow _ _ _ _ _ C p); [|apply In_heldr; auto].
  left. apply In_wr_pages. exists p, v. split; [exact Hg | apply In_wrun_head].
Qed.

(* in particular (C03, one step): the snapshot that is current before the commit is intact after it *)
Corollary run_tx_r_old_snapshot_intact : forall st b ops ord st', db_okr st -> Forall (op_ok (d_disk st)) ops ->
  run_tx_r st b ops ord = Ok st' ->
  forall p, In p (live_of st (Rof st)) -> dget (d_disk st') p = dget (d_disk st) p.
Proof.
  intros st b ops ord st' Hokr Hops Hrun p Hp.
  destruct (run_tx_r_write_set st b ops ord st' Hokr Hops Hrun) as (HLx & _).
  apply HLx, In_heldr in Hp. destruct Hp as [A B]. eapply run_tx_r_protected_intact; eauto.
Qed.

(* copy-on-write in the vocabulary of EngineCow.run_tx_cow / run_tx_writes_from_free: a written page (overflow pages
   and the new free-list run included) is not live, not in a batch that stays pending, and comes from the free list
   after the bounded release or from beyond the old high-water mark *)
Corollary run_tx_r_cow : forall st b ops ord st', db_okr st -> Forall (op_ok (d_disk st)) ops ->
  run_tx_r st b ops ord = Ok st' ->
  exists w, d_disk st' = apply_wr w (d_psz st) (d_disk st) /\
    forall x, written st st' w x ->
      ~ In x (live_of st (Rof st)) /\ ~ In x (pend_all (kept st b)) /\
      (In x (rfree st b) \/ (d_np st <= x)%N) /\ (2 <= x < d_np st')%N.
Proof.
  intros st b ops ord st' Hokr Hops Hrun.
  destruct (run_tx_r_write_set st b ops ord st' Hokr Hops Hrun) as (HLx & w & X & C).
  exists w. split; [exact (tr_disk _ _ _ _ _ C)|]. intros x Hx. pose proof (tr_cow _ _ _ _ _ C x Hx) as Hn.
  split; [intros Hl; apply Hn; now apply HLx|]. split; [intros Hk; apply Hn; now apply kept_heldr|].
  split; [now apply not_heldr | exact (tr_range _ _ _ _ _ C x Hx)].
Qed.

Print Assumptions run_tx_r_refines.
Print Assumptions run_tx_r_write_set.
Print Assumptions run_tx_r_protected_intact.
Print Assumptions run_tx_r_cow.
