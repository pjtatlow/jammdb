(* The engine model's private free list (model/Engine.v) is the free list of model/Freelist.v: its functions are the
   same terms, the writer state Engine.txs simulates Freelist.txfl, and along that simulation the theorems of
   proofs/FreelistFacts.v hold of the engine state. *)
From Coq Require Import List NArith PeanoNat Bool Lia ZifyN ZifyBool Sorted Permutation.
From Jamm Require Import Bytes PL Freelist FreelistFacts.
From Jamm Require Engine.
Import ListNotations.
Local Open Scope list_scope. Local Open Scope N_scope.

(* The definitions are the same terms: the equalities hold between the functions themselves, by conversion. *)
Theorem sins_fun_eq : Engine.sins = Freelist.sins.              Proof. reflexivity. Qed.
Theorem sins_dup_fun_eq : Engine.sins_dup = Freelist.sins_dup.  Proof. reflexivity. Qed.
Theorem pend_add_fun_eq : Engine.pend_add = Freelist.pend_add.  Proof. reflexivity. Qed.
Theorem release_fun_eq : Engine.release = Freelist.release.     Proof. reflexivity. Qed.
Theorem alloc_scan_fun_eq : Engine.alloc_scan = Freelist.alloc_scan. Proof. reflexivity. Qed.
Theorem fl_allocate_fun_eq : Engine.fl_allocate = Freelist.fl_allocate. Proof. reflexivity. Qed.

Theorem pend_add_eq t p l : Engine.pend_add t p l = Freelist.pend_add t p l.
Proof. now rewrite pend_add_fun_eq. Qed.

Theorem all_pages_eq s :
  Engine.all_pages s = Freelist.fl_pages (mkFl (Engine.free s) (Engine.pending s)).
Proof. reflexivity. Qed.

(* Freelist.txfl carries the list of pages freed in this transaction; the engine has no such field and tests
   pending[txid] instead (freed_in_tx).  R relates the two. *)
Definition abs (s : Engine.txs) (freed : list N) : txfl :=
  mkTxfl (mkFl (Engine.free s) (Engine.pending s)) (Engine.np s) (Engine.txid s) (Engine.psz s) freed.

Definition R (s : Engine.txs) (t : txfl) : Prop :=
  t = abs s (tf_freed t) /\ (forall p, In p (tf_freed t) <-> Engine.freed_in_tx s p = true).

Lemma freed_in_tx_iff s p :
  Engine.freed_in_tx s p = true <-> In p (pend_at (Engine.txid s) (Engine.pending s)).
Proof.
  unfold Engine.freed_in_tx, pend_at. rewrite existsb_exists, in_flat_map. split.
  - intros (e & He & Hb). apply andb_true_iff in Hb. destruct Hb as [Hk Hm].
    exists e. split; [apply filter_In; split; assumption|].
    apply existsb_exists in Hm. destruct Hm as (y & Hy & Hpy). apply N.eqb_eq in Hpy. subst y. exact Hy.
  - intros (e & He & Hp). apply filter_In in He. destruct He as [He Hk].
    exists e. split; [exact He|]. rewrite Hk. cbn [andb].
    apply existsb_exists. exists p. split; [exact Hp|apply N.eqb_refl].
Qed.

(* the canonical abstraction: the freed set read off the engine state *)
Definition abs0 (s : Engine.txs) : txfl := abs s (pend_at (Engine.txid s) (Engine.pending s)).

Theorem R_abs0 s : R s (abs0 s).
Proof.
  unfold R, abs0. cbn [abs tf_freed]. split; [reflexivity|].
  intros p. symmetry. apply freed_in_tx_iff.
Qed.

(* J (FreelistFacts): the freed list is duplicate-free and a permutation of pending[txid] *)
Theorem J_abs0 s : NoDup (pend_at (Engine.txid s) (Engine.pending s)) <-> J (abs0 s).
Proof.
  unfold J, abs0, abs. cbn [tf_freed tf_tx tf_inner fl_pending]. split.
  - intros H. split; [exact H|reflexivity].
  - intros [H _]. exact H.
Qed.

(* under J, the second clause of R follows from the first *)
Theorem R_of_J s freed : J (abs s freed) -> R s (abs s freed).
Proof.
  intros HJ. split; [reflexivity|]. cbn [abs tf_freed]. intros p.
  rewrite freed_in_tx_iff. destruct (J_facts _ HJ) as [_ H].
  cbn [abs tf_tx tf_inner fl_pending tf_freed] in H. symmetry. apply H.
Qed.

Lemma R_fields s t : R s t ->
  fl_free (tf_inner t) = Engine.free s /\ fl_pending (tf_inner t) = Engine.pending s /\
  tf_np t = Engine.np s /\ tf_tx t = Engine.txid s /\ tf_psz t = Engine.psz s.
Proof. intros [H _]. rewrite H. cbn. repeat split. Qed.

Lemma R_memN s t p : R s t -> memN p (tf_freed t) = Engine.freed_in_tx s p.
Proof.
  intros [_ H]. specialize (H p). rewrite <- PLFacts.memN_In in H.
  destruct (memN p (tf_freed t)), (Engine.freed_in_tx s p); intuition congruence.
Qed.

Theorem tx_allocate_sim s t b p n s' :
  R s t -> Engine.tx_allocate s b = (p, n, s') ->
  exists t', Freelist.tx_allocate t b = (p, n, t') /\ R s' t'.
Proof.
  intros [Ht Hf] Hal. rewrite Ht. unfold Freelist.tx_allocate, pages_for.
  cbn [abs tf_inner tf_np tf_tx tf_psz tf_freed fl_free fl_pending].
  unfold Engine.tx_allocate in Hal. rewrite fl_allocate_fun_eq in Hal.
  set (k := if b mod Engine.psz s =? 0 then b / Engine.psz s else b / Engine.psz s + 1) in *.
  destruct (Freelist.fl_allocate (Engine.free s) k) as [[p0 f']|];
    inversion Hal; subst p n s'; clear Hal; eexists; (split; [reflexivity|]).
  - split; [reflexivity|]. cbn [tf_freed]. exact Hf.
  - split; [reflexivity|]. cbn [tf_freed]. exact Hf.
Qed.

(* J is not needed for R to be carried along *)
Lemma free_step_R s t p :
  R s t -> Engine.freed_in_tx s p = false ->
  R (Engine.upd_pending s (Engine.pend_add (Engine.txid s) p (Engine.pending s)))
    (mkTxfl (mkFl (fl_free (tf_inner t)) (Freelist.pend_add (tf_tx t) p (fl_pending (tf_inner t))))
            (tf_np t) (tf_tx t) (tf_psz t) (p :: tf_freed t)).
Proof.
  intros HR Hnf. destruct (R_fields _ _ HR) as (F1 & F2 & F3 & F4 & F5). destruct HR as [_ Hf].
  rewrite F1, F2, F3, F4, F5. split.
  - unfold abs, Engine.upd_pending. cbn. reflexivity.
  - cbn [tf_freed]. intros q. rewrite freed_in_tx_iff.
    unfold Engine.upd_pending. cbn [Engine.txid Engine.pending]. change Engine.pend_add with Freelist.pend_add.
    assert (Hq : In q (pend_at (Engine.txid s) (Freelist.pend_add (Engine.txid s) p (Engine.pending s)))
                 <-> In q (p :: pend_at (Engine.txid s) (Engine.pending s))).
    { split; apply Permutation_in; [apply pend_add_at|symmetry; apply pend_add_at]. }
    rewrite Hq. cbn [In]. rewrite Hf, freed_in_tx_iff. reflexivity.
Qed.

Lemma free_run_sim n : forall s t p,
  R s t -> R (Engine.free_run s p n) (Freelist.tx_free_run t p n).
Proof.
  induction n as [|n IH]; intros s t p HR; cbn [Engine.free_run Freelist.tx_free_run]; [exact HR|].
  rewrite (R_memN _ _ p HR). destruct (Engine.freed_in_tx s p) eqn:E.
  - apply IH. exact HR.
  - apply IH. apply free_step_R; assumption.
Qed.

Theorem free_pages_sim s t p n :
  R s t -> R (Engine.free_pages s p n) (Freelist.tx_free t p n).
Proof. apply free_run_sim. Qed.

Theorem free_pages_sim_J s t p n :
  R s t -> J t -> R (Engine.free_pages s p n) (Freelist.tx_free t p n) /\ J (Freelist.tx_free t p n).
Proof. intros HR HJ. split; [apply free_pages_sim; exact HR|apply tx_free_J; exact HJ]. Qed.

Theorem engine_alloc_spec s b p n s' :
  asc (Engine.free s) -> ge2 (Engine.free s) -> 0 < Engine.psz s -> 0 < b ->
  Engine.tx_allocate s b = (p, n, s') ->
  let fr := Engine.free s in
  n = pages_for (Engine.psz s) b /\ 0 < n /\
  Engine.txid s' = Engine.txid s /\ Engine.psz s' = Engine.psz s /\
  Engine.pending s' = Engine.pending s /\
  Engine.wr s' = Engine.wr s /\ Engine.flw s' = Engine.flw s /\ Engine.seqc s' = Engine.seqc s /\
  (forall q, Engine.freed_in_tx s' q = Engine.freed_in_tx s q) /\
  ( (* from the free set: np unchanged, the first run of n pages removed exactly *)
    (Engine.np s' = Engine.np s /\
     (forall i, i < n -> In (p + i) fr) /\
     (forall x, In x (Engine.free s') <-> In x fr /\ ~ (p <= x < p + n)) /\
     asc (Engine.free s') /\ ge2 (Engine.free s') /\
     (forall q, (forall i, i < n -> In (q + i) fr) -> p <= q))
    \/ (* growth: only when no run of n pages exists *)
    (p = Engine.np s /\ Engine.np s' = Engine.np s + n /\ Engine.free s' = Engine.free s /\
     ~ exists q, forall i, i < n -> In (q + i) fr)).
Proof.
  intros Hasc Hge HP Hb Hal. cbv zeta.
  destruct (tx_allocate_sim s (abs0 s) b p n s' (R_abs0 s) Hal) as (t' & Hal' & HR').
  pose proof (tx_allocate_spec (abs0 s) b p n t') as Hspec.
  cbn [abs0 abs tf_inner tf_np tf_tx tf_psz tf_freed fl_free fl_pending] in Hspec.
  specialize (Hspec Hasc Hge HP Hb Hal'). cbv zeta in Hspec.
  destruct (R_fields _ _ HR') as (F1 & F2 & F3 & F4 & F5).
  rewrite F1, F2, F3, F4, F5 in Hspec.
  destruct Hspec as (Hn & Hn0 & Htx & Hpsz & _ & Hpd & Hcases).
  assert (Hrest : Engine.wr s' = Engine.wr s /\ Engine.flw s' = Engine.flw s /\
                  Engine.seqc s' = Engine.seqc s).
  { unfold Engine.tx_allocate in Hal.
    destruct (Engine.fl_allocate _ _) as [[p0 f']|]; inversion Hal; subst; cbn; repeat split. }
  destruct Hrest as (Hwr & Hflw & Hseq).
  repeat (split; [assumption|]). split.
  - intros q. unfold Engine.freed_in_tx. rewrite Htx, Hpd. reflexivity.
  - destruct Hcases as [C|(C1 & C2 & C3 & C4)]; [left; exact C|right].
    repeat (split; [assumption|]). split; [|exact C4].
    rewrite <- F1, C3. reflexivity.
Qed.

(* a page freed in this transaction is not handed back a second time *)
Theorem engine_free_again s p :
  Engine.freed_in_tx s p = true -> Engine.free_pages s p 1 = s.
Proof.
  intros H. unfold Engine.free_pages. change (N.to_nat 1) with 1%nat.
  cbn [Engine.free_run]. rewrite H. reflexivity.
Qed.

Theorem engine_free_fields s p n :
  Engine.free (Engine.free_pages s p n) = Engine.free s /\
  Engine.txid (Engine.free_pages s p n) = Engine.txid s /\
  Engine.np (Engine.free_pages s p n) = Engine.np s /\
  Engine.psz (Engine.free_pages s p n) = Engine.psz s.
Proof.
  pose proof (free_pages_sim s (abs0 s) p n (R_abs0 s)) as HR.
  destruct (R_fields _ _ HR) as (F1 & _ & F3 & F4 & F5).
  destruct (tx_free_fields (abs0 s) p n) as (G1 & G2 & G3 & G4).
  rewrite <- F1, <- F3, <- F4, <- F5, G1, G2, G3, G4. cbn. repeat split.
Qed.

Theorem engine_free_freed s p n x :
  Engine.freed_in_tx (Engine.free_pages s p n) x = true <->
  Engine.freed_in_tx s x = true \/ p <= x < p + n.
Proof.
  pose proof (free_pages_sim s (abs0 s) p n (R_abs0 s)) as [_ Hf].
  rewrite <- Hf, tx_free_freed. cbn [abs0 abs tf_freed]. rewrite freed_in_tx_iff. reflexivity.
Qed.

Theorem engine_free_pend_all s p n x :
  In x (pend_all (Engine.pending (Engine.free_pages s p n))) <->
  In x (pend_all (Engine.pending s)) \/ p <= x < p + n.
Proof.
  pose proof (free_pages_sim s (abs0 s) p n (R_abs0 s)) as HR.
  destruct (R_fields _ _ HR) as (_ & F2 & _). rewrite <- F2.
  rewrite tx_free_pend_all; [reflexivity|].
  cbn [abs0 abs tf_freed tf_inner fl_pending]. intros y. apply pend_at_sub.
Qed.

Theorem engine_free_nodup s p n :
  NoDup (pend_at (Engine.txid s) (Engine.pending s)) ->
  NoDup (pend_at (Engine.txid (Engine.free_pages s p n)) (Engine.pending (Engine.free_pages s p n))).
Proof.
  intros H. apply J_abs0 in H. apply (tx_free_J _ p n) in H.
  pose proof (free_pages_sim s (abs0 s) p n (R_abs0 s)) as HR.
  destruct (R_fields _ _ HR) as (_ & F2 & _ & F4 & _).
  destruct (J_facts _ H) as [Hnd _]. rewrite F2, F4 in Hnd. exact Hnd.
Qed.

Theorem engine_free_once s p n :
  (Engine.freed_in_tx s p = true -> Engine.free_pages s p 1 = s) /\
  (forall x, p <= x < p + n -> Engine.freed_in_tx (Engine.free_pages s p n) x = true).
Proof.
  split; [apply engine_free_again|]. intros x Hx. apply engine_free_freed. right. exact Hx.
Qed.

Theorem engine_all_pages_perm s :
  Permutation (Engine.all_pages s) (Engine.free s ++ flat_map snd (Engine.pending s)) /\
  (asc (Engine.free s) -> StronglySorted N.le (Engine.all_pages s)).
Proof.
  rewrite all_pages_eq. split.
  - apply (fl_pages_perm (mkFl (Engine.free s) (Engine.pending s))).
  - intros H. apply fl_pages_sorted. exact H.
Qed.

Theorem begin_w_eq st :
  let w := Freelist.begin_writer (mkFl (Engine.d_free st) (Engine.d_pending st))
             (Engine.d_np st) (Engine.d_tx st) (Engine.d_psz st) [] in
  let s := Engine.begin_w st in
  Engine.free s = fl_free (tf_inner w) /\ Engine.pending s = fl_pending (tf_inner w) /\
  Engine.txid s = tf_tx w /\ Engine.np s = tf_np w /\ Engine.psz s = tf_psz w /\
  tf_freed w = [] /\
  Engine.wr s = [] /\ Engine.flw s = None /\ Engine.seqc s = 1.
Proof.
  cbv zeta. unfold Engine.begin_w, Freelist.begin_writer. cbn [fl_free fl_pending].
  rewrite release_fun_eq.
  destruct (Freelist.release (Engine.d_tx st + 1) (Engine.d_free st) (Engine.d_pending st)) as [fr pd].
  cbn. repeat split.
Qed.

Corollary begin_w_R st :
  R (Engine.begin_w st)
    (abs (Engine.begin_w st)
         (pend_at (Engine.d_tx st + 1) (Engine.pending (Engine.begin_w st)))).
Proof.
  pose proof (R_abs0 (Engine.begin_w st)) as H. unfold abs0 in H.
  destruct (begin_w_eq st) as (_ & _ & Htx & _). cbv zeta in Htx.
  replace (Engine.txid (Engine.begin_w st)) with (Engine.d_tx st + 1) in H at 1; [exact H|].
  rewrite Htx. unfold Freelist.begin_writer. cbn [fl_free fl_pending].
  destruct (Freelist.release _ _ _); reflexivity.
Qed.

Corollary begin_w_abs st :
  (forall e, In e (Engine.d_pending st) -> fst e <= Engine.d_tx st) ->
  abs0 (Engine.begin_w st) =
  Freelist.begin_writer (mkFl (Engine.d_free st) (Engine.d_pending st))
    (Engine.d_np st) (Engine.d_tx st) (Engine.d_psz st) [].
Proof.
  intros Hk. unfold abs0, abs, Engine.begin_w, Freelist.begin_writer. cbn [fl_free fl_pending].
  rewrite release_fun_eq.
  assert (Hall : forall pd fr, (forall e, In e pd -> fst e <= Engine.d_tx st) ->
            snd (Freelist.release (Engine.d_tx st + 1) fr pd) = []).
  { induction pd as [|[u ps] pd IH]; intros fr H; cbn [Freelist.release]; [reflexivity|].
    assert (Hu : u <= Engine.d_tx st) by (apply (H (u, ps)); left; reflexivity).
    destruct (N.ltb_spec u (Engine.d_tx st + 1)); [|lia].
    apply IH. intros e He. apply H. right. exact He. }
  specialize (Hall (Engine.d_pending st) (Engine.d_free st) Hk).
  destruct (Freelist.release (Engine.d_tx st + 1) (Engine.d_free st) (Engine.d_pending st)) as [fr pd].
  cbn [snd] in Hall. subst pd. cbn. reflexivity.
Qed.

Definition ex_s : Engine.txs :=
  {| Engine.free := [2; 4; 6; 8; 9; 10]; Engine.pending := [(3, [11]); (5, [12; 13])];
     Engine.txid := 6; Engine.np := 20; Engine.psz := 4096;
     Engine.wr := []; Engine.flw := None; Engine.seqc := 1 |}.

Example ex_abs : abs ex_s [] = FreelistFacts.ex_tx.
Proof. vm_compute. reflexivity. Qed.
Example ex_R : R ex_s FreelistFacts.ex_tx.
Proof. rewrite <- ex_abs. apply (R_abs0 ex_s). Qed.
Example ex_hyps : asc (Engine.free ex_s) /\ ge2 (Engine.free ex_s) /\ 0 < Engine.psz ex_s.
Proof. split; [|split]; cbn; repeat constructor; lia. Qed.

Example ex_alloc_free :
  Engine.tx_allocate ex_s 8192 = (8, 2, Engine.upd_free ex_s [2; 4; 6; 10]).
Proof. vm_compute. reflexivity. Qed.
Example ex_alloc_grow :
  Engine.tx_allocate ex_s 16385 = (20, 5, Engine.upd_np ex_s 25).
Proof. vm_compute. reflexivity. Qed.
(* both branches of engine_alloc_spec are inhabited *)
Example ex_alloc_spec_free :
  Engine.np (snd (Engine.tx_allocate ex_s 8192)) = Engine.np ex_s /\
  ~ In 8 (Engine.free (snd (Engine.tx_allocate ex_s 8192))).
Proof. vm_compute. split; [reflexivity|]. intuition discriminate. Qed.
Example ex_alloc_spec_grow :
  fst (fst (Engine.tx_allocate ex_s 16385)) = Engine.np ex_s /\
  Engine.np (snd (Engine.tx_allocate ex_s 16385)) = 25.
Proof. vm_compute. split; reflexivity. Qed.

Example ex_free_pages :
  Engine.pending (Engine.free_pages ex_s 14 2) = [(3, [11]); (5, [12; 13]); (6, [14; 15])] /\
  abs (Engine.free_pages ex_s 14 2) [15; 14] = Freelist.tx_free FreelistFacts.ex_tx 14 2.
Proof. vm_compute. split; reflexivity. Qed.
Example ex_free_twice :
  Engine.free_pages (Engine.free_pages ex_s 14 2) 15 1 = Engine.free_pages ex_s 14 2 /\
  Engine.freed_in_tx (Engine.free_pages ex_s 14 2) 15 = true /\
  Engine.freed_in_tx (Engine.free_pages ex_s 14 2) 13 = false.
Proof. vm_compute. repeat split. Qed.
(* 13 is pending under an older id: freeing it again in tx 6 does add it (D4 repair is per-transaction) *)
Example ex_free_other_tx :
  Engine.pending (Engine.free_pages ex_s 13 1) = [(3, [11]); (5, [12; 13]); (6, [13])].
Proof. vm_compute. reflexivity. Qed.

Example ex_all_pages :
  Engine.all_pages (Engine.free_pages ex_s 7 1) = [2; 4; 6; 7; 8; 9; 10; 11; 12; 13].
Proof. vm_compute. reflexivity. Qed.

Definition ex_db : Engine.db :=
  {| Engine.d_disk := []; Engine.d_root := 3; Engine.d_next := 0; Engine.d_np := 20; Engine.d_fl := 2;
     Engine.d_fln := 1; Engine.d_flids := []; Engine.d_tx := 5;
     Engine.d_free := [2; 4; 6; 8; 9; 10]; Engine.d_pending := [(3, [11; 3]); (5, [12; 13])];
     Engine.d_psz := 4096 |}.
Example ex_begin_w :
  Engine.free (Engine.begin_w ex_db) = [2; 3; 4; 6; 8; 9; 10; 11; 12; 13] /\
  Engine.pending (Engine.begin_w ex_db) = [] /\ Engine.txid (Engine.begin_w ex_db) = 6 /\
  abs0 (Engine.begin_w ex_db) =
    Freelist.begin_writer (mkFl (Engine.d_free ex_db) (Engine.d_pending ex_db)) 20 5 4096 [].
Proof. vm_compute. repeat split. Qed.

Lemma release_split : forall t pd fr fr' pd', Engine.release t fr pd = (fr', pd') ->
  exists rel, pd = rel ++ pd' /\ Forall (fun b : N * list N => fst b < t) rel /\
    (forall x, In x fr' <-> In x fr \/ In x (pend_all rel)) /\ (asc fr -> asc fr').
Proof.
  intros t. induction pd as [|[u ps] pd IH]; intros fr fr' pd' H; cbn [Engine.release] in H.
  - inversion H; subst. exists []. cbn. repeat split; auto. intros [?|[]]; auto.
  - destruct (N.ltb_spec u t) as [Hlt|Hge].
    + apply IH in H. destruct H as (rel & E & Hall & Hin & Hasc). exists ((u, ps) :: rel).
      split; [cbn [app]; now rewrite E|]. split; [constructor; [exact Hlt | exact Hall]|]. split.
      * intros x. rewrite Hin, fold_sins_In. unfold pend_all. cbn [flat_map snd]. rewrite in_app_iff. tauto.
      * intros Ha. apply Hasc. now apply fold_sins_asc.
    + inversion H; subst. exists []. cbn. repeat split; auto. intros [?|[]]; auto.
Qed.

Lemma release_all : forall t pd fr, Forall (fun b : N * list N => fst b < t) pd ->
  exists fr', Engine.release t fr pd = (fr', []).
Proof.
  intros t. induction pd as [|[u ps] pd IH]; intros fr H; cbn [Engine.release]; [eauto|].
  inversion H as [|? ? H1 H2]; subst. cbn [fst] in H1. destruct (N.ltb_spec u t); [|lia]. now apply IH.
Qed.

Lemma release_complete : forall t pd fr fr' pd', Forall (fun b : N * list N => fst b < t) pd ->
  Engine.release t fr pd = (fr', pd') -> forall x, In x fr \/ In x (pend_all pd) -> In x fr'.
Proof.
  intros t pd fr fr' pd' Hall H x Hx. destruct (release_all t pd fr Hall) as [fr1 E]. rewrite E in H. inversion H; subst fr1 pd'.
  destruct (release_split _ _ _ _ _ E) as (rel & Epd & _ & Hin & _). rewrite app_nil_r in Epd. subst rel. now apply Hin.
Qed.

Lemma release_src : forall t pd fr fr' pd', Engine.release t fr pd = (fr', pd') -> asc fr ->
  asc fr' /\ forall x, In x fr' -> In x fr \/ In x (pend_all pd).
Proof.
  intros t pd fr fr' pd' H Ha. destruct (release_split _ _ _ _ _ H) as (rel & -> & _ & Hin & Hasc).
  split; [now apply Hasc|]. intros x Hx. apply Hin in Hx. rewrite PLFacts.pend_all_app, in_app_iff. tauto.
Qed.

Print Assumptions pend_add_eq.
Print Assumptions all_pages_eq.
Print Assumptions R_abs0.
Print Assumptions R_of_J.
Print Assumptions tx_allocate_sim.
Print Assumptions free_pages_sim.
Print Assumptions free_pages_sim_J.
Print Assumptions engine_alloc_spec.
Print Assumptions engine_free_once.
Print Assumptions engine_free_freed.
Print Assumptions engine_free_pend_all.
Print Assumptions engine_free_nodup.
Print Assumptions engine_free_fields.
Print Assumptions engine_all_pages_perm.
Print Assumptions begin_w_eq.
Print Assumptions begin_w_abs.
