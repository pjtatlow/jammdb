(* Nothing is leaked: the exact page partition is an invariant of the engine model.
   [db_exact st] := [db_okz st] (EngineAllocInv: nothing live is free or pending, no page run shared) and
   [no_leak st]: every page id of [2, d_np st) is live (a page of the run of a reachable tree page, or of the
   free-list run), free, or pending.  Together: the committed file accounts for each page exactly once. *)
From Coq Require Import List NArith Bool Arith Lia ZifyN ZifyNat ZifyBool Permutation.
From Coq.Strings Require Import Byte.
From Jamm Require Spec.
From Jamm Require Import Bytes BytesFacts Tree Cursor SearchFacts Engine EngineAbs EngineFacts EngineMergeFacts.
From Jamm Require Import EngineModifyFacts EngineSpillFacts EnginePathFacts EngineBridgeFacts EngineRebalanceFacts.
From Jamm Require FreelistFacts EngineAllocFacts EngineSpillWfFacts.
From Jamm Require Import EngineTxInvFacts EngineSpillBucketFacts EngineRefines.
From Jamm Require Import EngineOwnDefs EngineOwnWr EngineOwnOps EngineOwnReb EngineOwnSpill EngineOwnLnk EngineAllocInv.
From Jamm Require Import EngineNoLeakDefs EngineNoLeakFree EngineNoLeakWr EngineNoLeakNode EngineNoLeakCov.
From Jamm Require Import EngineNoLeakOps EngineNoLeakReb EngineNoLeakSpill.
Import ListNotations.
Import Coq.Strings.String.StringSyntax. Delimit Scope string_scope with string.
Local Open Scope list_scope. Local Open Scope nat_scope.
Set Warnings "-abstract-large-number".

Lemma begin_w_accounted : forall st, pend_le st -> no_leak st ->
  forall x, (2 <= x < np (begin_w st))%N -> In x (live_of st (Rof st)) \/ In x (free (begin_w st)).
Proof.
  intros st Hpl Hnl x Hx. unfold begin_w in *.
  destruct (release (d_tx st + 1) (d_free st) (d_pending st)) as [fr pd] eqn:Er. cbn [np free] in *.
  destruct (Hnl x Hx) as [A|A]; [now left | right].
  eapply EngineAllocFacts.release_complete; [|exact Er | exact A].
  eapply Forall_impl; [|exact Hpl]. cbn beta. intros b Hb. lia.
Qed.

(* for any pending list: every page of [2, np s1) is live, free or pending when the spill starts *)
Theorem commit_no_leak : forall st b s ord st' b1 s1 m,
  db_ok' st -> dget (d_disk st) 0%N = None ->
  rebalance fuel0 (d_disk st) b s = Ok (b1, s1) ->
  fresh_inv (live_of st (Rof st)) s1 -> wr s1 = [] ->
  pend_ids_ok s1 -> pend_ok0 s1 ->
  SReady (d_disk st) (Rof st) b1 -> OvlAbs (d_disk st) b1 m -> SReadyX (d_disk st) (Rof st) b1 ->
  OwnI (d_disk st) 16 s1 b1 (d_root st) -> Lnk (d_disk st) 16 b1 (d_root st) ->
  Cov (d_disk st) 16 s1 b1 (d_root st) ->
  (forall x, (2 <= x < np s1)%N -> In x (live_of st (Rof st)) \/ In x (free s1) \/ In x (pend_all (pending s1))) ->
  commit st b s ord = Ok st' -> readable st' -> no_leak st'.
Proof.
  intros st b s ord st' b1 s1 m (Hstrict & HA & HndL & _) Hz Hreb Hfi Hwr Hpid Hp0 HS HO HSX HOw HLk HCv Hacc H Hrd.
  set (d := d_disk st) in *. set (R := Rof st) in *. set (L := live_of st R) in *.
  pose proof HA as (_ & _ & _ & _ & _ & _ & Hroot & HCR & Hlive).
  assert (Hr0 : d_root st <> 0%N).
  { destruct (Hlive _ (R_live st _ _ Hroot)) as [Hge _]. lia. }
  assert (HkL : forall q x, In q R -> In x (prun d q) -> In x L).
  { intros q x Hq Hx. unfold L, live_of. apply in_or_app. left. apply in_flat_map. eauto. }
  assert (HfL : incl (foot d 16 (d_root st)) L) by (intros x Hx; now apply foot_live).
  destruct (commit_ok_inv _ _ _ _ _ _ _ Hreb H) as (r & nx & s2 & ord' & flp & fln & s4 & Hsp & Hal & ->). fold d in Hsp.
  assert (H16 : 16 <= fuel0) by (unfold fuel0; lia).
  assert (Hu : unwritten R s1) by (intros x _; rewrite Hwr; reflexivity).
  assert (Hwl : forall q, wr_get (wr s1) q <> None -> In q L) by (intros q Hq; rewrite Hwr in Hq; now contradiction Hq).
  pose proof (RecCov_all d R L HCR Hz HkL fuel0 16 L b1 s1 ord (r, nx, s2, ord') (d_root st) m H16 Hfi
                (fun x Hx => Hx) Hu (wr_ok_nil L s1 Hwr) Hp0 Hpid HS HO HSX HOw HLk HfL Hwl HCv Hsp) as HP.
  cbn [CovPost] in HP. destruct HP as (alloc & dead & F1 & X12 & HLater).
  set (s3 := free_pages s2 (d_fl st) (d_fln st)) in *.
  pose proof (fr_fresh _ _ _ _ _ F1) as Hfi2.
  pose proof (free_pages_frame (alloc ++ L) s2 (d_fl st) (d_fln st) Hfi2) as G1. fold s3 in G1.
  assert (Hpos : (0 < 40 + 8 * llen (all_pages s3))%N) by lia.
  pose proof (fr_fresh _ _ _ _ _ G1) as Hfi3. cbn [app] in Hfi3.
  destruct (tx_allocate_frame (alloc ++ L) s3 _ flp fln s4 Hfi3 Hpos Hal) as [G2 _].
  pose proof (frame_trans _ _ _ _ _ _ _ _ G1 G2) as G4.
  unfold readable in Hrd. cbn [d_disk d_root] in Hrd. fold (later_disk d s4) in Hrd.
  destruct (HLater s4 _ _ G4 Hrd) as [Hfoot Hwrc].
  destruct (alloc_exact _ _ _ _ _ _ Hfi3 Hpos Hal) as [Hex1 Hex2].
  destruct (free_pages_fields s2 (d_fl st) (d_fln st)) as (E1 & E2 & _). fold s3 in E1, E2.
  unfold no_leak. cbn [d_np d_free d_pending]. unfold Rof, live_of. cbn [d_disk d_root d_fl d_fln].
  fold (later_disk d s4). set (d4 := later_disk d s4) in *.
  assert (Htree : forall x, InT d 16 s4 r x ->
            In x (flat_map (prun d4) (fpg 16 d4 r) ++ nrun flp fln)) by (intros x Hx; apply in_or_app; left; exact Hx).
  assert (Hfreed4 : forall x, freed_in_tx s4 x = true -> In x (pend_all (pending s4))) by (intros x Hx; now apply freed_pend).
  pose proof (frame_freed_mono _ _ _ _ _ G2) as Hf34.
  assert (Hacc2 : forall x, Acc s2 x ->
            In x (flat_map (prun d4) (fpg 16 d4 r) ++ nrun flp fln) \/ In x (free s4) \/ In x (pend_all (pending s4))).
  { intros x [Hx|[Hx|(q & v & Hq & Hx)]].
    - rewrite <- E1 in Hx. destruct (Hex1 x Hx) as [A|A]; [right; now left | left].
      apply in_or_app. right. now apply In_nrun.
    - right; right. apply (fr_pend _ _ _ _ _ G2). left. apply (fr_pend _ _ _ _ _ G1). now left.
    - destruct (Hwrc q v x Hq Hx) as [A|[A|A]].
      + exfalso. apply A. now rewrite Hwr.
      + right; right. now apply Hfreed4.
      + left. now apply Htree. }
  intros x Hx.
  destruct (N.lt_ge_cases x (np s1)) as [Hlt|Hge].
  - destruct (Hacc x ltac:(lia)) as [HxL|[Hxf|Hxp]].
    + unfold L, live_of in HxL. fold d R in HxL. apply in_app_or in HxL. destruct HxL as [HxL|HxL].
      * assert (Hxf : In x (foot d 16 (d_root st))).
        { unfold foot. destruct (N.eqb_spec (d_root st) 0); [contradiction | exact HxL]. }
        destruct (Hfoot x Hxf) as [A|A]; [right; right; now apply Hfreed4 | left; now apply Htree].
      * right; right. apply Hfreed4, Hf34. unfold s3. apply free_pages_freed. right. now apply In_nrun.
    + apply Hacc2. apply (xf_acc _ _ X12). now left.
    + apply Hacc2. apply (xf_acc _ _ X12). right. now left.
  - destruct (N.lt_ge_cases x (np s2)) as [Hlt2|Hge2].
    + apply Hacc2. apply (xf_new _ _ X12). lia.
    + left. apply in_or_app. right. apply In_nrun. apply Hex2. rewrite E2. lia.
Qed.

(* completeness of the overlay after rebalance: the operations establish [Cov], rebalance keeps it *)
Lemma tx_ready_cov : forall st ops ord st' root' s' b1 s1, db_okz st -> tx_ready st ops ord st' root' s' b1 s1 ->
  Cov (d_disk st) 16 s1 b1 (d_root st).
Proof.
  intros st ops ord st' root' s' b1 s1 [Hok' Hz] RD.
  pose proof (rd_fold _ _ _ _ _ _ _ _ RD) as Hf. pose proof (rd_reb _ _ _ _ _ _ _ _ RD) as Hrr.
  destruct (tx_ops_SDeep' st ops root' s' (proj1 Hok') Hf) as [f HSD].
  destruct (tx_fold_own st ops root' s' Hok' Hf) as (HO1 & _ & HI1 & Hb0).
  pose proof (tx_frees_pend_cur _ _ Hb0 (rd_frees _ _ _ _ _ _ _ _ RD)) as HPC1.
  exact (proj1 (rebalance_cov (d_disk st) fuel0 f 16 s' root' (d_root st) b1 s1 Hz HSD HO1 HI1 HPC1
                  (tx_fold_cov st ops root' s' Hok' Hf) Hrr)).
Qed.

Theorem run_tx_no_leak : forall st ops ord st', db_exact st -> Forall (op_ok (d_disk st)) ops ->
  run_tx st ops ord = Ok st' -> readable st' -> no_leak st'.
Proof.
  intros st ops ord st' [Hokz Hnl] Hops Hrun Hrd. pose proof Hokz as [Hok' Hz]. pose proof Hok' as (_ & _ & _ & Hpl).
  destruct (run_tx_ready st ops ord st' Hokz Hops Hrun) as (root' & s' & b1 & s1 & RD).
  pose proof (tx_ready_cov _ _ _ _ _ _ _ _ Hokz RD) as HCv.
  destruct RD as [_ Hrr Hc _ Hfi Hwr _ Efree Enp _ Hids _ Hp0 _ HS HO HSX HOwn HL].
  apply (commit_no_leak st root' s' ord st' b1 s1 _ Hok' Hz Hrr Hfi Hwr Hids Hp0 HS HO HSX HOwn HL HCv); [|exact Hc | exact Hrd].
  (* every page is accounted for when the spill starts *)
  intros x Hx. rewrite Efree. destruct (begin_w_fields st) as (_ & Enp0 & _).
  destruct (begin_w_accounted st Hpl Hnl x) as [A|A]; [rewrite Enp0, <- Enp; exact Hx | now left | right; now left].
Qed.

Theorem run_tx_exact : forall st ops ord st', db_exact st -> Forall (op_ok (d_disk st)) ops ->
  run_tx st ops ord = Ok st' -> readable st' -> db_exact st'.
Proof.
  intros st ops ord st' Hex Hops Hrun Hrd. split; [|eapply run_tx_no_leak; eauto].
  eapply run_tx_okz; eauto. exact (proj1 Hex).
Qed.

(* with the meaning equation *)
Theorem run_tx_exact_refines : forall st ops ord st', db_exact st -> Forall (op_ok (d_disk st)) ops ->
  run_tx st ops ord = Ok st' -> readable st' -> db_exact st' /\ abs_db st' = sem_tx ops (abs_db st).
Proof.
  intros st ops ord st' Hex Hops Hrun Hrd. split; [eapply run_tx_exact; eauto|].
  exact (proj2 (run_tx_refines' st ops ord st' (proj1 Hex) Hops Hrun Hrd)).
Qed.

Lemma init_db_exact : forall P, (0 < P)%N -> db_exact (init_db P).
Proof.
  intros P HP. split; [now apply init_db_okz|]. intros x Hx. cbn [d_np init_db] in Hx. left.
  unfold live_of, Rof. cbn [d_disk d_root d_fl d_fln init_db].
  assert (Hx' : x = 2%N \/ x = 3%N) by lia. destruct Hx' as [->| ->]; vm_compute; tauto.
Qed.

Corollary run_txs_exact : forall txs st st', db_exact st -> txs_ok' st txs -> run_txs st txs = Ok st' ->
  db_exact st' /\ abs_db st' = sem_txs txs (abs_db st).
Proof.
  induction txs as [|[ops ord] txs IH]; intros st st' Hex Htx H; cbn [run_txs sem_txs] in *.
  - inversion H; subst. auto.
  - apply bind_ok_inv in H. destruct H as (st1 & H1 & H2). destruct Htx as [Hops Hnext].
    destruct (Hnext st1 H1) as [Hrd Htx1].
    destruct (run_tx_exact_refines st ops ord st1 Hex Hops H1 Hrd) as [Hex1 E1].
    destruct (IH st1 st' Hex1 Htx1 H2) as [Hex' E']. split; [exact Hex'|]. now rewrite E', E1.
Qed.

Corollary run_txs_exact_init : forall P txs st', (0 < P)%N -> txs_ok' (init_db P) txs ->
  run_txs (init_db P) txs = Ok st' -> db_exact st' /\ abs_db st' = sem_txs txs (SBucket 0 0 []).
Proof. intros P txs st' HP Htx H. exact (run_txs_exact txs _ _ (init_db_exact P HP) Htx H). Qed.

Example init_db_4096_exact : db_exact (init_db 4096).
Proof. now apply init_db_exact. Qed.
(* [db_okz] alone does not exclude leaks: the hand-made state of Ex3 satisfies it, with the pages 4..9 unaccounted *)
Example ex3_db_leaks : db_okz Ex3.ex3_db /\ leaked Ex3.ex3_db = [4; 5; 6; 7; 8; 9]%N.
Proof. split; [exact ex3_db_okz | vm_compute; reflexivity]. Qed.
Example hist_exact : db_exact ExHistory.hist_st.
Proof. exact (proj1 (run_txs_exact_init 4096 ExHistory.hist ExHistory.hist_st eq_refl hist_ok' ExHistory.hist_run_ok)). Qed.

(* a third transaction deletes the bucket b (which holds the nested bucket m): the whole footprint is handed back
   (checked by computation; the theorem applies under [free_tree_ok], the termination side condition of [op_ok]) *)
Definition tx3 : list op * list bytes := ([DelB [] Ex3.kb; Put [] Ex3.ka [x09]], []).
Definition hist3 : list (list op * list bytes) := [ExHistory.tx1; ExHistory.tx2; tx3].
Definition hist3_run := Eval vm_compute in run_txs (init_db 4096) hist3.
Definition hist3_st : db := match hist3_run with Ok st => st | _ => init_db 4096 end.
Example hist3_run_ok : run_txs (init_db 4096) hist3 = Ok hist3_st.
Proof. vm_compute. reflexivity. Qed.
Example hist3_checked : no_leakb hist3_st = true /\ db_ok'b hist3_st = true.
Proof. vm_compute. split; reflexivity. Qed.
Example hist3_pending : pend_all (d_pending hist3_st) <> [].
Proof. vm_compute. discriminate. Qed.

(* [d_flids] (what the free-list page stores, and what the next open loads as free: [reopen_db]) is a permutation of
   the free and the pending ids; with [db_exact]: exactly the pages of [2, d_np) that are not live *)
Definition flids_ok (st : db) : Prop := Permutation (d_flids st) (d_free st ++ pend_all (d_pending st)).

Lemma commit_flids : forall st b s ord st', commit st b s ord = Ok st' -> flids_ok st'.
Proof.
  intros st b s ord st' H. pose proof H as Hr. unfold commit in Hr. apply bind_ok_inv in Hr. destruct Hr as ([b1 s1] & Hr & _).
  destruct (commit_ok_inv _ _ _ _ _ _ _ Hr H) as (r & nx & s2 & ord' & flp & fln & s4 & _ & _ & ->).
  exact (proj1 (EngineAllocFacts.engine_all_pages_perm s4)).
Qed.

Theorem run_tx_flids : forall st ops ord st', run_tx st ops ord = Ok st' -> flids_ok st'.
Proof.
  intros st ops ord st' H. rewrite run_tx_fold in H. apply bind_ok_inv in H. destruct H as ([rb s] & _ & H).
  eapply commit_flids; eauto.
Qed.

Lemma init_db_flids : forall P, flids_ok (init_db P).
Proof. intros P. unfold flids_ok. cbn. constructor. Qed.

(* the full statement: each page of [2, d_np) is accounted for exactly once, and the recorded ids are the
   non-live ones *)
Definition db_exact_rec (st : db) : Prop := db_exact st /\ flids_ok st.

Theorem run_tx_exact_rec : forall st ops ord st', db_exact st -> Forall (op_ok (d_disk st)) ops ->
  run_tx st ops ord = Ok st' -> readable st' -> db_exact_rec st'.
Proof.
  intros st ops ord st' Hex Hops Hrun Hrd. split; [eapply run_tx_exact; eauto | eapply run_tx_flids; eauto].
Qed.

(* the recorded ids are exactly the page ids of [2, d_np) that are not live *)
Corollary flids_exact : forall st, db_exact_rec st ->
  forall x, In x (d_flids st) <-> ((2 <= x < d_np st)%N /\ ~ In x (live_of st (Rof st))).
Proof.
  intros st [[[(_ & HA & _) _] Hnl] Hp] x. destruct HA as (_ & _ & _ & Hge & Hlt & Hpd & _ & _ & Hlive).
  split.
  - intros Hx. apply (Permutation_in _ Hp) in Hx. apply in_app_or in Hx. split.
    + destruct Hx as [Hx|Hx].
      * unfold FreelistFacts.ge2 in Hge. rewrite Forall_forall in Hge. specialize (Hge x Hx). specialize (Hlt x Hx). lia.
      * rewrite Forall_forall in Hpd. exact (Hpd x Hx).
    + intros Hl. destruct (Hlive x Hl) as (_ & A & B). destruct Hx; contradiction.
  - intros [Hr Hn]. apply (Permutation_in _ (Permutation_sym Hp)). apply in_or_app.
    destruct (Hnl x Hr) as [A|[A|A]]; [contradiction | now left | now right].
Qed.

Print Assumptions run_tx_no_leak.
Print Assumptions run_tx_exact.
Print Assumptions run_tx_exact_refines.
Print Assumptions init_db_exact.
Print Assumptions run_txs_exact_init.
Print Assumptions hist_exact.
Print Assumptions run_tx_exact_rec.
Print Assumptions flids_exact.
