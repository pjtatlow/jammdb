(* Spill and commit re-establish the allocation invariant of the committed state. On the disk built from any later
   write set of the transaction, the tree [spill_bucket] returns consists of page runs written for heads it allocated
   and of kept committed pages, no page twice, none handed back ([TreeOK], [OwnW]). This rests on [wr_ok] / [pend_ok0] /
   [pend_ids_ok] (EngineOwnWr, taken here as the hypotheses [W1a] .. [W1d]), on the ownership invariant [OwnI] after
   rebalance, and on two premises that [OwnI] does not provide: no page 0 on the committed disk, and the link
   invariant [Lnk]. *)
From Coq Require Import List NArith Bool Arith Lia ZifyN ZifyNat ZifyBool Permutation.
From Coq.Strings Require Import Byte.
From Jamm Require Spec.
From Jamm Require Import ListFacts Bytes BytesFacts Tree Cursor SearchFacts Engine EngineAbs EngineFacts EngineMergeFacts.
From Jamm Require Import EngineModifyFacts EngineSpillFacts EnginePathFacts EngineBridgeFacts EngineRebalanceFacts.
From Jamm Require FreelistFacts EngineAllocFacts EngineSpillWfFacts.
From Jamm Require Import EngineTxInvFacts EngineSpillBucketFacts EngineRefines.
From Jamm Require Import EngineOwnDefs EngineOwnWr EngineOwnOps EngineOwnReb.
Import ListNotations.
Import Coq.Strings.String.StringSyntax. Delimit Scope string_scope with string.
Local Open Scope list_scope. Local Open Scope nat_scope.
Set Warnings "-abstract-large-number".

Notation disj := EngineSpillWfFacts.disj.
Notation swfh := EngineSpillWfFacts.swfh.
Notation upages := EngineSpillWfFacts.upages.

(** * Lists *)

Lemma NoDup_nrun : forall p n, NoDup (nrun p n).
Proof.
  intros p n. unfold nrun. apply FinFun.Injective_map_NoDup; [|apply seq_NoDup].
  intros a b H. lia.
Qed.

Lemma NoDup_prun : forall d q, NoDup (prun d q).
Proof.
  intros d q. unfold prun. destruct (dget d q); [apply NoDup_nrun|]. constructor; [intros []|constructor].
Qed.

Lemma NoDup_wrun : forall P q v, NoDup (wrun P q v).
Proof. intros. unfold wrun. apply NoDup_nrun. Qed.

(* the runs of a list of heads without repetition whose runs do not overlap *)
Lemma NoDup_runs_intro : forall d ps, NoDup ps ->
  (forall x y, In x ps -> In y ps -> x <> y -> disj (prun d x) (prun d y)) -> NoDup (runs d ps).
Proof.
  intros d ps Hnd Hd. unfold runs. apply ListFacts.NoDup_flat_map_intro; [exact Hnd| |exact Hd].
  intros x _. apply NoDup_prun.
Qed.

Lemma NoDup_runs_heads : forall d ps, NoDup (runs d ps) -> NoDup ps.
Proof.
  intros d. induction ps as [|a ps IH]; intros H; [constructor|]. unfold runs in H. cbn [flat_map] in H.
  apply ListFacts.NoDup_app_iff in H. destruct H as (_ & H2 & H3). constructor; [|now apply IH].
  intros Ha. apply (H3 a (In_prun_self d a)). apply in_flat_map. exists a. split; [exact Ha | apply In_prun_self].
Qed.

Lemma NoDup_runs_disj : forall d ps x y, NoDup (runs d ps) -> In x ps -> In y ps -> x <> y ->
  disj (prun d x) (prun d y).
Proof. intros d ps x y H. exact (ListFacts.NoDup_flat_map_disj _ _ x y H). Qed.

Lemma runs_incl : forall d ps qs, incl ps qs -> incl (runs d ps) (runs d qs).
Proof.
  intros d ps qs H x Hx. apply In_runs in Hx. destruct Hx as (q & Hq & Hx). apply In_runs. exists q. auto.
Qed.

Lemma disj_sym : forall {A} (a b : list A), disj a b -> disj b a.
Proof. intros A a b H x Hb Ha. exact (H x Ha Hb). Qed.

(** * The restricted disk; the pages of the new tree are written or kept *)

Definition restrict (keep : list N) (d : disk) : disk := filter (fun x => memb (fst x) keep) d.

Lemma dget_restrict : forall keep d x,
  dget (restrict keep d) x = if memb x keep then dget d x else None.
Proof.
  intros keep d x. unfold dget, restrict. induction d as [|[p a] d IH]; cbn [filter find fst].
  - destruct (memb x keep); reflexivity.
  - destruct (memb p keep) eqn:Em; cbn [find fst].
    + destruct (N.eqb_spec p x) as [E|E]; [subst p; rewrite Em; reflexivity | exact IH].
    + destruct (N.eqb_spec p x) as [E|E]; [subst p; rewrite Em in *; exact IH | exact IH].
Qed.

Lemma dget_restrict_keep : forall keep d x, In x keep -> dget (restrict keep d) x = dget d x.
Proof. intros keep d x H. rewrite dget_restrict. apply memb_In in H. now rewrite H. Qed.

(* a later disk built on the restricted disk: a present page is written or kept, and the full disk agrees *)
Lemma dget_apply_restrict : forall w P keep d x a,
  dget (apply_wr w P (restrict keep d)) x = Some a ->
  dget (apply_wr w P d) x = Some a /\ (wr_get w x <> None \/ In x keep).
Proof.
  intros w P keep d x a H. rewrite dget_apply_wr in *. destruct (wr_get w x) as [v|] eqn:Ew.
  - split; [exact H | left; discriminate].
  - rewrite dget_restrict in H. destruct (memb x keep) eqn:Em; [|discriminate].
    split; [exact H | right; now apply memb_In].
Qed.

Lemma PInv_subtree_present : forall h d lo hi ok q, PInv h d lo hi ok q ->
  forall x, in_subtree d q x -> exists a, dget d x = Some a.
Proof.
  induction h as [|h IH]; intros d lo hi ok q H x Hx; [destruct H|]. cbn [PInv] in H.
  destruct H as (a & Hg & _ & Hb). inversion Hx as [|? a' es e ? Hg' Hb' He Hsub]; subst; [eauto|].
  rewrite Hg in Hg'. inversion Hg'; subst a'. rewrite Hb' in Hb. destruct Hb as (_ & _ & _ & _ & HC).
  destruct (Forall2_In_l _ _ _ _ HC He) as (b & _ & HP). eapply IH; eauto.
Qed.

Section Transfer.
Variables (d d' : disk) (keep : list N).
Hypothesis Hkeep : forall x, In x keep -> dget d' x = dget d x.

Lemma stable_transfer : forall f q, stable f d keep q -> stable f d' keep q.
Proof.
  induction f as [|f IH]; intros q H; [destruct H|]. cbn [stable] in *. destruct H as [Hq H]. split; [exact Hq|].
  rewrite (Hkeep q Hq). destruct (dget d q) as [a|]; [|exact I]. destruct (ap_body a) as [l|es]; [exact I|].
  intros e He. apply IH, H, He.
Qed.

Lemma page_leaves_stable : forall f q, stable f d keep q -> page_leaves f d' q = page_leaves f d q.
Proof.
  induction f as [|f IH]; intros q H; [reflexivity|]. cbn [stable] in H. destruct H as [Hq H].
  cbn [page_leaves]. rewrite (Hkeep q Hq). destruct (dget d q) as [a|]; [|reflexivity].
  destruct (ap_body a) as [l|es]; [reflexivity|]. apply ListFacts.flat_map_ext_in. intros e He. apply IH, H, He.
Qed.

Lemma swfh_transfer : forall fuel h lo hi n, swfh fuel d keep h lo hi n ->
  swfh fuel d' keep h lo hi n /\ upages h d' n = upages h d n /\ view_leaves fuel d' n = view_leaves fuel d n.
Proof.
  intros fuel h lo hi n H.
  induction H as [h lo hi pg npg o sq l Hk | h lo hi pg npg o sq es kids Hk H1 H2 H3 H4 IH4 H5].
  - split; [now apply EngineSpillWfFacts.swfh_leaf|]. split; reflexivity.
  - split; [|split].
    + apply EngineSpillWfFacts.swfh_branch; try assumption.
      * intros l hh e kd Hi Hf. apply (IH4 l hh e kd Hi Hf).
      * intros l hh e Hi Hf. destruct (H5 l hh e Hi Hf) as [A B]. split; [now apply stable_transfer|].
        eapply EngineSpillWfFacts.PInv_apply_wr_keep; eauto.
    + cbn [upages]. apply ListFacts.flat_map_ext_in. intros e He.
      destruct (chb_In lo hi es e He) as (l & hh & Hi). destruct (find_kid (snd e) kids) as [kd|] eqn:Hf.
      * apply (IH4 l hh e kd Hi Hf).
      * destruct (H5 l hh e Hi Hf) as [A _]. f_equal. eapply EngineSpillWfFacts.ppages_keep; eauto.
    + rewrite !view_leaves_eq. cbn [n_data n_kids]. apply ListFacts.flat_map_ext_in. intros e He.
      destruct (chb_In lo hi es e He) as (l & hh & Hi). unfold child_view.
      destruct (find_kid (snd e) kids) as [kd|] eqn:Hf.
      * apply (IH4 l hh e kd Hi Hf).
      * destruct (H5 l hh e Hi Hf) as [A _]. now apply page_leaves_stable.
Qed.
End Transfer.

(* [spill_root_wf], and: a page of the new tree is a kept page, or a page of [good] that is WRITTEN *)
Theorem spill_root_wfw : forall fuel d keep live f n s p s' h,
  fresh_inv live s -> (forall x, In x keep -> In x live) ->
  swfh fuel d keep h None None n -> NoDup (upages h d n) ->
  spill_root f n s = Ok (p, s') ->
  exists alloc dead good lv,
    frame live s s' alloc dead /\ (forall q, In q good -> In q alloc) /\ In p good /\
    (forall x, old_run n x -> In x dead) /\
    (forall L, (forall x, In x L -> In x live) -> old_in L n ->
       forall x, In x dead -> (In x L \/ In x alloc) /\ ~ In x good) /\
    forall w' P, wr_agree good (wr s') w' -> (forall x, In x keep -> wr_get w' x = None) ->
      let d' := apply_wr w' P d in let H := (lv + h)%nat in
      PInv H d' None None None p /\ NoDup (p :: ppages H d' p) /\
      (forall x, In x (p :: ppages H d' p) -> (In x good /\ wr_get w' x <> None) \/ In x (upages h d n)) /\
      PageView d' H p (view_leaves fuel d n).
Proof.
  intros fuel d keep live f n s p s' h Hfi Hkl Hsw Hnd Hsp.
  set (d0 := restrict keep d).
  assert (Hk0 : forall x, In x keep -> dget d0 x = dget d x) by (intros x Hx; now apply dget_restrict_keep).
  destruct (swfh_transfer d d0 keep Hk0 fuel h None None n Hsw) as (Hsw0 & Eu & Ev).
  rewrite <- Eu in Hnd.
  destruct (EngineSpillWfFacts.spill_root_wf fuel d0 keep live f n s p s' h Hfi Hkl Hsw0 Hnd Hsp)
    as (alloc & dead & good & lv & F1 & F2 & F3 & _ & F5 & F6 & F7).
  exists alloc, dead, good, lv. repeat (split; [assumption|]).
  intros w' P Hag Hun. cbv zeta. destruct (F7 w' P Hag Hun) as (_ & R1 & R2 & R3 & _ & R5). cbv zeta in *.
  set (d0' := apply_wr w' P d0) in *. set (d' := apply_wr w' P d).
  assert (Hagree : forall x, in_subtree d0' p x -> dget d' x = dget d0' x).
  { intros x Hx. destruct (PInv_subtree_present _ _ _ _ _ _ R1 x Hx) as [a Ha]. rewrite Ha.
    exact (proj1 (dget_apply_restrict w' P keep d x a Ha)). }
  assert (Epp : ppages (lv + h) d' p = ppages (lv + h) d0' p) by (now apply ppages_transfer).
  split; [eapply PInv_transfer; eauto|]. rewrite Epp. split; [exact R2|]. split.
  - intros x Hx. destruct (R3 x Hx) as [Hg|Hu]; [|right; rewrite <- Eu; exact Hu]. left. split; [exact Hg|].
    assert (Hsub : in_subtree d0' p x).
    { destruct Hx as [<-|Hx]; [apply ist_self | eapply ppages_subtree; eauto]. }
    destruct (PInv_subtree_present _ _ _ _ _ _ R1 x Hsub) as [a Ha].
    destruct (proj2 (dget_apply_restrict w' P keep d x a Ha)) as [Hw|Hk]; [exact Hw|]. exfalso.
    apply (frame_new _ _ _ _ _ x Hfi F1 (F2 x Hg)). apply Hkl, Hk.
  - rewrite <- Ev. eapply PageView_transfer; eauto.
Qed.

(* the empty root: one written empty leaf page *)
Lemma spill_root_empty_w : forall live f n s p s', fresh_inv live s -> n_data n = Leaves [] ->
  spill_root f n s = Ok (p, s') ->
  exists np v, frame live s s' (nrun p np) (old_pages n) /\ (0 < np)%N /\ wr_get (wr s') p = Some v /\ snd v = Leaves [].
Proof.
  intros live f n s p s' Hfi Hn H. destruct f as [|f]; [discriminate|]. cbn [spill_root] in H.
  rewrite Hn in H. destruct (write_node s (set_kids n [])) as [n1 s1] eqn:Hw. cbn [bind] in H.
  inversion H; subst p s'. clear H.
  destruct (write_node_frame _ _ _ _ _ Hfi Hw) as (Hfr & _ & _ & Hk0 & _ & Hget).
  assert (Ed : n_data (set_kids n []) = Leaves []) by (destruct n; exact Hn). rewrite Ed in Hget.
  assert (Eo : old_pages (set_kids n []) = old_pages n) by (destruct n; reflexivity). rewrite Eo in Hfr.
  exists (n_np n1), (node_size (set_kids n []), Leaves []). auto.
Qed.

(** * Footprints on later disks *)

Lemma page_ents_transfer : forall d d' f q, (forall x, in_subtree d q x -> dget d' x = dget d x) ->
  page_ents f d' q = page_ents f d q.
Proof.
  intros d d'. induction f as [|f IH]; intros q Hk; [reflexivity|]. cbn [page_ents].
  rewrite (Hk q (ist_self d q)). destruct (dget d q) as [a|] eqn:Hg; [|reflexivity].
  destruct (ap_body a) as [l|es] eqn:Eb; [reflexivity|]. apply ListFacts.flat_map_ext_in. intros e He.
  apply IH. intros x Hx. apply Hk. eapply ist_kid; eauto.
Qed.

Lemma page_ents_closed : forall d R, closedR d R -> forall f q k r nx, In q R ->
  In (LBk k r nx) (page_ents f d q) -> In r R.
Proof.
  intros d R HC. induction f as [|f IH]; intros q k r nx Hq H; [destruct H|]. cbn [page_ents] in H.
  destruct (dget d q) as [a|] eqn:Hg; [|destruct H]. specialize (HC q a Hq Hg).
  destruct (ap_body a) as [l|es]; [eapply HC; eauto|]. apply in_flat_map in H. destruct H as (e & He & H).
  eapply IH; [apply HC, He | exact H].
Qed.

Lemma page_ents_zero : forall d f, dget d 0%N = None -> page_ents f d 0%N = [].
Proof. intros d [|f] H; [reflexivity|]. cbn [page_ents]. now rewrite H. Qed.

Lemma runs_transfer : forall d d' ps, (forall x, In x ps -> dget d' x = dget d x) -> runs d' ps = runs d ps.
Proof.
  intros d d' ps H. unfold runs. apply ListFacts.flat_map_ext_in. intros q Hq. unfold prun. now rewrite (H q Hq).
Qed.

Section Kept.
Variables (d d' : disk) (keep : list N).
Hypothesis HC : closedR d keep.
Hypothesis Hag : forall x, In x keep -> dget d' x = dget d x.

Lemma fpg_incl_keep : forall n r, In r keep -> incl (fpg n d r) keep.
Proof.
  induction n as [|n IH]; intros r Hr x Hx; [destruct Hx|]. rewrite fpg_S in Hx. apply in_app_or in Hx.
  destruct Hx as [[<-|Hx]|Hx]; [exact Hr | eapply closed_ppages; eauto |].
  apply in_flat_map in Hx. destruct Hx as ([k v|k r' nx] & He & Hx); [destruct Hx|].
  eapply IH; [|exact Hx]. eapply page_ents_closed; eauto.
Qed.

Lemma fpg_kept : forall n r, In r keep -> fpg n d' r = fpg n d r.
Proof.
  induction n as [|n IH]; intros r Hr; [reflexivity|]. rewrite !fpg_S.
  assert (Hsub : forall x, in_subtree d r x -> dget d' x = dget d x).
  { intros x Hx. apply Hag. eapply closed_subtree; eauto. }
  rewrite (ppages_transfer d d' fuel0 r Hsub), (page_ents_transfer d d' fuel0 r Hsub). f_equal.
  apply ListFacts.flat_map_ext_in. intros [k v|k r' nx] He; [reflexivity|]. apply IH.
  eapply page_ents_closed; eauto.
Qed.

Lemma runs_fpg_kept : forall n r, In r keep -> runs d' (fpg n d' r) = runs d (fpg n d r).
Proof.
  intros n r Hr. rewrite (fpg_kept n r Hr). apply runs_transfer. intros x Hx. apply Hag. eapply fpg_incl_keep; eauto.
Qed.
End Kept.

Lemma sbk_nz : forall d n r, dget d 0%N = None -> sbk n d r -> r <> 0%N.
Proof.
  intros d [|n] r Hz H; [destruct H|]. cbn [sbk] in H. destruct H as (h & l & _ & HP & _).
  destruct h as [|h]; [destruct HP|]. cbn [PInv] in HP. destruct HP as (a & Hg & _). intros ->. congruence.
Qed.

Lemma foot_split : forall d n r0, dget d 0%N = None -> sbk (S n) d r0 ->
  foot d (S n) r0 = region d r0 ++ flat_map (efoot d n) (page_ents fuel0 d r0).
Proof.
  intros d n r0 Hz H. rewrite (foot_S_gen d n r0 (sbk_nz _ _ _ Hz H)). f_equal. apply ListFacts.flat_map_ext_in.
  destruct (sbk_inv _ _ _ H) as (_ & _ & _ & _ & _ & _ & HF). rewrite Forall_forall in HF.
  intros [k v|k r nx] He; [reflexivity|]. symmetry. apply foot_nz. exact (sbk_nz _ _ _ Hz (HF _ He)).
Qed.

(* [foot_entries] for the entries of an [OwnI] bucket: without page 0, a created bucket has no committed entry *)
Lemma own_entries : forall d n r0 (l : list leafent), dget d 0%N = None -> NoDup (foot d (S n) r0) ->
  (forall k r nx, In (LBk k r nx) l -> r = 0%N \/ In (LBk k r nx) (page_ents fuel0 d r0)) ->
  NoDup (region d r0) /\
  (forall e, In e l -> incl (efoot d n e) (foot d (S n) r0) /\ NoDup (efoot d n e) /\ disj (region d r0) (efoot d n e)) /\
  (forall e1 e2, In e1 l -> In e2 l -> lkey e1 <> lkey e2 -> disj (efoot d n e1) (efoot d n e2)).
Proof.
  intros d n r0 l Hz Hnd Hent. apply foot_entries; [exact Hnd|]. intros k r nx He.
  destruct (Hent k r nx He) as [->|Hin]; [now left | right]. split; [|exact Hin].
  intros ->. now rewrite (page_ents_zero d fuel0 Hz) in Hin.
Qed.

(** * [OwnI] at later states; the link invariant; clean buckets *)

(* the ownership invariant only speaks about the freed pages inside the footprint *)
Lemma OwnI_later : forall d, dget d 0%N = None -> forall n s s' b r0, OwnI d n s b r0 ->
  (forall x, In x (foot d n r0) -> freed_in_tx s' x = true -> freed_in_tx s x = true) -> OwnI d n s' b r0.
Proof. intros d Hz. exact (own_frame d (zero_ok_missing d Hz)). Qed.

(* an untouched bucket is the copy of the committed bucket its entry names, and so is everything opened below *)
Fixpoint Lnk (d : disk) (n : nat) (b : bucket) (r0 : N) : Prop :=
  match n with
  | O => True
  | S n' =>
      (b_dirty b = false -> b_rootn b = None /\ b_root_page b = r0) /\
      forall k sb, In (k, sb) (b_subs b) -> forall l r nx, bucket_view d b l -> In (LBk k r nx) l -> Lnk d n' sb r
  end.

Lemma bown_unloaded : forall d b, b_rootn b = None -> b_root_page b <> 0%N -> bown d b = region d (b_root_page b).
Proof.
  intros d b E Hr. unfold bown, bheads, region. rewrite E. destruct (N.eqb_spec (b_root_page b) 0); [contradiction | reflexivity].
Qed.

Lemma clean_foot : forall d, dget d 0%N = None -> forall n j b r0 s, n <= j -> is_dirty j b = false ->
  OwnI d n s b r0 -> Lnk d n b r0 ->
  b_rootn b = None /\ b_root_page b = r0 /\ forall x, In x (foot d n r0) -> freed_in_tx s x = false.
Proof.
  intros d Hz. induction n as [|n IH]; intros j b r0 s Hj Hd HO HL; [destruct HO|].
  destruct j as [|j]; [lia|]. rewrite is_dirty_S in Hd. apply orb_false_iff in Hd. destruct Hd as [Hd1 Hd2].
  cbn [OwnI] in HO. destruct HO as (Hr & Hnd & _ & l & Hv & _ & Hb & _ & Hu & Hs).
  cbn [Lnk] in HL. destruct HL as [HL1 HL2]. destruct (HL1 Hd1) as [En Ep]. split; [exact En|]. split; [exact Ep|].
  destruct Hr as [->|Hsb]; [rewrite foot_zero; intros x []|].
  pose proof (sbk_nz d _ r0 Hz Hsb) as Hnz. rewrite (foot_split d n r0 Hz Hsb).
  assert (El : page_ents fuel0 d r0 = l).
  { destruct Hv as (h & Hh & HV). unfold BucketView in HV. rewrite En, Ep in HV. eapply PageView_page_ents; eauto. }
  assert (Hsorted : sorted_keys (map lkey l) = true).
  { cbn [sbk] in Hsb. destruct Hsb as (h & l' & Hh & HP & _ & HV & _).
    rewrite <- El, (PageView_page_ents _ _ _ _ HV fuel0 Hh). eapply wf_page_sorted; [eapply PInv_wf_page; eauto | exact HV]. }
  intros x Hx. apply in_app_or in Hx. destruct Hx as [Hx|Hx].
  - apply Hb. rewrite bown_unloaded; [rewrite Ep; exact Hx | exact En | now rewrite Ep].
  - apply in_flat_map in Hx. destruct Hx as ([k v|k r nx] & He & Hx); [destruct Hx|]. cbn [efoot] in Hx. rewrite El in He.
    destruct (sub_find k (b_subs b)) as [sb|] eqn:Hsf; [|eapply Hu; eauto].
    pose proof (sub_find_In _ _ _ Hsf) as Hin. destruct (Hs k sb Hin) as (r' & nx' & Hl' & Ho).
    assert (E : LBk k r' nx' = LBk k r nx) by (eapply same_key_same_entry; eauto). inversion E; subst r' nx'.
    assert (Hds : is_dirty j sb = false).
    { destruct (is_dirty j sb) eqn:E1; [|reflexivity].
      assert (existsb (fun y => is_dirty j (snd y)) (b_subs b) = true) by (apply existsb_exists; exists (k, sb); auto). congruence. }
    destruct (IH j sb r s ltac:(lia) Hds Ho (HL2 k sb Hin l r nx Hv He)) as (_ & _ & Hf). apply Hf, Hx.
Qed.

(** * The materialised pages of the overlay; [pg_ok] and [bheads] through the parent updates *)

(* the pages the materialised nodes at and below n were read from *)
Fixpoint mpages (n : node) : list N :=
  match n with Node p _ _ _ _ ks => (if (p =? 0)%N then [] else [p]) ++ flat_map mpages ks end.

Lemma mpages_eq : forall n, mpages n = (if (n_page n =? 0)%N then [] else [n_page n]) ++ flat_map mpages (n_kids n).
Proof. intros [p np o s dd ks]. reflexivity. Qed.

(* the page runs the spill of n frees are the runs of its materialised pages on the committed disk *)
Lemma old_in_runs : forall d n, pg_ok d n -> forall L, incl (runs d (mpages n)) L -> old_in L n.
Proof.
  intros d n H. induction H as [n Hp _ IH]. intros L HL. apply old_in_node.
  - intros x [Hnz Hx]. destruct (Hp Hnz) as (a & Hg & Enp). apply HL. apply In_runs. exists (n_page n). split.
    + rewrite mpages_eq. apply in_or_app. left. destruct (N.eqb_spec (n_page n) 0); [contradiction | now left].
    + unfold prun. rewrite Hg, <- Enp. apply In_nrun. exact Hx.
  - intros k Hk. apply (IH k Hk). intros x Hx. apply HL. apply In_runs in Hx. destruct Hx as (q & Hq & Hx).
    apply In_runs. exists q. split; [|exact Hx]. rewrite mpages_eq. apply in_or_app. right. apply in_flat_map. eauto.
Qed.

(* the root page a bucket's tree was (or will be) read from *)
Definition root_pg (b : bucket) : N := match b_rootn b with Some n => n_page n | None => b_root_page b end.

Lemma b_modify_root : forall d keep h b o s b' s', SRoot d keep h b -> bpg_ok d b ->
  b_modify d b o s = Ok (b', s') ->
  exists n', b_rootn b' = Some n' /\ pg_ok d n' /\ n_page n' = root_pg b.
Proof.
  intros d keep h b o s b' s' HS Hp H. unfold b_modify in H.
  apply bind_ok_inv in H. destruct H as ([root s0] & Er & H).
  apply bind_ok_inv in H. destruct H as ([n' s1] & Em & H). inversion H; subst b' s'. clear H.
  exists n'. cbn [b_rootn]. split; [reflexivity|]. unfold SRoot, ensure_root, bpg_ok, root_pg in *.
  destruct (b_rootn b) as [n|].
  - inversion Er; subst root s0. destruct HS as [HI _]. split; [eapply modify_pg_ok; eauto|].
    exact (proj2 (modify_npages _ _ _ _ _ _ _ _ _ _ _ HI Em)).
  - destruct HS as [HP _]. destruct (dget d (b_root_page b)) as [a|] eqn:Hg; [|discriminate].
    cbn [next_seq] in Er. inversion Er; subst root s0.
    pose proof (node_of_page_Inv _ _ _ _ _ _ _ (seqc s) Hg HP) as I0.
    split; [eapply modify_pg_ok; [apply pg_ok_node_of_page; eauto | eauto]|].
    exact (proj2 (modify_npages _ _ _ _ _ _ _ _ _ _ _ I0 Em)).
Qed.

(* the head pages at the height of the invariant *)
Lemma bheads_bpg : forall d keep h b, SRoot d keep h b -> h <= fuel0 ->
  bheads d b = match b_rootn b with
               | Some n => (if (n_page n =? 0)%N then [] else [n_page n]) ++ bpg h d b
               | None => b_root_page b :: bpg h d b end.
Proof.
  intros d keep h b HS Hh. unfold bheads, bpg, SRoot in *. destruct (b_rootn b) as [n|].
  - destruct HS as [HI _]. now rewrite (npages_stable _ _ _ _ _ _ HI fuel0 Hh).
  - destruct HS as [HP _]. now rewrite (ppages_stable _ _ _ _ _ _ HP fuel0 Hh).
Qed.

Lemma meta_step_heads : forall d keep h bb l s0 nm r nx r0 nx0 b' s',
  SRoot d keep h bb -> BucketView d h bb l -> h <= fuel0 -> In (LBk nm r0 nx0) l ->
  bpg_ok d bb -> (b_rootn bb = None -> b_root_page bb <> 0%N) ->
  meta_step d (bb, s0) (nm, r, nx) = Ok (b', s') ->
  bheads d b' = bheads d bb /\ bpg_ok d b' /\ root_pg b' = root_pg bb.
Proof.
  intros d keep h bb l s0 nm r nx r0 nx0 b' s' HS HV Hh Hin Hp Hnz H.
  destruct (meta_step_replace d keep h bb l s0 nm r nx r0 nx0 b' s' HS HV Hh Hin H) as (A1 & _).
  pose proof (meta_step_bpg d keep h bb s0 (nm, r, nx) b' s' HS H) as Eb.
  assert (Hroot : exists n', b_rootn b' = Some n' /\ pg_ok d n' /\ n_page n' = root_pg bb).
  { unfold meta_step in H. apply bind_ok_inv in H. destruct H as (cur & _ & H). destruct cur as [e|].
    - destruct (is_kv e); [discriminate|]. eapply b_modify_root; eauto.
    - apply bind_ok_inv in H. destruct H as ([b2 s2] & Hm & H). inversion H; subst b' s'. cbn [b_rootn].
      eapply b_modify_root; eauto. }
  destruct Hroot as (n' & En & Hpn & Epg).
  rewrite (bheads_bpg d keep h b' A1 Hh), (bheads_bpg d keep h bb HS Hh), En, Eb, Epg.
  split; [|split; [unfold bpg_ok; rewrite En; exact Hpn | unfold root_pg at 1; rewrite En; exact Epg]].
  unfold root_pg in *. destruct (b_rootn bb) as [n|]; [reflexivity|].
  destruct (N.eqb_spec (b_root_page bb) 0) as [E|E]; [exfalso; now apply Hnz | reflexivity].
Qed.

Lemma meta_fold_heads : forall d keep h (ms : list meta) bb l s0 b1 s2,
  SRoot d keep h bb -> BucketView d h bb l -> h <= fuel0 -> NoDup (map m_name ms) ->
  (forall m, In m ms -> exists r0 nx0, In (LBk (m_name m) r0 nx0) l) ->
  bpg_ok d bb -> (b_rootn bb = None -> b_root_page bb <> 0%N) ->
  fold_res (meta_step d) ms (bb, s0) = Ok (b1, s2) ->
  bheads d b1 = bheads d bb /\ bpg_ok d b1 /\ root_pg b1 = root_pg bb.
Proof.
  intros d keep h. induction ms as [|[[nm r] nx] ms IH]; intros bb l s0 b1 s2 HS HV Hh Hnd Hall Hp Hnz H.
  - cbn [fold_res] in H. inversion H; subst. auto.
  - cbn [fold_res] in H. apply bind_ok_inv in H. destruct H as ([b' s'] & Est & H).
    cbn [map] in Hnd. inversion Hnd as [|? ? Hni Hnd']; subst.
    destruct (Hall _ (or_introl eq_refl)) as (r0 & nx0 & Hin). cbn [m_name fst] in Hin.
    destruct (meta_step_replace d keep h bb l s0 nm r nx r0 nx0 b' s' HS HV Hh Hin Est) as (A1 & A2 & [n' A3] & _).
    destruct (meta_step_heads d keep h bb l s0 nm r nx r0 nx0 b' s' HS HV Hh Hin Hp Hnz Est) as (C1 & C2 & C3).
    rewrite <- C1, <- C3. apply (IH b' _ s' b1 s2 A1 A2 Hh Hnd'); [|exact C2|congruence|exact H].
    intros m Hm. destruct (Hall m (or_intror Hm)) as (r1 & nx1 & Hin1). exists r1, nx1.
    apply (in_map (patch [(nm, r, nx)])) in Hin1. rewrite patch_other in Hin1; [exact Hin1|].
    cbn [lkey]. intros E. apply Hni. rewrite <- E. apply (in_map m_name _ _ Hm).
Qed.

(* the pages of the materialised kids are named pages, and they are not among the kept pages *)
Lemma kmpages_sep : forall h d z lo hi n, Inv h d z lo hi n -> EngineSpillWfFacts.shape_ok n -> NoDup (npages h d n) ->
  incl (flat_map mpages (n_kids n)) (npages h d n) /\ disj (flat_map mpages (n_kids n)) (upages h d n).
Proof.
  induction h as [|h IH]; intros d z lo hi n HI Hsh Hnd; [destruct HI|].
  destruct n as [p np o s [l|es] ks].
  { inversion Hsh; subst. cbn [n_kids flat_map]. split; [intros x []| intros x []]. }
  inversion Hsh as [|? ? ? ? ? ? Hshk]; subst. rewrite Inv_branch_eq in HI.
  destruct HI as (_ & _ & Hnds & _ & [Lnd LF] & HC). rewrite npages_branch_eq in *.
  apply ListFacts.NoDup_app_iff in Hnd. destruct Hnd as (Na & Nb & Nc). cbn [n_kids].
  rewrite Forall_forall in LF.
  assert (Hkid : forall kd, In kd ks -> exists key, In (key, n_page kd) es /\ find_kid (n_page kd) ks = Some kd /\
                   cpages h d ks (n_page kd) = npages h d kd /\
                   incl (flat_map mpages (n_kids kd)) (npages h d kd) /\
                   disj (flat_map mpages (n_kids kd)) (upages h d kd)).
  { intros kd Hkd. destruct (LF kd Hkd) as (key & Hin & _). exists key. split; [exact Hin|].
    pose proof (find_kid_NoDup _ _ Lnd Hkd) as Hf. split; [exact Hf|].
    assert (Ec : cpages h d ks (n_page kd) = npages h d kd) by (unfold cpages; now rewrite Hf). split; [exact Ec|].
    destruct (Forall2_In_l _ _ _ _ HC Hin) as (b & _ & Hc). unfold CInv in Hc. cbn [snd] in Hc. rewrite Hf in Hc.
    apply (IH d false (fst b) (snd b) kd Hc (Hshk kd Hkd)). rewrite <- Ec.
    apply (ListFacts.NoDup_flat_map_elim (fun e => cpages h d ks (snd e)) es (key, n_page kd) Nb Hin). }
  assert (Hloc : forall kd x, In kd ks -> In x (mpages kd) -> x = n_page kd \/ In x (npages h d kd)).
  { intros kd x Hkd Hx. rewrite mpages_eq in Hx. apply in_app_or in Hx. destruct Hx as [Hx|Hx].
    - destruct (n_page kd =? 0)%N; [destruct Hx|]. destruct Hx as [<-|[]]. now left.
    - right. destruct (Hkid kd Hkd) as (_ & _ & _ & _ & I1 & _). apply I1, Hx. }
  split.
  - intros x Hx. apply in_flat_map in Hx. destruct Hx as (kd & Hkd & Hx). destruct (Hkid kd Hkd) as (key & Hin & _ & Ec & _).
    apply in_or_app. destruct (Hloc kd x Hkd Hx) as [->|Hn].
    + left. apply in_map_iff. exists (key, n_page kd). auto.
    + right. apply in_flat_map. exists (key, n_page kd). split; [exact Hin|]. cbn [snd]. now rewrite Ec.
  - intros x Hx Hu. apply in_flat_map in Hx. destruct Hx as (kd & Hkd & Hx).
    destruct (Hkid kd Hkd) as (key & Hin & Hf & Ec & _ & I2).
    cbn [upages] in Hu. apply in_flat_map in Hu. destruct Hu as (e' & He' & Hu).
    assert (Hu' : (snd e' <> n_page kd /\ (x = snd e' \/ In x (cpages h d ks (snd e')))) \/
                  (snd e' = n_page kd /\ In x (upages h d kd))).
    { destruct (N.eq_dec (snd e') (n_page kd)) as [E|NE].
      - right. split; [exact E|]. rewrite E, Hf in Hu. exact Hu.
      - left. split; [exact NE|]. unfold cpages. destruct (find_kid (snd e') ks) as [kd'|].
        + right. now apply EngineSpillWfFacts.upages_incl_npages.
        + destruct Hu as [<-|Hu]; [now left | now right]. }
    assert (Hin_c : forall y, In y (cpages h d ks (snd e')) -> In y (flat_map (fun e => cpages h d ks (snd e)) es)).
    { intros y Hy. apply in_flat_map. eauto. }
    assert (Hin_k : forall y, In y (npages h d kd) -> In y (flat_map (fun e => cpages h d ks (snd e)) es)).
    { intros y Hy. apply in_flat_map. exists (key, n_page kd). split; [exact Hin|]. cbn [snd]. now rewrite Ec. }
    destruct (Hloc kd x Hkd Hx) as [Ex|Hn]; destruct Hu' as [[NE [Ey|Hy]]|[E Hy]].
    + apply NE. congruence.
    + apply (Nc x); [subst x; apply in_map_iff; exists (key, n_page kd); auto | now apply Hin_c].
    + apply (Nc x); [subst x; apply in_map_iff; exists (key, n_page kd); auto|].
      apply Hin_k. now apply EngineSpillWfFacts.upages_incl_npages.
    + apply (Nc x); [subst x; apply in_map; exact He' | now apply Hin_k].
    + assert (Hne : (key, n_page kd) <> e') by (intros <-; now apply NE).
      apply (ListFacts.NoDup_flat_map_disj (fun e => cpages h d ks (snd e)) es _ _ Nb Hin He' Hne x); cbn [snd]; [now rewrite Ec | exact Hy].
    + rewrite mpages_eq in Hx. apply in_app_or in Hx. destruct Hx as [Hx|Hx].
      * destruct (n_page kd =? 0)%N; [destruct Hx|]. destruct Hx as [<-|[]].
        apply (Nc (n_page kd)); [apply in_map_iff; exists (key, n_page kd); auto|].
        apply Hin_k. now apply EngineSpillWfFacts.upages_incl_npages.
      * exact (I2 x Hx Hy).
Qed.

(** * The induction over [spill_bucket] *)

Lemma flat_map_map : forall {A B C} (f : B -> list C) (g : A -> B) l, flat_map f (map g l) = flat_map (fun x => f (g x)) l.
Proof. intros A B C f g. induction l as [|a l IH]; [reflexivity|]. cbn [map flat_map]. now rewrite IH. Qed.

Section Spill.
Variables (d : disk) (keep L : list N).
Hypothesis HC : closedR d keep.
Hypothesis Hz : dget d 0%N = None.
Hypothesis HkL : forall q x, In q keep -> In x (prun d q) -> In x L.

(* x lies in the run written for a head page of A *)
Definition Wn (A : list N) (s : txs) (x : N) : Prop :=
  exists q v, In q A /\ wr_get (wr s) q = Some v /\ In x (wrun (psz s) q v).

Definition later_disk (s : txs) : disk := apply_wr (wr s) (psz s) d.

Lemma Wn_mono : forall A A' s x, incl A A' -> Wn A s x -> Wn A' s x.
Proof. intros A A' s x H (q & v & H1 & H2). exists q, v. split; [apply H, H1 | exact H2]. Qed.

Lemma Loc_disj : forall s X1 X2 (F1 F2 : list N) x, wr_ok L s -> disj X1 X2 -> disj F1 F2 -> incl F1 L -> incl F2 L ->
  (Wn X1 s x \/ In x F1) -> (Wn X2 s x \/ In x F2) -> False.
Proof.
  intros s X1 X2 F1 F2 x Hw HX HF H1 H2 [(q1 & v1 & A1 & B1 & C1)|A] [(q2 & v2 & A2 & B2 & C2)|B].
  - pose proof (wo_disj _ _ Hw q1 v1 q2 v2 x B1 B2 C1 C2) as E. subst q2. exact (HX q1 A1 A2).
  - destruct (wo_range _ _ Hw q1 v1 x B1 C1) as (_ & _ & Hn). apply Hn, H2, B.
  - destruct (wo_range _ _ Hw q2 v2 x B2 C2) as (_ & _ & Hn). apply Hn, H1, A.
  - exact (HF x A B).
Qed.

(* the tree below r on the later disk: no page twice; every page written for a head of A or an old page of F;
   none handed back *)
Definition TreeOK (n : nat) (A F : list N) (s : txs) (r : N) : Prop :=
  cpres n (later_disk s) r ->
  NoDup (runs (later_disk s) (fpg n (later_disk s) r)) /\
  forall x, In x (runs (later_disk s) (fpg n (later_disk s) r)) -> (Wn A s x \/ In x F) /\ freed_in_tx s x = false.

Lemma TreeOK_mono : forall n A A' (F F' : list N) s r, incl A A' -> incl F F' -> TreeOK n A F s r -> TreeOK n A' F' s r.
Proof.
  intros n A A' F F' s r HA HF H Hc. destruct (H Hc) as [H1 H2]. split; [exact H1|].
  intros x Hx. destruct (H2 x Hx) as [[Hw|Hf] Hu]; (split; [|exact Hu]); [left; exact (Wn_mono A A' s x HA Hw) | right; apply HF, Hf].
Qed.

(* in EVERY later state of the transaction that frees neither a page of Am nor a page of the old footprint *)
Definition OwnW (n : nat) (live Atot Am : list N) (s' : txs) (r r0 : N) : Prop :=
  forall s'' a2 d2, frame (Atot ++ live) s' s'' a2 d2 ->
    (forall x, In x d2 -> ~ In x Am /\ ~ In x (foot d n r0)) -> wr_ok L s'' ->
    TreeOK n Am (foot d n r0) s'' r.

Lemma OwnW_later : forall n live Atot Am s s1 a dd r r0,
  frame (Atot ++ live) s s1 a dd -> (forall x, In x dd -> ~ In x Am /\ ~ In x (foot d n r0)) ->
  OwnW n live Atot Am s r r0 -> OwnW n live (a ++ Atot) Am s1 r r0.
Proof.
  intros n live Atot Am s s1 a dd r r0 Hf Hdd HW s'' a2 d2 Hf2 Hd2 Hw.
  apply (HW s'' (a2 ++ a) (dd ++ d2) (frame_later _ _ _ _ _ _ _ _ _ Hf Hf2)); [|exact Hw].
  intros x Hx. apply in_app_or in Hx. destruct Hx; auto.
Qed.

Lemma OwnW_seqc : forall n live Atot Am s s1 r r0, same_but_seqc s s1 -> OwnW n live Atot Am s r r0 -> OwnW n live Atot Am s1 r r0.
Proof. intros n live Atot Am s s1 r r0 Hs HW s'' a2 d2 Hf2. apply (HW s'' a2 d2). eapply frame_seqc_l; eauto. Qed.

(* assembling the tree below a new root p from its own pages and the trees of its entries *)
Lemma assemble : forall s n' p (l : list leafent) (pt : leafent -> leafent) Ah (Fh : list N)
                        (Ae : bytes -> list N) (Fe : leafent -> list N) A (F : list N),
  wr_ok L s ->
  page_ents fuel0 (later_disk s) p = map pt l ->
  (forall e, lkey (pt e) = lkey e) -> NoDup (map lkey l) ->
  NoDup (runs (later_disk s) (p :: ppages fuel0 (later_disk s) p)) ->
  (forall x, In x (runs (later_disk s) (p :: ppages fuel0 (later_disk s) p)) ->
     (Wn Ah s x \/ In x Fh) /\ freed_in_tx s x = false) ->
  (forall e k r nx, In e l -> pt e = LBk k r nx -> TreeOK n' (Ae k) (Fe e) s r) ->
  incl Fh L -> (forall e, In e l -> incl (Fe e) L) ->
  (forall e, In e l -> disj Fh (Fe e)) ->
  (forall e1 e2, In e1 l -> In e2 l -> lkey e1 <> lkey e2 -> disj (Fe e1) (Fe e2)) ->
  (forall k, disj Ah (Ae k)) -> (forall k1 k2, k1 <> k2 -> disj (Ae k1) (Ae k2)) ->
  incl Ah A -> (forall k, incl (Ae k) A) -> incl Fh F -> (forall e, In e l -> incl (Fe e) F) ->
  TreeOK (S n') A F s p.
Proof.
  intros s n' p l pt Ah Fh Ae Fe A F Hw Hpe Hkey Hndk Hhn Hhl Hent HFh HFe Hd1 Hd2 Hd3 Hd4 IA1 IA2 IF1 IF2 Hc.
  cbn [cpres] in Hc. destruct Hc as [_ Hall]. rewrite Hpe in Hall. rewrite Forall_forall in Hall.
  set (d2 := later_disk s) in *.
  set (G := fun e => runs d2 (match pt e with LBk _ r' _ => fpg n' d2 r' | LKv _ _ => [] end)).
  assert (HG : forall e, In e l -> NoDup (G e) /\
            forall x, In x (G e) -> (Wn (Ae (lkey e)) s x \/ In x (Fe e)) /\ freed_in_tx s x = false).
  { intros e He. unfold G. pose proof (Hkey e) as Ek. specialize (Hall (pt e) (in_map pt _ _ He)).
    destruct (pt e) as [k v|k r nx] eqn:Ept.
    - split; [apply NoDup_nil | intros x Hx; destruct Hx].
    - cbn [lkey] in Ek. subst k. exact (Hent e (lkey e) r nx He Ept Hall). }
  assert (Eq : runs d2 (fpg (S n') d2 p) = runs d2 (p :: ppages fuel0 d2 p) ++ flat_map G l).
  { rewrite fpg_S, runs_app, runs_flat_map, Hpe, flat_map_map; try reflexivity. }
  rewrite Eq. split.
  - apply ListFacts.NoDup_app_iff. split; [exact Hhn|]. split.
    + apply ListFacts.NoDup_flat_map_intro.
      * eapply NoDup_map_inv; eauto.
      * intros e He. apply (HG e He).
      * intros e1 e2 H1 H2 Hne x Hx1 Hx2.
        assert (Hk : lkey e1 <> lkey e2) by (intros E; apply Hne; eapply NoDup_map_inj; eauto).
        destruct (HG e1 H1) as [_ G1]. destruct (HG e2 H2) as [_ G2].
        apply (Loc_disj s (Ae (lkey e1)) (Ae (lkey e2)) (Fe e1) (Fe e2) x Hw); auto.
        -- apply (G1 x Hx1).
        -- apply (G2 x Hx2).
    + intros x Hx1 Hx2. apply in_flat_map in Hx2. destruct Hx2 as (e & He & Hx2). destruct (HG e He) as [_ G1].
      apply (Loc_disj s Ah (Ae (lkey e)) Fh (Fe e) x Hw); auto.
      * apply (Hhl x Hx1).
      * apply (G1 x Hx2).
  - intros x Hx. apply in_app_or in Hx. destruct Hx as [Hx|Hx].
    + destruct (Hhl x Hx) as [[Hwn|Hf] Hu]; (split; [|exact Hu]); [left; exact (Wn_mono Ah A s x IA1 Hwn) | right; auto].
    + apply in_flat_map in Hx. destruct Hx as (e & He & Hx). destruct (HG e He) as [_ G1].
      destruct (G1 x Hx) as [[Hwn|Hf] Hu]; (split; [|exact Hu]);
        [left; exact (Wn_mono _ A s x (IA2 _) Hwn) | right; exact (IF2 e He x Hf)].
Qed.

Lemma freed_pend : forall s x, freed_in_tx s x = true -> In x (pend_all (pending s)).
Proof. intros s x H. apply freed_in_tx_pend_at in H. eapply FreelistFacts.pend_at_sub; eauto. Qed.

Lemma frame_freed_mono : forall live s s' alloc dead, frame live s s' alloc dead ->
  forall x, freed_in_tx s x = true -> freed_in_tx s' x = true.
Proof. intros live s s' alloc dead Hf x Hx. apply (fr_freed _ _ _ _ _ Hf). now left. Qed.

(* a stretch of the spill hands back only its dead pages *)
Lemma frame_unfreed : forall live s s' alloc dead x, frame live s s' alloc dead -> ~ In x dead ->
  freed_in_tx s x = false -> freed_in_tx s' x = false.
Proof.
  intros live s s' alloc dead x Hf Hn. apply unfreed_frame. intros E.
  apply (fr_freed _ _ _ _ _ Hf) in E. destruct E as [E|E]; [exact E | contradiction].
Qed.

(* a page handed out after s was not handed back before s *)
Lemma alloc_unfreed : forall live s s' alloc dead q, pend_ok0 s -> frame live s s' alloc dead -> In q alloc ->
  freed_in_tx s q = false.
Proof.
  intros live s s' alloc dead q Hp Hf Hq. destruct (freed_in_tx s q) eqn:E; [|reflexivity].
  destruct (Hp q (freed_pend s q E)) as [A B]. destruct (fr_src _ _ _ _ _ Hf q Hq) as [C|C]; [contradiction | lia].
Qed.

Lemma later_disk_kept : forall s x, unwritten keep s -> In x keep -> dget (later_disk s) x = dget d x.
Proof. intros s x Hu Hx. unfold later_disk. eapply unwritten_dget; eauto. Qed.

(* the tree of a committed bucket that is kept as it is *)
Lemma kept_tree : forall n s r, unwritten keep s -> In r keep -> r <> 0%N ->
  runs (later_disk s) (fpg n (later_disk s) r) = foot d n r.
Proof.
  intros n s r Hu Hr Hnz. rewrite (runs_fpg_kept d (later_disk s) keep HC (fun x => later_disk_kept s x Hu) n r Hr).
  unfold foot. destruct (N.eqb_spec r 0); [contradiction | reflexivity].
Qed.

(* the entries of the new root: spilled sub-buckets and kept committed buckets *)
Lemma entries_ok : forall n' live s1 A (ms : list meta) (Aof : bytes -> list N) (l : list leafent) s2 aL dL,
  sorted_keys (map lkey l) = true ->
  frame (A ++ live) s1 s2 aL dL -> wr_ok L s2 -> unwritten keep s2 ->
  (forall x, In x dL -> ~ In x A /\ forall e, In e l -> ~ In x (efoot d n' e)) ->
  Forall (fun m : meta => exists ro nxo, In (LBk (m_name m) ro nxo) l /\
            OwnW n' live A (Aof (m_name m)) s1 (snd (fst m)) ro) ms ->
  (forall k, incl (Aof k) A) ->
  (forall k r nx, In (LBk k r nx) l -> find (fun m : meta => beq (m_name m) k) ms = None ->
     In r keep /\ r <> 0%N /\ NoDup (foot d n' r) /\ forall x, In x (foot d n' r) -> freed_in_tx s1 x = false) ->
  forall e k r nx, In e l -> patch ms e = LBk k r nx -> TreeOK n' (Aof k) (efoot d n' e) s2 r.
Proof.
  intros n' live s1 A ms Aof l s2 aL dL Hsort Hfr Hw Hu HdL Hms HAof Hun e k r nx He Hp.
  destruct e as [k0 v0|k0 r0 nx0]; [discriminate|]. cbn [patch] in Hp. cbn [efoot].
  destruct (find (fun m : meta => beq (m_name m) k0) ms) as [[[k1 r1] nx1]|] eqn:Ef.
  - inversion Hp; subst k r1 nx1. apply find_some in Ef. destruct Ef as [Hin Hb]. apply beq_true_iff in Hb.
    cbn [m_name fst] in Hb. subst k1. rewrite Forall_forall in Hms. destruct (Hms _ Hin) as (ro & nxo & Hl & HW).
    cbn [m_name fst snd] in *.
    assert (E : LBk k0 ro nxo = LBk k0 r0 nx0) by (eapply same_key_same_entry; eauto). inversion E; subst ro nxo.
    apply (HW s2 aL dL Hfr); [|exact Hw]. intros x Hx. destruct (HdL x Hx) as [D1 D2]. split.
    + intros Hi. apply D1. eapply HAof; eauto.
    + apply (D2 _ He).
  - inversion Hp; subst k r nx. destruct (Hun k0 r0 nx0 He Ef) as (Hk & Hnz & Hnd & Hf). intros _.
    rewrite (kept_tree n' s2 r0 Hu Hk Hnz). split; [exact Hnd|]. intros x Hx. split; [now right|].
    apply (frame_unfreed _ _ _ _ _ x Hfr); [|exact (Hf x Hx)]. intros E. apply (proj2 (HdL x E) _ He). exact Hx.
Qed.

(* the pages of the new root's own tree: written pages of Ah that were not handed back, and kept pages *)
Lemma heads_ok : forall s (hs Ah Kp Fh : list N), wr_ok L s -> NoDup hs ->
  (forall q, In q hs -> (In q Ah /\ wr_get (wr s) q <> None /\ freed_in_tx s q = false) \/
                        (In q Kp /\ wr_get (wr s) q = None)) ->
  NoDup (runs d Kp) -> (forall x, In x (runs d Kp) -> In x Fh /\ freed_in_tx s x = false) -> incl Fh L ->
  NoDup (runs (later_disk s) hs) /\
  forall x, In x (runs (later_disk s) hs) -> (Wn Ah s x \/ In x Fh) /\ freed_in_tx s x = false.
Proof.
  intros s hs Ah Kp Fh Hw Hnd Hq HnK HK HF.
  assert (Hrun : forall q x, In q hs -> In x (prun (later_disk s) q) ->
            (exists v, In q Ah /\ wr_get (wr s) q = Some v /\ freed_in_tx s q = false /\ In x (wrun (psz s) q v)) \/
            (In q Kp /\ In x (prun d q))).
  { intros q x Hin Hx. destruct (Hq q Hin) as [(A1 & A2 & A3)|[B1 B2]].
    - left. destruct (wr_get (wr s) q) as [v|] eqn:E; [|congruence]. exists v. unfold later_disk in Hx.
      rewrite (prun_written _ _ _ _ _ E) in Hx. auto.
    - right. unfold later_disk in Hx. rewrite (prun_unwritten _ _ _ _ B2) in Hx. auto. }
  split.
  - apply NoDup_runs_intro; [exact Hnd|]. intros q1 q2 H1 H2 Hne x Hx1 Hx2.
    destruct (Hrun q1 x H1 Hx1) as [(v1 & A1 & B1 & _ & C1)|[K1 X1]];
      destruct (Hrun q2 x H2 Hx2) as [(v2 & A2 & B2 & _ & C2)|[K2 X2]].
    + apply Hne. exact (wo_disj _ _ Hw q1 v1 q2 v2 x B1 B2 C1 C2).
    + destruct (wo_range _ _ Hw q1 v1 x B1 C1) as (_ & _ & Hn). apply Hn, HF. apply (HK x). apply In_runs. eauto.
    + destruct (wo_range _ _ Hw q2 v2 x B2 C2) as (_ & _ & Hn). apply Hn, HF. apply (HK x). apply In_runs. eauto.
    + exact (NoDup_runs_disj d Kp q1 q2 HnK K1 K2 Hne x X1 X2).
  - intros x Hx. apply In_runs in Hx. destruct Hx as (q & Hin & Hx).
    destruct (Hrun q x Hin Hx) as [(v & A1 & B1 & U1 & C1)|[K1 X1]].
    + split; [left; exists q, v; auto|]. destruct (freed_in_tx s x) eqn:E; [|reflexivity].
      rewrite (wo_freed _ _ Hw q v x B1 C1 E) in U1. discriminate.
    + assert (Hr : In x (runs d Kp)) by (apply In_runs; eauto). destruct (HK x Hr) as [K2 K3]. auto.
Qed.

(* the situation after the opened sub-buckets of a dirty bucket (view l, committed root r0) have been spilled:
   state s1, allocated A, freed D; the spilled sub named k allocated Aof k *)
Set Implicit Arguments.
Record SubsDone (n' : nat) (live : list N) (s s1 : txs) (A D : list N) (ms : list meta) (Aof : bytes -> list N)
                (l : list leafent) (r0 : N) : Prop := {
  sd_sorted : sorted_keys (map lkey l) = true;
  sd_fi : fresh_inv live s;
  sd_Llive : forall x, In x L -> In x live;
  sd_unw : unwritten keep s;
  sd_frame : frame live s s1 A D;
  sd_wr : wr_ok L s1;
  sd_p0 : pend_ok0 s1;
  sd_pid : pend_ids_ok s1;
  sd_footL : incl (foot d (S n') r0) L;
  sd_regnd : NoDup (region d r0);
  sd_reg : incl (region d r0) (foot d (S n') r0);
  sd_ent : forall e, In e l -> incl (efoot d n' e) (foot d (S n') r0) /\ NoDup (efoot d n' e) /\
                               disj (region d r0) (efoot d n' e);
  sd_ent2 : forall e1 e2, In e1 l -> In e2 l -> lkey e1 <> lkey e2 -> disj (efoot d n' e1) (efoot d n' e2);
  sd_D : forall x, In x D -> In x A \/
           exists m ro nxo, In m ms /\ In (LBk (m_name m) ro nxo) l /\ In x (foot d n' ro);
  sd_Aof : forall k, incl (Aof k) A;
  sd_Aofd : forall k1 k2, k1 <> k2 -> disj (Aof k1) (Aof k2);
  sd_ms : Forall (fun m : meta => exists ro nxo, In (LBk (m_name m) ro nxo) l /\
                    OwnW n' live A (Aof (m_name m)) s1 (snd (fst m)) ro) ms;
  sd_un : forall k r nx, In (LBk k r nx) l -> find (fun m : meta => beq (m_name m) k) ms = None ->
            In r keep /\ r <> 0%N /\ forall x, In x (foot d n' r) -> freed_in_tx s x = false }.
Unset Implicit Arguments.

Lemma keep_live : forall live, (forall x, In x L -> In x live) -> forall x, In x keep -> In x live.
Proof. intros live H x Hx. apply H, (HkL x x Hx), In_prun_self. Qed.

Section Done.
Variables (n' : nat) (live : list N) (s s1 : txs) (A D : list N) (ms : list meta) (Aof : bytes -> list N)
          (l : list leafent) (r0 : N).
Hypothesis SD : SubsDone n' live s s1 A D ms Aof l r0.

Lemma sd_A_fresh : forall x, In x L -> ~ In x A.
Proof. intros x Hx Hi. apply (frame_new _ _ _ _ _ x (sd_fi SD) (sd_frame SD) Hi), (sd_Llive SD), Hx. Qed.

Lemma sd_region_unfreed : forall x, In x (region d r0) -> freed_in_tx s x = false -> freed_in_tx s1 x = false.
Proof.
  intros x Hx. apply (frame_unfreed _ _ _ _ _ x (sd_frame SD)). intros E.
  destruct (sd_D SD x E) as [Ha|(m & ro & nxo & _ & Hl & Hfo)].
  - apply (sd_A_fresh x); [|exact Ha]. apply (sd_footL SD), (sd_reg SD), Hx.
  - destruct (sd_ent SD _ Hl) as (_ & _ & Hdj). exact (Hdj x Hx Hfo).
Qed.

Lemma sd_unpatched : forall k r nx, In (LBk k r nx) l -> find (fun m : meta => beq (m_name m) k) ms = None ->
  In r keep /\ r <> 0%N /\ NoDup (foot d n' r) /\ forall x, In x (foot d n' r) -> freed_in_tx s1 x = false.
Proof.
  intros k r nx Hl Hf. destruct (sd_un SD k r nx Hl Hf) as (U1 & U2 & U3).
  destruct (sd_ent SD _ Hl) as (I1 & I2 & _). cbn [efoot] in I1, I2.
  split; [exact U1|]. split; [exact U2|]. split; [exact I2|]. intros x Hx.
  apply (frame_unfreed _ _ _ _ _ x (sd_frame SD)); [|exact (U3 x Hx)]. intros E.
  destruct (sd_D SD x E) as [Ha|(m & ro & nxo & Hm & Hl2 & Hfo)].
  - apply (sd_A_fresh x); [|exact Ha]. apply (sd_footL SD), I1, Hx.
  - pose proof (find_none _ _ Hf m Hm) as Hb. cbn beta in Hb.
    assert (Hk : lkey (LBk k r nx) <> lkey (LBk (m_name m) ro nxo)).
    { cbn [lkey]. intros ->. rewrite beq_refl in Hb. discriminate. }
    exact (sd_ent2 SD _ _ Hl Hl2 Hk x Hx Hfo).
Qed.
End Done.
Arguments sd_A_fresh {n' live s s1 A D ms Aof l r0}.
Arguments sd_region_unfreed {n' live s s1 A D ms Aof l r0}.
Arguments sd_unpatched {n' live s s1 A D ms Aof l r0}.

(* from the pages of the new root's own tree to the whole new tree *)
Lemma tail_assemble : forall n' live s s1 A D (ms : list meta) Aof l r0 s3 alloc dead p (Lo : list N),
  SubsDone n' live s s1 A D ms Aof l r0 ->
  frame (A ++ live) s1 s3 alloc dead -> incl Lo (region d r0) ->
  (forall x, In x dead -> In x Lo \/ In x alloc) ->
  (forall s2 a2 d2, frame (alloc ++ A ++ live) s3 s2 a2 d2 ->
     (forall x, In x d2 -> ~ In x (alloc ++ A) /\ ~ In x (foot d (S n') r0)) -> wr_ok L s2 -> unwritten keep s2 ->
     cpres (S n') (later_disk s2) p ->
     page_ents fuel0 (later_disk s2) p = map (patch ms) l /\
     NoDup (runs (later_disk s2) (p :: ppages fuel0 (later_disk s2) p)) /\
     (forall x, In x (runs (later_disk s2) (p :: ppages fuel0 (later_disk s2) p)) ->
        (Wn alloc s2 x \/ In x (region d r0)) /\ freed_in_tx s2 x = false)) ->
  OwnW (S n') live (alloc ++ A) (alloc ++ A) s3 p r0.
Proof.
  intros n' live s s1 A D ms Aof l r0 s3 alloc dead p Lo SD Hfr HLo Hdead Hheads s2 a2 d2 Hf2 Hd2 Hw2 Hc.
  rewrite <- app_assoc in Hf2.
  pose proof (sd_fi SD) as Hfi. pose proof (sd_frame SD) as Hfr0.
  pose proof (sd_Llive SD) as HLl. pose proof (keep_live live HLl) as Hkl.
  assert (Hk1 : forall x, In x keep -> In x (A ++ live)) by (intros x Hx; apply in_or_app; right; now apply Hkl).
  assert (Hk3 : forall x, In x keep -> In x (alloc ++ A ++ live)) by (intros x Hx; apply in_or_app; right; now apply Hk1).
  pose proof (frame_unwritten _ _ _ _ _ keep Hfi Hfr0 Hkl (sd_unw SD)) as Hu1.
  pose proof (frame_unwritten _ _ _ _ _ keep (fr_fresh _ _ _ _ _ Hfr0) Hfr Hk1 Hu1) as Hu3.
  pose proof (frame_unwritten _ _ _ _ _ keep (fr_fresh _ _ _ _ _ Hfr) Hf2 Hk3 Hu3) as Hu2.
  destruct (Hheads s2 a2 d2 Hf2 Hd2 Hw2 Hu2 Hc) as (Epe & Hhn & Hhl).
  pose proof (frame_trans _ _ _ _ _ _ _ _ Hfr Hf2) as Hf12.
  assert (HLf : forall x, In x (foot d (S n') r0) -> ~ In x alloc /\ ~ In x A).
  { intros x Hx. pose proof (sd_footL SD x Hx) as HxL. split.
    - intros Hi. apply (frame_new _ _ _ _ _ x (fr_fresh _ _ _ _ _ Hfr0) Hfr Hi). apply in_or_app. right. now apply HLl.
    - now apply (sd_A_fresh SD). }
  assert (HdL : forall x, In x (dead ++ d2) -> ~ In x A /\ forall e, In e l -> ~ In x (efoot d n' e)).
  { intros x Hx. apply in_app_or in Hx. destruct Hx as [Hx|Hx]; [destruct (Hdead x Hx) as [H1|H1]|].
    - pose proof (HLo x H1) as Hr. split; [apply (proj2 (HLf x (sd_reg SD x Hr)))|].
      intros e He Hi. destruct (sd_ent SD e He) as (_ & _ & Hdj). exact (Hdj x Hr Hi).
    - split; [intros Hi; apply (frame_new _ _ _ _ _ x (fr_fresh _ _ _ _ _ Hfr0) Hfr H1); apply in_or_app; now left|].
      intros e He Hi. destruct (sd_ent SD e He) as (I1 & _ & _). apply (proj1 (HLf x (I1 x Hi))), H1.
    - destruct (Hd2 x Hx) as [D1 D2]. split; [intros Hi; apply D1; apply in_or_app; now right|].
      intros e He Hi. destruct (sd_ent SD e He) as (I1 & _ & _). apply D2, I1, Hi. }
  refine (assemble s2 n' p l (patch ms) alloc (region d r0) Aof (efoot d n') (alloc ++ A) (foot d (S n') r0)
            Hw2 Epe (patch_key ms) _ Hhn Hhl _ _ _ _ _ _ _ _ _ _ _ Hc).
  - apply sorted_NoDup, (sd_sorted SD).
  - intros e k r nx He Hp.
    exact (entries_ok n' live s1 A ms Aof l s2 _ _ (sd_sorted SD) Hf12 Hw2 Hu2 HdL
             (sd_ms SD) (sd_Aof SD)
             (sd_unpatched SD) e k r nx He Hp).
  - intros x Hx. apply (sd_footL SD), (sd_reg SD), Hx.
  - intros e He x Hx. destruct (sd_ent SD e He) as (I1 & _ & _). apply (sd_footL SD), I1, Hx.
  - intros e He. apply (sd_ent SD e He).
  - apply (sd_ent2 SD).
  - intros k x Hx1 Hx2. apply (frame_new _ _ _ _ _ x (fr_fresh _ _ _ _ _ Hfr0) Hfr Hx1). apply in_or_app. left.
    exact (sd_Aof SD k x Hx2).
  - apply (sd_Aofd SD).
  - intros x Hx. apply in_or_app. now left.
  - intros k x Hx. apply in_or_app. right. exact (sd_Aof SD k x Hx).
  - apply (sd_reg SD).
  - intros e He. apply (sd_ent SD e He).
Qed.

Lemma NoDup_runs_sub : forall ps qs, NoDup (runs d qs) -> NoDup ps -> incl ps qs -> NoDup (runs d ps).
Proof.
  intros ps qs Hq Hp Hi. apply NoDup_runs_intro; [exact Hp|]. intros x y Hx Hy Hne.
  apply (NoDup_runs_disj d qs x y Hq (Hi x Hx) (Hi y Hy) Hne).
Qed.

(* the root node of the bucket: its materialised pages against its kept pages *)
Lemma root_pages_sep : forall h lo hi rn, Inv h d false lo hi rn -> EngineSpillWfFacts.shape_ok rn ->
  NoDup ((if (n_page rn =? 0)%N then [] else [n_page rn]) ++ npages h d rn) ->
  incl (mpages rn) ((if (n_page rn =? 0)%N then [] else [n_page rn]) ++ npages h d rn) /\
  disj (mpages rn) (upages h d rn).
Proof.
  intros h lo hi rn HI Hsh Hnd. apply ListFacts.NoDup_app_iff in Hnd. destruct Hnd as (_ & Hnp & Hdj).
  destruct (kmpages_sep h d false lo hi rn HI Hsh Hnp) as [K1 K2]. rewrite mpages_eq. split.
  - intros x Hx. apply in_app_or in Hx. apply in_or_app. destruct Hx as [Hx|Hx]; [now left | right; now apply K1].
  - intros x Hx Hu. apply in_app_or in Hx. destruct Hx as [Hx|Hx].
    + apply (Hdj x Hx). now apply EngineSpillWfFacts.upages_incl_npages.
    + exact (K2 x Hx Hu).
Qed.

(* the dirty bucket with a materialised, non-empty root *)
Lemma tail_rdy : forall n' live s s1 A D (ms : list meta) Aof l r0 s2 h rn p s3,
  SubsDone n' live s s1 A D ms Aof l r0 -> same_but_seqc s1 s2 ->
  Inv h d false None None rn -> Rdy d keep rn -> NodeView d h rn (map (patch ms) l) -> h <= fuel0 ->
  incl (npages h d rn) keep -> pg_ok d rn ->
  NoDup (runs d ((if (n_page rn =? 0)%N then [] else [n_page rn]) ++ npages h d rn)) ->
  (forall x, In x (runs d ((if (n_page rn =? 0)%N then [] else [n_page rn]) ++ npages h d rn)) ->
     In x (region d r0) /\ freed_in_tx s x = false) ->
  spill_root fuel0 rn s2 = Ok (p, s3) ->
  exists alloc dead, frame live s s3 alloc dead /\
    (forall x, In x dead -> In x alloc \/ In x (foot d (S n') r0)) /\
    wr_ok L s3 /\ pend_ok0 s3 /\ pend_ids_ok s3 /\ OwnW (S n') live alloc alloc s3 p r0.
Proof.
  intros n' live s s1 A D ms Aof l r0 s2 h rn p s3 SD Hs12 HI HRd HV Hh Hinc Hpg HnH HH Hsp.
  set (Hd := (if (n_page rn =? 0)%N then [] else [n_page rn]) ++ npages h d rn) in *.
  pose proof (sd_fi SD) as Hfi. pose proof (sd_frame SD) as Hfr0.
  pose proof (sd_Llive SD) as HLl. pose proof (keep_live live HLl) as Hkl.
  assert (Hk1 : forall x, In x keep -> In x (A ++ live)) by (intros x Hx; apply in_or_app; right; now apply Hkl).
  assert (HL1 : forall x, In x L -> In x (A ++ live)) by (intros x Hx; apply in_or_app; right; now apply HLl).
  pose proof (frame_seqc_r _ _ _ _ _ _ Hfr0 Hs12) as Hfr02. pose proof (fr_fresh _ _ _ _ _ Hfr02) as Hfi2.
  pose proof (frame_unwritten _ _ _ _ _ keep Hfi Hfr02 Hkl (sd_unw SD)) as Hu2.
  destruct (W1d L s1 s2 Hs12 (sd_wr SD) (sd_p0 SD) (sd_pid SD))
    as (W2 & P2 & I2).
  pose proof (Rdy_shape_ok _ _ _ _ _ _ HI HRd) as Hsh.
  pose proof (NoDup_runs_heads d Hd HnH) as HndH.
  assert (Hnp : NoDup (npages h d rn)) by (apply (NoDup_app_r _ _ HndH)).
  assert (Hup : forall x, In x (upages h d rn) -> In x keep).
  { intros x Hx. apply Hinc. now apply EngineSpillWfFacts.upages_incl_npages. }
  pose proof (EngineSpillWfFacts.Inv_swfh h d keep h None None rn HI Hsh Hup (le_n h)) as Hsw.
  pose proof (EngineSpillWfFacts.NoDup_npages_upages h d rn Hnp) as Hund.
  destruct (spill_root_wfw h d keep (A ++ live) fuel0 rn s2 p s3 h Hfi2 Hk1 Hsw Hund Hsp)
    as (alloc & dead & good & lv & F1 & F2 & F3 & _ & F6 & Hfin).
  destruct (root_pages_sep h None None rn HI Hsh HndH) as [Hm_in Hm_dj]. fold Hd in Hm_in.
  set (Lo := runs d (mpages rn)).
  assert (HLo_H : incl Lo (runs d Hd)) by (apply runs_incl, Hm_in).
  assert (HLo_reg : incl Lo (region d r0)) by (intros x Hx; apply (HH x), HLo_H, Hx).
  assert (Hreg_L : incl (region d r0) L).
  { intros x Hx. apply (sd_footL SD), (sd_reg SD), Hx. }
  assert (HLo_L : incl Lo L) by (intros x Hx; apply Hreg_L, HLo_reg, Hx).
  pose proof (old_in_runs d rn Hpg Lo (incl_refl _)) as Hold.
  pose proof (old_in_runs d rn Hpg L HLo_L) as HoldL.
  assert (Hdead : forall x, In x dead -> (In x Lo \/ In x alloc) /\ ~ In x good).
  { apply (F6 Lo); [|exact Hold]. intros x Hx. apply HL1, HLo_L, Hx. }
  destruct (W1a L fuel0 rn s2 p s3 (fresh_inv_sub _ _ _ HL1 Hfi2) W2 P2 I2 HoldL Hsp) as (W3 & P3 & I3).
  pose proof (frame_seqc_l _ _ _ _ _ _ Hs12 F1) as F1'.
  exists (alloc ++ A), (D ++ dead). split; [eapply frame_trans; eauto|]. split.
  { intros x Hx. apply in_app_or in Hx. destruct Hx as [Hx|Hx].
    - destruct (sd_D SD x Hx) as [Ha|(m & ro & nxo & _ & Hl & Hfo)]; [left; apply in_or_app; now right|].
      right. destruct (sd_ent SD _ Hl) as (I1 & _ & _). apply I1, Hfo.
    - destruct (proj1 (Hdead x Hx)) as [H1|H1]; [right | left; apply in_or_app; now left].
      apply (sd_reg SD), HLo_reg, H1. }
  split; [exact W3|]. split; [exact P3|]. split; [exact I3|].
  apply (tail_assemble n' live s s1 A D ms Aof l r0 s3 alloc dead p Lo SD F1' HLo_reg (fun x Hx => proj1 (Hdead x Hx))).
  intros s4 a2 d2 Hf4 Hd2 Hw4 Hu4 Hc.
  destruct (frame_later_ok _ _ _ _ _ good keep s4 a2 d2 Hfi2 F1 F2 Hk1 Hu2 Hf4) as [G1 G2].
  destruct (Hfin (wr s4) (psz s4) G1 G2) as (R1 & R2 & R3 & R5). cbv zeta in *. fold (later_disk s4) in *.
  set (d4 := later_disk s4) in *. set (H := lv + h) in *.
  assert (Hp : pages_present fuel0 d4 p) by (cbn [cpres] in Hc; apply Hc).
  assert (Epp : ppages fuel0 d4 p = ppages H d4 p).
  { pose proof (EngineSpillWfFacts.PInv_present _ _ _ _ _ _ R1) as Hph.
    rewrite <- (ppages_present_stable fuel0 d4 p Hp (Nat.max H fuel0) ltac:(lia)).
    apply (ppages_present_stable H d4 p Hph). lia. }
  assert (Epe : page_ents fuel0 d4 p = map (patch ms) l).
  { rewrite (NodeView_view_leaves d h rn _ HV h (le_n h)) in R5.
    eapply PageView_det; [apply page_ents_PageView; exact Hp | exact R5]. }
  rewrite Epp. split; [exact Epe|].
  pose proof (frame_trans _ _ _ _ _ _ _ _ F1 Hf4) as F24. pose proof (frame_trans _ _ _ _ _ _ _ _ F1' Hf4) as F14.
  apply (heads_ok s4 (p :: ppages H d4 p) alloc (upages h d rn) (region d r0) Hw4 R2).
  - intros q Hq. destruct (R3 q Hq) as [[Hg Hwq]|Huq].
    + left. split; [apply F2, Hg|]. split; [exact Hwq|].
      apply (frame_unfreed _ _ _ _ _ q F24); [|exact (alloc_unfreed _ _ _ _ _ q P2 F1 (F2 q Hg))]. intros E.
      apply in_app_or in E. destruct E as [E|E]; [exact (proj2 (Hdead q E) Hg)|].
      apply (proj1 (Hd2 q E)). apply in_or_app. left. apply F2, Hg.
    + right. split; [exact Huq | apply G2, Hup, Huq].
  - apply (NoDup_runs_sub _ Hd HnH Hund). intros x Hx. unfold Hd. apply in_or_app. right.
    now apply EngineSpillWfFacts.upages_incl_npages.
  - intros x Hx.
    assert (HxH : In x (runs d Hd)).
    { revert Hx. apply runs_incl. intros y Hy. unfold Hd. apply in_or_app. right. now apply EngineSpillWfFacts.upages_incl_npages. }
    destruct (HH x HxH) as [Hr Hf]. split; [exact Hr|].
    pose proof (sd_region_unfreed SD x Hr Hf) as Hf1.
    apply (frame_unfreed _ _ _ _ _ x F14); [|exact Hf1]. intros E. apply in_app_or in E. destruct E as [E|E].
    + destruct (proj1 (Hdead x E)) as [H1|H1].
      * apply In_runs in H1. destruct H1 as (q1 & Hq1 & Hx1). apply In_runs in Hx. destruct Hx as (q2 & Hq2 & Hx2).
        assert (Hne : q1 <> q2) by (intros ->; exact (Hm_dj q2 Hq1 Hq2)).
        refine (NoDup_runs_disj d Hd q1 q2 HnH (Hm_in q1 Hq1) _ Hne x Hx1 Hx2).
        unfold Hd. apply in_or_app. right. now apply EngineSpillWfFacts.upages_incl_npages.
      * apply (frame_new _ _ _ _ _ x Hfi2 F1 H1). apply HL1, Hreg_L, Hr.
    + apply (proj2 (Hd2 x E)). apply (sd_reg SD), Hr.
  - exact Hreg_L.
Qed.

Lemma spill_root_empty_kids : forall f n s, n_data n = Leaves [] -> spill_root f (set_kids n []) s = spill_root f n s.
Proof. intros [|f] [p np o sq dd ks] s E; [reflexivity|]. cbn [n_data] in E. subst dd. reflexivity. Qed.

(* the dirty bucket whose root is the empty leaf *)
Lemma tail_empty : forall n' live s s1 A D (ms : list meta) Aof l r0 s2 h rn p s3,
  SubsDone n' live s s1 A D ms Aof l r0 -> same_but_seqc s1 s2 ->
  n_data rn = Leaves [] -> NodeView d h rn (map (patch ms) l) -> pg_ok d rn ->
  (forall x, In x (runs d (if (n_page rn =? 0)%N then [] else [n_page rn])) -> In x (region d r0)) ->
  spill_root fuel0 rn s2 = Ok (p, s3) ->
  exists alloc dead, frame live s s3 alloc dead /\
    (forall x, In x dead -> In x alloc \/ In x (foot d (S n') r0)) /\
    wr_ok L s3 /\ pend_ok0 s3 /\ pend_ids_ok s3 /\ OwnW (S n') live alloc alloc s3 p r0.
Proof.
  intros n' live s s1 A D ms Aof l r0 s2 h rn p s3 SD Hs12 Hemp HV Hpg HH Hsp.
  pose proof (sd_fi SD) as Hfi. pose proof (sd_frame SD) as Hfr0.
  pose proof (sd_Llive SD) as HLl.
  assert (HL1 : forall x, In x L -> In x (A ++ live)) by (intros x Hx; apply in_or_app; right; now apply HLl).
  pose proof (frame_seqc_r _ _ _ _ _ _ Hfr0 Hs12) as Hfr02. pose proof (fr_fresh _ _ _ _ _ Hfr02) as Hfi2.
  destruct (W1d L s1 s2 Hs12 (sd_wr SD) (sd_p0 SD) (sd_pid SD))
    as (W2 & P2 & I2).
  assert (El : l = []).
  { pose proof (NodeView_empty_leaf _ _ _ _ HV Hemp) as E. destruct l; [reflexivity | discriminate]. }
  assert (Hreg_L : incl (region d r0) L).
  { intros x Hx. apply (sd_footL SD), (sd_reg SD), Hx. }
  assert (HLo_reg : incl (old_pages rn) (region d r0)).
  { intros x Hx. apply In_old_pages in Hx. destruct Hx as [Hnz Hx]. apply HH.
    inversion Hpg as [n0 Hp1 _]; subst n0. destruct (Hp1 Hnz) as (a & Hg & Enp).
    destruct (N.eqb_spec (n_page rn) 0); [contradiction|]. apply In_runs. exists (n_page rn). split; [now left|].
    unfold prun. rewrite Hg, <- Enp. now apply In_nrun. }
  assert (HoldL : old_in L (set_kids rn [])).
  { apply old_in_node; [|destruct rn; intros k []]. intros x Hx. apply Hreg_L, HLo_reg, In_old_pages.
    destruct rn; exact Hx. }
  rewrite <- (spill_root_empty_kids fuel0 rn s2 Hemp) in Hsp.
  destruct (W1a L fuel0 _ s2 p s3 (fresh_inv_sub _ _ _ HL1 Hfi2) W2 P2 I2 HoldL Hsp) as (W3 & P3 & I3).
  rewrite (spill_root_empty_kids fuel0 rn s2 Hemp) in Hsp.
  destruct (spill_root_empty_w (A ++ live) fuel0 rn s2 p s3 Hfi2 Hemp Hsp) as (np & v & F1 & Hnp & Hget & Hbody).
  pose proof (frame_seqc_l _ _ _ _ _ _ Hs12 F1) as F1'.
  assert (Hp_al : In p (nrun p np)) by (apply In_nrun; lia).
  exists (nrun p np ++ A), (D ++ old_pages rn). split; [eapply frame_trans; eauto|]. split.
  { intros x Hx. apply in_app_or in Hx. destruct Hx as [Hx|Hx].
    - destruct (sd_D SD x Hx) as [Ha|(m & ro & nxo & _ & Hl & Hfo)]; [left; apply in_or_app; now right|].
      right. destruct (sd_ent SD _ Hl) as (I1 & _ & _). apply I1, Hfo.
    - right. apply (sd_reg SD), HLo_reg, Hx. }
  split; [exact W3|]. split; [exact P3|]. split; [exact I3|].
  apply (tail_assemble n' live s s1 A D ms Aof l r0 s3 (nrun p np) (old_pages rn) p (old_pages rn) SD F1' HLo_reg
           (fun x Hx => or_introl Hx)).
  intros s4 a2 d2 Hf4 Hd2 Hw4 Hu4 Hc.
  assert (Hget4 : wr_get (wr s4) p = Some v).
  { rewrite (fr_wr _ _ _ _ _ Hf4); [exact Hget|]. intros Hi.
    apply (frame_new _ _ _ _ _ p (fr_fresh _ _ _ _ _ F1) Hf4 Hi). apply in_or_app. now left. }
  assert (Hg4 : dget (later_disk s4) p = Some (mk_apage (psz s4) v)) by (apply dget_apply_wr_some, Hget4).
  assert (Epp : ppages fuel0 (later_disk s4) p = []).
  { unfold fuel0. rewrite EngineSpillWfFacts.ppages_S, Hg4. cbn [mk_apage ap_body]. now rewrite Hbody. }
  assert (Epe : page_ents fuel0 (later_disk s4) p = map (patch ms) l).
  { rewrite El. unfold fuel0. eapply page_ents_leaf; [exact Hg4 | exact Hbody]. }
  split; [exact Epe|]. rewrite Epp.
  pose proof (frame_trans _ _ _ _ _ _ _ _ F1 Hf4) as F24.
  apply (heads_ok s4 [p] (nrun p np) [] (region d r0) Hw4).
  - constructor; [intros [] | constructor].
  - intros q [<-|[]]. left. split; [exact Hp_al|]. split; [congruence|].
    apply (frame_unfreed _ _ _ _ _ p F24); [|exact (alloc_unfreed _ _ _ _ _ p P2 F1 Hp_al)]. intros E.
    apply in_app_or in E. destruct E as [E|E].
    + apply (frame_new _ _ _ _ _ p Hfi2 F1 Hp_al). apply HL1, Hreg_L, HLo_reg, E.
    + apply (proj1 (Hd2 p E)). apply in_or_app. now left.
  - constructor.
  - intros x [].
  - exact Hreg_L.
Qed.

(* the dirty bucket whose (promoted) root was never loaded and that has no opened sub-bucket: nothing is written *)
Lemma tail_unloaded : forall n' live s s1 A D Aof l r0 h rp,
  SubsDone n' live s s1 A D [] Aof l r0 ->
  (forall x, in_subtree d rp x -> In x keep) -> PageView d h rp l -> h <= fuel0 ->
  NoDup (runs d (rp :: ppages fuel0 d rp)) ->
  (forall x, In x (runs d (rp :: ppages fuel0 d rp)) -> In x (region d r0) /\ freed_in_tx s x = false) ->
  OwnW (S n') live A A s1 rp r0.
Proof.
  intros n' live s s1 A D Aof l r0 h rp SD Hsub HV Hh HnH HH.
  pose proof (sd_frame SD) as Hfr0. pose proof (fr_fresh _ _ _ _ _ Hfr0) as Hfi1.
  assert (Hreg_L : incl (region d r0) L).
  { intros x Hx. apply (sd_footL SD), (sd_reg SD), Hx. }
  change A with ([] ++ A).
  apply (tail_assemble n' live s s1 A D [] Aof l r0 s1 [] [] rp [] SD (frame_refl _ _ Hfi1));
    [intros x [] | intros x [] |].
  intros s4 a2 d2 Hf4 Hd2 Hw4 Hu4 Hc. cbn [app] in Hf4.
  assert (Hag : forall x, in_subtree d rp x -> dget (later_disk s4) x = dget d x).
  { intros x Hx. apply later_disk_kept; [exact Hu4 | apply Hsub, Hx]. }
  rewrite (ppages_transfer d (later_disk s4) fuel0 rp Hag), (page_ents_transfer d (later_disk s4) fuel0 rp Hag).
  rewrite (PageView_page_ents _ _ _ _ HV fuel0 Hh), patch_nil. split; [reflexivity|].
  apply (heads_ok s4 (rp :: ppages fuel0 d rp) [] (rp :: ppages fuel0 d rp) (region d r0) Hw4).
  - apply (NoDup_runs_heads d _ HnH).
  - intros q Hq. right. split; [exact Hq|]. apply Hu4, Hsub.
    destruct Hq as [<-|Hq]; [apply ist_self | eapply ppages_subtree; eauto].
  - exact HnH.
  - intros x Hx. destruct (HH x Hx) as [Hr Hf]. split; [exact Hr|].
    pose proof (sd_region_unfreed SD x Hr Hf) as Hf1.
    apply (frame_unfreed _ _ _ _ _ x Hf4); [|exact Hf1]. intros E. apply (proj2 (Hd2 x E)). apply (sd_reg SD), Hr.
  - exact Hreg_L.
Qed.

(** ** what [spill_bucket] establishes; the fold over the opened sub-buckets *)
Definition OwnPost (n : nat) (r0 : N) (live : list N) (s : txs) (res : N * N * txs * list bytes) : Prop :=
  let '(r, _, s', _) := res in
  exists alloc dead, frame live s s' alloc dead /\
    (forall x, In x dead -> In x alloc \/ In x (foot d n r0)) /\
    wr_ok L s' /\ pend_ok0 s' /\ pend_ids_ok s' /\ OwnW n live alloc alloc s' r r0.

Definition RecOwn (rec : bucket -> txs -> list bytes -> res (N * N * txs * list bytes)) : Prop :=
  forall n live b s ord res r0 m, n <= fuel0 ->
    fresh_inv live s -> (forall x, In x L -> In x live) -> unwritten keep s ->
    wr_ok L s -> pend_ok0 s -> pend_ids_ok s ->
    SReady d keep b -> OvlAbs d b m -> SReadyX d keep b ->
    OwnI d n s b r0 -> Lnk d n b r0 -> incl (foot d n r0) L ->
    rec b s ord = Ok res -> OwnPost n r0 live s res.

(* what is known after some of the opened sub-buckets of a bucket with view l were spilled, with results ms *)
Definition SubInvO (n' : nat) (live : list N) (s : txs) (l : list leafent) (ms : list meta) (s0 : txs) : Prop :=
  exists A D (Aof : bytes -> list N), frame live s s0 A D /\ wr_ok L s0 /\ pend_ok0 s0 /\ pend_ids_ok s0 /\
    (forall x, In x D -> In x A \/
       exists m ro nxo, In m ms /\ In (LBk (m_name m) ro nxo) l /\ In x (foot d n' ro)) /\
    (forall k, incl (Aof k) A) /\ (forall k1 k2, k1 <> k2 -> disj (Aof k1) (Aof k2)) /\
    Forall (fun m : meta => exists ro nxo, In (LBk (m_name m) ro nxo) l /\
              OwnW n' live A (Aof (m_name m)) s0 (snd (fst m)) ro) ms.

Lemma SubInvO_start : forall n' live s l, fresh_inv live s -> wr_ok L s -> pend_ok0 s -> pend_ids_ok s ->
  SubInvO n' live s l [] s.
Proof.
  intros n' live s l Hfi Hw Hp0 Hpid. exists [], [], (fun _ => []).
  split; [now apply frame_refl|]. split; [exact Hw|]. split; [exact Hp0|]. split; [exact Hpid|].
  split; [intros x []|]. split; [intros k x []|]. split; [intros k1 k2 _ x []|constructor].
Qed.

Section SubFold.
Variables (n' : nat) (live : list N) (s : txs) (l : list leafent) (subs : list (bytes * bucket)) (r0 : N).
Variable rec : bucket -> txs -> list bytes -> res (N * N * txs * list bytes).
Hypothesis HR : RecOwn rec.
Hypothesis Hn' : n' <= fuel0.
Hypothesis Hfi : fresh_inv live s.
Hypothesis HLl : forall x, In x L -> In x live.
Hypothesis Hunw : unwritten keep s.
Hypothesis HfootL : incl (foot d (S n') r0) L.
Hypothesis Hent : forall e, In e l -> incl (efoot d n' e) (foot d (S n') r0).
Hypothesis Hent2 : forall e1 e2, In e1 l -> In e2 l -> lkey e1 <> lkey e2 -> disj (efoot d n' e1) (efoot d n' e2).
Hypothesis Hsubs : forall nm sb, In (nm, sb) subs ->
  SReady d keep sb /\ (exists ms, OvlAbs d sb ms) /\ SReadyX d keep sb /\
  exists ro nxo, In (LBk nm ro nxo) l /\ OwnI d n' s sb ro /\ Lnk d n' sb ro.

(* the sub-bucket named nm has not been spilled yet: its committed footprint is still untouched in s0 *)
Lemma sub_call_own : forall ms s0 nm sb ro nxo, ~ In nm (map m_name ms) -> SubInvO n' live s l ms s0 ->
  In (LBk nm ro nxo) l -> OwnI d n' s sb ro -> incl (foot d n' ro) L /\ OwnI d n' s0 sb ro.
Proof.
  intros ms s0 nm sb ro nxo Hfresh (A & D & Aof & Hfr & _ & _ & _ & HD & _) Hlro HOw.
  assert (HroL : incl (foot d n' ro) L) by (intros y Hy; apply HfootL, (Hent _ Hlro), Hy).
  split; [exact HroL|].
  apply (OwnI_later d Hz n' s s0 sb ro HOw). intros y Hy Hf. apply (fr_freed _ _ _ _ _ Hfr) in Hf.
  destruct Hf as [Hf|Hf]; [exact Hf|]. exfalso. destruct (HD y Hf) as [Ha|(m & ro' & nxo' & Hm & Hl' & Hy')].
  - apply (frame_new _ _ _ _ _ y Hfi Hfr Ha), HLl, HroL, Hy.
  - apply (Hent2 (LBk nm ro nxo) (LBk (m_name m) ro' nxo') Hlro Hl') with (x := y); [|exact Hy|exact Hy'].
    cbn [lkey]. intros E. apply Hfresh. rewrite E. apply (in_map m_name _ _ Hm).
Qed.

Lemma sub_step_invO : forall ms s0 nm sb o r nx s' o', In (nm, sb) subs -> ~ In nm (map m_name ms) ->
  SubInvO n' live s l ms s0 -> rec sb s0 o = Ok (r, nx, s', o') -> SubInvO n' live s l (ms ++ [(nm, r, nx)]) s'.
Proof.
  intros ms s0 nm sb o r nx s' o' Hin Hfresh HI Hrec.
  destruct (Hsubs nm sb Hin) as (HS & [msb Hmsb] & HSX & ro & nxo & Hlro & HOw & HLk).
  destruct (sub_call_own ms s0 nm sb ro nxo Hfresh HI Hlro HOw) as [HroL HOw0].
  destruct HI as (A & D & Aof & Hfr & Hw0 & Hp0 & Hi0 & HD & HAof & HAofd & Hall).
  assert (Hnm_fresh : forall m, In m ms -> m_name m <> nm).
  { intros m Hm E. apply Hfresh. rewrite <- E. apply (in_map m_name _ _ Hm). }
  assert (HL' : forall y, In y L -> In y (A ++ live)) by (intros y Hy; apply in_or_app; right; now apply HLl).
  assert (HA_fresh : forall y, In y L -> ~ In y A).
  { intros y Hy Hi. apply (frame_new _ _ _ _ _ y Hfi Hfr Hi), HLl, Hy. }
  assert (Hother : forall m ro' nxo', In m ms -> In (LBk (m_name m) ro' nxo') l -> disj (foot d n' ro) (foot d n' ro')).
  { intros m ro' nxo' Hm Hl'. apply (Hent2 (LBk nm ro nxo) (LBk (m_name m) ro' nxo') Hlro Hl'). cbn [lkey].
    intros E. exact (Hnm_fresh m Hm (eq_sym E)). }
  pose proof (HR n' (A ++ live) sb s0 o _ ro msb Hn' (fr_fresh _ _ _ _ _ Hfr) HL'
                 (frame_unwritten _ _ _ _ _ keep Hfi Hfr (keep_live live HLl) Hunw) Hw0 Hp0 Hi0 HS Hmsb HSX HOw0 HLk HroL Hrec) as HP.
  cbn [OwnPost] in HP. destruct HP as (a1 & d1 & Hf1 & Hd1 & Hw1 & Hp1 & Hi1 & HW1).
  assert (Ha1_fresh : forall y, In y a1 -> ~ In y (A ++ live)) by (intros y Hy; exact (frame_new _ _ _ _ _ y (fr_fresh _ _ _ _ _ Hfr) Hf1 Hy)).
  exists (a1 ++ A), (D ++ d1), (fun k => if beq k nm then a1 else Aof k).
  split; [eapply frame_trans; eauto|]. split; [exact Hw1|]. split; [exact Hp1|]. split; [exact Hi1|]. split.
  { intros y Hy. apply in_app_or in Hy. destruct Hy as [Hy|Hy].
    - destruct (HD y Hy) as [Ha|(m & ro' & nxo' & Hm & Hl' & Hy')]; [left; apply in_or_app; now right|].
      right. exists m, ro', nxo'. split; [apply in_or_app; now left | auto].
    - destruct (Hd1 y Hy) as [Ha|Hf]; [left; apply in_or_app; now left|]. right. exists (nm, r, nx), ro, nxo.
      split; [apply in_or_app; right; now left | auto]. }
  split. { intros k y Hy. apply in_or_app. destruct (beq k nm); [now left | right; exact (HAof k y Hy)]. }
  split.
  { intros k1 k2 Hne y H1 H2. destruct (beq k1 nm) eqn:E1; destruct (beq k2 nm) eqn:E2.
    - apply beq_true_iff in E1, E2. congruence.
    - apply (Ha1_fresh y H1). apply in_or_app. left. exact (HAof k2 y H2).
    - apply (Ha1_fresh y H2). apply in_or_app. left. exact (HAof k1 y H1).
    - exact (HAofd k1 k2 Hne y H1 H2). }
  apply Forall_app. split.
  - rewrite Forall_forall in Hall. apply Forall_forall. intros m Hm. destruct (Hall m Hm) as (ro' & nxo' & Hl' & HWm).
    exists ro', nxo'. split; [exact Hl'|]. rewrite (beq_false_ne _ _ (Hnm_fresh m Hm)).
    apply (OwnW_later n' live A (Aof (m_name m)) s0 s' a1 d1 _ ro' Hf1); [|exact HWm].
    intros y Hy. destruct (Hd1 y Hy) as [Ha|Hf]; split.
    + intros Hi. apply (Ha1_fresh y Ha). apply in_or_app. left. exact (HAof _ y Hi).
    + intros Hi. apply (Ha1_fresh y Ha). apply in_or_app. right. apply HLl, HfootL, (Hent _ Hl'), Hi.
    + intros Hi. exact (HA_fresh y (HroL y Hf) (HAof _ y Hi)).
    + intros Hi. exact (Hother m ro' nxo' Hm Hl' y Hf Hi).
  - repeat constructor. exists ro, nxo. cbn [m_name fst snd]. split; [exact Hlro|]. rewrite beq_refl.
    intros s2 a2 d2 Hf2. rewrite <- app_assoc in Hf2. exact (HW1 s2 a2 d2 Hf2).
Qed.
End SubFold.

(** ** the induction step *)
Lemma XRoot_sorted : forall b h l, XRoot d keep b -> BucketView d h b l -> sorted_keys (map lkey l) = true.
Proof.
  intros b h l (h2 & _ & HX) HV. apply (bucket_view_sorted d h b l); [|exact HV]. unfold bucket_wf.
  destruct (b_rootn b) as [n|]; [eapply Inv_wf_node; apply HX | eapply PInv_wf_page; apply HX].
Qed.

(* the bucket that is not dirty: its committed tree is kept as it is *)
Lemma own_clean : forall n live b s r0, n <= fuel0 -> fresh_inv live s -> (forall x, In x L -> In x live) ->
  unwritten keep s -> is_dirty fuel0 b = false -> (exists k, sbk k d (b_root_page b)) -> In (b_root_page b) keep ->
  OwnI d n s b r0 -> Lnk d n b r0 -> OwnW n live [] [] s (b_root_page b) r0.
Proof.
  intros n live b s r0 Hn Hfi HLl Hu Ed [k Hk] Hin HOw HLk.
  destruct (clean_foot d Hz n fuel0 b r0 s Hn Ed HOw HLk) as (_ & Ep & Hf). rewrite Ep in *.
  pose proof (sbk_nz d k r0 Hz Hk) as Hnz.
  assert (Hnd : NoDup (foot d n r0)) by (destruct n as [|n']; [destruct HOw | cbn [OwnI] in HOw; apply HOw]).
  intros s2 a2 d2 Hf2 Hd2 Hw2 _. cbn [app] in Hf2.
  pose proof (frame_unwritten _ _ _ _ _ keep Hfi Hf2 (keep_live live HLl) Hu) as Hu2.
  rewrite (kept_tree n s2 r0 Hu2 Hin Hnz). split; [exact Hnd|]. intros x Hx. split; [now right|].
  apply (frame_unfreed _ _ _ _ _ x Hf2); [|exact (Hf x Hx)]. intros E. exact (proj2 (Hd2 x E) Hx).
Qed.

(* the hypotheses of [RecOwn] on a dirty bucket with view l, taken apart: the bucket's own pages, the footprints
   of its entries, what holds of the opened sub-buckets and of the entries that are not opened *)
Lemma own_dirty_inv : forall n' s b r0 h l,
  is_dirty fuel0 b = true -> SReadyX d keep b -> OwnI d (S n') s b r0 -> Lnk d (S n') b r0 ->
  h <= fuel0 -> BucketView d h b l ->
  (forall nm sb, In (nm, sb) (b_subs b) ->
     (exists r nx, In (LBk nm r nx) l) /\ SReady d keep sb /\ exists ms, OvlAbs d sb ms) ->
  XRoot d keep b /\ sorted_keys (map lkey l) = true /\ (r0 = 0%N \/ sbk (S n') d r0) /\ bpg_ok d b /\
  NoDup (bown d b) /\ (forall x, In x (bown d b) -> In x (region d r0) /\ freed_in_tx s x = false) /\
  NoDup (region d r0) /\ incl (region d r0) (foot d (S n') r0) /\
  (forall e, In e l -> incl (efoot d n' e) (foot d (S n') r0) /\ NoDup (efoot d n' e) /\
                       disj (region d r0) (efoot d n' e)) /\
  (forall e1 e2, In e1 l -> In e2 l -> lkey e1 <> lkey e2 -> disj (efoot d n' e1) (efoot d n' e2)) /\
  (forall nm sb, In (nm, sb) (b_subs b) ->
     SReady d keep sb /\ (exists ms, OvlAbs d sb ms) /\ SReadyX d keep sb /\
     exists ro nxo, In (LBk nm ro nxo) l /\ OwnI d n' s sb ro /\ Lnk d n' sb ro) /\
  (forall k r nx, In (LBk k r nx) l -> sub_find k (b_subs b) = None ->
     In r keep /\ r <> 0%N /\ forall x, In x (foot d n' r) -> freed_in_tx s x = false).
Proof.
  intros n' s b r0 h l Ed HSX HOw HLk Hh HV Hsubs.
  inversion HSX as [b0 Hd | b0 _ HXR HXsubs HXun]; subst b0; [congruence|].
  assert (Hbvl : bucket_view d b l) by (exists h; auto).
  cbn [OwnI] in HOw. destruct HOw as (Hr & Hndf & Hpg & l1 & Hv1 & Hnb & Hb & He & Hun & Hsb).
  assert (El : l1 = l) by (apply (bucket_view_det d b); assumption). subst l1.
  cbn [Lnk] in HLk. destruct HLk as [_ HLk2].
  destruct (own_entries d n' r0 l Hz Hndf He) as (E1 & E3 & E4).
  assert (E2 : incl (region d r0) (foot d (S n') r0)) by (intros x; apply region_foot).
  split; [exact HXR|]. split; [exact (XRoot_sorted b h l HXR HV)|]. do 8 (split; [assumption|]). split.
  - intros nm sb Hin. destruct (Hsubs nm sb Hin) as (_ & X1 & X2). split; [exact X1|]. split; [exact X2|].
    split; [eauto|]. destruct (Hsb nm sb Hin) as (ro & nxo & Hl & Ho). exists ro, nxo. split; [exact Hl|].
    split; [exact Ho | exact (HLk2 nm sb Hin l ro nxo Hbvl Hl)].
  - intros k r1 nx1 Hin Hsf. destruct (HXun l k r1 nx1 Hbvl Hin Hsf) as [[k0 Hk0] Hr1]. split; [exact Hr1|].
    split; [eapply sbk_nz; eauto | exact (Hun k r1 nx1 Hin Hsf)].
Qed.

(* the root node that the parent updates leave names the pages that the root of b named; it is at the head page
   the root of b was read from *)
Lemma spilled_root_heads : forall h b l (metas : list meta) s1 b1 s2 rn,
  SRoot d keep h b -> BucketView d h b l -> h <= fuel0 -> NoDup (map m_name metas) ->
  (forall m, In m metas -> exists r nx, In (LBk (m_name m) r nx) l) ->
  fold_res (meta_step d) metas (b, s1) = Ok (b1, s2) -> SRoot d keep h b1 -> b_rootn b1 = Some rn ->
  XRoot d keep b -> bpg_ok d b ->
  incl (npages h d rn) keep /\ pg_ok d rn /\
  bheads d b = (if (n_page rn =? 0)%N then [] else [n_page rn]) ++ npages h d rn.
Proof.
  intros h b l metas s1 b1 s2 rn HSR HV Hh J3 Hallm Hf2 B1 Ern HXR Hpg.
  pose proof (meta_fold_bpg d keep h metas b l s1 b1 s2 HSR HV Hh J3 Hallm Hf2) as Ebpg.
  assert (Hrp : b_rootn b = None -> b_root_page b <> 0%N).
  { intros En E. unfold SRoot in HSR. rewrite En in HSR. destruct HSR as [HP _].
    destruct (PInv_dget _ _ _ _ _ _ HP) as [a Ha]. rewrite E in Ha. congruence. }
  destruct (meta_fold_heads d keep h metas b l s1 b1 s2 HSR HV Hh J3 Hallm Hpg Hrp Hf2) as (Ehd & Hpg1 & _).
  destruct (XRoot_bpg d keep h b HC HXR HSR) as [_ Hinc]. rewrite <- Ebpg in Hinc.
  pose proof (bheads_bpg d keep h b1 B1 Hh) as Ebh. rewrite Ern in Ebh.
  unfold bpg in Hinc, Ebh. rewrite Ern in Hinc, Ebh. unfold bpg_ok in Hpg1. rewrite Ern in Hpg1.
  split; [exact Hinc|]. split; [exact Hpg1|]. now rewrite <- Ehd, Ebh.
Qed.

Lemma RecOwn_step : forall f, RecOwn (spill_bucket f d) -> RecOwn (spill_bucket (S f) d).
Proof.
  intros f HR n live b s ord res r0 m Hn Hfi HLl Hu Hw Hp0 Hpid HS HO HSX HOw HLk HfL H.
  pose proof (keep_live live HLl) as Hkl.
  destruct (is_dirty fuel0 b) eqn:Ed.
  2:{ rewrite (spill_bucket_clean _ _ _ _ _ Ed) in H. inversion H; subst res.
      inversion HSX as [b0 _ Hsb Hin | b0 Hd]; subst b0; [|congruence].
      cbn [OwnPost]. exists [], []. split; [now apply frame_refl|]. split; [intros x []|].
      split; [exact Hw|]. split; [exact Hp0|]. split; [exact Hpid|]. eapply own_clean; eauto. }
  destruct n as [|n']; [destruct HOw|].
  destruct (SReady_dirty_inv d keep b m HS HO Ed) as (h & l & ents & Hh & HV & HD & Hnd & Hsubs & Hdisk & _).
  destruct (own_dirty_inv n' s b r0 h l Ed HSX HOw HLk Hh HV Hsubs)
    as (HXR & Hsorted & Hr & Hpg & Hnb & Hb & E1 & E2 & E3 & E4 & Hsubs4 & Hun).
  assert (Hn' : n' <= fuel0) by (clear - Hn; lia).
  destruct (spill_bucket_dirty_inv d keep f b s ord res h l (SubInvO n' live s l) Ed Hh HV HD Hnd
              (fun nm sb Hin => proj1 (Hsubs nm sb Hin)) (SubInvO_start n' live s l Hfi Hw Hp0 Hpid)
              (sub_step_invO n' live s l (b_subs b) r0 _ HR Hn' Hfi HLl Hu HfL (fun e He => proj1 (E3 e He)) E4 Hsubs4) H)
    as (metas & s1 & ord1 & (A & D & Aof & Hfr & Hw1 & Hp1 & Hi1 & HDl & HAof & HAofd & Hall) & J3 & Hcov & Hallm & HT).
  assert (SD : SubsDone n' live s s1 A D metas Aof l r0).
  { constructor; try assumption. intros k r1 nx1 Hin Hfd. exact (Hun k r1 nx1 Hin (unpatched_unopened _ _ _ Hcov Hfd)). }
  assert (HDloc : forall x, In x D -> In x A \/ In x (foot d (S n') r0)).
  { intros x Hx. destruct (HDl x Hx) as [Ha|(m0 & ro & nxo & _ & Hl & Hfo)]; [now left|]. right.
    exact (proj1 (E3 _ Hl) x Hfo). }
  destruct HT as [Ern -> HD1 HVp | b1 s2 rn p s3 HSR Hf2 B1 Ern B6 HI HRd B2 Hsp]; cbn [OwnPost].
  - (* the promoted root that was never loaded *)
    exists A, D. split; [exact Hfr|]. split; [exact HDloc|]. split; [exact Hw1|]. split; [exact Hp1|]. split; [exact Hi1|].
    assert (Ebo : bown d b = runs d (b_root_page b :: ppages fuel0 d (b_root_page b))) by (unfold bown, bheads; now rewrite Ern).
    rewrite Ebo in Hnb, Hb.
    exact (tail_unloaded n' live s s1 A D Aof l r0 h (b_root_page b) SD HD1 HVp Hh Hnb Hb).
  - destruct (spilled_root_heads h b l metas s1 b1 s2 rn HSR HV Hh J3 Hallm Hf2 B1 Ern HXR Hpg) as (Hinc & Hpg1 & Ebo).
    unfold bown in Hnb, Hb. rewrite Ebo in Hnb, Hb.
    destruct HRd as [Hemp | HRdy].
    + apply (tail_empty n' live s s1 A D metas Aof l r0 s2 h rn p s3 SD B6 Hemp B2 Hpg1); [|exact Hsp].
      intros x Hx. apply Hb. rewrite runs_app. apply in_or_app. now left.
    + exact (tail_rdy n' live s s1 A D metas Aof l r0 s2 h rn p s3 SD B6 HI HRdy B2 Hh Hinc Hpg1 Hnb Hb Hsp).
Qed.

Lemma RecOwn_all : forall f, RecOwn (spill_bucket f d).
Proof.
  induction f as [|f IH]; [|now apply RecOwn_step].
  intros n live b s ord res r0 m _ _ _ _ _ _ _ _ _ _ _ _ _ H. discriminate.
Qed.
End Spill.

(** * [commit] re-establishes the allocation invariant *)

Lemma frame_alloc_ge2 : forall live s s' alloc dead x, fresh_inv live s -> frame live s s' alloc dead -> In x alloc -> (2 <= x)%N.
Proof.
  intros live s s' alloc dead x Hfi Hfr Hx. destruct (fr_src _ _ _ _ _ Hfr x Hx) as [H|H].
  - pose proof (fi_ge2 _ _ Hfi) as G. unfold FreelistFacts.ge2 in G. rewrite Forall_forall in G. now apply G.
  - pose proof (fi_np _ _ Hfi). lia.
Qed.

(* the canonical footprint of a committed state is the first part of its live pages *)
Lemma foot_live : forall st x, In x (foot (d_disk st) 16 (d_root st)) -> In x (live_of st (Rof st)).
Proof.
  intros st x Hx. unfold foot in Hx. destruct (d_root st =? 0)%N; [destruct Hx|]. unfold live_of, Rof.
  apply in_or_app. left. exact Hx.
Qed.

Lemma foot_fl_disj : forall st x, NoDup (live_of st (Rof st)) -> In x (foot (d_disk st) 16 (d_root st)) ->
  In x (nrun (d_fl st) (d_fln st)) -> False.
Proof.
  intros st x Hnd Hx Hf. unfold foot in Hx. destruct (d_root st =? 0)%N; [destruct Hx|]. unfold live_of in Hnd.
  apply ListFacts.NoDup_app_iff in Hnd. destruct Hnd as (_ & _ & Hd). exact (Hd x Hx Hf).
Qed.

(* the final allocator state s4 of a transaction whose spill started in s1: [alloc] the pages handed out by the spill,
   (flp, fln) the run of the new free-list page, [Dall] the pages handed back; Lx the protected set (no page of it
   is handed out or written) *)
Record commit_final (st : db) (Lx : list N) (s1 : txs) (r : N) (s4 : txs) (alloc : list N) (flp fln : N)
  (Dall : list N) : Prop := {
  cf_frame : frame Lx s1 s4 (nrun flp fln ++ alloc) Dall;
  cf_dead : forall x, In x Dall -> In x alloc \/ In x (live_of st (Rof st));
  cf_age : forall x, In x alloc -> (2 <= x)%N;
  cf_fge : forall x, In x (nrun flp fln) -> (2 <= x)%N;
  cf_fnew : forall x, In x (nrun flp fln) -> ~ In x (alloc ++ Lx);
  cf_wr : wr_ok Lx s4;
  cf_p0 : pend_ok0 s4;
  cf_ids : pend_ids_ok s4;
  cf_sep : forall q v x, wr_get (wr s4) q = Some v -> In x (wrun (psz s4) q v) -> ~ In x (nrun flp fln);
  cf_tree : TreeOK (d_disk st) 16 alloc (foot (d_disk st) 16 (d_root st)) s4 r }.

(* a committed state built from such a final state satisfies the allocation invariant again.  Kp: the pages of the
   batches of older transactions that stay pending (none without readers); every other pending page was handed back by
   this transaction *)
Lemma final_okz : forall st H s1 r nx s4 alloc flp fln Dall Kp st',
  db_ok' st -> dget (d_disk st) 0%N = None -> incl (live_of st (Rof st)) H ->
  commit_final st H s1 r s4 alloc flp fln Dall ->
  (forall x, freed_in_tx s1 x = true -> In x (foot (d_disk st) 16 (d_root st))) ->
  (forall x, In x (pend_all (pending s4)) -> In x Kp \/ freed_in_tx s4 x = true) ->
  (forall x, In x Kp -> (2 <= x)%N /\ In x H /\ ~ In x (live_of st (Rof st))) ->
  st' = {| d_disk := apply_wr (wr s4) (psz s4) (d_disk st); d_root := r; d_next := nx; d_np := np s4; d_fl := flp;
           d_fln := fln; d_flids := all_pages s4; d_tx := txid s4; d_free := free s4; d_pending := pending s4;
           d_psz := psz s4 |} ->
  readable st' -> closedR (d_disk st') (Rof st') ->
  alloc_ok st' (Rof st') /\ NoDup (live_of st' (Rof st')) /\ pend_le st' /\ dget (d_disk st') 0%N = None.
Proof.
  intros st H s1 r nx s4 alloc flp fln Dall Kp st' (_ & HA & HndL & _) Hz HLx [F14 HD Hage Hfge Hfnew W4 P4 I4 Hsep HT]
    Hfreed1 Hpend HK -> Hrd Hcl.
  set (d := d_disk st) in *. set (L := live_of st (Rof st)) in *.
  pose proof HA as (_ & _ & _ & _ & _ & _ & _ & _ & Hlive). fold L in Hlive.
  assert (HfL : incl (foot d 16 (d_root st)) L) by (intros x Hx; now apply foot_live).
  pose proof (fr_fresh _ _ _ _ _ F14) as Hfi4.
  assert (HL2 : forall x, In x L -> (2 <= x)%N) by (intros x Hx; apply (Hlive x Hx)).
  assert (Hfreed : forall x, freed_in_tx s4 x = true -> In x alloc \/ In x L).
  { intros x Hx. apply (fr_freed _ _ _ _ _ F14) in Hx. destruct Hx as [Hx|Hx]; [right; apply HfL, Hfreed1, Hx | now apply HD]. }
  unfold readable in Hrd. unfold Rof, live_of, pend_le in *. cbn [d_disk d_root d_fl d_fln d_pending d_tx] in *.
  fold (later_disk d s4) in *. set (d4 := later_disk d s4) in *.
  destruct (HT Hrd) as [Hnd Hloc].
  assert (Htree : forall x, In x (runs d4 (fpg 16 d4 r)) ->
            ((2 <= x < np s4)%N /\ ~ In x (free s4) /\ ~ In x (pend_all (pending s4))) /\ ~ In x (nrun flp fln)).
  { intros x Hx. destruct (Hloc x Hx) as [Hl Hu].
    assert (Hnf : forall y, In y (pend_all (pending s4)) -> y = x -> In x Kp).
    { intros y Hy ->. destruct (Hpend x Hy) as [Hk|Hf]; [exact Hk | rewrite Hf in Hu; discriminate]. }
    destruct Hl as [(q & v & _ & Hg & Hr)|Hf].
    - destruct (wo_range _ _ W4 q v x Hg Hr) as (R1 & R2 & R3). split; [|exact (Hsep q v x Hg Hr)].
      split; [exact R1|]. split; [exact R2|]. intros Hp. apply R3, (HK x (Hnf x Hp eq_refl)).
    - pose proof (HfL x Hf) as HxL.
      assert (Hi4 : In x ((nrun flp fln ++ alloc) ++ H)) by (apply in_or_app; right; now apply HLx).
      destruct (fi_live _ _ Hfi4 x Hi4) as [A1 A2]. split.
      + split; [split; [now apply HL2 | exact A1]|]. split; [exact A2|]. intros Hp. apply (HK x (Hnf x Hp eq_refl)), HxL.
      + intros Hi. apply (Hfnew x Hi). apply in_or_app. right. now apply HLx. }
  split; [|split; [|split]].
  - unfold alloc_ok. cbn [d_psz d_np d_free d_pending d_root d_disk]. fold d4.
    split; [apply (fi_psz _ _ Hfi4)|]. split; [apply (fi_np _ _ Hfi4)|]. split; [apply (fi_asc _ _ Hfi4)|].
    split; [apply (fi_ge2 _ _ Hfi4)|]. split; [apply (fi_free_lt _ _ Hfi4)|]. split.
    { apply Forall_forall. intros x Hx. split; [|apply (P4 x Hx)].
      destruct (Hpend x Hx) as [Hk|Hf]; [apply (HK x Hk)|]. destruct (Hfreed x Hf) as [Ha|Hl]; [now apply Hage | now apply HL2]. }
    split; [rewrite fpg_S; now left|]. split; [exact Hcl|].
    intros x Hx. unfold live_of in Hx. cbn [d_disk d_fl d_fln] in Hx. fold d4 in Hx. apply in_app_or in Hx.
    destruct Hx as [Hx|Hx]; [apply (proj1 (Htree x Hx))|].
    assert (Hi4 : In x ((nrun flp fln ++ alloc) ++ H)) by (apply in_or_app; left; apply in_or_app; now left).
    destruct (fi_live _ _ Hfi4 x Hi4) as [A1 A2]. split; [split; [now apply Hfge | exact A1]|]. split; [exact A2|].
    intros Hp. apply (Hfnew x Hx). apply in_or_app. destruct (Hpend x Hp) as [Hk|Hf]; [right; apply (HK x Hk)|].
    destruct (Hfreed x Hf) as [Ha|Hl]; [now left | right; now apply HLx].
  - apply ListFacts.NoDup_app_iff. split; [exact Hnd|]. split; [apply NoDup_nrun|].
    intros x Hx1 Hx2. exact (proj2 (Htree x Hx1) Hx2).
  - exact I4.
  - unfold d4, later_disk. rewrite dget_apply_wr. destruct (wr_get (wr s4) 0%N) as [v|] eqn:E; [|exact Hz].
    exfalso. destruct (wo_range _ _ W4 0%N v 0%N E (In_wrun_head _ _ _)) as (R1 & _). lia.
Qed.

Section Commit.
(* proved in EngineOwnWr under the same names *)
Hypothesis W1a : forall live f n s p s', fresh_inv live s -> wr_ok live s -> pend_ok0 s -> pend_ids_ok s -> old_in live n ->
  spill_root f n s = Ok (p, s') -> wr_ok live s' /\ pend_ok0 s' /\ pend_ids_ok s'.
Hypothesis W1b : forall live s p n, fresh_inv live s -> wr_ok live s -> pend_ok0 s -> pend_ids_ok s ->
  (forall x, In x (nrun p n) -> In x live) ->
  wr_ok live (free_pages s p n) /\ pend_ok0 (free_pages s p n) /\ pend_ids_ok (free_pages s p n).
Hypothesis W1c : forall live s bts p n s', fresh_inv live s -> wr_ok live s -> pend_ok0 s -> pend_ids_ok s -> (0 < bts)%N ->
  tx_allocate s bts = (p, n, s') ->
  wr_ok live s' /\ pend_ok0 s' /\ pend_ids_ok s' /\
  (forall q v x, wr_get (wr s') q = Some v -> In x (wrun (psz s') q v) -> ~ In x (nrun p n)).
Hypothesis W1d : forall live s s', same_but_seqc s s' -> wr_ok live s -> pend_ok0 s -> pend_ids_ok s ->
  wr_ok live s' /\ pend_ok0 s' /\ pend_ids_ok s'.

(* what the spill and the free-list steps of [commit] leave, for any protected set Lx that contains the live pages
   and any pending list (with a larger Lx -- the pages that stay pending for a reader -- more is protected) *)
Lemma commit_states : forall st b1 s1 ord m Lx r nx s2 ord' flp fln s4,
  db_ok' st -> dget (d_disk st) 0%N = None ->
  incl (live_of st (Rof st)) Lx -> fresh_inv Lx s1 ->
  wr s1 = [] -> pend_ids_ok s1 -> pend_ok0 s1 ->
  SReady (d_disk st) (Rof st) b1 -> OvlAbs (d_disk st) b1 m -> SReadyX (d_disk st) (Rof st) b1 ->
  OwnI (d_disk st) 16 s1 b1 (d_root st) -> Lnk (d_disk st) 16 b1 (d_root st) ->
  spill_bucket fuel0 (d_disk st) b1 s1 ord = Ok (r, nx, s2, ord') ->
  tx_allocate (free_pages s2 (d_fl st) (d_fln st))
              (40 + 8 * llen (all_pages (free_pages s2 (d_fl st) (d_fln st)))) = (flp, fln, s4) ->
  exists alloc Dall, commit_final st Lx s1 r s4 alloc flp fln Dall.
Proof.
  intros st b1 s1 ord m Lx r nx s2 ord' flp fln s4 (Hstrict & HA & HndL & _) Hz HLx Hfi Hwr Hpid Hp0 HS HO HSX HOw HLk Hsp Hal.
  set (d := d_disk st) in *. set (R := Rof st) in *. set (L := live_of st R) in *.
  pose proof HA as (_ & _ & _ & _ & _ & _ & _ & HCR & Hlive).
  assert (HkL : forall q x, In q R -> In x (prun d q) -> In x Lx).
  { intros q x Hq Hx. apply HLx. unfold L, live_of. apply in_or_app. left. apply in_flat_map. eauto. }
  assert (HfL0 : incl (foot d 16 (d_root st)) L) by (intros x Hx; now apply foot_live).
  assert (HfL : incl (foot d 16 (d_root st)) Lx) by (intros x Hx; apply HLx, HfL0, Hx).
  assert (H16 : 16 <= fuel0) by (unfold fuel0; lia).
  assert (Hu : unwritten R s1) by (intros x _; rewrite Hwr; reflexivity).
  pose proof (RecOwn_all d R Lx HCR Hz HkL fuel0 16 Lx b1 s1 ord (r, nx, s2, ord') (d_root st) m H16 Hfi
                (fun x Hx => Hx) Hu
                (wr_ok_nil Lx s1 Hwr) Hp0 Hpid HS HO HSX HOw HLk HfL Hsp) as HP.
  cbn [OwnPost] in HP. destruct HP as (alloc & dead & F1 & Hdl & W2 & P2 & I2 & HW).
  pose proof (fr_fresh _ _ _ _ _ F1) as Hfi2.
  assert (Hfi2x : fresh_inv Lx s2) by (apply (fresh_inv_sub _ _ _ (fun x Hx => in_or_app alloc Lx x (or_intror Hx)) Hfi2)).
  assert (Hfl0 : forall x, In x (nrun (d_fl st) (d_fln st)) -> In x L).
  { intros x Hx. unfold L, live_of. apply in_or_app. now right. }
  assert (Hfl : forall x, In x (nrun (d_fl st) (d_fln st)) -> In x Lx) by (intros x Hx; apply HLx, Hfl0, Hx).
  destruct (commit_tail_frame (alloc ++ Lx) _ _ _ _ _ _ Hfi2 Hal) as [G4 G3].
  destruct (W1b Lx s2 (d_fl st) (d_fln st) Hfi2x W2 P2 I2 Hfl) as (W3 & P3 & I3).
  assert (Hpos : (0 < 40 + 8 * llen (all_pages (free_pages s2 (d_fl st) (d_fln st))))%N) by lia.
  destruct (W1c Lx _ _ flp fln s4 (free_pages_fresh _ _ _ _ Hfi2x) W3 P3 I3 Hpos Hal) as (W4 & P4 & I4 & Hsep).
  exists alloc, (dead ++ nrun (d_fl st) (d_fln st)). constructor; try assumption.
  - exact (frame_trans _ _ _ _ _ _ _ _ F1 G4).
  - intros x Hx. apply in_app_or in Hx. destruct Hx as [Hx|Hx]; [|right; now apply Hfl0].
    destruct (Hdl x Hx) as [Ha|Hf]; [now left | right; now apply HfL0].
  - intros x Hx. exact (frame_alloc_ge2 _ _ _ _ _ x Hfi F1 Hx).
  - intros x Hx. exact (frame_alloc_ge2 _ _ _ _ _ x Hfi2 G4 Hx).
  - apply (HW s4 _ _ G4); [|exact W4]. intros x Hx. split.
    + intros Hi. apply (frame_new _ _ _ _ _ x Hfi F1 Hi). now apply Hfl.
    + intros Hi. exact (foot_fl_disj st x HndL Hi Hx).
Qed.

Theorem commit_alloc_z : forall st b s ord st' b1 s1 m,
  db_ok' st -> dget (d_disk st) 0%N = None ->
  rebalance fuel0 (d_disk st) b s = Ok (b1, s1) ->
  fresh_inv (live_of st (Rof st)) s1 -> wr s1 = [] -> txid s1 = (d_tx st + 1)%N ->
  pend_ids_ok s1 ->
  (forall x, In x (pend_all (pending s1)) -> freed_in_tx s1 x = true) ->
  (forall x, freed_in_tx s1 x = true -> In x (foot (d_disk st) 16 (d_root st))) ->
  SReady (d_disk st) (Rof st) b1 -> OvlAbs (d_disk st) b1 m -> SReadyX (d_disk st) (Rof st) b1 ->
  OwnI (d_disk st) 16 s1 b1 (d_root st) -> Lnk (d_disk st) 16 b1 (d_root st) ->
  commit st b s ord = Ok st' -> readable st' -> db_strict st' -> closedR (d_disk st') (Rof st') ->
  alloc_ok st' (Rof st') /\ NoDup (live_of st' (Rof st')) /\ pend_le st' /\ dget (d_disk st') 0%N = None.
Proof.
  intros st b s ord st' b1 s1 m Hdb Hz Hreb Hfi Hwr _ Hpid Hpf Hff HS HO HSX HOw HLk Hc Hrd _ Hcl.
  destruct (commit_ok_inv _ _ _ _ _ _ _ Hreb Hc) as (r & nx & s2 & ord' & flp & fln & s4 & Hsp & Hal & Est).
  assert (Hp0 : pend_ok0 s1) by (intros x Hx; apply (fi_live _ _ Hfi), foot_live, Hff, Hpf, Hx).
  destruct (commit_states st b1 s1 ord m _ r nx s2 ord' flp fln s4 Hdb Hz (fun x Hx => Hx) Hfi Hwr Hpid Hp0
              HS HO HSX HOw HLk Hsp Hal) as (alloc & Dall & CF).
  apply (final_okz st _ s1 r nx s4 alloc flp fln Dall [] st' Hdb Hz (fun x Hx => Hx) CF Hff); try assumption; [|intros x []].
  intros x Hx. right. apply (fr_freed _ _ _ _ _ (cf_frame _ _ _ _ _ _ _ _ _ CF)).
  apply (fr_pend _ _ _ _ _ (cf_frame _ _ _ _ _ _ _ _ _ CF)) in Hx. destruct Hx as [Hx|Hx]; [left; now apply Hpf | now right].
Qed.

(* [commit] re-establishes the allocation invariant, given the two premises that [OwnI] does not provide: no page 0
   on the committed disk, and the link invariant [Lnk] of the overlay after rebalance *)
Theorem commit_alloc : forall st b s ord st' b1 s1 m,
  db_ok' st -> dget (d_disk st) 0%N = None ->
  rebalance fuel0 (d_disk st) b s = Ok (b1, s1) ->
  fresh_inv (live_of st (Rof st)) s1 -> wr s1 = [] -> txid s1 = (d_tx st + 1)%N ->
  pend_ids_ok s1 ->
  (forall x, In x (pend_all (pending s1)) -> freed_in_tx s1 x = true) ->
  (forall x, freed_in_tx s1 x = true -> In x (foot (d_disk st) 16 (d_root st))) ->
  SReady (d_disk st) (Rof st) b1 -> OvlAbs (d_disk st) b1 m -> SReadyX (d_disk st) (Rof st) b1 ->
  OwnI (d_disk st) 16 s1 b1 (d_root st) -> Lnk (d_disk st) 16 b1 (d_root st) ->
  commit st b s ord = Ok st' -> readable st' -> db_strict st' -> closedR (d_disk st') (Rof st') ->
  alloc_ok st' (Rof st') /\ NoDup (live_of st' (Rof st')) /\ pend_le st'.
Proof.
  intros st b s ord st' b1 s1 m. intros. edestruct commit_alloc_z as (A & B & C & _); eauto.
Qed.

(* the new committed disk has no page 0 either *)
Theorem commit_zero : forall st b s ord st' b1 s1 m,
  db_ok' st -> dget (d_disk st) 0%N = None ->
  rebalance fuel0 (d_disk st) b s = Ok (b1, s1) ->
  fresh_inv (live_of st (Rof st)) s1 -> wr s1 = [] -> txid s1 = (d_tx st + 1)%N ->
  pend_ids_ok s1 ->
  (forall x, In x (pend_all (pending s1)) -> freed_in_tx s1 x = true) ->
  (forall x, freed_in_tx s1 x = true -> In x (foot (d_disk st) 16 (d_root st))) ->
  SReady (d_disk st) (Rof st) b1 -> OvlAbs (d_disk st) b1 m -> SReadyX (d_disk st) (Rof st) b1 ->
  OwnI (d_disk st) 16 s1 b1 (d_root st) -> Lnk (d_disk st) 16 b1 (d_root st) ->
  commit st b s ord = Ok st' -> readable st' -> db_strict st' -> closedR (d_disk st') (Rof st') ->
  dget (d_disk st') 0%N = None.
Proof.
  intros st b s ord st' b1 s1 m. intros. edestruct commit_alloc_z as (_ & _ & _ & Z); eauto.
Qed.
End Commit.

(** * The two extra invariants at the start *)

(* the invariant of committed states with "no page 0" added *)
Definition db_okz (st : db) : Prop := db_ok' st /\ dget (d_disk st) 0%N = None.

Lemma init_db_zero : forall P, dget (d_disk (init_db P)) 0%N = None.
Proof. intros P. reflexivity. Qed.

(* the fresh root bucket of a transaction is linked to the committed root *)
Lemma Lnk_root_bucket : forall st n, Lnk (d_disk st) n (root_bucket st) (d_root st).
Proof.
  intros st [|n]; [exact I|]. cbn [Lnk root_bucket b_dirty b_rootn b_root_page b_subs]. split; [auto|]. intros k sb [].
Qed.

Print Assumptions commit_alloc.
Print Assumptions commit_zero.
