(* Snapshot isolation and page reuse for the engine model with read transactions (properties C03 / C10).
   Histories (model/EngineR.v): a state is the current committed state and the list of open readers, each
   recording the committed state it began on; steps [Begin_reader | End_reader i | Tx ops ord]; a writer begins
   with the release bound  min over the open readers of (reader id + k),  or its own id when no reader is open
   ([step_k k]; k = 0 is the library: tx.rs releases below [open_ro_txs[0]]).
   For k <= 1 (the library's k = 0 and the tight bound k = 1) every history keeps the invariant [HInv], under which
   each page of an open reader's snapshot has on the CURRENT disk the image it had when the reader began; with no
   reader open the writer is the reader-less one.  For k = 2 this fails: [ExReaders.k2_breaks_reader] in
   EngineReadersEx (a reader's snapshot page is overwritten). *)
From Coq Require Import List NArith Bool Arith Lia ZifyN ZifyNat ZifyBool.
From Coq.Strings Require Import Byte.
From Jamm Require Spec.
From Jamm Require Import Bytes BytesFacts Tree Cursor SearchFacts Engine EngineAbs EngineFacts EngineMergeFacts.
From Jamm Require Import EngineModifyFacts EngineSpillFacts EnginePathFacts EngineBridgeFacts EngineRebalanceFacts.
From Jamm Require FreelistFacts EngineAllocFacts EngineSpillWfFacts.
From Jamm Require Import EngineTxInvFacts EngineSpillBucketFacts EngineRefines.
Import ListNotations.
Import Coq.Strings.String.StringSyntax. Delimit Scope string_scope with string.
Local Open Scope list_scope. Local Open Scope nat_scope.
Set Warnings "-abstract-large-number".

From Jamm Require Import EngineOwnDefs EngineOwnWr EngineOwnOps EngineOwnReb EngineOwnSpill EngineOwnLnk EngineAllocInv.
From Jamm Require Import EngineCow EngineR EngineRSim EngineRBegin EngineReadersInv.

(* the pages of the reader's snapshot: every page of every run reachable from its header, and its free-list run *)
Definition snap (r : reader) : list N := live_of r (Rof r).

(* [RI cur r]: the reader r (which began on a state satisfying the invariant, not after [cur]) finds each page of
   its snapshot unchanged on the current disk; the page is below the high-water mark, not free, and not in a
   pending batch with id <= the reader's id (the only batches a safe bound releases) *)
Record RI (cur : db) (r : reader) : Prop := {
  ri_ok : db_okr r;
  ri_tx : (d_tx r <= d_tx cur)%N;
  ri_same : forall p, In p (snap r) -> dget (d_disk cur) p = dget (d_disk r) p;
  ri_np : forall p, In p (snap r) -> (p < d_np cur)%N;
  ri_free : forall p, In p (snap r) -> ~ In p (d_free cur);
  ri_pend : forall p u ps, In p (snap r) -> In (u, ps) (d_pending cur) -> (u <= d_tx r)%N -> ~ In p ps }.

Definition HInv (h : hstate) : Prop := db_okr (fst h) /\ Forall (RI (fst h)) (snd h).

Lemma RI_begin : forall cur, db_okr cur -> RI cur cur.
Proof.
  intros cur Hok. pose proof (ok_live cur (db_ok'_facts cur (proj1 (proj1 Hok)))) as Hlive.
  constructor; [exact Hok | lia | reflexivity | | |].
  - intros p Hp. apply (Hlive p Hp).
  - intros p Hp. apply (Hlive p Hp).
  - intros p u ps Hp Hb _ Hin. apply (proj2 (proj2 (Hlive p Hp))). unfold pend_all. apply in_flat_map. exists (u, ps). auto.
Qed.

(* the bound of [step_k k] is at most (reader id + k) for every open reader *)
Lemma min_reader_le : forall k rs dflt r, In r rs -> (min_reader k rs dflt <= r_id r + k)%N.
Proof.
  intros k rs dflt r. induction rs as [|r0 rs IH]; intros H; [destruct H|]. cbn [min_reader fold_right].
  destruct H as [->|H]; [lia|]. specialize (IH H). unfold min_reader in IH. lia.
Qed.
Lemma min_reader_nil : forall k dflt, min_reader k [] dflt = dflt.
Proof. reflexivity. Qed.

(* the safe inequality: bound <= reader id + 1.  ([release bound] frees the batches with id < bound; the pages of
   the reader's snapshot are handed back by transactions with id >= reader id + 1.) *)
Lemma snap_not_released : forall cur b r p, RI cur r -> (b <= d_tx r + 1)%N -> In p (snap r) -> ~ In p (rfree cur b).
Proof.
  intros cur b r p HR Hb Hp Hf. destruct (kept_suffix cur b) as (rel & E & Hrel & Hin & _). apply Hin in Hf.
  destruct Hf as [Hf|Hf]; [exact (ri_free _ _ HR p Hp Hf)|].
  unfold pend_all in Hf. apply in_flat_map in Hf. destruct Hf as ([u ps] & Hbt & Hps). cbn [snd] in Hps.
  rewrite Forall_forall in Hrel. specialize (Hrel _ Hbt). cbn [fst] in Hrel. unfold rbound in Hrel.
  apply (ri_pend _ _ HR p u ps Hp); [rewrite E; apply in_or_app; now left | lia | exact Hps].
Qed.

Theorem RI_tx : forall cur b ops ord cur' r, db_okr cur -> Forall (op_ok (d_disk cur)) ops ->
  run_tx_r cur b ops ord = Ok cur' -> RI cur r -> (b <= d_tx r + 1)%N -> RI cur' r.
Proof.
  intros cur b ops ord cur' r Hok Hops Hrun HR Hb.
  destruct (run_tx_r_write_set cur b ops ord cur' Hok Hops Hrun) as (_ & w & X & C).
  constructor.
  - exact (ri_ok _ _ HR).
  - rewrite (tr_tx _ _ _ _ _ C). pose proof (ri_tx _ _ HR). lia.
  - intros p Hp. rewrite <- (ri_same _ _ HR p Hp).
    apply (run_tx_r_protected_intact cur b ops ord cur' Hok Hops Hrun p (ri_np _ _ HR p Hp)).
    now apply (snap_not_released cur b r p HR Hb).
  - intros p Hp. pose proof (ri_np _ _ HR p Hp). pose proof (tr_np _ _ _ _ _ C). lia.
  - intros p Hp Hf. apply (snap_not_released cur b r p HR Hb Hp). exact (tr_free _ _ _ _ _ C p Hf).
  - intros p u ps Hp Hbt Hu. rewrite (tr_pend _ _ _ _ _ C) in Hbt. apply in_app_or in Hbt. destruct Hbt as [Hbt|Hbt].
    + destruct (kept_suffix cur b) as (rel & E & _). apply (ri_pend _ _ HR p u ps Hp); [|exact Hu].
      rewrite E. apply in_or_app. now right.
    + pose proof (tr_Xid _ _ _ _ _ C) as HX. rewrite Forall_forall in HX. specialize (HX _ Hbt). cbn [fst] in HX.
      pose proof (ri_tx _ _ HR). lia.
Qed.

(* every operation admissible where it is applied, every committed state readable (cf. EngineAllocInv.txs_ok') *)
Fixpoint hist_ok (k : N) (h : hstate) (es : list hstep) : Prop :=
  match es with
  | [] => True
  | e :: es' =>
      match e with Tx ops _ => Forall (op_ok (d_disk (fst h))) ops | _ => True end /\
      forall h1, step_k k h e = Ok h1 -> readable (fst h1) /\ hist_ok k h1 es'
  end.

(* the meaning of a history: the transactions in order (readers do not change it) *)
Fixpoint sem_hist (es : list hstep) (m : snode) : snode :=
  match es with
  | [] => m
  | Tx ops _ :: es' => sem_hist es' (sem_tx ops m)
  | _ :: es' => sem_hist es' m
  end.

Theorem hist_inv_step : forall k h e h1, (k <= 1)%N -> HInv h ->
  match e with Tx ops _ => Forall (op_ok (d_disk (fst h))) ops | _ => True end ->
  step_k k h e = Ok h1 -> readable (fst h1) ->
  HInv h1 /\ abs_db (fst h1) = sem_hist [e] (abs_db (fst h)).
Proof.
  intros k [cur rs] e h1 Hk [Hok HRs] Hops Hstep Hrd. cbn [fst snd] in *. destruct e as [|i|ops ord]; cbn [step_k fst snd] in Hstep.
  - inversion Hstep; subst h1. cbn [fst snd sem_hist]. split; [|reflexivity]. split; [exact Hok|].
    apply Forall_app. split; [exact HRs|]. constructor; [now apply RI_begin | constructor].
  - inversion Hstep; subst h1. cbn [fst snd sem_hist]. split; [|reflexivity]. split; [exact Hok|].
    rewrite Forall_forall in HRs |- *. intros r Hr. apply HRs. eapply remove_at_In; eauto.
  - apply bind_ok_inv in Hstep. destruct Hstep as (cur' & Hrun & E). inversion E; subst h1. clear E. cbn [fst snd sem_hist] in *.
    destruct (run_tx_r_refines cur _ ops ord cur' Hok Hops Hrun Hrd) as [Hok' Habs]. split; [|exact Habs].
    split; [exact Hok'|]. cbn [fst snd]. rewrite Forall_forall in HRs |- *. intros r Hr.
    apply (RI_tx cur _ ops ord cur' r Hok Hops Hrun (HRs r Hr)).
    unfold bound_k. cbn [fst snd]. pose proof (min_reader_le k rs (d_tx cur + 1)%N r Hr). unfold r_id in *. lia.
Qed.

Theorem hist_inv_run : forall k es h h', (k <= 1)%N -> HInv h -> hist_ok k h es -> run_hist_k k h es = Ok h' ->
  HInv h' /\ abs_db (fst h') = sem_hist es (abs_db (fst h)).
Proof.
  intros k es h h' Hk Hinv Hok Hrun.
  apply (steps_inv (step_k k) _ _ (hist_ok k) (fun h m => HInv h /\ abs_db (fst h) = m) sem_hist (fun _ _ _ H => H)
           (fun _ => eq_refl)) with (st := h); [| | split; [exact Hinv | reflexivity] | exact Hok | exact Hrun].
  - intros [| |] es0 m; reflexivity.
  - intros st m e st1 [Hi <-] Ha Hs Hg. exact (hist_inv_step k st e st1 Hk Hi Ha Hs Hg).
Qed.

Definition hist_okb (k : N) : hstate -> list hstep -> bool :=
  steps_okb (step_k k) (fun _ e => match e with Tx ops _ => forallb op_okb ops | _ => true end)
    (fun h => readableb (fst h)).
Lemma hist_okb_ok : forall k es h, hist_okb k h es = true -> hist_ok k h es.
Proof.
  intros k. apply (steps_okb_ok (step_k k) (fun h e => match e with Tx ops _ => Forall (op_ok (d_disk (fst h))) ops | _ => True end)
                     (fun h => readable (fst h)) (hist_ok k)).
  - intros h [| |ops ord] H; [exact I | exact I | now apply op_okb_ok].
  - intros h. apply readableb_ok.
  - intros h. exact I.
  - intros h e es H. exact H.
Qed.

(* what the invariant of an open reader gives: its pages, its page set, its meaning on the current disk *)
Lemma RI_frozen : forall cur r, RI cur r ->
  (forall p, In p (snap r) -> dget (d_disk cur) p = dget (d_disk r) p) /\
  (forall p, In p (Rof r) -> dget (d_disk cur) p = dget (d_disk r) p) /\
  fpg 16 (d_disk cur) (d_root r) = Rof r /\
  runs (d_disk cur) (fpg 16 (d_disk cur) (d_root r)) = runs (d_disk r) (Rof r) /\
  abs_bucket 16 (d_disk cur) (d_root r) (d_next r) = abs_db r /\
  abs_db (reader_view cur r) = abs_db r.
Proof.
  intros cur r HR. pose proof (db_ok'_facts r (proj1 (proj1 (ri_ok _ _ HR)))) as F.
  pose proof (ok_root r F) as Hroot. pose proof (ok_closed r F) as HC.
  assert (Hag : forall p, In p (Rof r) -> dget (d_disk cur) p = dget (d_disk r) p).
  { intros p Hp. apply (ri_same _ _ HR). unfold snap. now apply R_live. }
  split; [exact (ri_same _ _ HR)|]. split; [exact Hag|].
  split; [exact (fpg_kept (d_disk r) (d_disk cur) (Rof r) HC Hag 16 (d_root r) Hroot)|].
  split; [exact (runs_fpg_kept (d_disk r) (d_disk cur) (Rof r) HC Hag 16 (d_root r) Hroot)|].
  split; exact (abs_bucket_kept (d_disk r) (d_disk cur) (Rof r) HC Hag 16 (d_root r) (d_next r) Hroot).
Qed.

(* C03 for the engine.  After any history (with the library's release bound k = 0, or the tight one k = 1), for every
   reader that is still open: every page of its snapshot is unchanged on the current disk, and its header read on
   the current disk yields the contents frozen when it began; the current state means what the specification says *)
Theorem snapshot_isolation : forall k es h h', (k <= 1)%N -> HInv h -> hist_ok k h es -> run_hist_k k h es = Ok h' ->
  (forall r, In r (snd h') ->
     (forall p, In p (snap r) -> dget (d_disk (fst h')) p = dget (d_disk r) p) /\
     (forall p, In p (Rof r) -> dget (d_disk (fst h')) p = dget (d_disk r) p) /\
     fpg 16 (d_disk (fst h')) (d_root r) = Rof r /\
     abs_bucket 16 (d_disk (fst h')) (d_root r) (d_next r) = abs_db r /\
     abs_db (reader_view (fst h') r) = abs_db r) /\
  db_okr (fst h') /\ abs_db (fst h') = sem_hist es (abs_db (fst h)).
Proof.
  intros k es h h' Hk Hinv Hok Hrun. destruct (hist_inv_run k es h h' Hk Hinv Hok Hrun) as [[Hokr HRs] Habs].
  split; [|split; [exact Hokr | exact Habs]]. intros r Hr. rewrite Forall_forall in HRs.
  destruct (RI_frozen (fst h') r (HRs r Hr)) as (A & B & C & _ & D & E). auto.
Qed.

Lemma HInv_init : forall P, (0 < P)%N -> HInv (init_db P, []).
Proof. intros P HP. split; [now apply init_db_okr | constructor]. Qed.

Corollary snapshot_isolation_init : forall k P es h', (k <= 1)%N -> (0 < P)%N ->
  hist_ok k (init_db P, []) es -> run_hist_k k (init_db P, []) es = Ok h' ->
  (forall r, In r (snd h') ->
     (forall p, In p (snap r) -> dget (d_disk (fst h')) p = dget (d_disk r) p) /\
     abs_bucket 16 (d_disk (fst h')) (d_root r) (d_next r) = abs_db r) /\
  db_okr (fst h') /\ abs_db (fst h') = sem_hist es (SBucket 0 0 []).
Proof.
  intros k P es h' Hk HP Hok Hrun.
  destruct (snapshot_isolation k es _ h' Hk (HInv_init P HP) Hok Hrun) as (A & B & C).
  split; [|split; [exact B | exact C]]. intros r Hr. destruct (A r Hr) as (A1 & _ & _ & A4 & _). auto.
Qed.

(* a reader that begins on a state satisfying the invariant and stays open over any number of transactions (other
   readers may come and go: here none do) reads its frozen contents after them *)
Corollary reader_frozen : forall k st txs cur rs, (k <= 1)%N -> db_okr st ->
  hist_ok k (st, [st]) (map (fun t : list op * list bytes => Tx (fst t) (snd t)) txs) ->
  run_hist_k k (st, [st]) (map (fun t : list op * list bytes => Tx (fst t) (snd t)) txs) = Ok (cur, rs) ->
  rs = [st] /\
  (forall p, In p (snap st) -> dget (d_disk cur) p = dget (d_disk st) p) /\
  abs_bucket 16 (d_disk cur) (d_root st) (d_next st) = abs_db st.
Proof.
  intros k st txs cur rs Hk Hok Hh Hrun.
  assert (Hrs : rs = [st]).
  { assert (G : forall (l : list (list op * list bytes)) h h', run_hist_k k h (map (fun t => Tx (fst t) (snd t)) l) = Ok h' -> snd h' = snd h).
    { induction l as [|t l IH]; intros h h' H; cbn [map run_hist_k fold_res] in H; [inversion H; reflexivity|].
      apply bind_ok_inv in H. destruct H as (h1 & H1 & H2). cbn [step_k] in H1. apply bind_ok_inv in H1.
      destruct H1 as (st1 & _ & E). inversion E; subst h1. rewrite (IH _ _ H2). reflexivity. }
    exact (G txs _ _ Hrun). }
  split; [exact Hrs|].
  assert (Hinv : HInv (st, [st])) by (split; [exact Hok | constructor; [now apply RI_begin | constructor]]).
  destruct (snapshot_isolation k _ _ _ Hk Hinv Hh Hrun) as (A & _). cbn [fst snd] in A.
  destruct (A st) as (A1 & _ & _ & A4 & _); [rewrite Hrs; now left|]. auto.
Qed.

From Jamm Require EngineNoLeakDefs EngineNoLeak.

(* C10: with no reader open the writer is the reader-less one: every pending batch is released, every pending page
   is allocatable *)
Theorem reuse_when_no_reader : forall k cur ops ord, db_okr cur ->
  bound_k k (cur, []) = (d_tx cur + 1)%N /\
  step_k k (cur, []) (Tx ops ord) = bind (run_tx cur ops ord) (fun st' => Ok (st', [])) /\
  begin_w_r cur (bound_k k (cur, [])) = begin_w cur /\
  pending (begin_w cur) = [] /\
  (forall x, In x (d_free cur) \/ In x (pend_all (d_pending cur)) -> In x (free (begin_w cur))).
Proof.
  intros k cur ops ord Hok. pose proof (ok_pend_le cur (db_ok'_facts cur (proj1 (proj1 Hok)))) as Hpl.
  assert (Eb : bound_k k (cur, []) = (d_tx cur + 1)%N) by reflexivity.
  split; [exact Eb|]. split.
  { cbn [step_k fst snd]. rewrite Eb. rewrite run_tx_r_none by lia. reflexivity. }
  split; [rewrite Eb; apply begin_w_r_none; lia|]. split; [now apply begin_w_pending|].
  intros x Hx. unfold begin_w. destruct (release (d_tx cur + 1) (d_free cur) (d_pending cur)) as [fr pd] eqn:Er. cbn [free].
  eapply EngineAllocFacts.release_complete; [|exact Er | exact Hx].
  eapply Forall_impl; [|exact Hpl]. cbn beta. intros bt Hb. lia.
Qed.

(* so, from a state with the exact page partition, the reader-less theorems apply to that transaction: the new
   state has the exact partition again and its free-list record lists exactly the non-live pages *)
Corollary reuse_exact : forall k cur ops ord st' rs', EngineNoLeakDefs.db_exact cur ->
  Forall (op_ok (d_disk cur)) ops -> step_k k (cur, []) (Tx ops ord) = Ok (st', rs') -> readable st' ->
  rs' = [] /\ EngineNoLeak.db_exact_rec st' /\
  forall x, In x (d_flids st') <-> ((2 <= x < d_np st')%N /\ ~ In x (live_of st' (Rof st'))).
Proof.
  intros k cur ops ord st' rs' Hex Hops Hstep Hrd. cbn [step_k fst snd] in Hstep.
  change (bound_k k (cur, [])) with (d_tx cur + 1)%N in Hstep. rewrite run_tx_r_none in Hstep by lia.
  apply bind_ok_inv in Hstep. destruct Hstep as (st1 & Hrun & E). inversion E; subst st1 rs'. split; [reflexivity|].
  pose proof (EngineNoLeak.run_tx_exact_rec cur ops ord st' Hex Hops Hrun Hrd) as Hrec. split; [exact Hrec|].
  now apply EngineNoLeak.flids_exact.
Qed.

Print Assumptions RI_tx.
Print Assumptions hist_inv_run.
Print Assumptions snapshot_isolation.
Print Assumptions snapshot_isolation_init.
Print Assumptions reader_frozen.
Print Assumptions reuse_when_no_reader.
Print Assumptions reuse_exact.
