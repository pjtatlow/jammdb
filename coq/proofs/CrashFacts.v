(* Atomicity / durability of the copy-on-write commit of model/Crash.v under process kill, power loss
   and a failing call.  The theorems are about an arbitrary order of write_data's steps, under decidable
   premises on that order ([has_barrier], [header_after_data] of Crash.v, [no_data_after_header] here);
   the instances evaluate the premises on Consts.commit_order.  All three crash semantics are runs of one
   list of (call, fate), and one lemma ([generic]) about such lists carries them.  Counterexamples at the
   end: the order of the pinned release, and orders with a data step AFTER the header step. *)
From Coq Require Import List NArith Bool String Lia Arith.
From Jamm Require Import Bytes Consts PL PLFacts Crash.
Import ListNotations.
Local Open Scope list_scope.
Local Open Scope nat_scope.

Definition get_slot (d : disk) (b : bool) : slotc := if b then slot1 d else slot0 d.

Lemma get_slot_write_same d s v : get_slot (write_slot d s v) s = v.
Proof. destruct s; reflexivity. Qed.
Lemma get_slot_write_other d s v : get_slot (write_slot d s v) (negb s) = get_slot d (negb s).
Proof. destruct s; reflexivity. Qed.
Lemma pages_write_slot d s v : pages (write_slot d s v) = pages d.
Proof. destruct s; reflexivity. Qed.
Lemma get_slot_write_page d p c b : get_slot (write_page d p c) b = get_slot d b.
Proof. destruct b; reflexivity. Qed.

Lemma select_ext d d' :
  get_slot d false = get_slot d' false -> get_slot d true = get_slot d' true -> select d = select d'.
Proof. unfold get_slot, select. intros -> ->. reflexivity. Qed.

Lemma lookup_write_page_same d p c : lookup_page p (pages (write_page d p c)) = c.
Proof. cbn. rewrite N.eqb_refl. reflexivity. Qed.
Lemma lookup_write_page_other d p q c :
  p <> q -> lookup_page q (pages (write_page d p c)) = lookup_page q (pages d).
Proof. intros H. cbn. apply N.eqb_neq in H. rewrite H. reflexivity. Qed.

(* a uniform view of the three crash semantics: a list of (call, fate) *)

Definition run (t : N) (newh : header) (tgt : bool) (l : list (io * fate)) (d : disk) : disk :=
  fold_left (fun d x => apply_io t newh tgt d (fst x) (snd x)) l d.

Lemma run_cons t newh tgt x l d :
  run t newh tgt (x :: l) d = run t newh tgt l (apply_io t newh tgt d (fst x) (snd x)).
Proof. reflexivity. Qed.
Lemma run_app t newh tgt l1 l2 d :
  run t newh tgt (l1 ++ l2) d = run t newh tgt l2 (run t newh tgt l1 d).
Proof. unfold run. apply fold_left_app. Qed.

Definition applied (l : list io) : list (io * fate) := map (fun o => (o, Applied)) l.

Fixpoint tag (synced : nat) (fates : nat -> fate) (i : nat) (l : list io) : list (io * fate) :=
  match l with
  | [] => []
  | o :: r => (o, if Nat.ltb i synced then Applied else fates i) :: tag synced fates (S i) r
  end.

Lemma run_prefix_run t newh tgt : forall n ios d,
  run_prefix t newh tgt d ios n = run t newh tgt (applied (firstn n ios)) d.
Proof.
  induction n as [|n IH]; intros ios d; [destruct ios; reflexivity|].
  destruct ios as [|o r]; [reflexivity|]. cbn [run_prefix firstn applied map].
  rewrite run_cons. cbn [fst snd]. apply IH.
Qed.

Lemma run_power_run t newh tgt synced fates : forall n ios d i,
  run_power t newh tgt d ios n synced i fates = run t newh tgt (tag synced fates i (firstn n ios)) d.
Proof.
  induction n as [|n IH]; intros ios d i; [destruct ios; reflexivity|].
  destruct ios as [|o r]; [reflexivity|]. cbn [run_power firstn tag].
  rewrite run_cons. cbn [fst snd]. apply IH.
Qed.

Definition fault_tail (ios : list io) (k : nat) (f : fate) : list (io * fate) :=
  match nth_error ios k with Some o => [(o, f)] | None => [] end.

Lemma fault_image_run t newh tgt d ios k f :
  fault_image t newh tgt d ios k f = run t newh tgt (applied (firstn k ios) ++ fault_tail ios k f) d.
Proof.
  unfold fault_image, fault_tail. rewrite run_app, run_prefix_run.
  destruct (nth_error ios k); reflexivity.
Qed.

Lemma tag_app synced fates : forall l1 l2 i,
  tag synced fates i (l1 ++ l2) = tag synced fates i l1 ++ tag synced fates (i + List.length l1) l2.
Proof.
  induction l1 as [|o r IH]; intros l2 i; cbn [tag app List.length].
  - rewrite Nat.add_0_r. reflexivity.
  - rewrite IH. replace (S i + List.length r) with (i + S (List.length r)) by lia. reflexivity.
Qed.
Lemma tag_applied synced fates : forall l i,
  i + List.length l <= synced -> tag synced fates i l = applied l.
Proof.
  induction l as [|o r IH]; intros i H; [reflexivity|]. cbn [tag applied map List.length] in *.
  assert (Hlt : Nat.ltb i synced = true) by (apply Nat.ltb_lt; lia). rewrite Hlt.
  f_equal. apply IH. lia.
Qed.
Lemma tag_In synced fates : forall l i o f, In (o, f) (tag synced fates i l) -> In o l.
Proof.
  induction l as [|o' r IH]; intros i o f H; [destruct H|]. cbn [tag] in H. destruct H as [H|H].
  - left. congruence.
  - right. eapply IH. exact H.
Qed.
Lemma applied_In l o f : In (o, f) (applied l) <-> In o l /\ f = Applied.
Proof.
  unfold applied. rewrite in_map_iff. split.
  - intros [x [E H]]. inversion E; subst. auto.
  - intros [H ->]. exists o. auto.
Qed.
Lemma applied_not_torn l o f : In (o, f) (applied l) -> f <> Torn.
Proof. intros H. apply applied_In in H. destruct H as [_ ->]. discriminate. Qed.

Lemma lsb_mono : forall ios n i acc, acc <= i -> acc <= last_sync_before ios n i acc.
Proof.
  induction ios as [|o r IH]; intros n i acc H; destruct n; cbn [last_sync_before]; try lia.
  destruct o.
  - specialize (IH n (S i) acc). lia.
  - specialize (IH n (S i) acc). lia.
  - specialize (IH n (S i) (S i)). lia.
Qed.
Lemma lsb_after_sync : forall a1 rest n i acc,
  List.length a1 < n -> acc <= i -> i + List.length a1 + 1 <= last_sync_before (a1 ++ IoSync :: rest) n i acc.
Proof.
  induction a1 as [|o r IH]; intros rest n i acc Hn Hacc; destruct n; cbn [List.length] in *; try lia.
  - cbn [app last_sync_before]. pose proof (lsb_mono rest n (S i) (S i)). lia.
  - cbn [app last_sync_before].
    specialize (IH rest n (S i) (match o with IoSync => S i | _ => acc end)).
    assert (match o with IoSync => S i | _ => acc end <= S i) by (destruct o; lia).
    lia.
Qed.

Lemma firstn_short {A} (pre rest : list A) n :
  n <= List.length pre -> firstn n (pre ++ rest) = firstn n pre.
Proof.
  intros H. rewrite firstn_app. replace (n - List.length pre) with 0 by lia.
  cbn. apply app_nil_r.
Qed.
Lemma firstn_long {A} (pre rest : list A) n :
  List.length pre <= n -> firstn n (pre ++ rest) = pre ++ firstn (n - List.length pre) rest.
Proof. intros H. rewrite firstn_app. rewrite firstn_all2 by lia. reflexivity. Qed.
Lemma firstn_In {A} (l : list A) n x : In x (firstn n l) -> In x l.
Proof. intros H. rewrite <- (firstn_skipn n l). apply in_or_app. auto. Qed.

Definition NoHeader (l : list io) : Prop := ~ In IoHeader l.
Definition NoData (l : list io) : Prop := forall p, ~ In (IoData p) l.

(* no "data" step after the first "header" step.  [has_barrier] and [header_after_data] stop reading the
   order at the header step, so neither says this; C02_power and C11_disk need it
   (C02_power_needs_no_data_after_header, C11_disk_needs_no_data_after_header). *)
Fixpoint no_data_after_header (order : list string) : bool :=
  match order with
  | [] => true
  | s :: r => if String.eqb s "header" then negb (existsb (String.eqb "data") r)
              else no_data_after_header r
  end.

Lemma step_io_cases written s :
  (String.eqb s "data" = true /\ s = "data"%string /\ step_io written s = map IoData written) \/
  (String.eqb s "data" = false /\ String.eqb s "header" = true /\ s = "header"%string /\ step_io written s = [IoHeader]) \/
  (String.eqb s "data" = false /\ String.eqb s "header" = false /\ String.eqb s "sync" = true /\ s = "sync"%string
     /\ step_io written s = [IoSync]) \/
  (String.eqb s "data" = false /\ String.eqb s "header" = false /\ String.eqb s "sync" = false /\ step_io written s = []).
Proof.
  unfold step_io.
  destruct (String.eqb s "data") eqn:Ed.
  { left. apply String.eqb_eq in Ed. auto. }
  destruct (String.eqb s "header") eqn:Eh.
  { right; left. apply String.eqb_eq in Eh. auto. }
  destruct (String.eqb s "sync") eqn:Es.
  { right; right; left. apply String.eqb_eq in Es. auto 6. }
  right; right; right. auto.
Qed.

Lemma commit_io_names order written p :
  In (IoData p) (commit_io_of order written) -> In p written.
Proof.
  unfold commit_io_of. rewrite in_flat_map. intros [s [_ H]].
  destruct (step_io_cases written s) as [C|[C|[C|C]]].
  - destruct C as (_ & _ & E). rewrite E in H. apply in_map_iff in H.
    destruct H as [q [Eq Hq]]. inversion Eq; subst. exact Hq.
  - destruct C as (_ & _ & _ & E). rewrite E in H. destruct H as [H|[]]. discriminate.
  - destruct C as (_ & _ & _ & _ & E). rewrite E in H. destruct H as [H|[]]. discriminate.
  - destruct C as (_ & _ & _ & E). rewrite E in H. destruct H.
Qed.

Lemma no_data_steps written r :
  existsb (String.eqb "data") r = false -> NoData (flat_map (step_io written) r).
Proof.
  induction r as [|s r IH]; intros H p Hin; [destruct Hin|].
  cbn [existsb] in H. apply orb_false_iff in H. destruct H as [Hs Hr].
  cbn [flat_map] in Hin. apply in_app_or in Hin. destruct Hin as [Hin|Hin].
  - destruct (step_io_cases written s) as [C|[C|[C|C]]].
    + destruct C as (_ & E & _). subst s. discriminate.
    + destruct C as (_ & _ & _ & E). rewrite E in Hin. destruct Hin as [Hin|[]]. discriminate.
    + destruct C as (_ & _ & _ & _ & E). rewrite E in Hin. destruct Hin as [Hin|[]]. discriminate.
    + destruct C as (_ & _ & _ & E). rewrite E in Hin. destruct Hin.
  - exact (IH Hr p Hin).
Qed.

(* the I/O list of an order accepted by header_after_data: every data write before the first header write *)
Definition hd_shape (written : list N) (order : list string) (ios : list io) : Prop :=
  exists pre post, ios = pre ++ IoHeader :: post /\ NoHeader pre /\
    (forall p, In p written -> In (IoData p) pre) /\
    (no_data_after_header order = true -> NoData post).

Lemma hd_shape_gen written : forall order sd acc,
  header_after_data sd order = true ->
  NoHeader acc -> (sd = true -> forall p, In p written -> In (IoData p) acc) ->
  exists pre post, acc ++ flat_map (step_io written) order = pre ++ IoHeader :: post /\ NoHeader pre /\
    (forall p, In p written -> In (IoData p) pre) /\
    (no_data_after_header order = true -> NoData post).
Proof.
  induction order as [|s r IH]; intros sd acc H Hnh Hsd; [discriminate H|].
  cbn [header_after_data no_data_after_header flat_map] in *.
  destruct (step_io_cases written s) as [C|[C|[C|C]]].
  - destruct C as (Ed & Es & E). rewrite Ed in H. rewrite E.
    assert (Eh : String.eqb s "header" = false) by (subst s; reflexivity). rewrite Eh.
    rewrite app_assoc. apply (IH true); [exact H| |].
    + intros Hin. apply in_app_or in Hin. destruct Hin as [Hin|Hin]; [exact (Hnh Hin)|].
      apply in_map_iff in Hin. destruct Hin as [q [Eq _]]. discriminate.
    + intros _ p Hp. apply in_or_app. right. apply in_map. exact Hp.
  - destruct C as (Ed & Eh & _ & E). rewrite Ed, Eh in H. rewrite Eh, E.
    apply andb_true_iff in H. destruct H as [Hsd' _].
    exists acc, (flat_map (step_io written) r). repeat split.
    + exact Hnh.
    + exact (Hsd Hsd').
    + intros Hn. apply no_data_steps. apply negb_true_iff in Hn. exact Hn.
  - destruct C as (Ed & Eh & _ & _ & E). rewrite Ed, Eh in H. rewrite Eh, E.
    rewrite app_assoc. apply (IH sd); [exact H| |].
    + intros Hin. apply in_app_or in Hin. destruct Hin as [Hin|[Hin|[]]]; [exact (Hnh Hin)|discriminate].
    + intros Hs p Hp. apply in_or_app. left. exact (Hsd Hs p Hp).
  - destruct C as (Ed & Eh & _ & E). rewrite Ed, Eh in H. rewrite Eh, E.
    cbn [app]. apply (IH sd); assumption.
Qed.

Lemma hd_shape_of written order :
  header_after_data false order = true -> hd_shape written order (commit_io_of order written).
Proof.
  intros H. unfold hd_shape, commit_io_of.
  destruct (hd_shape_gen written order false [] H) as (pre & post & E & R).
  - intros [].
  - discriminate.
  - exists pre, post. split; [exact E|exact R].
Qed.

(* the I/O list of an order accepted by has_barrier: every data write, a sync, no data write, the header write *)
Definition bar_shape (written : list N) (order : list string) (ios : list io) : Prop :=
  exists a1 a2 post, ios = a1 ++ IoSync :: a2 ++ IoHeader :: post /\
    NoHeader a1 /\ NoHeader a2 /\ NoData a2 /\
    (forall p, In p written -> In (IoData p) a1) /\
    (no_data_after_header order = true -> NoData post).

Lemma bar_shape_gen written : forall order sd ss acc,
  has_barrier_from sd ss order = true ->
  NoHeader acc -> (sd = true -> forall p, In p written -> In (IoData p) acc) ->
  (ss = true -> exists a1 a2, acc = a1 ++ IoSync :: a2 /\ NoData a2 /\
                              forall p, In p written -> In (IoData p) a1) ->
  exists a1 a2 post, acc ++ flat_map (step_io written) order = a1 ++ IoSync :: a2 ++ IoHeader :: post /\
    NoHeader a1 /\ NoHeader a2 /\ NoData a2 /\
    (forall p, In p written -> In (IoData p) a1) /\
    (no_data_after_header order = true -> NoData post).
Proof.
  induction order as [|s r IH]; intros sd ss acc H Hnh Hsd Hss; [discriminate H|].
  cbn [has_barrier_from no_data_after_header flat_map] in *.
  destruct (step_io_cases written s) as [C|[C|[C|C]]].
  - destruct C as (Ed & Es & E). rewrite Ed in H. rewrite E.
    assert (Eh : String.eqb s "header" = false) by (subst s; reflexivity). rewrite Eh.
    rewrite app_assoc. apply (IH true false); [exact H| | |discriminate].
    + intros Hin. apply in_app_or in Hin. destruct Hin as [Hin|Hin]; [exact (Hnh Hin)|].
      apply in_map_iff in Hin. destruct Hin as [q [Eq _]]. discriminate.
    + intros _ p Hp. apply in_or_app. right. apply in_map. exact Hp.
  - destruct C as (Ed & Eh & Es & E). rewrite Ed in H. rewrite Eh, E.
    assert (Esy : String.eqb s "sync" = false) by (subst s; reflexivity). rewrite Esy, Eh in H.
    apply andb_true_iff in H. destruct H as [_ Hss'].
    destruct (Hss Hss') as (a1 & a2 & Eacc & Hnd2 & Hall).
    exists a1, a2, (flat_map (step_io written) r). subst acc. repeat split.
    + rewrite <- app_assoc. reflexivity.
    + intros Hin. apply Hnh. apply in_or_app. left. exact Hin.
    + intros Hin. apply Hnh. apply in_or_app. right. right. exact Hin.
    + exact Hnd2.
    + exact Hall.
    + intros Hn. apply no_data_steps. apply negb_true_iff in Hn. exact Hn.
  - destruct C as (Ed & Eh & Esy & _ & E). rewrite Ed, Esy in H. rewrite Eh, E.
    rewrite app_assoc. apply (IH sd sd); [exact H| | |].
    + intros Hin. apply in_app_or in Hin. destruct Hin as [Hin|[Hin|[]]]; [exact (Hnh Hin)|discriminate].
    + intros Hs p Hp. apply in_or_app. left. exact (Hsd Hs p Hp).
    + intros Hs. exists acc, []. repeat split.
      * intros p [].
      * exact (Hsd Hs).
  - destruct C as (Ed & Eh & Esy & E). rewrite Ed, Esy, Eh in H. rewrite Eh, E.
    cbn [app]. apply (IH sd ss); assumption.
Qed.

Lemma bar_shape_of written order :
  has_barrier order = true -> bar_shape written order (commit_io_of order written).
Proof.
  intros H. unfold bar_shape, commit_io_of.
  destruct (bar_shape_gen written order false false [] H) as (a1 & a2 & post & E & R).
  - intros [].
  - discriminate.
  - discriminate.
  - exists a1, a2, post. split; [exact E|exact R].
Qed.

(* The orders.  Consts.commit_order is what tools/gen_consts.py reads off write_data in /repo/src/tx.rs:
   the sequence of its resize / data write_all / sync_all / header write_all calls.  The literal with no
   sync between "data" and "header" is that sequence in the pinned release ([pinned_order] below), the literal
   with it the sequence in the repaired one (fix "sync data pages before writing the header page").  The
   current source differs from the repaired literal only by "publish", which has left write_data for
   publish_freelist; "grow" and "publish" contribute no I/O (step_io), so the commit_io is the same. *)
Lemma order_header_after_data : header_after_data false commit_order = true.
Proof. vm_compute. reflexivity. Qed.
Lemma order_no_data_after_header : no_data_after_header commit_order = true.
Proof. vm_compute. reflexivity. Qed.
Lemma pinned_has_no_barrier : has_barrier ["grow";"data";"header";"sync";"publish"]%string = false.
Proof. vm_compute. reflexivity. Qed.
Lemma repaired_has_barrier : has_barrier ["grow";"data";"sync";"header";"sync";"publish"]%string = true.
Proof. vm_compute. reflexivity. Qed.
Lemma repaired_header_after_data :
  header_after_data false ["grow";"data";"sync";"header";"sync";"publish"]%string = true.
Proof. vm_compute. reflexivity. Qed.
Lemma repaired_no_data_after_header :
  no_data_after_header ["grow";"data";"sync";"header";"sync";"publish"]%string = true.
Proof. vm_compute. reflexivity. Qed.

Definition orig_cur (d : disk) (p : N) : content := lookup_page p (pages d).
Definition orig_new (d : disk) (t : N) (written : list N) (p : N) : content :=
  if memN p written then Written t else lookup_page p (pages d).

Record commit_setting (d : disk) (cur newh : header) (t : N) (written : list N) : Prop := {
  cs_select : select d = Some cur;
  cs_tx : h_tx newh = t;
  cs_lt : (h_tx cur < t)%N;
  cs_cow : forall p, In p written -> ~ In p (h_live cur);
  cs_new : forall p, In p (h_live newh) -> In p written \/ In p (h_live cur);
  cs_nodup : NoDup written }.

Definition pre_or_post (d : disk) (cur newh : header) (t : N) (written : list N) (img : disk) : Prop :=
  (select img = Some cur /\ intact (orig_cur d) img cur) \/
  (select img = Some newh /\ intact (orig_new d t written) img newh).

Lemma intact_initial d cur : intact (orig_cur d) d cur.
Proof. intros p _. reflexivity. Qed.

Lemma current_slot_holds d cur :
  select d = Some cur -> get_slot d (current_slot d) = SValid cur.
Proof.
  unfold select, current_slot, get_slot.
  destruct (slot0 d) as [a|], (slot1 d) as [b|]; try discriminate.
  - destruct (N.ltb (h_tx b) (h_tx a)); cbn; congruence.
  - congruence.
  - congruence.
Qed.

Section Commit.
  Variables (d : disk) (cur newh : header) (t : N) (written : list N).
  Hypothesis HS : commit_setting d cur newh t written.

  Let tgt := negb (current_slot d).

  Lemma tgt_not_current : tgt <> current_slot d.
  Proof. unfold tgt. destruct (current_slot d); discriminate. Qed.

  Lemma other_slot_holds_cur : get_slot d (negb tgt) = SValid cur.
  Proof. unfold tgt. rewrite negb_involutive. apply current_slot_holds. apply HS. Qed.

  Lemma write_tgt_keeps_cur v : get_slot (write_slot d tgt v) (current_slot d) = SValid cur.
  Proof.
    replace (current_slot d) with (negb tgt) by (unfold tgt; apply negb_involutive).
    rewrite get_slot_write_other. apply other_slot_holds_cur.
  Qed.

  (* select as a function of the two slots, seen from tgt *)
  Lemma select_newh img :
    get_slot img tgt = SValid newh -> get_slot img (negb tgt) = SValid cur -> select img = Some newh.
  Proof.
    pose proof (cs_lt _ _ _ _ _ HS) as Hlt. pose proof (cs_tx _ _ _ _ _ HS) as Htx.
    unfold select, get_slot. destruct tgt; cbn [negb]; intros -> ->.
    - assert (E : N.ltb (h_tx newh) (h_tx cur) = false) by (apply N.ltb_ge; lia). rewrite E. reflexivity.
    - assert (E : N.ltb (h_tx cur) (h_tx newh) = true) by (apply N.ltb_lt; lia). rewrite E. reflexivity.
  Qed.
  Lemma select_torn img :
    get_slot img tgt = SInvalid -> get_slot img (negb tgt) = SValid cur -> select img = Some cur.
  Proof. unfold select, get_slot. destruct tgt; cbn [negb]; intros -> ->; reflexivity. Qed.
  Lemma select_same img :
    get_slot img tgt = get_slot d tgt -> get_slot img (negb tgt) = get_slot d (negb tgt) -> select img = Some cur.
  Proof.
    intros H1 H2. rewrite <- (cs_select _ _ _ _ _ HS).
    apply select_ext; destruct tgt; cbn [negb] in *; assumption.
  Qed.

  Lemma select_write_newh : select (write_slot d tgt (SValid newh)) = Some newh.
  Proof.
    apply select_newh; [apply get_slot_write_same|].
    rewrite get_slot_write_other. apply other_slot_holds_cur.
  Qed.
  Lemma select_write_torn : select (write_slot d tgt SInvalid) = Some cur.
  Proof.
    apply select_torn; [apply get_slot_write_same|].
    rewrite get_slot_write_other. apply other_slot_holds_cur.
  Qed.

  Notation runl := (run t newh tgt).

  Lemma run_other_slot : forall l d0, get_slot (runl l d0) (negb tgt) = get_slot d0 (negb tgt).
  Proof.
    induction l as [|[o f] l IH]; intros d0; [reflexivity|].
    rewrite run_cons, IH. cbn [fst snd].
    destruct o, f; cbn [apply_io]; try reflexivity;
      try apply get_slot_write_page; apply get_slot_write_other.
  Qed.

  Lemma run_tgt_slot : forall l d0,
    get_slot (runl l d0) tgt = get_slot d0 tgt \/
    get_slot (runl l d0) tgt = SInvalid \/
    (get_slot (runl l d0) tgt = SValid newh /\ In (IoHeader, Applied) l).
  Proof.
    induction l as [|[o f] l IH]; intros d0; [left; reflexivity|].
    rewrite run_cons. cbn [fst snd].
    destruct (IH (apply_io t newh tgt d0 o f)) as [H|[H|[H Hin]]].
    - rewrite H. destruct o, f; cbn [apply_io]; try (left; reflexivity);
        try (left; apply get_slot_write_page).
      + right; right. split; [apply get_slot_write_same|left; reflexivity].
      + right; left. apply get_slot_write_same.
    - right; left. exact H.
    - right; right. split; [exact H|right; exact Hin].
  Qed.

  Lemma run_tgt_slot_applied : forall l d0,
    (forall f, In (IoHeader, f) l -> f = Applied) ->
    (get_slot d0 tgt = SValid newh \/ In (IoHeader, Applied) l) ->
    get_slot (runl l d0) tgt = SValid newh.
  Proof.
    induction l as [|[o f] l IH]; intros d0 Hall H.
    - destruct H as [H|[]]. exact H.
    - rewrite run_cons. cbn [fst snd]. apply IH.
      + intros f' Hf'. apply Hall. right. exact Hf'.
      + destruct o.
        * destruct H as [H|[H|H]]; [left|discriminate H|right; exact H].
          destruct f; cbn [apply_io]; try rewrite get_slot_write_page; exact H.
        * assert (f = Applied) by (apply Hall; left; reflexivity). subst f.
          left. apply get_slot_write_same.
        * destruct H as [H|[H|H]]; [left|discriminate H|right; exact H].
          destruct f; exact H.
  Qed.

  Lemma run_page_untouched : forall l d0 q,
    (forall f, ~ In (IoData q, f) l) ->
    lookup_page q (pages (runl l d0)) = lookup_page q (pages d0).
  Proof.
    induction l as [|[o f] l IH]; intros d0 q H; [reflexivity|].
    rewrite run_cons, IH by (intros f' Hf'; apply (H f'); right; exact Hf'). cbn [fst snd].
    destruct o as [p| |]; destruct f; cbn [apply_io]; try reflexivity;
      try apply f_equal, pages_write_slot.
    - apply lookup_write_page_other. intros ->. apply (H Applied). left. reflexivity.
    - apply lookup_write_page_other. intros ->. apply (H Torn). left. reflexivity.
  Qed.

  Lemma run_page_kept : forall l d0 p,
    (forall f, In (IoData p, f) l -> f <> Torn) ->
    lookup_page p (pages d0) = Written t ->
    lookup_page p (pages (runl l d0)) = Written t.
  Proof.
    induction l as [|[o f] l IH]; intros d0 p Hnt H0; [exact H0|].
    rewrite run_cons. cbn [fst snd]. apply IH.
    - intros f' Hf'. apply Hnt. right. exact Hf'.
    - destruct o as [q| |]; destruct f; cbn [apply_io]; try exact H0;
        try (rewrite pages_write_slot; exact H0).
      + destruct (N.eq_dec q p) as [->|Hne]; [apply lookup_write_page_same|].
        rewrite lookup_write_page_other by exact Hne. exact H0.
      + destruct (N.eq_dec q p) as [->|Hne].
        * exfalso. apply (Hnt Torn); [left|]; reflexivity.
        * rewrite lookup_write_page_other by exact Hne. exact H0.
  Qed.

  Lemma run_page_written : forall l d0 p,
    (forall f, In (IoData p, f) l -> f <> Torn) ->
    In (IoData p, Applied) l ->
    lookup_page p (pages (runl l d0)) = Written t.
  Proof.
    induction l as [|[o f] l IH]; intros d0 p Hnt Hin; [destruct Hin|].
    rewrite run_cons. cbn [fst snd].
    assert (Hnt' : forall f', In (IoData p, f') l -> f' <> Torn)
      by (intros f' Hf'; apply Hnt; right; exact Hf').
    destruct Hin as [E|Hin].
    - inversion E; subst. apply run_page_kept; [exact Hnt'|]. cbn [apply_io]. apply lookup_write_page_same.
    - apply IH; assumption.
  Qed.

  (* The three crash theorems reduce to [generic]: a list of (call, fate) that touches only written pages
     ([names_ok]) and that, IF it applies the header write, applies every data write and tears none
     ([data_ok]), leaves the old commit or the new one.  [generic_pre] / [generic_post_pages]: the pages of
     cur, resp. newh, are intact; [generic_post]: the new commit, when the header write was applied. *)
  Definition names_ok (l : list (io * fate)) : Prop := forall p f, In (IoData p, f) l -> In p written.
  Definition data_ok (l : list (io * fate)) : Prop :=
    (forall p f, In (IoData p, f) l -> f <> Torn) /\ (forall p, In p written -> In (IoData p, Applied) l).

  Lemma names_ok_io order l :
    (forall o f, In (o, f) l -> In o (commit_io_of order written)) -> names_ok l.
  Proof. intros H p f Hin. exact (commit_io_names order written p (H _ _ Hin)). Qed.

  Lemma generic_pre l :
    names_ok l -> intact (orig_cur d) (runl l d) cur.
  Proof.
    intros Hn p Hp. unfold orig_cur. apply run_page_untouched.
    intros f Hf. apply (cs_cow _ _ _ _ _ HS p); [exact (Hn p f Hf)|exact Hp].
  Qed.

  Lemma generic_post_pages l :
    names_ok l -> data_ok l -> intact (orig_new d t written) (runl l d) newh.
  Proof.
    intros Hn [Hnt Hall] p Hp. unfold orig_new. destruct (memN p written) eqn:Em.
    - apply memN_In in Em. apply run_page_written; [apply Hnt|apply Hall; exact Em].
    - apply run_page_untouched. intros f Hf.
      assert (Hw : In p written) by exact (Hn p f Hf).
      apply memN_In in Hw. congruence.
  Qed.

  Theorem generic l :
    names_ok l -> (In (IoHeader, Applied) l -> data_ok l) ->
    pre_or_post d cur newh t written (runl l d).
  Proof.
    intros Hn Hd. pose proof (run_other_slot l d) as Ho.
    destruct (run_tgt_slot l d) as [H|[H|[H Hin]]].
    - left. split; [apply select_same; assumption|apply generic_pre; exact Hn].
    - left. split; [|apply generic_pre; exact Hn].
      apply select_torn; [exact H|]. rewrite Ho. apply other_slot_holds_cur.
    - right. split; [|apply generic_post_pages; auto].
      apply select_newh; [exact H|]. rewrite Ho. apply other_slot_holds_cur.
  Qed.

  Theorem generic_post l :
    names_ok l -> data_ok l ->
    (forall f, In (IoHeader, f) l -> f = Applied) -> In (IoHeader, Applied) l ->
    select (runl l d) = Some newh /\ intact (orig_new d t written) (runl l d) newh.
  Proof.
    intros Hn Hd Hall Hin. split; [|apply generic_post_pages; assumption].
    apply select_newh.
    - apply run_tgt_slot_applied; [exact Hall|right; exact Hin].
    - rewrite run_other_slot. apply other_slot_holds_cur.
  Qed.

  Lemma applied_prefix_ok order n pre post :
    commit_io_of order written = pre ++ IoHeader :: post ->
    NoHeader pre -> (forall p, In p written -> In (IoData p) pre) ->
    let l := applied (firstn n (commit_io_of order written)) in
    names_ok l /\ (In (IoHeader, Applied) l -> data_ok l).
  Proof.
    intros E Hnh Hall l. split.
    - apply (names_ok_io order). intros o f Hin. apply applied_In in Hin. apply (firstn_In _ n), Hin.
    - intros Hin. split.
      + intros p f. apply applied_not_torn.
      + intros p Hp. unfold l in *. rewrite E in *.
        destruct (le_lt_dec n (List.length pre)) as [Hle|Hgt].
        * rewrite firstn_short in Hin by exact Hle. apply applied_In in Hin.
          destruct Hin as [Hin _]. apply firstn_In in Hin. contradiction.
        * rewrite firstn_long by lia. apply applied_In. split; [|reflexivity].
          apply in_or_app. left. apply Hall. exact Hp.
  Qed.

  (* process kill: a prefix of the calls, applied in full.  The header write after the data writes suffices. *)
  Theorem C02_kill : forall order n,
    header_after_data false order = true ->
    pre_or_post d cur newh t written (run_prefix t newh tgt d (commit_io_of order written) n).
  Proof.
    intros order n H. rewrite run_prefix_run.
    destruct (hd_shape_of written order H) as (pre & post & E & Hnh & Hall & _).
    destruct (applied_prefix_ok order n pre post E Hnh Hall) as [Hn Hd].
    apply generic; assumption.
  Qed.

  (* a failing call: a prefix applied in full, then one call applied, lost or torn *)
  Theorem C11_disk : forall order k f,
    header_after_data false order = true -> no_data_after_header order = true ->
    pre_or_post d cur newh t written (fault_image t newh tgt d (commit_io_of order written) k f).
  Proof.
    intros order k f H Hnda. rewrite fault_image_run.
    destruct (hd_shape_of written order H) as (pre & post & E & Hnh & Hall & Hpost).
    specialize (Hpost Hnda).
    apply generic.
    - apply (names_ok_io order). intros o f' Hin. apply in_app_or in Hin. destruct Hin as [Hin|Hin].
      + apply applied_In in Hin. apply (firstn_In _ k), Hin.
      + unfold fault_tail in Hin. destruct (nth_error _ k) eqn:En; [|destruct Hin].
        destruct Hin as [Hin|[]]. inversion Hin; subst. exact (nth_error_In _ _ En).
    - rewrite E. intros Hin.
      destruct (le_lt_dec (List.length pre) k) as [Hge|Hlt].
      + (* the whole of pre has been applied; the failing call is the header or in post *)
        assert (Htail : forall p f', ~ In (IoData p, f') (fault_tail (pre ++ IoHeader :: post) k f)).
        { intros p f' Hf. unfold fault_tail in Hf. rewrite nth_error_app2 in Hf by exact Hge.
          destruct (nth_error (IoHeader :: post) (k - List.length pre)) eqn:En; [|destruct Hf].
          destruct Hf as [Hf|[]]. inversion Hf; subst. apply nth_error_In in En.
          destruct En as [En|En]; [discriminate|exact (Hpost p En)]. }
        split.
        * intros p f' Hf. apply in_app_or in Hf. destruct Hf as [Hf|Hf].
          -- exact (applied_not_torn _ _ _ Hf).
          -- exfalso. exact (Htail p f' Hf).
        * intros p Hp. apply in_or_app. left. rewrite firstn_long by exact Hge.
          apply applied_In. split; [|reflexivity]. apply in_or_app. left. exact (Hall p Hp).
      + (* the failing call and everything before it lie in pre: no header at all *)
        exfalso. apply in_app_or in Hin. destruct Hin as [Hin|Hin].
        * rewrite firstn_short in Hin by lia. apply applied_In in Hin. destruct Hin as [Hin _].
          apply firstn_In in Hin. contradiction.
        * unfold fault_tail in Hin. rewrite nth_error_app1 in Hin by exact Hlt.
          destruct (nth_error pre k) eqn:En; [|destruct Hin].
          destruct Hin as [Hin|[]]. inversion Hin; subst. apply nth_error_In in En. contradiction.
  Qed.

  (* power loss: the calls before the last completed sync applied, each later one with a fate of its own;
     this is where the sync between data and header is needed *)
  Theorem C02_power : forall order n fates,
    has_barrier order = true -> no_data_after_header order = true ->
    pre_or_post d cur newh t written (power_image t newh tgt d (commit_io_of order written) n fates).
  Proof.
    intros order n fates H Hnda. unfold power_image. rewrite run_power_run.
    destruct (bar_shape_of written order H) as (a1 & a2 & post & E & Hnh1 & Hnh2 & Hnd2 & Hall & Hpost).
    specialize (Hpost Hnda).
    set (synced := last_sync_before (commit_io_of order written) n 0 0).
    apply generic.
    - apply (names_ok_io order). intros o f Hin. apply tag_In in Hin. exact (firstn_In _ n _ Hin).
    - intros Hin.
      set (pre := a1 ++ IoSync :: a2).
      assert (E' : commit_io_of order written = pre ++ IoHeader :: post).
      { rewrite E. unfold pre. rewrite <- app_assoc. reflexivity. }
      assert (Hnhp : NoHeader pre).
      { unfold pre. intros Hx. apply in_app_or in Hx. destruct Hx as [Hx|[Hx|Hx]];
          [exact (Hnh1 Hx)|discriminate|exact (Hnh2 Hx)]. }
      destruct (le_lt_dec n (List.length pre)) as [Hle|Hgt].
      { exfalso. apply tag_In in Hin. rewrite E', firstn_short in Hin by exact Hle.
        apply firstn_In in Hin. contradiction. }
      assert (Hlen : List.length pre = List.length a1 + 1 + List.length a2).
      { unfold pre. rewrite app_length. cbn [List.length]. lia. }
      assert (Hsync : List.length a1 + 1 <= synced).
      { unfold synced. rewrite E.
        pose proof (lsb_after_sync a1 (a2 ++ IoHeader :: post) n 0 0). lia. }
      (* the issued calls: a1 (all before the completed sync), then calls that are not data writes *)
      assert (Efst : firstn n (commit_io_of order written) =
                     a1 ++ firstn (n - List.length a1) (IoSync :: a2 ++ IoHeader :: post)).
      { rewrite E. apply firstn_long. lia. }
      assert (Hrest : NoData (firstn (n - List.length a1) (IoSync :: a2 ++ IoHeader :: post))).
      { intros p Hp. apply firstn_In in Hp. destruct Hp as [Hp|Hp]; [discriminate|].
        apply in_app_or in Hp. destruct Hp as [Hp|[Hp|Hp]];
          [exact (Hnd2 p Hp)|discriminate|exact (Hpost p Hp)]. }
      rewrite Efst, tag_app, (tag_applied synced fates a1 0) by lia.
      split.
      + intros p f Hf. apply in_app_or in Hf. destruct Hf as [Hf|Hf].
        * exact (applied_not_torn _ _ _ Hf).
        * apply tag_In in Hf. exfalso. exact (Hrest p Hf).
      + intros p Hp. apply in_or_app. left. apply applied_In. split; [exact (Hall p Hp)|reflexivity].
  Qed.

  (* durability: after the last call the new header is selected with all its pages; under power loss,
     provided the last call is a sync *)
  Lemma full_applied_post order :
    has_barrier order = true ->
    let l := applied (commit_io_of order written) in
    select (runl l d) = Some newh /\ intact (orig_new d t written) (runl l d) newh.
  Proof.
    intros H l.
    destruct (bar_shape_of written order H) as (a1 & a2 & post & E & _ & _ & _ & Hall & _).
    assert (Hh : In (IoHeader, Applied) l).
    { apply applied_In. split; [|reflexivity]. rewrite E. apply in_or_app. right. right.
      apply in_or_app. right. left. reflexivity. }
    apply generic_post.
    - apply (names_ok_io order). intros o f Hin. apply applied_In in Hin. apply Hin.
    - split.
      + intros p f. apply applied_not_torn.
      + intros p Hp. apply applied_In. split; [|reflexivity]. rewrite E. apply in_or_app. left.
        exact (Hall p Hp).
    - intros f Hf. apply applied_In in Hf. apply Hf.
    - exact Hh.
  Qed.

  Theorem C02_durable_kill : forall order,
    has_barrier order = true ->
    let ios := commit_io_of order written in
    let img := run_prefix t newh tgt d ios (List.length ios) in
    select img = Some newh /\ intact (orig_new d t written) img newh.
  Proof.
    intros order H ios img. unfold img. rewrite run_prefix_run, firstn_all.
    apply full_applied_post. exact H.
  Qed.

  Theorem C02_durable : forall order,
    has_barrier order = true ->
    last (commit_io_of order written) IoHeader = IoSync ->
    let ios := commit_io_of order written in
    forall fates,
    let img := power_image t newh tgt d ios (List.length ios) fates in
    select img = Some newh /\ intact (orig_new d t written) img newh.
  Proof.
    intros order H Hlast ios fates img. unfold img, power_image.
    rewrite run_power_run, firstn_all.
    assert (Hne : ios <> []).
    { destruct (bar_shape_of written order H) as (a1 & a2 & post & E & _). unfold ios. rewrite E.
      destruct a1; discriminate. }
    pose proof (app_removelast_last IoHeader Hne) as Esplit. fold ios in Hlast. rewrite Hlast in Esplit.
    assert (Hs : List.length ios <= last_sync_before ios (List.length ios) 0 0).
    { rewrite Esplit at 1 2 3. rewrite app_length. cbn [List.length].
      pose proof (lsb_after_sync (removelast ios) [] (List.length (removelast ios) + 1) 0 0). lia. }
    rewrite tag_applied by lia.
    apply full_applied_post. exact H.
  Qed.

  Corollary C02_kill_current : forall n,
    pre_or_post d cur newh t written (run_prefix t newh tgt d (commit_io written) n).
  Proof. intros n. apply C02_kill. exact order_header_after_data. Qed.

  Corollary C11_disk_current : forall k f,
    pre_or_post d cur newh t written (fault_image t newh tgt d (commit_io written) k f).
  Proof. intros k f. apply C11_disk; [exact order_header_after_data | exact order_no_data_after_header]. Qed.

  Corollary C02_kill_repaired : forall n,
    pre_or_post d cur newh t written
      (run_prefix t newh tgt d (commit_io_of ["grow";"data";"sync";"header";"sync";"publish"]%string written) n).
  Proof. intros n. apply C02_kill. exact repaired_header_after_data. Qed.

  Corollary C11_disk_repaired : forall k f,
    pre_or_post d cur newh t written
      (fault_image t newh tgt d (commit_io_of ["grow";"data";"sync";"header";"sync";"publish"]%string written) k f).
  Proof. intros k f. apply C11_disk; [exact repaired_header_after_data | exact repaired_no_data_after_header]. Qed.

  Corollary C02_power_repaired : forall n fates,
    pre_or_post d cur newh t written
      (power_image t newh tgt d (commit_io_of ["grow";"data";"sync";"header";"sync";"publish"]%string written) n fates).
  Proof. intros n fates. apply C02_power; [exact repaired_has_barrier | exact repaired_no_data_after_header]. Qed.

  Corollary C02_durable_repaired : forall fates,
    let ios := commit_io_of ["grow";"data";"sync";"header";"sync";"publish"]%string written in
    let img := power_image t newh tgt d ios (List.length ios) fates in
    select img = Some newh /\ intact (orig_new d t written) img newh.
  Proof.
    intros fates. apply C02_durable; [exact repaired_has_barrier|].
    unfold commit_io_of. cbn [flat_map]. unfold step_io. cbn.
    change [IoSync; IoHeader; IoSync] with ([IoSync; IoHeader] ++ [IoSync]).
    rewrite app_assoc. apply last_last.
  Qed.

End Commit.

(* non-vacuity, the refutation for the pinned order, and the counterexamples for orders with a data
   step after the header *)
Local Open Scope N_scope.

Definition ex_cur : header := mkHeader 1 [2; 3].
Definition ex_newh : header := mkHeader 2 [3; 4; 5].
Definition ex_d : disk := mkDisk [(2, Written 1); (3, Written 1)] (SValid ex_cur) SInvalid.
Definition ex_written : list N := [4; 5].

(* any disk whose current header is ex_cur will do *)
Lemma ex_setting_on d : select d = Some ex_cur -> commit_setting d ex_cur ex_newh 2 ex_written.
Proof.
  intros Hsel. constructor.
  - exact Hsel.
  - reflexivity.
  - reflexivity.
  - intros p Hp Hl. cbn in Hp, Hl.
    destruct Hp as [<-|[<-|[]]]; destruct Hl as [Hl|[Hl|[]]]; discriminate.
  - intros p Hp. cbn in Hp |- *.
    destruct Hp as [<-|[<-|[<-|[]]]]; [right|left|left]; auto.
  - repeat constructor; cbn; intuition discriminate.
Qed.

Example ex_setting : commit_setting ex_d ex_cur ex_newh 2 ex_written.
Proof. apply ex_setting_on. reflexivity. Qed.

(* the same setting with the header pair the other way round (commit overwrites slot 0) *)
Definition ex_d' : disk := mkDisk [(2, Written 1); (3, Written 1)] (SValid (mkHeader 0 [2])) (SValid ex_cur).
Example ex_setting' : commit_setting ex_d' ex_cur ex_newh 2 ex_written.
Proof. apply ex_setting_on. reflexivity. Qed.

(* write_data of the pinned release: no sync between the data writes and the header write *)
Definition pinned_order : list string := ["grow";"data";"header";"sync";"publish"]%string.

(* first data write Lost, everything else Applied; power lost after 3 calls (before the sync) *)
Definition ex_fates (i : nat) : fate := match i with O => Lost | _ => Applied end.

Theorem C02_power_refuted :
  exists d cur newh t written n fates,
    commit_setting d cur newh t written /\
    let img := power_image t newh (negb (current_slot d)) d (commit_io_of pinned_order written) n fates in
    select img = Some newh /\ ~ intact (orig_new d t written) img newh /\
    ~ pre_or_post d cur newh t written img.
Proof.
  exists ex_d, ex_cur, ex_newh, 2, ex_written, 3%nat, ex_fates.
  split; [exact ex_setting|]. cbv zeta.
  assert (Hni : ~ intact (orig_new ex_d 2 ex_written)
                  (power_image 2 ex_newh (negb (current_slot ex_d)) ex_d
                     (commit_io_of pinned_order ex_written) 3 ex_fates) ex_newh).
  { intros H. specialize (H 4). vm_compute in H.
    assert (E : Garbage = Written 2) by (apply H; right; left; reflexivity). discriminate E. }
  split; [vm_compute; reflexivity|]. split; [exact Hni|].
  intros [[Hs _]|[_ Hi]]; [vm_compute in Hs; discriminate Hs|exact (Hni Hi)].
Qed.

(* for a Consts.v generated from the pinned release; with the current Consts.commit_order the hypothesis is false *)
Corollary C02_power_current_refuted :
  commit_order = pinned_order ->
  ~ (forall d cur newh t written, commit_setting d cur newh t written ->
       forall n fates, pre_or_post d cur newh t written
         (power_image t newh (negb (current_slot d)) d (commit_io written) n fates)).
Proof.
  intros E H.
  destruct C02_power_refuted as (d & cur & newh & t & written & n & fates & HS & _ & _ & Hn).
  apply Hn. unfold commit_io in H. rewrite E in H. apply H. exact HS.
Qed.

(* has_barrier alone does not give C02_power: a data step after the header step *)
Definition bad_power_order : list string := ["data";"sync";"header";"data"]%string.
Definition ex_fates2 (i : nat) : fate := match i with 4%nat => Torn | _ => Applied end.

Theorem C02_power_needs_no_data_after_header :
  has_barrier bad_power_order = true /\
  exists d cur newh t written n fates,
    commit_setting d cur newh t written /\
    ~ pre_or_post d cur newh t written
        (power_image t newh (negb (current_slot d)) d (commit_io_of bad_power_order written) n fates).
Proof.
  split; [vm_compute; reflexivity|].
  exists ex_d, ex_cur, ex_newh, 2, ex_written, 6%nat, ex_fates2.
  split; [exact ex_setting|].
  intros [[Hs _]|[_ Hi]]; [vm_compute in Hs; discriminate Hs|].
  specialize (Hi 4). vm_compute in Hi.
  assert (E : Garbage = Written 2) by (apply Hi; right; left; reflexivity). discriminate E.
Qed.

(* header_after_data alone does not give C11_disk: a data step after the header step *)
Definition bad_fault_order : list string := ["data";"header";"sync";"data"]%string.

Theorem C11_disk_needs_no_data_after_header :
  header_after_data false bad_fault_order = true /\
  exists d cur newh t written k f,
    commit_setting d cur newh t written /\
    ~ pre_or_post d cur newh t written
        (fault_image t newh (negb (current_slot d)) d (commit_io_of bad_fault_order written) k f).
Proof.
  split; [vm_compute; reflexivity|].
  exists ex_d, ex_cur, ex_newh, 2, ex_written, 4%nat, Torn.
  split; [exact ex_setting|].
  intros [[Hs _]|[_ Hi]]; [vm_compute in Hs; discriminate Hs|].
  specialize (Hi 4). vm_compute in Hi.
  assert (E : Garbage = Written 2) by (apply Hi; right; left; reflexivity). discriminate E.
Qed.

Print Assumptions C02_kill.
Print Assumptions C02_kill_current.
Print Assumptions C02_power.
Print Assumptions C02_power_repaired.
Print Assumptions C02_durable.
Print Assumptions C02_durable_kill.
Print Assumptions C02_power_refuted.
Print Assumptions C02_power_needs_no_data_after_header.
Print Assumptions C11_disk.
Print Assumptions C11_disk_needs_no_data_after_header.
Print Assumptions ex_setting.
