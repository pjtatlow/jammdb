(* The read path: the byte-string order, Rust's binary search, the descent of [search] as a root-to-leaf path that
   splits the flattened tree around the key, and point lookup [get] as association in the flattened tree. *)
From Coq Require Import List NArith Bool Arith Lia.
From Coq.Strings Require Import Byte.
From Jamm Require Import Bytes Codec Tree Spec Cursor CursorFacts.
From Jamm Require Export OrderFacts.
Import ListNotations.
Local Open Scope list_scope. Local Open Scope nat_scope.

Lemma sorted_keys_cons : forall a l,
  sorted_keys (a :: l) = true ->
  Forall (fun x => bcmp a x = Lt) l /\ sorted_keys l = true.
Proof.
  intros a l; revert a. induction l as [|b l IH]; intros a H.
  - split; [constructor | reflexivity].
  - change (blt a b && sorted_keys (b :: l) = true) in H.
    apply andb_true_iff in H. destruct H as [Hab Hs]. apply blt_true in Hab.
    destruct (IH b Hs) as [Hall _]. split; [|exact Hs].
    constructor; [exact Hab|].
    eapply Forall_impl; [|exact Hall]. cbn. intros x Hx. eapply bcmp_lt_trans; eauto.
Qed.

Lemma sorted_keys_tl : forall a l, sorted_keys (a :: l) = true -> sorted_keys l = true.
Proof. intros a l H. apply (sorted_keys_cons a l H). Qed.

Lemma sorted_keys_cons_intro : forall a l,
  Forall (fun x => bcmp a x = Lt) l -> sorted_keys l = true -> sorted_keys (a :: l) = true.
Proof.
  intros a [|b l] Hall Hs; [reflexivity|].
  change (blt a b && sorted_keys (b :: l) = true).
  apply andb_true_iff. split; [|exact Hs]. apply blt_true. now inversion Hall.
Qed.

Theorem sorted_keys_nth : forall l, sorted_keys l = true ->
  forall i j, i < j < length l -> bcmp (nth i l []) (nth j l []) = Lt.
Proof.
  induction l as [|a l IH]; intros Hs i j Hij; cbn in Hij; [lia|].
  destruct (sorted_keys_cons a l Hs) as [Hall Hs'].
  destruct j as [|j]; [lia|]. destruct i as [|i]; cbn [nth].
  - rewrite Forall_forall in Hall. apply Hall. apply nth_In. lia.
  - apply IH; [exact Hs' | lia].
Qed.

Lemma sorted_keys_app : forall a b, sorted_keys (a ++ b) = true ->
  sorted_keys a = true /\ sorted_keys b = true.
Proof.
  induction a as [|x a IH]; intros b H; [split; [reflexivity | exact H]|].
  cbn [app] in H. destruct (sorted_keys_cons _ _ H) as [Hall Hs].
  destruct (IH b Hs) as [Ha Hb]. split; [|exact Hb].
  apply sorted_keys_cons_intro; [|exact Ha].
  rewrite Forall_app in Hall. apply Hall.
Qed.

Lemma half_bounds : forall size, 2 <= size -> 1 <= size / 2 /\ size / 2 <= size - size / 2 /\ size / 2 < size.
Proof.
  intros size Hs.
  pose proof (Nat.div_mod size 2 ltac:(lia)) as Hdm.
  pose proof (Nat.mod_upper_bound size 2 ltac:(lia)) as Hm.
  remember (size / 2) as half. remember (size mod 2) as r. lia.
Qed.


(* the loop invariant and what it yields on exit *)
Lemma bs_loop_spec : forall keys t, sorted_keys keys = true ->
  forall fuel base size,
    1 <= size -> size <= S fuel -> base + size <= length keys ->
    (base = 0 \/ bcmp (nth base keys []) t <> Gt) ->
    (forall j, base + size <= j -> j < length keys -> bcmp (nth j keys []) t = Gt) ->
    let b := bs_loop fuel keys t base size in
    b < length keys /\
    (b = 0 \/ bcmp (nth b keys []) t <> Gt) /\
    (forall j, b < j -> j < length keys -> bcmp (nth j keys []) t = Gt).
Proof.
  intros keys t Hsorted. induction fuel as [|f IH]; intros base size H1 Hf Hlen Hlo Hhi.
  - cbn [bs_loop]. assert (size = 1) by lia. subst size.
    repeat split; [lia | exact Hlo |]. intros j Hj Hjl. apply Hhi; lia.
  - cbn [bs_loop]. destruct (size <=? 1) eqn:Es.
    + apply Nat.leb_le in Es. assert (size = 1) by lia. subst size.
      repeat split; [lia | exact Hlo |]. intros j Hj Hjl. apply Hhi; lia.
    + apply Nat.leb_gt in Es.
      destruct (half_bounds size ltac:(lia)) as (Hh1 & Hh2 & Hh3).
      remember (size / 2) as half eqn:Ehalf. cbv zeta.
      destruct (bcmp (nth (base + half) keys []) t) eqn:Ec.
      * apply IH; try lia.
        -- right. rewrite Ec. discriminate.
        -- intros j Hj Hjl. apply Hhi; lia.
      * apply IH; try lia.
        -- right. rewrite Ec. discriminate.
        -- intros j Hj Hjl. apply Hhi; lia.
      * apply IH; try lia.
        -- exact Hlo.
        -- intros j Hj Hjl.
           destruct (Nat.eq_dec j (base + half)) as [->|Hne]; [exact Ec|].
           apply bcmp_lt_gt. eapply bcmp_lt_trans; [apply bcmp_lt_gt; exact Ec|].
           apply sorted_keys_nth; [exact Hsorted | lia].
Qed.

(* [bsearch] on a non-empty sorted list: the index [b] its loop ends on, and the final comparison *)
Lemma bsearch_cases : forall keys k, keys <> [] -> sorted_keys keys = true ->
  exists b, b < length keys /\
    (b = 0 \/ bcmp (nth b keys []) k <> Gt) /\
    (forall j, b < j -> j < length keys -> bcmp (nth j keys []) k = Gt) /\
    bsearch keys k = match bcmp (nth b keys []) k with
                     | Eq => (true, b) | Lt => (false, S b) | Gt => (false, b)
                     end.
Proof.
  intros keys k Hne Hs. exists (bs_loop (length keys) keys k 0 (length keys)).
  assert (1 <= length keys) by (destruct keys; [congruence | cbn; lia]).
  destruct (bs_loop_spec keys k Hs (length keys) 0 (length keys)) as (Hb & Hlo & Hhi); try lia; auto.
  repeat split; try assumption. destruct keys; [congruence | reflexivity].
Qed.

Theorem bsearch_found : forall keys k i, sorted_keys keys = true ->
  bsearch keys k = (true, i) -> nth_error keys i = Some k.
Proof.
  intros keys k i Hs H. destruct keys as [|a keys']; [discriminate|].
  destruct (bsearch_cases (a :: keys') k ltac:(discriminate) Hs) as (b & Hb & _ & _ & E).
  rewrite E in H. destruct (bcmp (nth b (a :: keys') []) k) eqn:Ec; inversion H; subst i.
  apply bcmp_eq in Ec. rewrite <- Ec. now apply nth_error_nth'.
Qed.

Theorem bsearch_missing : forall keys k i, sorted_keys keys = true ->
  bsearch keys k = (false, i) ->
  i <= length keys /\
  (forall j, j < i -> bcmp (nth j keys []) k = Lt) /\
  (forall j, i <= j < length keys -> bcmp (nth j keys []) k = Gt).
Proof.
  intros keys k i Hs H. destruct keys as [|a keys'].
  { inversion H; subst. cbn. repeat split; intros; lia. }
  remember (a :: keys') as keys eqn:Ek.
  destruct (bsearch_cases keys k ltac:(subst; discriminate) Hs) as (b & Hb & Hlo & Hhi & E).
  rewrite E in H. destruct (bcmp (nth b keys []) k) eqn:Ec; inversion H; subst i.
  - repeat split; [lia | | ].
    + intros j Hj. destruct (Nat.eq_dec j b) as [->|Hjb]; [exact Ec|].
      eapply bcmp_lt_trans; [|exact Ec]. apply sorted_keys_nth; [exact Hs | lia].
    + intros j Hj. apply Hhi; lia.
  - destruct Hlo as [Hb0 | Hle]; [|congruence]. repeat split; [lia | intros; lia |].
    intros j Hj. destruct (Nat.eq_dec j b) as [->|Hjb]; [exact Ec | apply Hhi; lia].
Qed.

Theorem bsearch_complete : forall keys k, sorted_keys keys = true ->
  In k keys -> exists i, bsearch keys k = (true, i).
Proof.
  intros keys k Hs Hin.
  destruct (bsearch keys k) as [[|] i] eqn:E; [eauto|].
  exfalso. destruct (bsearch_missing keys k i Hs E) as (Hi & Hlt & Hgt).
  destruct (In_nth keys k [] Hin) as (m & Hm & Hnth).
  destruct (Nat.lt_ge_cases m i) as [Hmi | Hmi].
  - specialize (Hlt m Hmi). rewrite Hnth, bcmp_refl in Hlt. discriminate.
  - specialize (Hgt m (conj Hmi Hm)). rewrite Hnth, bcmp_refl in Hgt. discriminate.
Qed.

Theorem bsearch_spec : forall keys k, sorted_keys keys = true ->
  (forall i, bsearch keys k = (true, i) -> nth_error keys i = Some k) /\
  (forall i, bsearch keys k = (false, i) ->
     i <= length keys /\
     (forall j, j < i -> bcmp (nth j keys []) k = Lt) /\
     (forall j, i <= j < length keys -> bcmp (nth j keys []) k = Gt)) /\
  (In k keys -> exists i, bsearch keys k = (true, i)).
Proof.
  intros keys k Hs. split; [|split].
  - intros i. now apply bsearch_found.
  - intros i. now apply bsearch_missing.
  - now apply bsearch_complete.
Qed.

Corollary bsearch_missing_notin : forall keys k i, sorted_keys keys = true ->
  bsearch keys k = (false, i) -> ~ In k keys.
Proof.
  intros keys k i Hs H Hin. destruct (bsearch_complete keys k Hs Hin) as [i' Hi']. congruence.
Qed.

Definition slot (keys : list bytes) (k : bytes) : nat :=
  match bsearch keys k with (true, i) => i | (false, i) => pred i end.

Lemma index_of_slot : forall t k, fst (index_of t k) = slot (keys_of t) k.
Proof. intros t k. unfold index_of, slot. now destruct (bsearch (keys_of t) k) as [[|] i]. Qed.

(* the slot [index_of] picks: the last key that is <= k, or 0 if there is none *)
Theorem slot_spec : forall keys k, keys <> [] -> sorted_keys keys = true ->
  let s := slot keys k in
  s < length keys /\
  (forall j, 1 <= j -> j <= s -> bcmp (nth j keys []) k <> Gt) /\
  (forall j, s < j -> j < length keys -> bcmp (nth j keys []) k = Gt).
Proof.
  intros keys k Hne Hs. destruct (bsearch_cases keys k Hne Hs) as (b & Hb & Hlo & Hhi & E).
  assert (Eslot : slot keys k = b).
  { unfold slot. rewrite E. destruct (bcmp (nth b keys []) k) eqn:Ec; cbn [pred]; try reflexivity.
    destruct Hlo as [-> | Hle]; [reflexivity | congruence]. }
  cbv zeta. rewrite Eslot. repeat split; [exact Hb | | exact Hhi].
  intros j Hj1 Hjb. destruct Hlo as [Hb0 | Hle]; [lia|].
  destruct (Nat.eq_dec j b) as [->|Hjb']; [exact Hle|].
  assert (Hlt : bcmp (nth j keys []) (nth b keys []) = Lt) by (apply sorted_keys_nth; [exact Hs | lia]).
  rewrite (bcmp_lt_le_trans _ _ _ Hlt Hle). discriminate.
Qed.

Lemma find_app : forall {A} (f : A -> bool) a b,
  find f (a ++ b) = match find f a with Some x => Some x | None => find f b end.
Proof. intros A f a b. induction a as [|x a IH]; cbn; [reflexivity|]. now destruct (f x). Qed.

Lemma find_none_all : forall {A} (f : A -> bool) l, (forall x, In x l -> f x = false) -> find f l = None.
Proof.
  intros A f l H. induction l as [|x l IH]; cbn; [reflexivity|].
  rewrite (H x (or_introl eq_refl)). apply IH. intros y Hy. apply H. now right.
Qed.

Lemma In_firstn_nth : forall {A} (d : A) s l x,
  In x (firstn s l) -> exists j, j < s /\ j < length l /\ nth j l d = x.
Proof.
  intros A d. induction s as [|s IH]; intros [|a l] x H; cbn in H; try contradiction.
  destruct H as [-> | H].
  - exists 0. cbn. repeat split; lia.
  - destruct (IH l x H) as (j & Hj & Hjl & Hn). exists (S j). cbn. repeat split; try lia. exact Hn.
Qed.

Lemma In_skipn_nth : forall {A} (d : A) s l x,
  In x (skipn s l) -> exists j, s <= j /\ j < length l /\ nth j l d = x.
Proof.
  intros A d. induction s as [|s IH]; intros l x H.
  - cbn in H. destruct (In_nth l x d H) as (j & Hj & Hn). exists j. repeat split; try lia. exact Hn.
  - destruct l as [|a l]; cbn in H; [contradiction|].
    destruct (IH l x H) as (j & Hj & Hjl & Hn). exists (S j). cbn. repeat split; try lia. exact Hn.
Qed.

Lemma seps_ok_nth : forall l first, seps_ok first l = true ->
  forall j, j < length l ->
    ((1 <= j \/ first = false) ->
       all_keys_ge (snd (nth j l ([], []))) (fst (nth j l ([], []))) = true) /\
    (S j < length l ->
       all_keys_lt (snd (nth j l ([], []))) (fst (nth (S j) l ([], []))) = true).
Proof.
  induction l as [|[k c] rest IH]; intros first H j Hj; cbn in Hj; [lia|].
  cbn [seps_ok] in H. apply andb_true_iff in H. destruct H as [H H3].
  apply andb_true_iff in H. destruct H as [H1 H2].
  destruct j as [|j].
  - cbn [nth fst snd]. split.
    + intros [Hc | ->]; [lia|]. exact H1.
    + intros Hl. destruct rest as [|[k' c'] rest']; cbn in Hl; [lia|]. exact H2.
  - destruct (IH false H3 j ltac:(lia)) as [Hge Hlt]. split.
    + intros _. cbn [nth]. apply Hge. now right.
    + intros Hl. cbn [length] in Hl. change (nth (S (S j)) ((k, c) :: rest) ([], [])) with (nth (S j) rest ([], [])).
      change (nth (S j) ((k, c) :: rest) ([], [])) with (nth j rest ([], [])).
      apply Hlt. lia.
Qed.

Lemma sorted_keys_cons2 : forall a b l, sorted_keys (a :: b :: l) = blt a b && sorted_keys (b :: l).
Proof. reflexivity. Qed.

Lemma seps_ok_sorted : forall l, seps_ok false l = true ->
  (forall kc, In kc l -> snd kc <> []) -> sorted_keys (map fst l) = true.
Proof.
  induction l as [|[k c] rest IH]; intros H Hne; [reflexivity|].
  destruct rest as [|[k' c'] rest']; [reflexivity|].
  cbn [seps_ok] in H. apply andb_true_iff in H. destruct H as [H H3].
  apply andb_true_iff in H. destruct H as [H1 H2]. cbn [orb] in H1.
  cbn [map fst]. rewrite sorted_keys_cons2. apply andb_true_iff. split.
  - assert (Hc : c <> []) by (apply (Hne (k, c)); now left).
    destruct c as [|e c]; [congruence|].
    cbn in H1, H2. apply andb_true_iff in H1, H2. destruct H1 as [H1 _]. destruct H2 as [H2 _].
    apply blt_true. apply ble_true in H1. apply blt_true in H2.
    eapply bcmp_le_lt_trans; eauto.
  - apply (IH H3). intros kc Hin. apply Hne. now right.
Qed.

Definition dkt : bytes * tree := ([], TL 0%N 0%N []).
Definition fl (kt : bytes * tree) : bytes * list lent := (fst kt, flatten (snd kt)).

Lemma wf_shape_TB : forall p o ks, wf_shape (TB p o ks) = true ->
  ks <> [] /\
  (forall kt, In kt ks -> wf_shape (snd kt) = true) /\
  seps_ok true (map fl ks) = true.
Proof.
  intros p o ks H. cbn [wf_shape] in H.
  apply andb_true_iff in H. destruct H as [H _].
  apply andb_true_iff in H. destruct H as [H H3].
  apply andb_true_iff in H. destruct H as [H _].
  apply andb_true_iff in H. destruct H as [H1 H2].
  split; [|split].
  - destruct ks; [discriminate | discriminate].
  - intros kt Hin. rewrite forallb_forall in H2. now apply H2.
  - exact H3.
Qed.

Lemma wf_shape_TB_sorted : forall p o ks, wf_shape (TB p o ks) = true ->
  sorted_keys (map fst ks) = true.
Proof.
  intros p o ks H. cbn [wf_shape] in H.
  apply andb_true_iff in H. destruct H as [H _].
  apply andb_true_iff in H. destruct H as [H _].
  apply andb_true_iff in H. destruct H as [_ H]. exact H.
Qed.

(* what the descent of [search] needs of a tree: [wf_shape] without its demand that the children of a branch have
   equal height *)
Fixpoint wf_sep (t : tree) : bool :=
  match t with
  | TL _ _ _ => true
  | TB _ _ ks =>
      negb (match ks with [] => true | _ => false end) &&
      forallb (fun kt : bytes * tree => wf_sep (snd kt)) ks &&
      sorted_keys (map fst ks) &&
      seps_ok true (map fl ks)
  end.

Lemma wf_sep_TB : forall p o ks, wf_sep (TB p o ks) = true ->
  ks <> [] /\ (forall kt, In kt ks -> wf_sep (snd kt) = true) /\
  sorted_keys (map fst ks) = true /\ seps_ok true (map fl ks) = true.
Proof.
  intros p o ks H. cbn [wf_sep] in H.
  apply andb_true_iff in H. destruct H as [H H4].
  apply andb_true_iff in H. destruct H as [H H3].
  apply andb_true_iff in H. destruct H as [H1 H2].
  repeat split; try assumption.
  - destruct ks; discriminate.
  - intros kt Hin. rewrite forallb_forall in H2. now apply H2.
Qed.

Lemma wf_shape_sep : forall t, wf_shape t = true -> wf_sep t = true.
Proof.
  induction t as [p o l | p o ks IH] using tree_ind'; intros Hwf; [reflexivity|].
  destruct (wf_shape_TB p o ks Hwf) as (Hne & Hwc & Hseps).
  cbn [wf_sep]. rewrite (wf_shape_TB_sorted p o ks Hwf), Hseps, !andb_true_r. apply andb_true_iff. split.
  - destruct ks; [congruence | reflexivity].
  - apply forallb_forall. intros kt Hin. rewrite Forall_forall in IH. apply IH; auto.
Qed.

Lemma wf_sep_neb : forall t, wf_sep t = true -> no_empty_branch t = true.
Proof.
  induction t as [p o l | p o ks IH] using tree_ind'; intros Hwf; [reflexivity|].
  destruct (wf_sep_TB p o ks Hwf) as (Hne & Hwc & _).
  cbn [no_empty_branch]. apply andb_true_iff. split.
  - destruct ks; [congruence | reflexivity].
  - apply forallb_forall. intros kt Hin. rewrite Forall_forall in IH. apply IH; auto.
Qed.

Lemma nodes_sum_in : forall (ks : list (bytes * tree)) kt, In kt ks ->
  nodes (snd kt) <= fold_right (fun kt acc => nodes (snd kt) + acc) 0 ks.
Proof.
  induction ks as [|a ks IH]; intros kt Hin; [contradiction|].
  cbn [fold_right]. destruct Hin as [-> | Hin]; [lia|].
  specialize (IH kt Hin). lia.
Qed.

Lemma nodes_child_lt : forall p o ks kt, In kt ks -> nodes (snd kt) < nodes (TB p o ks).
Proof. intros p o ks kt Hin. cbn [nodes]. pose proof (nodes_sum_in ks kt Hin). lia. Qed.

Lemma nodes_pos : forall t, 1 <= nodes t.
Proof. destruct t; cbn [nodes]; lia. Qed.

Definition keys_lt (l : list lent) (k : bytes) : Prop := forall e, In e l -> bcmp (lent_key e) k = Lt.
Definition keys_gt (l : list lent) (k : bytes) : Prop := forall e, In e l -> bcmp (lent_key e) k = Gt.

Lemma keys_lt_app : forall a b k, keys_lt a k -> keys_lt b k -> keys_lt (a ++ b) k.
Proof. intros a b k Ha Hb e He. apply in_app_or in He. destruct He; auto. Qed.
Lemma keys_gt_app : forall a b k, keys_gt a k -> keys_gt b k -> keys_gt (a ++ b) k.
Proof. intros a b k Ha Hb e He. apply in_app_or in He. destruct He; auto. Qed.

Lemma branch_split : forall p o ks k, wf_sep (TB p o ks) = true ->
  exists ks1 kc c ks2,
    ks = ks1 ++ (kc, c) :: ks2 /\ length ks1 = fst (index_of (TB p o ks) k) /\
    keys_lt (flat_map (fun kt => flatten (snd kt)) ks1) k /\
    keys_gt (flat_map (fun kt => flatten (snd kt)) ks2) k.
Proof.
  intros p o ks k Hwf.
  destruct (wf_sep_TB p o ks Hwf) as (Hne & _ & Hss & Hseps).
  rewrite index_of_slot. cbn [keys_of].
  assert (Hkne : map fst ks <> []) by (destruct ks; [congruence | discriminate]).
  destruct (slot_spec (map fst ks) k Hkne Hss) as (Hs & Hlo & Hhi).
  cbv zeta in Hs, Hlo, Hhi. remember (slot (map fst ks) k) as s eqn:Es. clear Es.
  rewrite map_length in Hs, Hhi.
  assert (Hkey : forall j, nth j (map fst ks) [] = fst (nth j ks dkt)).
  { intros j. change (@nil byte) with (fst dkt). apply map_nth. }
  assert (Hfl : forall j, nth j (map fl ks) ([], []) = fl (nth j ks dkt)).
  { intros j. change (@nil byte, @nil lent) with (fl dkt). apply map_nth. }
  pose proof (seps_ok_nth (map fl ks) true Hseps) as Hsep. rewrite map_length in Hsep.
  exists (firstn s ks), (fst (nth s ks dkt)), (snd (nth s ks dkt)), (skipn (S s) ks).
  split; [|split; [|split]].
  - rewrite <- (firstn_skipn s ks) at 1. f_equal. rewrite <- surjective_pairing.
    apply skipn_nth_error, nth_error_nth'. exact Hs.
  - apply firstn_length_le. lia.
  - intros e Hin. apply in_flat_map in Hin. destruct Hin as (kt & Hkt & He).
    destruct (In_firstn_nth dkt s ks kt Hkt) as (j & Hjs & Hjl & Hn). subst kt.
    destruct (Hsep j Hjl) as [_ Hlt]. specialize (Hlt ltac:(lia)).
    rewrite !Hfl in Hlt. cbn [fl fst snd] in Hlt.
    unfold all_keys_lt in Hlt. rewrite forallb_forall in Hlt. specialize (Hlt e He).
    apply blt_true in Hlt. eapply bcmp_lt_le_trans; [exact Hlt|].
    rewrite <- Hkey. apply Hlo; lia.
  - intros e Hin. apply in_flat_map in Hin. destruct Hin as (kt & Hkt & He).
    destruct (In_skipn_nth dkt (S s) ks kt Hkt) as (j & Hjs & Hjl & Hn). subst kt.
    destruct (Hsep j Hjl) as [Hge _]. specialize (Hge ltac:(left; lia)).
    rewrite !Hfl in Hge. cbn [fl fst snd] in Hge.
    unfold all_keys_ge in Hge. rewrite forallb_forall in Hge. specialize (Hge e He).
    apply ble_true in Hge. apply bcmp_lt_gt. eapply bcmp_lt_le_trans; [|exact Hge].
    apply bcmp_lt_gt. rewrite <- Hkey. apply Hhi; lia.
Qed.


(* [descent k t st]: st (top first) is a chain of frames starting at the root [t] (bottom of the
   stack), every frame's index is the slot [index_of] picks for k, and each frame's tree is the
   child at the index of the frame below it. *)
Inductive descent (k : bytes) : tree -> stack -> Prop :=
| descent_stop : forall t, descent k t [(t, fst (index_of t k))]
| descent_step : forall t c st,
    child_at t (fst (index_of t k)) = Some c -> descent k c st ->
    descent k t (st ++ [(t, fst (index_of t k))]).

(* the same, as a plain predicate on adjacent frames *)
Fixpoint stack_chain (st : stack) : Prop :=
  match st with
  | [] => True
  | (c, _) :: rest =>
      match rest with [] => True | (p, i) :: _ => child_at p i = Some c end /\ stack_chain rest
  end.

Lemma stack_chain_snoc : forall st c j p i,
  stack_chain (st ++ [(c, j)]) -> child_at p i = Some c -> stack_chain ((st ++ [(c, j)]) ++ [(p, i)]).
Proof.
  induction st as [|[a ia] st IH]; intros c j p i H Hc.
  - cbn. auto.
  - cbn [app] in *. destruct H as [H1 H2]. cbn [stack_chain]. split.
    + destruct st as [|[b ib] st']; cbn [app] in *; exact H1.
    + apply IH; assumption.
Qed.

Theorem descent_chain : forall k t st, descent k t st ->
  stack_chain st /\
  (exists pre, st = pre ++ [(t, fst (index_of t k))]) /\
  Forall (fun fr : frame => snd fr = fst (index_of (fst fr) k)) st.
Proof.
  intros k t st H. induction H as [t | t c st Hc Hd IH].
  - split; [cbn; auto|]. split; [exists []; reflexivity|]. constructor; [reflexivity | constructor].
  - destruct IH as (Hch & (pre & Hpre) & Hall). split; [|split].
    + subst st. apply stack_chain_snoc; assumption.
    + exists st. reflexivity.
    + apply Forall_app. split; [exact Hall|]. constructor; [reflexivity | constructor].
Qed.

Theorem search_path : forall k fuel t acc ex st,
  search fuel t k acc = (ex, st) ->
  exists pre, st = pre ++ acc /\ descent k t pre.
Proof.
  intros k. induction fuel as [|f IH]; intros t acc ex st H; cbn [search] in H;
    destruct (index_of t k) as [i e] eqn:Ei;
    assert (Hi : i = fst (index_of t k)) by (now rewrite Ei).
  - inversion H; subst st. exists [(t, i)]. split; [reflexivity|]. rewrite Hi. constructor.
  - destruct (is_leaf t).
    { inversion H; subst st. exists [(t, i)]. split; [reflexivity|]. rewrite Hi. constructor. }
    destruct (child_at t i) as [c|] eqn:Ec.
    2:{ inversion H; subst st. exists [(t, i)]. split; [reflexivity|]. rewrite Hi. constructor. }
    destruct (IH c _ ex st H) as (pre & Hst & Hd).
    exists (pre ++ [(t, i)]). split.
    + rewrite <- app_assoc. exact Hst.
    + rewrite Hi. apply descent_step with (c := c); [rewrite <- Hi; exact Ec | exact Hd].
Qed.


Lemma after_e_snoc : forall pre f, after_e (pre ++ [f]) = after_e pre ++ frame_after lp_e f.
Proof. intros pre f. unfold after. rewrite flat_map_app. cbn [flat_map]. now rewrite app_nil_r. Qed.

Lemma skipn_app_exact : forall {A} (a : list A) x b, skipn (S (length a)) (a ++ x :: b) = b.
Proof. intros A a x b. induction a as [|y a IH]; [reflexivity|]. exact IH. Qed.

Lemma frame_after_branch : forall p o ks1 kc c ks2,
  frame_after lp_e (TB p o (ks1 ++ (kc, c) :: ks2), length ks1)
  = flat_map (fun kt => flatten (snd kt)) ks2.
Proof.
  intros. unfold frame_after. cbn [frame_from fst snd]. rewrite skipn_app_exact.
  apply flat_map_ext. intros kt. apply gflat_e.
Qed.

(* with enough fuel, on a tree with [wf_sep]: the top frame is a leaf, the flag is that leaf's exact-match flag, and
   the leaf's entries sit in the flattened tree between entries all < k and what lies after the rest of the stack,
   all > k *)
Theorem search_path_wf : forall k fuel t acc ex st,
  height t < fuel -> wf_sep t = true -> search fuel t k acc = (ex, st) ->
  exists lf i pre B,
    st = ((lf, i) :: pre) ++ acc /\ descent k t ((lf, i) :: pre) /\
    is_leaf lf = true /\ index_of lf k = (i, ex) /\
    flatten t = B ++ flatten lf ++ after_e pre /\ keys_lt B k /\ keys_gt (after_e pre) k.
Proof.
  intros k. induction fuel as [|f IH]; intros t acc ex st Hn Hwf H; [lia|].
  cbn [search] in H.
  destruct (index_of t k) as [i e] eqn:Ei.
  assert (Hi : i = fst (index_of t k)) by (now rewrite Ei).
  destruct t as [p o l | p o ks]; cbn [is_leaf] in H.
  - inversion H; subst st e.
    exists (TL p o l), i, [], []. cbn [app after flat_map]. rewrite app_nil_r.
    repeat split; auto; [rewrite Hi; constructor | intros e0 [] | intros e0 []].
  - destruct (wf_sep_TB p o ks Hwf) as (_ & Hwc & _).
    destruct (branch_split p o ks k Hwf) as (ks1 & kc & c & ks2 & Hks & Hlen & Hbef & Haft).
    rewrite <- Hi in Hlen.
    assert (Hin : In (kc, c) ks) by (rewrite Hks; apply in_or_app; right; now left).
    assert (Hc : child_at (TB p o ks) i = Some c).
    { cbn [child_at]. rewrite Hks, nth_error_app2 by lia.
      replace (i - length ks1) with 0 by lia. reflexivity. }
    rewrite Hc in H.
    destruct (IH c _ ex st ltac:(pose proof (height_child _ _ _ Hc); lia) (Hwc _ Hin) H)
      as (lf & j & pre & B & Hst & Hd & Hlf & Hidx & Hfl & HB & HA).
    exists lf, j, (pre ++ [(TB p o ks, i)]), (flat_map (fun kt => flatten (snd kt)) ks1 ++ B).
    split; [|split; [|split; [|split; [|split; [|split]]]]].
    + rewrite Hst. cbn [app]. now rewrite <- app_assoc.
    + change ((lf, j) :: pre ++ [(TB p o ks, i)]) with (((lf, j) :: pre) ++ [(TB p o ks, i)]).
      rewrite Hi. apply descent_step with (c := c); [rewrite <- Hi; exact Hc | exact Hd].
    + exact Hlf.
    + exact Hidx.
    + rewrite after_e_snoc, <- Hlen, Hks, frame_after_branch.
      cbn [flatten]. rewrite flat_map_app. cbn [flat_map snd]. rewrite Hfl.
      now rewrite <- !app_assoc.
    + now apply keys_lt_app.
    + rewrite after_e_snoc, <- Hlen, Hks, frame_after_branch. now apply keys_gt_app.
Qed.

(* the instance used by [seek], [seek_scan] and [get]: fuel [S (nodes t)], empty accumulator *)
Corollary search_path_api : forall k t ex st, wf_sep t = true ->
  search (S (nodes t)) t k [] = (ex, st) ->
  exists lf i pre B,
    st = (lf, i) :: pre /\ descent k t st /\ is_leaf lf = true /\ index_of lf k = (i, ex) /\
    flatten t = B ++ flatten lf ++ after_e pre /\ keys_lt B k /\ keys_gt (after_e pre) k.
Proof.
  intros k t ex st Hwf H.
  destruct (search_path_wf k (S (nodes t)) t [] ex st ltac:(pose proof (height_le_nodes t); lia) Hwf H)
    as (lf & i & pre & B & Hst & Hrest).
  rewrite app_nil_r in Hst. subst st. exists lf, i, pre, B. split; [reflexivity | exact Hrest].
Qed.

Lemma find_sorted_leaf : forall l i e k,
  sorted_keys (map lent_key l) = true -> nth_error l i = Some e -> lent_key e = k ->
  find (fun e => beq (lent_key e) k) l = Some e.
Proof.
  induction l as [|a l IH]; intros i e k Hs Hn Hk; [destruct i; discriminate|].
  cbn [map] in Hs. destruct (sorted_keys_cons _ _ Hs) as [Hall Hs'].
  destruct i as [|i]; cbn in Hn.
  - inversion Hn; subst a. cbn [find]. subst k.
    replace (beq (lent_key e) (lent_key e)) with true; [reflexivity|].
    symmetry. now apply beq_true.
  - cbn [find]. rewrite Forall_forall in Hall.
    assert (Hlt : bcmp (lent_key a) (lent_key e) = Lt).
    { apply Hall. apply in_map. eapply nth_error_In; eauto. }
    rewrite Hk in Hlt. rewrite (beq_false_lt _ _ Hlt). eapply IH; eauto.
Qed.

Lemma leaf_lookup_ent : forall p o l k i ex,
  sorted_keys (map lent_key l) = true -> index_of (TL p o l) k = (i, ex) ->
  (if ex then val_at (TL p o l) i else None) = find (fun e => beq (lent_key e) k) l.
Proof.
  intros p o l k i ex Hs Hidx. unfold index_of in Hidx. cbn [keys_of] in Hidx.
  destruct (bsearch (map lent_key l) k) as [[|] i'] eqn:Eb; inversion Hidx; subst.
  - apply bsearch_found in Eb; [|exact Hs]. rewrite nth_error_map in Eb.
    cbn [val_at]. destruct (nth_error l i) as [e|] eqn:En; [|discriminate].
    cbn in Eb. inversion Eb as [Hk].
    now rewrite (find_sorted_leaf l i e (lent_key e) Hs En eq_refl).
  - pose proof (bsearch_missing_notin _ _ _ Hs Eb) as Hnot.
    rewrite find_none_all; [reflexivity|].
    intros e He. destruct (beq (lent_key e) k) eqn:E; [|reflexivity].
    apply beq_true in E. exfalso. apply Hnot. rewrite <- E. now apply in_map.
Qed.

Lemma sorted_leaf_part : forall (B L A : list lent),
  sorted_keys (map lent_key (B ++ L ++ A)) = true -> sorted_keys (map lent_key L) = true.
Proof.
  intros B L A H. rewrite !map_app in H.
  apply sorted_keys_app in H. destruct H as [_ H]. apply sorted_keys_app in H. apply H.
Qed.

(* the entry [search] stops on, when the match is exact, is the one [find] gives in the flattened tree *)
Theorem search_find : forall t k ex st,
  wf_sep t = true -> sorted_keys (map lent_key (flatten t)) = true ->
  search (S (nodes t)) t k [] = (ex, st) ->
  (if ex then match st with (lf, i) :: _ => val_at lf i | [] => None end else None)
  = find (fun e => beq (lent_key e) k) (flatten t).
Proof.
  intros t k ex st Hwf Hsorted Es.
  destruct (search_path_api k t ex st Hwf Es) as (lf & i & pre & B & -> & _ & Hlf & Hidx & Hfl & HB & HA).
  destruct lf as [p o l | ]; [|discriminate]. cbn [flatten] in Hfl.
  rewrite Hfl in Hsorted. apply sorted_leaf_part in Hsorted.
  rewrite (leaf_lookup_ent p o l k i ex Hsorted Hidx), Hfl, !find_app.
  rewrite (find_none_all _ B) by (intros e He; apply beq_false_lt; auto).
  rewrite (find_none_all _ (after_e pre)) by (intros e He; apply beq_false_gt; auto).
  now destruct (find _ l).
Qed.

Theorem get_spec : forall t k, wf_tree t = true ->
  Cursor.get t k = option_map Cursor.to_item (find (fun e => beq (lent_key e) k) (flatten t)).
Proof.
  intros t k Hwf. unfold wf_tree in Hwf. apply andb_true_iff in Hwf. destruct Hwf as [Hsh Hsorted].
  unfold get. destruct (search (S (nodes t)) t k []) as [ex st] eqn:Es.
  rewrite <- (search_find t k ex st (wf_shape_sep t Hsh) Hsorted Es).
  destruct ex; [|reflexivity]. now destruct st as [|[lf i] st'].
Qed.

(* a tree whose separators are not ascending: [get] misses a key that is present; the checker rejects the tree *)
Definition cex_tree : tree :=
  TB 0%N 0%N [ (["b"%byte], TL 1%N 0%N [EKv ["b"%byte] []]);
               (["z"%byte], TL 2%N 0%N []);
               (["c"%byte], TL 3%N 0%N [EKv ["c"%byte] []]) ].
Example old_cex_rejected :
  wf_tree cex_tree = false /\
  Cursor.get cex_tree ["c"%byte] = None /\
  option_map Cursor.to_item (find (fun e => beq (lent_key e) ["c"%byte]) (flatten cex_tree))
    = Some (IKv ["c"%byte] []).
Proof. repeat split; vm_compute; reflexivity. Qed.

Print Assumptions bcmp_antisym.
Print Assumptions bcmp_lt_trans.
Print Assumptions sorted_keys_nth.
Print Assumptions bsearch_spec.
Print Assumptions slot_spec.
Print Assumptions descent_chain.
Print Assumptions search_path.
Print Assumptions search_path_wf.
Print Assumptions search_path_api.
Print Assumptions get_spec.
Print Assumptions old_cex_rejected.
