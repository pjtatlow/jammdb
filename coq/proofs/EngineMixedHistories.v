(* C02 + C11 over MIXED HISTORIES at the ENGINE level, with contents: ONE history relation for the full alphabet.
   A process holds an engine state [st] over a crash-model disk [cd].  In any order and any number of times:
     ECommit ops ord          a write transaction whose commit completes (image [done_img]); the process goes on from st';
     EFail ops ord k f        a write transaction whose commit fails at its k-th call (fate f of the failing call); the
                              process does NOT crash and goes on from what it has in memory: st if the image selects the
                              old header, st' (free list published) if it selects the new one;
     ECrash ops ord n fates   power loss after n calls of the commit (fates of the unsynced writes), then the file is
                              REOPENED: the continuation is [reopen_db] of the state whose header the image selects;
     EReopen                  clean close + reopen, no transaction: the continuation is [reopen_db st], disk unchanged;
     ERollback ops            a write transaction that is applied in memory and dropped: state and disk unchanged (the
                              writer works on a clone; only [run_tx] changes the engine state).
   Unlike EngineCrashHistories (where every attempt starts from [reopen_db st]) the transaction of every event runs from
   the state the process HOLDS and the reopen is explicit AFTER the crash, so that the kinds compose.
   [fault_run] and [crash_run] embed. *)
From Coq Require Import List NArith Bool Arith Lia.
From Coq.Strings Require Import Byte.
From Jamm Require Spec Consts.
From Jamm Require Import Bytes BytesFacts Tree Cursor SearchFacts Engine EngineAbs EngineFacts EngineMergeFacts.
From Jamm Require Import EngineModifyFacts EngineSpillFacts EnginePathFacts EngineBridgeFacts EngineRebalanceFacts.
From Jamm Require Import EngineTxInvFacts EngineSpillBucketFacts EngineRefines.
From Jamm Require Import EngineOwnDefs EngineOwnWr EngineOwnOps EngineOwnReb EngineOwnSpill EngineOwnLnk EngineAllocInv.
From Jamm Require Import EngineCow EngineReopen EngineCrashHistories EngineFaultHistories.
From Jamm Require PL Crash CrashFacts CrashCurrent CrashHistories.
Import ListNotations.

(* one crashing commit, run from the state the process holds ([EngineCrashHistories.engine_attempt] reopens first) *)
Theorem engine_power_attempt : forall st cd ops ord st' w, Sim st cd -> db_inv st ->
  Forall (op_ok (d_disk st)) ops -> run_tx st ops ord = Ok st' -> readable st' -> is_write_set st st' w ->
  db_inv st' /\ abs_db st' = sem_tx ops (abs_db st) /\
  forall n fates, let img := crash_image st st' w cd n fates in
    CrashHistories.hist_inv img /\
    (Crash.select img = Some (eng_header st) \/ Crash.select img = Some (eng_header st')).
Proof.
  intros st cd ops ord st' w HSim Hinv Hops Hrun Hrd Hw.
  destruct (run_tx_inv _ _ _ _ Hinv Hops Hrun Hrd) as [Hinv' Habs].
  split; [exact Hinv'|]. split; [exact Habs|]. intros n fates img.
  exact (CrashHistories.pre_or_post_keeps_hist_inv _ _ _ _ img (proj2 HSim)
           (write_set_setting _ _ _ Hw cd (proj1 HSim)) (crash_image_pp _ _ _ _ n fates HSim Hw)).
Qed.

(* the invariant is insensitive to a reopen *)
Lemma Sim_reopen_iff : forall st cd, Sim (reopen_db st) cd <-> Sim st cd.
Proof. intros st cd. unfold Sim. rewrite eng_header_reopen. tauto. Qed.

Inductive event :=
| ECommit (ops : list op) (ord : list bytes)
| EFail (ops : list op) (ord : list bytes) (k : nat) (f : Crash.fate)
| ECrash (ops : list op) (ord : list bytes) (n : nat) (fates : nat -> Crash.fate)
| EReopen
| ERollback (ops : list op).

Inductive mixed_run : db -> Crash.disk -> list event -> list (list op) -> db -> Crash.disk -> Prop :=
| mr_nil : forall st cd, mixed_run st cd [] [] st cd
| mr_commit : forall st cd ops ord r surv st' w stf cdf,
    Forall (op_ok (d_disk st)) ops -> run_tx st ops ord = Ok st' -> readable st' -> is_write_set st st' w ->
    mixed_run st' (done_img st st' w cd) r surv stf cdf ->
    mixed_run st cd (ECommit ops ord :: r) (ops :: surv) stf cdf
| mr_fail_old : forall st cd ops ord k f r surv st' w stf cdf,
    Forall (op_ok (d_disk st)) ops -> run_tx st ops ord = Ok st' -> readable st' -> is_write_set st st' w ->
    let img := fault_img st st' w cd k f in
    Crash.select img = Some (eng_header st) ->
    mixed_run st img r surv stf cdf ->
    mixed_run st cd (EFail ops ord k f :: r) surv stf cdf
| mr_fail_new : forall st cd ops ord k f r surv st' w stf cdf,
    Forall (op_ok (d_disk st)) ops -> run_tx st ops ord = Ok st' -> readable st' -> is_write_set st st' w ->
    let img := fault_img st st' w cd k f in
    Crash.select img = Some (eng_header st') ->
    mixed_run st' img r surv stf cdf ->
    mixed_run st cd (EFail ops ord k f :: r) (ops :: surv) stf cdf
| mr_crash_lost : forall st cd ops ord n fates r surv st' w stf cdf,
    Forall (op_ok (d_disk st)) ops -> run_tx st ops ord = Ok st' -> readable st' -> is_write_set st st' w ->
    let img := crash_image st st' w cd n fates in
    Crash.select img = Some (eng_header st) ->
    mixed_run (reopen_db st) img r surv stf cdf ->
    mixed_run st cd (ECrash ops ord n fates :: r) surv stf cdf
| mr_crash_durable : forall st cd ops ord n fates r surv st' w stf cdf,
    Forall (op_ok (d_disk st)) ops -> run_tx st ops ord = Ok st' -> readable st' -> is_write_set st st' w ->
    let img := crash_image st st' w cd n fates in
    Crash.select img = Some (eng_header st') ->
    mixed_run (reopen_db st') img r surv stf cdf ->
    mixed_run st cd (ECrash ops ord n fates :: r) (ops :: surv) stf cdf
| mr_reopen : forall st cd r surv stf cdf,
    mixed_run (reopen_db st) cd r surv stf cdf ->
    mixed_run st cd (EReopen :: r) surv stf cdf
| mr_rollback : forall st cd ops r surv stf cdf,
    mixed_run st cd r surv stf cdf ->
    mixed_run st cd (ERollback ops :: r) surv stf cdf.

Lemma mixed_run_good : forall st cd l surv stf cdf, mixed_run st cd l surv stf cdf ->
  forall m, Good st cd m -> Good stf cdf (sem_survivors surv m).
Proof.
  induction 1 as [st cd
                 | st cd ops ord r surv st' w stf cdf Hops Hrun Hrd Hw _ IH
                 | st cd ops ord k f r surv st' w stf cdf Hops Hrun Hrd Hw img Hsel _ IH
                 | st cd ops ord k f r surv st' w stf cdf Hops Hrun Hrd Hw img Hsel _ IH
                 | st cd ops ord n fates r surv st' w stf cdf Hops Hrun Hrd Hw img Hsel _ IH
                 | st cd ops ord n fates r surv st' w stf cdf Hops Hrun Hrd Hw img Hsel _ IH
                 | st cd r surv stf cdf _ IH
                 | st cd ops r surv stf cdf _ IH]; intros m HG.
  - exact HG.
  - exact (IH _ (commit_done _ _ _ _ _ _ _ HG Hops Hrun Hrd Hw)).
  - destruct (commit_outcome _ _ _ _ _ _ _ img HG Hops Hrun Hrd Hw (fault_img_pp _ _ _ _ (proj1 HG) Hw k f)) as (Hold & _).
    exact (IH _ (Hold Hsel)).
  - destruct (commit_outcome _ _ _ _ _ _ _ img HG Hops Hrun Hrd Hw (fault_img_pp _ _ _ _ (proj1 HG) Hw k f)) as (_ & Hnew & _).
    exact (IH _ (Hnew Hsel)).
  - destruct (commit_outcome _ _ _ _ _ _ _ img HG Hops Hrun Hrd Hw (crash_image_pp _ _ _ _ n fates (proj1 HG) Hw)) as (Hold & _).
    exact (IH _ (Good_reopen _ _ _ (Hold Hsel))).
  - destruct (commit_outcome _ _ _ _ _ _ _ img HG Hops Hrun Hrd Hw (crash_image_pp _ _ _ _ n fates (proj1 HG) Hw)) as (_ & Hnew & _).
    exact (IH _ (Good_reopen _ _ _ (Hnew Hsel))).
  - exact (IH _ (Good_reopen _ _ _ HG)).
  - exact (IH _ HG).
Qed.

(* after any such history the database means the reference after exactly the surviving transactions, in order *)
Theorem engine_mixed_history : forall st0 cd0 l surv stf cdf,
  mixed_run st0 cd0 l surv stf cdf -> Sim st0 cd0 -> db_inv st0 ->
  Sim stf cdf /\ db_inv stf /\ abs_db stf = sem_survivors surv (abs_db st0).
Proof. intros st0 cd0 l surv stf cdf H HSim Hinv. exact (mixed_run_good _ _ _ _ _ _ H _ (Good_intro _ _ HSim Hinv)). Qed.

Print Assumptions engine_mixed_history.

(* the survivors are an in-order sub-list of the operation lists of the commit-like events *)
Definition event_tx (e : event) : list (list op) :=
  match e with
  | ECommit ops _ => [ops]
  | EFail ops _ _ _ => [ops]
  | ECrash ops _ _ _ => [ops]
  | EReopen => []
  | ERollback _ => []
  end.
Definition commit_ops (l : list event) : list (list op) := flat_map event_tx l.

Lemma mixed_run_survivors : forall st cd l surv stf cdf, mixed_run st cd l surv stf cdf ->
  sublist surv (commit_ops l).
Proof.
  intros st cd l surv stf cdf H. unfold commit_ops.
  induction H; cbn [flat_map event_tx app];
    [ constructor | now apply sub_keep | now apply sub_skip | now apply sub_keep
    | now apply sub_skip | now apply sub_keep | assumption | assumption ].
Qed.

(* a completed commit at the head of the history is among the survivors; a rolled-back transaction never is (its
   operations are not even candidates: [commit_ops] skips it) *)
Lemma mixed_run_commit_survives : forall st cd ops ord r surv stf cdf,
  mixed_run st cd (ECommit ops ord :: r) surv stf cdf -> exists surv', surv = ops :: surv'.
Proof. intros st cd ops ord r surv stf cdf H. inversion H; subst. eexists. reflexivity. Qed.

(* concatenation of histories *)
Lemma mixed_run_app : forall st cd l1 s1 st1 cd1, mixed_run st cd l1 s1 st1 cd1 ->
  forall l2 s2 st2 cd2, mixed_run st1 cd1 l2 s2 st2 cd2 -> mixed_run st cd (l1 ++ l2) (s1 ++ s2) st2 cd2.
Proof.
  induction 1; intros l2 s2 st2 cd2 Hrest; cbn [app];
    [ exact Hrest | eapply mr_commit | eapply mr_fail_old | eapply mr_fail_new | eapply mr_crash_lost
    | eapply mr_crash_durable | apply mr_reopen | apply mr_rollback ]; eauto.
Qed.

(* totality.  The side conditions: the transaction of every commit-like event is admissible and succeeds, with a
   readable result, on the state the process holds -- recursively along EVERY continuation the event can have *)
Fixpoint events_okE (st : db) (l : list event) : Prop :=
  match l with
  | [] => True
  | e :: r =>
    match e with
    | ECommit ops ord => Forall (op_ok (d_disk st)) ops /\
        exists st', run_tx st ops ord = Ok st' /\ readable st' /\ events_okE st' r
    | EFail ops ord _ _ => Forall (op_ok (d_disk st)) ops /\
        exists st', run_tx st ops ord = Ok st' /\ readable st' /\ events_okE st r /\ events_okE st' r
    | ECrash ops ord _ _ => Forall (op_ok (d_disk st)) ops /\
        exists st', run_tx st ops ord = Ok st' /\ readable st' /\
                    events_okE (reopen_db st) r /\ events_okE (reopen_db st') r
    | EReopen => events_okE (reopen_db st) r
    | ERollback _ => events_okE st r
    end
  end.

Theorem mixed_run_total : forall l st cd, Sim st cd -> db_inv st -> events_okE st l ->
  exists surv stf cdf, mixed_run st cd l surv stf cdf.
Proof.
  induction l as [|e r IH]; intros st cd HSim Hinv Hok.
  - exists [], st, cd. constructor.
  - pose proof (Good_intro _ _ HSim Hinv) as HG.
    destruct e as [ops ord | ops ord k f | ops ord n fates | | ops]; cbn [events_okE] in Hok.
    + destruct Hok as (Hops & st' & Hrun & Hrd & HokD).
      destruct (run_tx_has_write_set _ _ _ _ Hinv Hops Hrun Hrd) as (w & Hw).
      destruct (commit_done _ _ _ _ _ _ _ HG Hops Hrun Hrd Hw) as (HS & HI & _).
      destruct (IH _ _ HS HI HokD) as (surv & stf & cdf & Hr).
      exists (ops :: surv), stf, cdf. eapply mr_commit; eauto.
    + destruct Hok as (Hops & st' & Hrun & Hrd & HokL & HokD).
      destruct (run_tx_has_write_set _ _ _ _ Hinv Hops Hrun Hrd) as (w & Hw).
      destruct (commit_outcome _ _ _ _ _ _ _ _ HG Hops Hrun Hrd Hw (fault_img_pp _ _ _ _ HSim Hw k f))
        as (Hold & Hnew & [Hsel|Hsel]).
      * destruct (Hold Hsel) as (HS & HI & _). destruct (IH _ _ HS HI HokL) as (surv & stf & cdf & Hr).
        exists surv, stf, cdf. eapply mr_fail_old; eauto.
      * destruct (Hnew Hsel) as (HS & HI & _). destruct (IH _ _ HS HI HokD) as (surv & stf & cdf & Hr).
        exists (ops :: surv), stf, cdf. eapply mr_fail_new; eauto.
    + destruct Hok as (Hops & st' & Hrun & Hrd & HokL & HokD).
      destruct (run_tx_has_write_set _ _ _ _ Hinv Hops Hrun Hrd) as (w & Hw).
      destruct (commit_outcome _ _ _ _ _ _ _ _ HG Hops Hrun Hrd Hw (crash_image_pp _ _ _ _ n fates HSim Hw))
        as (Hold & Hnew & [Hsel|Hsel]).
      * destruct (Good_reopen _ _ _ (Hold Hsel)) as (HS & HI & _).
        destruct (IH _ _ HS HI HokL) as (surv & stf & cdf & Hr).
        exists surv, stf, cdf. eapply mr_crash_lost; eauto.
      * destruct (Good_reopen _ _ _ (Hnew Hsel)) as (HS & HI & _).
        destruct (IH _ _ HS HI HokD) as (surv & stf & cdf & Hr).
        exists (ops :: surv), stf, cdf. eapply mr_crash_durable; eauto.
    + destruct (IH _ _ (Sim_reopen _ _ HSim) (reopen_inv st Hinv) Hok) as (surv & stf & cdf & Hr).
      exists surv, stf, cdf. apply mr_reopen. exact Hr.
    + destruct (IH _ _ HSim Hinv Hok) as (surv & stf & cdf & Hr).
      exists surv, stf, cdf. apply mr_rollback. exact Hr.
Qed.

Corollary engine_mixed_history_total : forall l st0 cd0, Sim st0 cd0 -> db_inv st0 -> events_okE st0 l ->
  exists surv stf cdf, mixed_run st0 cd0 l surv stf cdf /\ sublist surv (commit_ops l) /\
    Sim stf cdf /\ db_inv stf /\ abs_db stf = sem_survivors surv (abs_db st0).
Proof.
  intros l st0 cd0 HSim Hinv Hok. destruct (mixed_run_total l st0 cd0 HSim Hinv Hok) as (surv & stf & cdf & Hr).
  exists surv, stf, cdf. split; [exact Hr|]. split; [exact (mixed_run_survivors _ _ _ _ _ _ Hr)|].
  exact (engine_mixed_history _ _ _ _ _ _ Hr HSim Hinv).
Qed.

Print Assumptions mixed_run_survivors.
Print Assumptions mixed_run_total.
Print Assumptions engine_mixed_history_total.

(* with the same write set the two continuations of a failing / crashing commit exclude each other *)
Lemma mixed_old_xor_new : forall st st' w img, is_write_set st st' w ->
  Crash.select img = Some (eng_header st) -> Crash.select img = Some (eng_header st') -> False.
Proof. exact select_old_xor_new. Qed.

(* a crash after every call of the commit was issued is durable: the continuation is the reopened NEW state *)
Theorem power_complete_is_durable : forall st cd st' w fates, Sim st cd -> is_write_set st st' w ->
  Crash.select (crash_image st st' w cd (List.length (Crash.commit_io (tx_written st st' w))) fates)
    = Some (eng_header st').
Proof. intros st cd st' w fates. apply crash_image_complete. Qed.

(* the two special histories embed.  I/O-fault histories: each step is the event of the same kind *)
Definition step_event (s : step) : event :=
  match s_out s with
  | Completes => ECommit (s_ops s) (s_ord s)
  | Fails k f => EFail (s_ops s) (s_ord s) k f
  end.

Theorem fault_run_embeds : forall st cd l surv stf cdf, fault_run st cd l surv stf cdf ->
  mixed_run st cd (map step_event l) surv stf cdf.
Proof.
  intros st cd l surv stf cdf H.
  induction H as [st cd
                 | st cd s r surv st' w stf cdf Hout Hops Hrun Hrd Hw Hrest IH
                 | st cd s k f r surv st' w stf cdf Hout Hops Hrun Hrd Hw img Hsel Hrest IH
                 | st cd s k f r surv st' w stf cdf Hout Hops Hrun Hrd Hw img Hsel Hrest IH];
    cbn [map]; [constructor | | |]; unfold step_event at 1; rewrite Hout.
  - eapply mr_commit; eauto.
  - eapply mr_fail_old; eauto.
  - eapply mr_fail_new; eauto.
Qed.

Lemma steps_ok_embeds : forall l st, steps_okE st l -> events_okE st (map step_event l).
Proof.
  induction l as [|s r IH]; intros st Hok; [exact I|].
  destruct Hok as (Hops & st' & Hrun & Hrd & HokL & HokD).
  cbn [map events_okE]. unfold step_event at 1. destruct (s_out s) as [|k f].
  - split; [exact Hops|]. exists st'. split; [exact Hrun|]. split; [exact Hrd|]. now apply IH.
  - split; [exact Hops|]. exists st'. split; [exact Hrun|]. split; [exact Hrd|]. split; now apply IH.
Qed.

(* power-loss histories: an attempt of [crash_run] reopens first and runs the transaction on the reopened state, so it
   is the two events [EReopen; ECrash ..]; the final states agree up to a reopen (which [Sim], [db_inv] and [abs_db]
   do not see: [Sim_reopen_iff], [reopen_inv], [reopen_abs]) *)
Definition attempt_events (a : attempt_e) : list event := [EReopen; ECrash (e_ops a) (e_ord a) (e_n a) (e_fates a)].
Definition crash_events (l : list attempt_e) : list event := flat_map attempt_events l.

Theorem crash_run_embeds : forall st cd l surv stf cdf, crash_run st cd l surv stf cdf ->
  forall s, reopen_db s = reopen_db st ->
  exists sf, reopen_db sf = reopen_db stf /\ mixed_run s cd (crash_events l) surv sf cdf.
Proof.
  intros st cd l surv stf cdf H.
  induction H as [st cd | st cd a r surv st' w stf cdf Hops Hrun Hrd Hw img Hsel Hrest IH
                         | st cd a r surv st' w stf cdf Hops Hrun Hrd Hw img Hsel Hrest IH]; intros s Hs.
  - exists s. split; [exact Hs | constructor].
  - destruct (IH (reopen_db (reopen_db st)) (reopen_idem _)) as (sf & Hsf & Hm).
    exists sf. split; [exact Hsf|]. unfold crash_events. cbn [flat_map attempt_events app].
    apply mr_reopen. rewrite Hs.
    eapply mr_crash_lost; eauto.
  - destruct (IH (reopen_db st') (reopen_idem _)) as (sf & Hsf & Hm).
    exists sf. split; [exact Hsf|]. unfold crash_events. cbn [flat_map attempt_events app].
    apply mr_reopen. rewrite Hs.
    eapply mr_crash_durable; eauto.
Qed.

Corollary crash_run_embeds_same : forall st cd l surv stf cdf, crash_run st cd l surv stf cdf ->
  exists sf, reopen_db sf = reopen_db stf /\ mixed_run st cd (crash_events l) surv sf cdf.
Proof. intros st cd l surv stf cdf H. exact (crash_run_embeds _ _ _ _ _ _ H st eq_refl). Qed.

Print Assumptions fault_run_embeds.
Print Assumptions crash_run_embeds.
Print Assumptions power_complete_is_durable.

(* the acceptance predicate of [crash_run_total] implies the one of [mixed_run_total] on the embedded history *)
Lemma crash_events_ok_reopen : forall l s, events_okE s (crash_events l) -> events_okE (reopen_db s) (crash_events l).
Proof.
  intros [|a r] s Hok; [exact I|].
  unfold crash_events in *. cbn [flat_map attempt_events app events_okE] in *. rewrite reopen_idem. exact Hok.
Qed.

Lemma attempts_ok_embeds : forall l st, attempts_okE st l -> events_okE st (crash_events l).
Proof.
  induction l as [|a r IH]; intros st Hok; [exact I|].
  destruct Hok as (Hops & st' & Hrun & Hrd & HokL & HokD).
  unfold crash_events. cbn [flat_map attempt_events app events_okE]. fold (crash_events r).
  split; [exact Hops|]. exists st'. split; [exact Hrun|]. split; [exact Hrd|].
  split; apply crash_events_ok_reopen; now apply IH.
Qed.

(* the premises are satisfiable: one history with every kind of event *)
Module ExMixed.
Import Ex3 ExCrash.
Definition ops1 : list op := fst ExHistory.tx1.
Definition ord1 : list bytes := snd ExHistory.tx1.
Definition ops2 : list op := [Put [] ka [x02]].
Definition ops3 : list op := [Put [] kc [x03]].

(* a dropped transaction; a commit with a failing call; a clean reopen; a power loss in a commit; a completed commit *)
Definition hist (k : nat) (f : Crash.fate) (n : nat) (fates : nat -> Crash.fate) : list event :=
  [ERollback ops2; EFail ops1 ord1 k f; EReopen; ECrash ops2 [] n fates; ECommit ops3 []].

Example hist_ok : forall k f n fates, events_okE st0 (hist k f n fates).
Proof.
  intros k f n fates. unfold hist, ops1, ord1, ops2, ops3. cbn [events_okE]. tx_ok. split.
  - tx_ok. split; tx_ok; exact I.
  - tx_ok. split; tx_ok; exact I.
Qed.

(* wherever the failing call sits, whatever its fate, wherever the power is cut and whatever happens to the unsynced
   writes: a run exists, ends in the simulation, and the database holds exactly the surviving transactions, which are
   an in-order selection of [ops1; ops2; ops3] ending with ops3 *)
Example every_kind : forall k f n fates, exists surv stf cdf,
  mixed_run st0 cd0 (hist k f n fates) surv stf cdf /\ sublist surv [ops1; ops2; ops3] /\
  Sim stf cdf /\ db_inv stf /\ abs_db stf = sem_survivors surv (abs_db st0).
Proof. intros k f n fates. exact (engine_mixed_history_total _ _ _ sim0 inv0 (hist_ok k f n fates)). Qed.
End ExMixed.
Print Assumptions attempts_ok_embeds.
Print Assumptions ExMixed.every_kind.
