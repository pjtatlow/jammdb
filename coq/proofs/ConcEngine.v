(* The thread-level lock protocol (model/Conc.v, proofs/ConcFacts.v) connected to the storage engine with read
   transactions (model/EngineR.v, proofs/EngineReaders.v): a Conc schedule is projected onto a history of the engine
   machine [step_g], in which every transaction carries the release bound its writer computed when it read the header,
   and the two are shown to run in simulation. *)
From Coq Require Import List NArith Bool Arith Lia ZifyN ZifyNat ZifyBool Permutation.
From Coq.Strings Require Import Byte.
From Jamm Require Spec.
From Jamm Require Import Bytes Engine EngineAbs EnginePathFacts EngineRefines EngineOwnDefs EngineCow EngineR EngineReadersInv EngineReaders.
From Jamm Require EngineMergeFacts ListFacts.
From Jamm Require Conc ConcFacts LockFacts.
Import ListNotations.
Local Open Scope list_scope. Local Open Scope nat_scope.
Arguments N.add : simpl never. Arguments N.sub : simpl never. Arguments N.mul : simpl never.
Arguments N.min : simpl never. Arguments N.of_nat : simpl never.

Lemma minl_attained : forall l d, Conc.minl d l = d \/ In (Conc.minl d l) l.
Proof.
  intros l d. unfold Conc.minl. revert d. induction l as [|y l IH]; intros d; cbn [fold_left]; [now left|].
  destruct (IH (Nat.min d y)) as [E|Hin]; [|right; now right].
  rewrite E. destruct (Nat.min_spec d y) as [[_ ->]|[_ ->]]; [now left | right; now left].
Qed.

Lemma min_reader_attained : forall k rs d,
  (min_reader k rs d <= d)%N /\
  (min_reader k rs d = d \/ exists r, In r rs /\ min_reader k rs d = (r_id r + k)%N).
Proof.
  intros k rs d. induction rs as [|r rs (IH1 & IH2)]; cbn [min_reader fold_right].
  - split; [lia | now left].
  - fold (min_reader k rs d). split; [lia|].
    destruct (N.min_spec (r_id r + k) (min_reader k rs d)) as [[_ E]|[_ E]]; rewrite E.
    + right. exists r. split; [now left | reflexivity].
    + destruct IH2 as [E2|(r0 & Hr0 & E2)]; [now left|]. right. exists r0. split; [now right | exact E2].
Qed.

(* Conc's fold of [Nat.min] over the registered ids and the engine's fold of [N.min] over the
   open readers are the same number when the two collections have the same ids *)
Lemma minl_min_reader : forall (rs : list reader) (l : list nat) (d : nat),
  (forall x, In x (map r_id rs) <-> In x (map N.of_nat l)) ->
  N.of_nat (Conc.minl d l) = min_reader 0 rs (N.of_nat d).
Proof.
  intros rs l d Hset. destruct (min_reader_attained 0 rs (N.of_nat d)) as (B1 & B3).
  apply N.le_antisymm.
  - destruct B3 as [->|(r & Hr & ->)]; [pose proof (ConcFacts.minl_le_d d l); lia|].
    assert (Hin : In (r_id r) (map N.of_nat l)) by (apply Hset; now apply in_map).
    apply in_map_iff in Hin. destruct Hin as (x & Ex & Hx). pose proof (ConcFacts.minl_le_In d l x Hx). lia.
  - destruct (minl_attained l d) as [->|Hin]; [exact B1|].
    assert (Hin' : In (N.of_nat (Conc.minl d l)) (map r_id rs)) by (apply Hset; now apply in_map).
    apply in_map_iff in Hin'. destruct Hin' as (r & Er & Hr). pose proof (min_reader_le 0 rs (N.of_nat d) r Hr). lia.
Qed.

(* the engine history state [h] and the Conc state [s] agree on the current tx id and on the open reader ids *)
Definition ids_agree (s : Conc.cstate) (h : hstate) : Prop :=
  d_tx (fst h) = N.of_nat (Conc.cur s) /\ Permutation (map r_id (snd h)) (map N.of_nat (Conc.readers s)).

Theorem bound_agree : forall s h, ids_agree s h ->
  N.of_nat (Conc.minl (S (Conc.cur s)) (Conc.readers s)) = bound_k 0 h.
Proof.
  intros s h [Hc Hp]. unfold bound_k. rewrite Hc.
  replace (N.of_nat (Conc.cur s) + 1)%N with (N.of_nat (S (Conc.cur s))) by lia.
  apply minl_min_reader. intros x. split; intros Hx.
  - eapply Permutation_in; [exact Hp | exact Hx].
  - eapply Permutation_in; [apply Permutation_sym; exact Hp | exact Hx].
Qed.

(* so the step a writer takes when it reads the header (atomic begin) applies exactly the engine's bound *)
Corollary writer_begin_bound : forall s i s' t h, ids_agree s h ->
  Conc.step true s i = Some s' -> nth_error (Conc.threads s) i = Some t -> Conc.t_pc t = Conc.WFl ->
  exists t', nth_error (Conc.threads s') i = Some t' /\ Conc.t_pc t' = Conc.WReg /\ Conc.t_hdr t' = Conc.cur s /\
    N.of_nat (Conc.t_wrel t') = N.max (N.of_nat (Conc.t_wrel t)) (bound_k 0 h).
Proof.
  intros s i s' t h Hag H Ht Hp. unfold Conc.step in H. rewrite Ht, Hp in H. injection H as <-.
  eexists. split; [cbn [Conc.upd Conc.threads]; eapply LockFacts.nth_set_same; eauto|].
  cbn [Conc.t_pc Conc.t_hdr Conc.t_wrel]. split; [reflexivity|]. split; [reflexivity|].
  rewrite <- (bound_agree s h Hag). lia.
Qed.

(** * The engine machine with the bound the writer applied *)

(* [EngineR.step_k k] recomputes the bound from the readers open at COMMIT time.  A real writer computes it when it
   BEGINS; readers may register and end before it commits.  [GTx b ops ord] carries the bound the writer applied. *)
Inductive gstep :=
| GBegin
| GEnd (i : nat)
| GTx (b : N) (ops : list op) (ord : list bytes).

Definition step_g (h : hstate) (e : gstep) : res hstate :=
  match e with
  | GBegin => Ok (fst h, snd h ++ [fst h])
  | GEnd i => Ok (fst h, remove_at (snd h) i)
  | GTx b ops ord => st' <- run_tx_r (fst h) b ops ord ;; Ok (st', snd h)
  end.
Definition run_g (h : hstate) (es : list gstep) : res hstate := fold_res step_g es h.

(* [step_k k] is the instance in which the bound is recomputed at commit time *)
Definition at_commit (k : N) (h : hstate) (e : hstep) : gstep :=
  match e with Begin_reader => GBegin | End_reader i => GEnd i | Tx ops ord => GTx (bound_k k h) ops ord end.
Lemma step_k_g : forall k h e, step_k k h e = step_g h (at_commit k h e).
Proof. intros k h [|i|ops ord]; reflexivity. Qed.

(* the safe inequality for a transaction of the generalised machine: its bound is at most (id + 1) of every reader
   open when it commits, i.e. at most the tight bound [bound_k 1] *)
Definition safe_g (h : hstate) (e : gstep) : Prop :=
  match e with GTx b _ _ => forall r, In r (snd h) -> (b <= d_tx r + 1)%N | _ => True end.

Lemma safe_g_bound1 : forall h b ops ord, (b <= bound_k 1 h)%N -> safe_g h (GTx b ops ord).
Proof.
  intros h b ops ord Hb r Hr. unfold bound_k in Hb.
  pose proof (min_reader_le 1 (snd h) (d_tx (fst h) + 1)%N r Hr). unfold r_id in *. lia.
Qed.

Definition ops_ok_g (h : hstate) (e : gstep) : Prop :=
  match e with GTx _ ops _ => Forall (op_ok (d_disk (fst h))) ops | _ => True end.

(* the engine's side conditions along a history (cf. [EngineReaders.hist_ok]): every operation admissible where it
   is applied, every committed state readable.  NOTHING is assumed about the bounds *)
Fixpoint g_ok (h : hstate) (es : list gstep) : Prop :=
  match es with
  | [] => True
  | e :: es' => ops_ok_g h e /\ forall h1, step_g h e = Ok h1 -> readable (fst h1) /\ g_ok h1 es'
  end.

(* the committed transactions of a history, in commit order *)
Fixpoint txs_of (es : list gstep) : list (list op) :=
  match es with [] => [] | GTx _ ops _ :: es' => ops :: txs_of es' | _ :: es' => txs_of es' end.
Definition sem_commits (txs : list (list op)) (m : snode) : snode := fold_left (fun m ops => sem_tx ops m) txs m.

Lemma txs_of_app : forall a b, txs_of (a ++ b) = txs_of a ++ txs_of b.
Proof. induction a as [|[|i|b0 ops ord] a IH]; intros b; cbn [app txs_of]; rewrite ?IH; reflexivity. Qed.

Theorem g_inv_step : forall h e h1, HInv h -> ops_ok_g h e -> safe_g h e -> step_g h e = Ok h1 -> readable (fst h1) ->
  HInv h1 /\
  match e with
  | GTx _ ops _ => abs_db (fst h1) = sem_tx ops (abs_db (fst h)) /\ d_tx (fst h1) = (d_tx (fst h) + 1)%N /\ snd h1 = snd h
  | GBegin => h1 = (fst h, snd h ++ [fst h])
  | GEnd i => h1 = (fst h, remove_at (snd h) i)
  end.
Proof.
  intros [cur rs] e h1 [Hok HRs] Hops Hsafe Hstep Hrd. cbn [fst snd] in *.
  destruct e as [|i|b ops ord]; cbn [step_g fst snd] in Hstep.
  - inversion Hstep; subst h1. split; [|reflexivity]. split; [exact Hok|]. cbn [fst snd].
    apply Forall_app. split; [exact HRs|]. constructor; [now apply RI_begin | constructor].
  - inversion Hstep; subst h1. split; [|reflexivity]. split; [exact Hok|]. cbn [fst snd].
    rewrite Forall_forall in HRs |- *. intros r Hr. apply HRs. eapply EngineModifyFacts.remove_at_In; eauto.
  - apply EngineMergeFacts.bind_ok_inv in Hstep. destruct Hstep as (cur' & Hrun & E). inversion E; subst h1. clear E.
    cbn [fst snd ops_ok_g safe_g] in *.
    destruct (run_tx_r_refines cur b ops ord cur' Hok Hops Hrun Hrd) as [Hok' Habs].
    destruct (run_tx_r_write_set cur b ops ord cur' Hok Hops Hrun) as (_ & w & X & C).
    split; [|split; [exact Habs | split; [exact (tr_tx _ _ _ _ _ C) | reflexivity]]].
    split; [exact Hok'|]. cbn [fst snd]. rewrite Forall_forall in HRs |- *. intros r Hr.
    exact (RI_tx cur b ops ord cur' r Hok Hops Hrun (HRs r Hr) (Hsafe r Hr)).
Qed.

Theorem g_inv_run : forall es h h', HInv h -> g_ok h es -> (forall a e b h1, es = a ++ e :: b -> run_g h a = Ok h1 -> safe_g h1 e) ->
  run_g h es = Ok h' -> HInv h' /\ abs_db (fst h') = sem_commits (txs_of es) (abs_db (fst h)).
Proof.
  induction es as [|e es IH]; intros h h' Hinv Hok Hsafe Hrun; cbn [run_g fold_res] in Hrun.
  - inversion Hrun; subst. auto.
  - apply EngineMergeFacts.bind_ok_inv in Hrun. destruct Hrun as (h1 & H1 & H2). destruct Hok as [Hops Hnext].
    destruct (Hnext h1 H1) as [Hrd Hok1].
    assert (Hs : safe_g h e) by (apply (Hsafe [] e es h); reflexivity).
    destruct (g_inv_step h e h1 Hinv Hops Hs H1 Hrd) as [Hinv1 E1].
    assert (Hsafe1 : forall a e0 b h2, es = a ++ e0 :: b -> run_g h1 a = Ok h2 -> safe_g h2 e0).
    { intros a e0 b h2 -> Hr. apply (Hsafe (e :: a) e0 b h2); [reflexivity|]. cbn [run_g fold_res]. rewrite H1. exact Hr. }
    destruct (IH h1 h' Hinv1 Hok1 Hsafe1 H2) as [Hinv' E']. split; [exact Hinv'|]. rewrite E'.
    destruct e as [|i|b ops ord]; cbn [txs_of sem_commits fold_left]; try (subst h1; reflexivity).
    destruct E1 as (-> & _). reflexivity.
Qed.

(** * The projection of a schedule; the simulation relation *)

(* ghost state of the projection: which thread owns each open engine reader (parallel to [snd h], in registration
   order), and the release bound each writer thread computed when it read the header *)
Record ghost := mkG { owners : list nat; wb : nat -> nat }.
Definition ghost0 : ghost := mkG [] (fun _ => 0).

Fixpoint index_of (j : nat) (l : list nat) : nat :=
  match l with [] => 0 | x :: l' => if Nat.eqb j x then 0 else S (index_of j l') end.

Section Projection.
Variable ops_of : nat -> list op * list bytes.       (* the client operations (and bucket order) of writer thread i *)

(* the engine event of the step of thread i in state s (if any), and the new ghost state *)
Definition emit (s : Conc.cstate) (g : ghost) (i : nat) : option gstep * ghost :=
  match nth_error (Conc.threads s) i with
  | None => (None, g)
  | Some t =>
    match Conc.t_pc t with
    | Conc.RFl => (Some GBegin, mkG (owners g ++ [i]) (wb g))
    | Conc.REnd => (Some (GEnd (index_of i (owners g))), mkG (remove_at (owners g) (index_of i (owners g))) (wb g))
    | Conc.WFl => (None, mkG (owners g)
                     (fun j => if Nat.eqb j i then Conc.minl (S (Conc.cur s)) (Conc.readers s) else wb g j))
    | Conc.CHeaderNext => (Some (GTx (N.of_nat (wb g i)) (fst (ops_of i)) (snd (ops_of i))), g)
    | _ => (None, g)
    end
  end.

Definition ocons {A} (o : option A) (l : list A) : list A := match o with Some x => x :: l | None => l end.

Fixpoint project (s : Conc.cstate) (g : ghost) (sched : list nat) : list gstep :=
  match sched with
  | [] => []
  | i :: r => match Conc.step true s i with
              | Some s' => ocons (fst (emit s g i)) (project s' (snd (emit s g i)) r)
              | None => project s g r
              end
  end.
Fixpoint ghost_run (s : Conc.cstate) (g : ghost) (sched : list nat) : ghost :=
  match sched with
  | [] => g
  | i :: r => match Conc.step true s i with
              | Some s' => ghost_run s' (snd (emit s g i)) r
              | None => ghost_run s g r
              end
  end.

(* pcs at which a writer has computed its bound and not yet written its header *)
Definition wb_pc (p : Conc.pc) : bool :=
  match p with Conc.WReg | Conc.CGrow1 | Conc.CGrow2 | Conc.CGrow3 | Conc.CData | Conc.CHeaderNext => true | _ => false end.

(* thread j is a registered reader whose snapshot is the engine reader r *)
Definition owns (s : Conc.cstate) (j : nat) (r : reader) : Prop :=
  exists t, nth_error (Conc.threads s) j = Some t /\ Conc.reader_active (Conc.t_pc t) = true /\ r_id r = N.of_nat (Conc.t_hdr t).

Record Sim (s : Conc.cstate) (g : ghost) (h : hstate) : Prop := {
  sim_ids : ids_agree s h;                                  (* same current tx id, same multiset of reader ids *)
  sim_own : Forall2 (owns s) (owners g) (snd h);            (* open engine readers <-> registered reader threads *)
  sim_nodup : NoDup (owners g);
  sim_all : forall j t, nth_error (Conc.threads s) j = Some t -> Conc.reader_active (Conc.t_pc t) = true -> In j (owners g);
  sim_wb : forall i t, nth_error (Conc.threads s) i = Some t -> wb_pc (Conc.t_pc t) = true -> wb g i <= Conc.t_wrel t }.

(* the invariants of the repaired protocol proved in ConcFacts *)
Definition CInv (s : Conc.cstate) : Prop := ConcFacts.inv_mutex s /\ ConcFacts.inv_fresh s /\ ConcFacts.SInv s.

Lemma CInv_reachable : forall c0 ts s, Conc.initial_threads ts -> Conc.reachable true (Conc.init c0 ts) s -> CInv s.
Proof.
  intros c0 ts s Hts Hr. destruct (ConcFacts.C09_mutex_inv _ _ _ _ Hts Hr) as [IM _].
  split; [exact IM|]. split; [eapply ConcFacts.C09_fresh_writer_inv; eauto | eapply ConcFacts.C04_snapshots_inv; eauto].
Qed.
Lemma CInv_step : forall s i s', CInv s -> Conc.step true s i = Some s' -> CInv s'.
Proof.
  intros s i s' (IM & IF & HS) H. split; [eapply ConcFacts.inv_mutex_step; eauto|].
  split; [eapply ConcFacts.inv_fresh_step; eauto | eapply ConcFacts.SInv_step; eauto].
Qed.

Lemma owns_frame : forall s s' i t t' j r,
  nth_error (Conc.threads s) i = Some t -> Conc.threads s' = Conc.set_nth (Conc.threads s) i t' ->
  (Conc.reader_active (Conc.t_pc t) = true -> Conc.reader_active (Conc.t_pc t') = true /\ Conc.t_hdr t' = Conc.t_hdr t) ->
  owns s j r -> owns s' j r.
Proof.
  intros s s' i t t' j r Hi Hth Hact (tj & Hj & Ha & Hid). destruct (Nat.eq_dec j i) as [->|Hne].
  - rewrite Hi in Hj. injection Hj as <-. destruct (Hact Ha) as [Ha' Hh]. exists t'. rewrite Hth.
    split; [eapply LockFacts.nth_set_same; eauto|]. split; [exact Ha' | now rewrite Hh].
  - exists tj. rewrite Hth, LockFacts.nth_set_neq by exact Hne. auto.
Qed.

(* Sim after a step of thread i: the fields indexed by threads need checking at i only *)
Lemma Sim_upd : forall s g h s' g' h' i t',
  Sim s g h -> Conc.threads s' = Conc.set_nth (Conc.threads s) i t' ->
  ids_agree s' h' -> Forall2 (owns s') (owners g') (snd h') -> NoDup (owners g') ->
  (Conc.reader_active (Conc.t_pc t') = true -> In i (owners g')) ->
  (forall j, j <> i -> In j (owners g) -> In j (owners g')) ->
  (wb_pc (Conc.t_pc t') = true -> wb g' i <= Conc.t_wrel t') ->
  (forall j, j <> i -> wb g' j = wb g j) ->
  Sim s' g' h'.
Proof.
  intros s g h s' g' h' i t' HS Hth Hids Hown Hnd Hai Hao Hwi Hwo. constructor; try assumption.
  - intros j tj Hj Ha. rewrite Hth in Hj. apply LockFacts.nth_set_inv in Hj.
    destruct Hj as [[-> ->]|[Hne Hj]]; [exact (Hai Ha) | exact (Hao j Hne (sim_all _ _ _ HS j tj Hj Ha))].
  - intros j tj Hj Hw. rewrite Hth in Hj. apply LockFacts.nth_set_inv in Hj.
    destruct Hj as [[-> ->]|[Hne Hj]]; [exact (Hwi Hw) | rewrite (Hwo j Hne); exact (sim_wb _ _ _ HS j tj Hj Hw)].
Qed.

(* a step that neither registers nor deregisters a reader (the engine readers stay, the engine's current state may
   move to one with the matching tx id) *)
Lemma Sim_frame : forall s g h s' g' h' i t t',
  Sim s g h ->
  nth_error (Conc.threads s) i = Some t -> Conc.threads s' = Conc.set_nth (Conc.threads s) i t' ->
  Conc.readers s' = Conc.readers s -> d_tx (fst h') = N.of_nat (Conc.cur s') -> snd h' = snd h ->
  Conc.reader_active (Conc.t_pc t') = Conc.reader_active (Conc.t_pc t) ->
  (Conc.reader_active (Conc.t_pc t) = true -> Conc.t_hdr t' = Conc.t_hdr t) ->
  owners g' = owners g -> (forall j, j <> i -> wb g' j = wb g j) ->
  (wb_pc (Conc.t_pc t') = true -> wb g' i <= Conc.t_wrel t') ->
  Sim s' g' h'.
Proof.
  intros s g h s' g' h' i t t' HS Hi Hth Hrd Htx Hsnd Hact Hhdr Hog Hwo Hwi.
  apply (Sim_upd s g h s' g' h' i t' HS Hth); try assumption; rewrite ?Hog.
  - split; [exact Htx|]. rewrite Hsnd, Hrd. exact (proj2 (sim_ids _ _ _ HS)).
  - rewrite Hsnd. eapply ListFacts.Forall2_impl; [|exact (sim_own _ _ _ HS)]. intros j r Ho.
    eapply owns_frame; [exact Hi | exact Hth | | exact Ho]. intros Ha. split; [now rewrite Hact | auto].
  - exact (sim_nodup _ _ _ HS).
  - intros Ha. apply (sim_all _ _ _ HS i t Hi). now rewrite <- Hact.
  - auto.
Qed.

Lemma remove_at_perm : forall {A} (l : list A) k x, nth_error l k = Some x -> Permutation l (x :: remove_at l k).
Proof.
  intros A l. induction l as [|y l IH]; intros [|k] x H; cbn [nth_error remove_at] in *; try discriminate.
  - injection H as ->. apply Permutation_refl.
  - eapply perm_trans; [apply perm_skip; apply (IH k x H) | apply perm_swap].
Qed.
Lemma remove1_perm : forall x l, In x l -> Permutation l (x :: Conc.remove1 x l).
Proof.
  intros x l. induction l as [|y l IH]; intros H; [destruct H|]. cbn [Conc.remove1].
  destruct (Nat.eqb_spec x y) as [->|Hne]; [apply Permutation_refl|].
  destruct H as [->|H]; [congruence|]. eapply perm_trans; [apply perm_skip; apply (IH H) | apply perm_swap].
Qed.
Lemma map_remove_at : forall {A B} (f : A -> B) l k, map f (remove_at l k) = remove_at (map f l) k.
Proof. intros A B f l. induction l as [|y l IH]; intros [|k]; cbn [map remove_at]; try reflexivity. now rewrite IH. Qed.
Lemma index_of_nth : forall j l, In j l -> nth_error l (index_of j l) = Some j.
Proof.
  intros j l. induction l as [|x l IH]; intros H; [destruct H|]. cbn [index_of].
  destruct (Nat.eqb_spec j x) as [->|Hne]; [reflexivity|]. destruct H as [->|H]; [congruence|]. cbn [nth_error]. auto.
Qed.
Lemma Forall2_remove_at : forall {A B} (P : A -> B -> Prop) l1 l2 k, Forall2 P l1 l2 -> Forall2 P (remove_at l1 k) (remove_at l2 k).
Proof.
  intros A B P l1 l2 k H. revert k. induction H as [|a b l1 l2 Hab H IH]; intros [|k]; cbn [remove_at]; try constructor; auto.
Qed.
Lemma Forall2_nth_r : forall {A B} (P : A -> B -> Prop) l1 l2 k b, Forall2 P l1 l2 -> nth_error l2 k = Some b ->
  exists a, nth_error l1 k = Some a /\ P a b.
Proof. intros A B P l1 l2 k b. apply ListFacts.Forall2_nth_error_r. Qed.
Lemma remove_at_NoDup : forall {A} (l : list A) k, NoDup l -> NoDup (remove_at l k).
Proof.
  intros A l. induction l as [|y l IH]; intros [|k] H; cbn [remove_at]; try constructor; inversion H; subst; auto.
  intros Hin. apply EngineModifyFacts.remove_at_In in Hin. contradiction.
Qed.
Lemma remove_at_notin : forall {A} (l : list A) k x, NoDup l -> nth_error l k = Some x -> ~ In x (remove_at l k).
Proof.
  intros A l. induction l as [|y l IH]; intros [|k] x Hnd Hk; cbn [nth_error remove_at] in *; try discriminate; inversion Hnd; subst.
  - injection Hk as ->. assumption.
  - intros [->|Hin]; [apply nth_error_In in Hk; contradiction | exact (IH k x H2 Hk Hin)].
Qed.
Lemma remove_at_keeps : forall {A} (l : list A) k x y, nth_error l k = Some x -> In y l -> y <> x -> In y (remove_at l k).
Proof.
  intros A l. induction l as [|z l IH]; intros [|k] x y Hk Hin Hne; cbn [nth_error remove_at] in *; try discriminate.
  - injection Hk as ->. destruct Hin as [->|Hin]; [congruence | exact Hin].
  - destruct Hin as [->|Hin]; [now left | right; eapply IH; eauto].
Qed.
Lemma not_owner : forall s g h i t, Sim s g h -> nth_error (Conc.threads s) i = Some t ->
  Conc.reader_active (Conc.t_pc t) = false -> ~ In i (owners g).
Proof.
  intros s g h i t HS Hi Hf Hin. apply In_nth_error in Hin. destruct Hin as [k Hk].
  destruct (ListFacts.Forall2_nth_error_l _ _ _ _ _ (sim_own _ _ _ HS) Hk) as (r & _ & t' & Ht & Ha & _).
  rewrite Hi in Ht. injection Ht as <-. congruence.
Qed.

Ltac open_step H :=
  repeat match type of H with
         | context [match Conc.wr ?s with _ => _ end] => destruct (Conc.wr s) eqn:?
         | context [match Conc.fileM ?s with _ => _ end] => destruct (Conc.fileM s) eqn:?
         | context [match Conc.rd ?s with _ => _ end] => destruct (Conc.rd s) eqn:?
         end; try discriminate H; injection H as <-.

(* a writer's bound is safe for the readers open NOW, whenever it commits: it is below its [t_wrel], which ConcFacts
   keeps at most (id + 1) of every registered reader, readers that registered after the writer began included *)
Lemma sim_writer_safe : forall s g h i t, CInv s -> Sim s g h ->
  nth_error (Conc.threads s) i = Some t -> wb_pc (Conc.t_pc t) = true ->
  (N.of_nat (wb g i) <= bound_k 1 h)%N /\ Conc.t_hdr t = Conc.cur s.
Proof.
  intros s g h i t (IM & IF & HS) HSim Hi Hw. pose proof (sim_wb _ _ _ HSim i t Hi Hw) as Hle.
  assert (Hhw : ConcFacts.has_wrel (Conc.t_pc t) = true) by (destruct (Conc.t_pc t); try discriminate Hw; reflexivity).
  assert (Hhh : ConcFacts.holds_hdr (Conc.t_pc t) = true) by (destruct (Conc.t_pc t); try discriminate Hw; reflexivity).
  destruct (ConcFacts.si_wrel _ HS i t Hi Hhw) as [B1 B2]. split; [|exact (IF i t Hi Hhh)].
  destruct (sim_ids _ _ _ HSim) as [Hc Hp]. unfold bound_k.
  destruct (min_reader_attained 1 (snd h) (d_tx (fst h) + 1)%N) as (_ & [->|(r & Hr & ->)]); [lia|].
  assert (Hin : In (r_id r) (map N.of_nat (Conc.readers s))) by (eapply Permutation_in; [exact Hp | now apply in_map]).
  apply in_map_iff in Hin. destruct Hin as (x & Ex & Hx). specialize (B2 x Hx). lia.
Qed.

(** * The simulation *)

(* one Conc step = zero or one engine step *)
Lemma sim_step : forall s g h i s', CInv s -> Sim s g h -> Conc.step true s i = Some s' ->
  match fst (emit s g i) with
  | None => Sim s' (snd (emit s g i)) h
  | Some e => safe_g h e /\ forall h', step_g h e = Ok h' ->
                (forall b ops ord, e = GTx b ops ord -> d_tx (fst h') = (d_tx (fst h) + 1)%N /\ snd h' = snd h) ->
                Sim s' (snd (emit s g i)) h'
  end.
Proof.
  intros s g h i s' HC HS H. pose proof HC as (IM & IF & HI).
  unfold emit. unfold Conc.step in H. destruct (nth_error (Conc.threads s) i) as [t|] eqn:Hi; [|discriminate H].
  destruct (Conc.t_pc t) eqn:Hpc; cbv iota beta zeta in H; cbn [fst snd]; open_step H.
  all: try (exfalso; destruct (ConcFacts.si_nohdr _ HI i t Hi) as [N1 N2]; congruence).
  (* every pc other than the four below emits nothing, leaves the ghost state alone and is a [Sim_frame] step *)
  all: try (eapply (Sim_frame s g h _ g h i t _ HS Hi);
            [ reflexivity | reflexivity | exact (proj1 (sim_ids _ _ _ HS)) | reflexivity
            | cbn [Conc.t_pc Conc.with_pc]; rewrite Hpc; try reflexivity; destruct (Conc.t_grows t); reflexivity
            | first [ reflexivity | intros Ha; rewrite Hpc in Ha; discriminate Ha ] | reflexivity | reflexivity
            | cbn [Conc.t_pc Conc.with_pc Conc.t_wrel];
              first [ discriminate | intros _; apply (sim_wb _ _ _ HS i t Hi); rewrite Hpc; reflexivity ] ]; fail).
  - (* RFl: the reader registers = Begin_reader *)
    split; [exact I|]. intros h' Hst _. cbn [step_g] in Hst. injection Hst as <-.
    pose proof HS as [[Hc Hp] Hown Hnd Hall Hwb].
    assert (Hni : ~ In i (owners g)) by (apply (not_owner s g h i t HS Hi); now rewrite Hpc).
    eapply (Sim_upd s g h _ _ _ i _ HS); [reflexivity | ..]; cbn [owners wb Conc.t_pc Conc.with_pc fst snd].
    + unfold ids_agree. cbn [fst snd Conc.cur Conc.readers]. split; [exact Hc|]. rewrite map_app. cbn [map].
      eapply perm_trans; [apply Permutation_sym, Permutation_cons_append|]. unfold r_id at 1. rewrite Hc.
      apply perm_skip. exact Hp.
    + apply Forall2_app.
      * eapply ListFacts.Forall2_impl; [|exact Hown]. intros j r Ho.
        eapply owns_frame; [exact Hi | reflexivity | | exact Ho]. intros Ha. rewrite Hpc in Ha. discriminate Ha.
      * constructor; [|constructor]. eexists. split; [eapply LockFacts.nth_set_same; exact Hi|].
        cbn [Conc.t_pc Conc.with_pc Conc.t_hdr Conc.reader_active]. split; [reflexivity | exact Hc].
    + eapply Permutation_NoDup; [apply Permutation_cons_append|]. now constructor.
    + intros _. apply in_or_app. right. now left.
    + intros j _ Hj. apply in_or_app. now left.
    + discriminate.
    + reflexivity.
  - (* REnd: the reader deregisters = End_reader of its own index *)
    split; [exact I|]. intros h' Hst _. cbn [step_g] in Hst. injection Hst as <-.
    assert (Hin : In i (owners g)) by (apply (sim_all _ _ _ HS i t Hi); rewrite Hpc; reflexivity).
    pose proof (index_of_nth i _ Hin) as Hk. set (k := index_of i (owners g)) in *.
    pose proof HS as [[Hc Hp] Hown Hnd Hall Hwb].
    destruct (ListFacts.Forall2_nth_error_l _ _ _ _ _ Hown Hk) as (r & Hr & tr & Htr & _ & Hid).
    rewrite Hi in Htr. injection Htr as <-.
    eapply (Sim_upd s g h _ _ _ i _ HS); [reflexivity | ..]; cbn [owners wb Conc.t_pc Conc.with_pc fst snd].
    + unfold ids_agree. cbn [fst snd Conc.cur Conc.readers]. split; [exact Hc|]. rewrite map_remove_at.
      assert (Hx : In (Conc.t_hdr t) (Conc.readers s)).
      { assert (Hx : In (r_id r) (map N.of_nat (Conc.readers s))).
        { eapply Permutation_in; [exact Hp|]. apply in_map. eapply nth_error_In; eauto. }
        apply in_map_iff in Hx. destruct Hx as (x & Ex & Hx). assert (x = Conc.t_hdr t) by lia. now subst x. }
      apply (Permutation_cons_inv (a := r_id r)).
      eapply perm_trans; [apply Permutation_sym, remove_at_perm; apply map_nth_error; exact Hr|].
      eapply perm_trans; [exact Hp|]. rewrite Hid.
      change (N.of_nat (Conc.t_hdr t) :: map N.of_nat (Conc.remove1 (Conc.t_hdr t) (Conc.readers s)))
        with (map N.of_nat (Conc.t_hdr t :: Conc.remove1 (Conc.t_hdr t) (Conc.readers s))).
      apply Permutation_map. now apply remove1_perm.
    + eapply ListFacts.Forall2_impl_in; [|apply Forall2_remove_at; exact Hown].
      intros a b Ha (ta & Hta & Hact & Hida).
      assert (Hne : a <> i) by (intros ->; exact (remove_at_notin _ _ _ Hnd Hk Ha)).
      exists ta. cbn [Conc.threads]. rewrite LockFacts.nth_set_neq by exact Hne. auto.
    + now apply remove_at_NoDup.
    + discriminate.
    + intros j Hne Hj. exact (remove_at_keeps _ _ _ _ Hk Hj Hne).
    + discriminate.
    + reflexivity.
  - (* WFl: the writer reads the header and computes its bound (ghost [wb]) *)
    eapply (Sim_frame s g h _ _ h i t _ HS Hi);
      [ reflexivity | reflexivity | exact (proj1 (sim_ids _ _ _ HS)) | reflexivity
      | cbn [Conc.t_pc]; rewrite Hpc; reflexivity | intros Ha; rewrite Hpc in Ha; discriminate Ha | reflexivity | | ].
    + intros j Hne. cbn [wb]. apply Nat.eqb_neq in Hne. now rewrite Hne.
    + intros _. cbn [wb Conc.t_wrel]. rewrite Nat.eqb_refl. lia.
  - (* CHeaderNext: the commit = the engine transaction with the writer's own bound *)
    destruct (sim_writer_safe s g h i t HC HS Hi) as [Hb Hh]; [rewrite Hpc; reflexivity|].
    split; [apply safe_g_bound1; exact Hb|]. intros h' Hst Hd. destruct (Hd _ _ _ eq_refl) as [Hd1 Hd2].
    eapply (Sim_frame s g h _ g h' i t _ HS Hi);
      [ reflexivity | reflexivity | | exact Hd2 | cbn [Conc.t_pc Conc.with_pc]; rewrite Hpc; reflexivity
      | reflexivity | reflexivity | reflexivity | discriminate ].
    cbn [Conc.cur]. rewrite Hd1, (proj1 (sim_ids _ _ _ HS)), Hh. lia.
Qed.

(* what the engine history has done so far, from the committed state [st0] with no reader open; [done] = the
   committed transactions in commit order *)
Record Hist (st0 : db) (h : hstate) (done : list (list op)) : Prop := {
  hi_inv : HInv h;
  hi_tx : d_tx (fst h) = (d_tx st0 + N.of_nat (length done))%N;
  hi_abs : abs_db (fst h) = sem_commits done (abs_db st0);
  (* an open reader with id r began after exactly the first (r - id of st0) transactions *)
  hi_rd : forall r, In r (snd h) -> (d_tx st0 <= d_tx r)%N /\
            abs_db r = sem_commits (firstn (N.to_nat (d_tx r - d_tx st0)) done) (abs_db st0) }.

Lemma Hist_init : forall st0, db_okr st0 -> Hist st0 (st0, []) [].
Proof.
  intros st0 Hok. constructor; cbn [fst snd length].
  - split; [exact Hok | constructor].
  - lia.
  - reflexivity.
  - intros r [].
Qed.

Lemma Hist_step : forall st0 h done e h1, Hist st0 h done -> ops_ok_g h e -> safe_g h e -> step_g h e = Ok h1 ->
  readable (fst h1) ->
  Hist st0 h1 (done ++ txs_of [e]) /\
  (forall b ops ord, e = GTx b ops ord -> d_tx (fst h1) = (d_tx (fst h) + 1)%N /\ snd h1 = snd h).
Proof.
  intros st0 h done e h1 [Hinv Htx Habs Hrd] Hops Hsafe Hstep Hread.
  destruct (g_inv_step h e h1 Hinv Hops Hsafe Hstep Hread) as [Hinv1 E1].
  split; [|intros b ops ord ->; exact (proj2 E1)].
  destruct e as [|i|b ops ord]; cbn [txs_of]; rewrite ?app_nil_r.
  - subst h1. constructor; cbn [fst snd] in *; auto. intros r Hr. apply in_app_or in Hr.
    destruct Hr as [Hr|[<-|[]]]; [exact (Hrd r Hr)|]. split; [lia|].
    replace (N.to_nat (d_tx (fst h) - d_tx st0)) with (length done) by lia. rewrite firstn_all. exact Habs.
  - subst h1. constructor; cbn [fst snd] in *; auto. intros r Hr. apply Hrd. eapply EngineModifyFacts.remove_at_In; eauto.
  - destruct E1 as (Ea & Et & Es). constructor; auto.
    + rewrite Et, Htx, app_length. cbn [length]. lia.
    + rewrite Ea, Habs. unfold sem_commits. rewrite fold_left_app. reflexivity.
    + rewrite Es. intros r Hr. destruct (Hrd r Hr) as [Hge Hr']. split; [exact Hge|].
      destruct Hinv as [_ HRs]. rewrite Forall_forall in HRs. pose proof (ri_tx _ _ (HRs r Hr)) as Hle.
      rewrite firstn_app.
      replace (N.to_nat (d_tx r - d_tx st0) - length done) with 0 by lia. cbn [firstn]. rewrite app_nil_r. exact Hr'.
Qed.

(* the simulation along a schedule.  The engine's side conditions [g_ok] say nothing about the bounds: that every
   transaction's bound is safe for the readers open when it commits is DERIVED from the protocol invariants *)
Theorem sim_run : forall st0 sched s g h done h', CInv s -> Sim s g h -> Hist st0 h done ->
  g_ok h (project s g sched) -> run_g h (project s g sched) = Ok h' ->
  Sim (Conc.run true s sched) (ghost_run s g sched) h' /\ Hist st0 h' (done ++ txs_of (project s g sched)).
Proof.
  intros st0. induction sched as [|i r IH]; intros s g h done h' HC HS HH Hok Hrun; cbn [project ghost_run Conc.run] in *.
  - cbn [run_g fold_res] in Hrun. injection Hrun as <-. cbn [txs_of]. rewrite app_nil_r. auto.
  - destruct (Conc.step true s i) as [s'|] eqn:Est; [|exact (IH s g h done h' HC HS HH Hok Hrun)].
    pose proof (sim_step s g h i s' HC HS Est) as Hsim. pose proof (CInv_step s i s' HC Est) as HC'.
    destruct (emit s g i) as [[e|] g'] eqn:Em; cbn [fst snd ocons] in *; [|exact (IH s' g' h done h' HC' Hsim HH Hok Hrun)].
    destruct Hsim as [Hsafe Hsim]. destruct Hok as [Hops Hnext]. cbn [run_g fold_res] in Hrun.
    apply EngineMergeFacts.bind_ok_inv in Hrun. destruct Hrun as (h1 & H1 & H2). destruct (Hnext h1 H1) as [Hread Hok1].
    destruct (Hist_step st0 h done e h1 HH Hops Hsafe H1 Hread) as [HH1 Hd].
    destruct (IH s' g' h1 _ h' HC' (Hsim h1 H1 Hd) HH1 Hok1 H2) as [A B]. split; [exact A|].
    change (e :: project s' g' r) with ([e] ++ project s' g' r). rewrite txs_of_app, app_assoc. exact B.
Qed.

Lemma Sim_init : forall c0 ts st0, Conc.initial_threads ts -> d_tx st0 = N.of_nat c0 -> Sim (Conc.init c0 ts) ghost0 (st0, []).
Proof.
  intros c0 ts st0 Hts Htx.
  assert (Hpc : forall j t, nth_error ts j = Some t -> Conc.t_pc t = Conc.WStart \/ Conc.t_pc t = Conc.RStart)
    by (intros j t Hj; eapply ConcFacts.initial_not_in_section; eauto).
  constructor; cbn [Conc.init Conc.threads ghost0 owners wb fst snd];
    [split; [exact Htx | apply Permutation_refl] | constructor | constructor | |];
    intros j t Hj Ha; destruct (Hpc j t Hj) as [E|E]; rewrite E in Ha; discriminate Ha.
Qed.

(* Any number of reader and writer threads, any schedule, any assignment of operations to the writer threads.  The
   projected engine history starts from a committed state [st0] (tx id c0) satisfying the engine invariant; the only
   hypotheses on it are the engine's side conditions (operations admissible, committed states readable, the run does
   not fail).  Then, in the state reached:
   - every REGISTERED READER THREAD j owns an open engine reader r (at j's index in the ghost owner list) whose id is
     the header id the thread read; every page of r's snapshot is byte-identical on the CURRENT engine disk; r's
     root, read on the current disk, means r's contents; and these are the reference contents after exactly the
     first (t_hdr - c0) committed transactions, i.e. those committed before the thread registered;
   - the current engine state satisfies the invariant, has tx id [cur], and means the reference contents after all
     committed transactions in commit order; the number of commits is cur - c0. *)
Theorem conc_engine_snapshots : forall c0 ts st0 sched h',
  Conc.initial_threads ts -> db_okr st0 -> d_tx st0 = N.of_nat c0 ->
  let s0 := Conc.init c0 ts in
  let es := project s0 ghost0 sched in
  let s := Conc.run true s0 sched in
  let g := ghost_run s0 ghost0 sched in
  g_ok (st0, []) es -> run_g (st0, []) es = Ok h' ->
  (forall j t, nth_error (Conc.threads s) j = Some t -> Conc.reader_active (Conc.t_pc t) = true ->
     exists r, nth_error (snd h') (index_of j (owners g)) = Some r /\
       d_tx r = N.of_nat (Conc.t_hdr t) /\ c0 <= Conc.t_hdr t <= Conc.cur s /\
       (forall p, In p (snap r) -> dget (d_disk (fst h')) p = dget (d_disk r) p) /\
       fpg 16 (d_disk (fst h')) (d_root r) = Rof r /\
       abs_bucket 16 (d_disk (fst h')) (d_root r) (d_next r) = abs_db r /\
       abs_db (reader_view (fst h') r) = abs_db r /\
       abs_db r = sem_commits (firstn (Conc.t_hdr t - c0) (txs_of es)) (abs_db st0)) /\
  length (snd h') = length (owners g) /\
  db_okr (fst h') /\ d_tx (fst h') = N.of_nat (Conc.cur s) /\ Conc.cur s = c0 + length (txs_of es) /\
  abs_db (fst h') = sem_commits (txs_of es) (abs_db st0).
Proof.
  intros c0 ts st0 sched h' Hts Hok0 Htx0 s0 es s g Hok Hrun.
  assert (HC0 : CInv s0) by (apply (CInv_reachable c0 ts); [exact Hts | constructor]).
  destruct (sim_run st0 sched s0 ghost0 (st0, []) [] h' HC0 (Sim_init c0 ts st0 Hts Htx0) (Hist_init st0 Hok0) Hok Hrun)
    as [HS HH].
  cbn [app] in HH. fold es s g in HS, HH. destruct HH as [[Hokr HRs] Htx Habs Hrd]. destruct HS as [[Hc Hp] Hown Hnd Hall Hwb].
  assert (Hcur : Conc.cur s = c0 + length (txs_of es)) by lia.
  split; [|split; [symmetry; eapply ListFacts.Forall2_length; exact Hown | auto]].
  intros j t Hj Ha. pose proof (index_of_nth j _ (Hall j t Hj Ha)) as Hk.
  destruct (ListFacts.Forall2_nth_error_l _ _ _ _ _ Hown Hk) as (r & Hr & tj & Htj & _ & Hid). rewrite Hj in Htj. injection Htj as <-.
  assert (Hin : In r (snd h')) by (eapply nth_error_In; eauto).
  exists r. split; [exact Hr|]. unfold r_id in Hid. split; [exact Hid|]. destruct (Hrd r Hin) as [Hge Hsem].
  rewrite Forall_forall in HRs. pose proof (ri_tx _ _ (HRs r Hin)) as Hle. split; [lia|].
  destruct (RI_frozen (fst h') r (HRs r Hin)) as (A & _ & C & _ & D & E).
  split; [exact A|]. split; [exact C|]. split; [exact D|]. split; [exact E|].
  replace (Conc.t_hdr t - c0) with (N.to_nat (d_tx r - d_tx st0)) by lia. exact Hsem.
Qed.

Lemma run_app : forall a b s, Conc.run true s (a ++ b) = Conc.run true (Conc.run true s a) b.
Proof. induction a as [|i a IH]; intros b s; cbn [app Conc.run]; [reflexivity|]. destruct (Conc.step true s i); apply IH. Qed.
Lemma ghost_run_app : forall a b s g, ghost_run s g (a ++ b) = ghost_run (Conc.run true s a) (ghost_run s g a) b.
Proof. induction a as [|i a IH]; intros b s g; cbn [app Conc.run ghost_run]; [reflexivity|]. destruct (Conc.step true s i); apply IH. Qed.
Lemma project_app : forall a b s g,
  project s g (a ++ b) = project s g a ++ project (Conc.run true s a) (ghost_run s g a) b.
Proof.
  induction a as [|i a IH]; intros b s g; cbn [app Conc.run ghost_run project]; [reflexivity|].
  destruct (Conc.step true s i); [|apply IH]. rewrite IH. destruct (fst (emit s g i)); reflexivity.
Qed.
Lemma run_g_app : forall a b h h', run_g h (a ++ b) = Ok h' -> exists h1, run_g h a = Ok h1 /\ run_g h1 b = Ok h'.
Proof.
  induction a as [|e a IH]; intros b h h' H; cbn [app run_g fold_res] in *; [eauto|].
  apply EngineMergeFacts.bind_ok_inv in H. destruct H as (h1 & H1 & H2). destruct (IH b h1 h' H2) as (h2 & A & B).
  exists h2. rewrite H1. auto.
Qed.
Lemma g_ok_app : forall a b h, g_ok h (a ++ b) -> g_ok h a.
Proof.
  induction a as [|e a IH]; intros b h H; cbn [app g_ok] in *; [exact I|]. destruct H as [H1 H2]. split; [exact H1|].
  intros h1 Hs. destruct (H2 h1 Hs) as [Hr Hk]. split; [exact Hr | eapply IH; exact Hk].
Qed.

(* the hypotheses of [conc_engine_snapshots] for a schedule give them for every prefix: the theorem holds at
   every point of the execution *)
Corollary prefix_hyps : forall c0 ts st0 pre post h',
  let s0 := Conc.init c0 ts in
  g_ok (st0, []) (project s0 ghost0 (pre ++ post)) -> run_g (st0, []) (project s0 ghost0 (pre ++ post)) = Ok h' ->
  g_ok (st0, []) (project s0 ghost0 pre) /\ exists h1, run_g (st0, []) (project s0 ghost0 pre) = Ok h1.
Proof.
  intros c0 ts st0 pre post h' s0 Hok Hrun. rewrite project_app in Hok, Hrun.
  split; [eapply g_ok_app; exact Hok|]. destruct (run_g_app _ _ _ _ Hrun) as (h1 & H1 & _). eauto.
Qed.

Lemma index_of_app_in : forall j l l', In j l -> index_of j (l ++ l') = index_of j l.
Proof.
  intros j l l'. induction l as [|x l IH]; intros H; [destruct H|]. cbn [app index_of].
  destruct (Nat.eqb_spec j x) as [->|Hne]; [reflexivity|]. destruct H as [->|H]; [congruence|]. now rewrite IH.
Qed.
Lemma index_of_app_notin : forall j l, ~ In j l -> index_of j (l ++ [j]) = length l.
Proof.
  intros j l. induction l as [|x l IH]; intros H; cbn [app index_of length]; [now rewrite Nat.eqb_refl|].
  destruct (Nat.eqb_spec j x) as [->|Hne]; [exfalso; apply H; now left|]. rewrite IH; [reflexivity|]. intros Hin. apply H. now right.
Qed.
Lemma remove_at_lookup : forall {B} l (l2 : list B) k j, In j l -> index_of j l <> k ->
  nth_error (remove_at l2 k) (index_of j (remove_at l k)) = nth_error l2 (index_of j l).
Proof.
  intros B l. induction l as [|x l IH]; intros l2 k j Hin Hne; [destruct Hin|].
  destruct k as [|k]; cbn [remove_at index_of] in *.
  - destruct (Nat.eqb_spec j x) as [->|Hjx]; [congruence|]. destruct Hin as [->|Hin]; [congruence|].
    destruct l2 as [|b l2]; cbn [remove_at nth_error]; [now destruct (index_of j l)|reflexivity].
  - destruct (Nat.eqb_spec j x) as [->|Hjx].
    + destruct l2 as [|b l2]; reflexivity.
    + destruct Hin as [->|Hin]; [congruence|]. destruct l2 as [|b l2]; cbn [remove_at nth_error]; [reflexivity|].
      apply IH; [exact Hin | congruence].
Qed.

(* when thread i registers (its [RFl] step), the engine reader it owns from then on is the engine's CURRENT state *)
Theorem reader_registers : forall s g h i t, Sim s g h -> nth_error (Conc.threads s) i = Some t -> Conc.t_pc t = Conc.RFl ->
  fst (emit s g i) = Some GBegin /\
  forall h1, step_g h GBegin = Ok h1 -> nth_error (snd h1) (index_of i (owners (snd (emit s g i)))) = Some (fst h).
Proof.
  intros s g h i t HS Hi Hpc. unfold emit. rewrite Hi, Hpc. cbn [fst snd owners]. split; [reflexivity|].
  intros h1 Hst. cbn [step_g] in Hst. injection Hst as <-. cbn [snd].
  assert (Hni : ~ In i (owners g)) by (apply (not_owner s g h i t HS Hi); now rewrite Hpc).
  rewrite (index_of_app_notin i _ Hni), (ListFacts.Forall2_length _ _ _ (sim_own _ _ _ HS)).
  rewrite nth_error_app2 by lia. now rewrite Nat.sub_diag.
Qed.

(* no step other than its own [REnd] changes the engine reader a registered thread owns *)
Theorem reader_stable_step : forall s g h i j s' h1, Sim s g h -> In j (owners g) -> Conc.step true s i = Some s' ->
  (forall t, i = j -> nth_error (Conc.threads s) i = Some t -> Conc.t_pc t <> Conc.REnd) ->
  match fst (emit s g i) with None => h1 = h | Some e => step_g h e = Ok h1 end ->
  nth_error (snd h1) (index_of j (owners (snd (emit s g i)))) = nth_error (snd h) (index_of j (owners g)).
Proof.
  intros s g h i j s' h1 HS Hj Hst Hnot. unfold emit. unfold Conc.step in Hst.
  destruct (nth_error (Conc.threads s) i) as [t|] eqn:Hi; [|discriminate Hst]. clear Hst.
  destruct (Conc.t_pc t) eqn:Hpc; cbn [fst snd owners]; intros H1; try (subst h1; reflexivity).
  - cbn [step_g] in H1. injection H1 as <-. cbn [snd]. rewrite (index_of_app_in j _ _ Hj).
    apply nth_error_app1. rewrite <- (ListFacts.Forall2_length _ _ _ (sim_own _ _ _ HS)). apply nth_error_Some.
    rewrite (index_of_nth j _ Hj). discriminate.
  - cbn [step_g] in H1. injection H1 as <-. cbn [snd].
    assert (Hin : In i (owners g)) by (apply (sim_all _ _ _ HS i t Hi); rewrite Hpc; reflexivity).
    apply remove_at_lookup; [exact Hj|]. intros E.
    pose proof (index_of_nth j _ Hj) as A. pose proof (index_of_nth i _ Hin) as B. rewrite E, B in A. injection A as A.
    exact (Hnot t A eq_refl Hpc).
  - cbn [step_g] in H1. apply EngineMergeFacts.bind_ok_inv in H1. destruct H1 as (st' & _ & E). injection E as <-. reflexivity.
Qed.

End Projection.

(* the writer's bound is NOT in general the engine's [bound_k 0] AT COMMIT TIME (why [GTx] carries its own) *)

(* a reader registers between the writer's header read and its commit: the writer applied cur + 1 (no reader was
   open), [step_k 0] at commit would apply cur (the new reader's id): the writer's bound is LARGER (it is [bound_k 1]) *)
Example late_reader_bound :
  let s0 := Conc.init 3 [Conc.writer0 false; Conc.reader0] in
  let sch := [0;0;0] ++ [1;1;1] ++ [0;0] in          (* writer reads the header; reader registers; writer at CHeaderNext *)
  let s := Conc.run true s0 sch in
  let g := ghost_run (fun _ => ([], [])) s0 ghost0 sch in   (* the ghost bounds do not depend on the operations *)
  option_map Conc.t_pc (nth_error (Conc.threads s) 0) = Some Conc.CHeaderNext /\
  wb g 0 = 4 /\ Conc.minl (S (Conc.cur s)) (Conc.readers s) = 3.
Proof. vm_compute. auto. Qed.

(* a reader ends between the writer's header read and its commit: the writer applied the reader's id, [step_k 0]
   at commit would apply cur + 1: the writer's bound is SMALLER (more pages stay pending) *)
Example ended_reader_bound :
  let s0 := Conc.init 3 [Conc.writer0 false; Conc.reader0] in
  let sch := [1;1;1] ++ [0;0;0] ++ [1;1;1] ++ [0;0] in
  let s := Conc.run true s0 sch in
  let g := ghost_run (fun _ => ([], [])) s0 ghost0 sch in   (* the ghost bounds do not depend on the operations *)
  option_map Conc.t_pc (nth_error (Conc.threads s) 0) = Some Conc.CHeaderNext /\
  wb g 0 = 3 /\ Conc.minl (S (Conc.cur s)) (Conc.readers s) = 4.
Proof. vm_compute. auto. Qed.

Print Assumptions bound_agree.
Print Assumptions writer_begin_bound.
Print Assumptions g_inv_run.
Print Assumptions sim_step.
Print Assumptions sim_run.
Print Assumptions conc_engine_snapshots.
Print Assumptions prefix_hyps.
Print Assumptions reader_registers.
Print Assumptions reader_stable_step.
Print Assumptions late_reader_bound.
Print Assumptions ended_reader_bound.
