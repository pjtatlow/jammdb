(* Facts about lists ([Forall2], [NoDup], [concat], [flat_map]) that the standard library lacks. *)
From Coq Require Import List Lia.
Import ListNotations.

Lemma Forall2_impl_in : forall {A B} (R R' : A -> B -> Prop) xs ys,
  (forall x y, In x xs -> R x y -> R' x y) -> Forall2 R xs ys -> Forall2 R' xs ys.
Proof.
  intros A B R R' xs ys H HF. induction HF as [|x y xs ys HR HF IH]; constructor.
  - apply H; [now left | exact HR].
  - apply IH. intros x' y' Hin. apply H. now right.
Qed.

Lemma Forall2_impl : forall {A B} (R R' : A -> B -> Prop) xs ys,
  (forall x y, R x y -> R' x y) -> Forall2 R xs ys -> Forall2 R' xs ys.
Proof. intros A B R R' xs ys H. apply Forall2_impl_in. intros x y _. apply H. Qed.

Lemma Forall2_length : forall {A B} (R : A -> B -> Prop) xs ys, Forall2 R xs ys -> length xs = length ys.
Proof. intros A B R xs ys HF. induction HF; cbn [length]; congruence. Qed.

Lemma Forall2_nth_error_l : forall {A B} (R : A -> B -> Prop) xs ys j x,
  Forall2 R xs ys -> nth_error xs j = Some x -> exists y, nth_error ys j = Some y /\ R x y.
Proof.
  intros A B R xs ys j x HF. revert j. induction HF as [|x0 y0 xs ys HR HF IH]; intros [|j] Hj;
    cbn [nth_error] in *; try discriminate.
  - inversion Hj; subst. eauto.
  - now apply IH.
Qed.

Lemma Forall2_flip : forall {A B} (R : A -> B -> Prop) xs ys,
  Forall2 R xs ys -> Forall2 (fun y x => R x y) ys xs.
Proof. intros A B R xs ys HF. induction HF; constructor; assumption. Qed.

Lemma Forall2_nth_error_r : forall {A B} (R : A -> B -> Prop) xs ys j y,
  Forall2 R xs ys -> nth_error ys j = Some y -> exists x, nth_error xs j = Some x /\ R x y.
Proof. intros A B R xs ys j y HF. apply (Forall2_nth_error_l _ _ _ _ _ (Forall2_flip _ _ _ HF)). Qed.

Lemma Forall2_In_l : forall {A B} (R : A -> B -> Prop) xs ys x,
  Forall2 R xs ys -> In x xs -> exists y, In y ys /\ R x y.
Proof.
  intros A B R xs ys x HF Hx. destruct (In_nth_error _ _ Hx) as [j Hj].
  destruct (Forall2_nth_error_l _ _ _ _ _ HF Hj) as (y & Hy & HR). eauto using nth_error_In.
Qed.

Lemma Forall2_In_r : forall {A B} (R : A -> B -> Prop) xs ys y,
  Forall2 R xs ys -> In y ys -> exists x, In x xs /\ R x y.
Proof. intros A B R xs ys y HF. apply Forall2_flip in HF. exact (Forall2_In_l _ ys xs y HF). Qed.

Lemma Forall2_nth_error : forall {A B} (R : A -> B -> Prop) xs ys j x y,
  Forall2 R xs ys -> nth_error xs j = Some x -> nth_error ys j = Some y -> R x y.
Proof.
  intros A B R xs ys j x y HF Hx Hy.
  destruct (Forall2_nth_error_l R xs ys j x HF Hx) as (y' & Hy' & HR). congruence.
Qed.

Lemma Forall2_of_nth_error : forall {A B} (R : A -> B -> Prop) xs ys,
  length xs = length ys ->
  (forall j x y, nth_error xs j = Some x -> nth_error ys j = Some y -> R x y) -> Forall2 R xs ys.
Proof.
  intros A B R. induction xs as [|x xs IH]; intros [|y ys] Hl H; cbn [length] in Hl; try discriminate;
    constructor.
  - apply (H 0); reflexivity.
  - apply IH; [lia|]. intros j x' y' Hx Hy. apply (H (S j)); assumption.
Qed.

Lemma Forall2_det : forall {A B} (R R' : A -> B -> Prop) xs ys ys',
  (forall x y y', R x y -> R' x y' -> y = y') ->
  Forall2 R xs ys -> Forall2 R' xs ys' -> ys = ys'.
Proof.
  intros A B R R' xs ys ys' Hd HF. revert ys'.
  induction HF as [|x y xs ys HR HF IH]; intros ys' HF'; inversion HF'; subst; [reflexivity|].
  f_equal; eauto.
Qed.

Lemma map_inj_eq {A B} (f : A -> B) : (forall x y, f x = f y -> x = y) ->
  forall l l', map f l = map f l' -> l = l'.
Proof.
  intros Hf. induction l as [|x l IH]; intros [|y l'] H; try discriminate; [reflexivity|].
  cbn [map] in H. inversion H as [[H1 H2]]. f_equal; [now apply Hf | now apply IH].
Qed.

Lemma in_concat_nth : forall {A} (ls : list (list A)) x,
  In x (concat ls) -> exists j l, nth_error ls j = Some l /\ In x l.
Proof.
  intros A ls x H. apply in_concat in H. destruct H as (l & Hl & Hx).
  apply In_nth_error in Hl. destruct Hl as [j Hj]. eauto.
Qed.

Lemma flat_map_ext_in {A B} (f g : A -> list B) l :
  (forall a, In a l -> f a = g a) -> flat_map f l = flat_map g l.
Proof.
  induction l as [|x l IH]; intros H; [reflexivity|]. cbn [flat_map].
  rewrite (H x (or_introl eq_refl)), IH; [reflexivity|]. intros a Ha. apply H. now right.
Qed.

Lemma NoDup_map_inj : forall {A B} (f : A -> B) l x y,
  NoDup (map f l) -> In x l -> In y l -> f x = f y -> x = y.
Proof.
  intros A B f. induction l as [|a l IH]; intros x y Hnd Hx Hy Hf; [destruct Hx|].
  cbn [map] in Hnd. inversion Hnd as [|? ? Ha Hnd']; subst.
  destruct Hx as [-> | Hx], Hy as [-> | Hy].
  - reflexivity.
  - exfalso. apply Ha. rewrite Hf. now apply in_map.
  - exfalso. apply Ha. rewrite <- Hf. now apply in_map.
  - now apply IH.
Qed.

Lemma NoDup_map_nth_error : forall {A B} (f : A -> B) l i j x y,
  NoDup (map f l) -> nth_error l i = Some x -> nth_error l j = Some y -> f x = f y -> i = j.
Proof.
  intros A B f l i j x y Hnd Hi Hj Hf.
  rewrite NoDup_nth_error in Hnd. apply Hnd.
  - rewrite map_length. apply nth_error_Some. congruence.
  - rewrite (map_nth_error f _ _ Hi), (map_nth_error f _ _ Hj). congruence.
Qed.

Lemma NoDup_app_iff {A} (a b : list A) :
  NoDup (a ++ b) <-> NoDup a /\ NoDup b /\ (forall x, In x a -> In x b -> False).
Proof.
  induction a as [|y a IH]; cbn [app].
  - split; [intros H; repeat split; [constructor | exact H | intros x []] | tauto].
  - rewrite !NoDup_cons_iff, IH, in_app_iff. cbn [In]. split.
    + intros (Hy & Ha & Hb & Hd). repeat split; try tauto.
      intros x [<- | Hx] Hxb; [tauto | exact (Hd x Hx Hxb)].
    + intros ((Hy & Ha) & Hb & Hd). repeat split; try tauto.
      * intros [H | H]; [tauto | exact (Hd y (or_introl eq_refl) H)].
      * intros x Hx. apply Hd. now right.
Qed.

Lemma NoDup_app_l : forall {A} (a b : list A), NoDup (a ++ b) -> NoDup a.
Proof. intros A a b H. now apply NoDup_app_iff in H. Qed.

Lemma NoDup_app_r : forall {A} (a b : list A), NoDup (a ++ b) -> NoDup b.
Proof. intros A a b H. now apply NoDup_app_iff in H. Qed.

Lemma NoDup_app_disj : forall {A} (a b : list A) x, NoDup (a ++ b) -> In x a -> In x b -> False.
Proof. intros A a b x H. apply NoDup_app_iff in H. now apply H. Qed.

Lemma NoDup_app_intro : forall {A} (a b : list A), NoDup a -> NoDup b ->
  (forall x, In x a -> In x b -> False) -> NoDup (a ++ b).
Proof. intros A a b Ha Hb Hd. now apply NoDup_app_iff. Qed.

Lemma NoDup_flat_map_intro {A B} (f : A -> list B) : forall l,
  NoDup l -> (forall x, In x l -> NoDup (f x)) ->
  (forall x y, In x l -> In y l -> x <> y -> forall z, In z (f x) -> In z (f y) -> False) ->
  NoDup (flat_map f l).
Proof.
  induction l as [|a l IH]; intros Hnd Hf Hd; [constructor|]. cbn [flat_map].
  inversion Hnd as [|? ? Ha Hnd']; subst. apply NoDup_app_intro.
  - apply Hf. now left.
  - apply IH; [exact Hnd'| |].
    + intros x Hx. apply Hf. now right.
    + intros x y Hx Hy. apply Hd; now right.
  - intros z Hz1 Hz2. apply in_flat_map in Hz2. destruct Hz2 as (y & Hy & Hzy).
    assert (Hne : a <> y) by (intros ->; exact (Ha Hy)).
    exact (Hd a y (or_introl eq_refl) (or_intror Hy) Hne z Hz1 Hzy).
Qed.

Lemma NoDup_flat_map_elim {A B} (f : A -> list B) : forall l x,
  NoDup (flat_map f l) -> In x l -> NoDup (f x).
Proof.
  induction l as [|a l IH]; intros x H Hx; [destruct Hx|]. cbn [flat_map] in H.
  destruct Hx as [->|Hx]; [exact (NoDup_app_l _ _ H) | exact (IH x (NoDup_app_r _ _ H) Hx)].
Qed.

Lemma NoDup_flat_map_disj {A B} (f : A -> list B) : forall l x y,
  NoDup (flat_map f l) -> In x l -> In y l -> x <> y -> forall z, In z (f x) -> In z (f y) -> False.
Proof.
  induction l as [|a l IH]; intros x y H Hx Hy Hne z Hz1 Hz2; [destruct Hx|]. cbn [flat_map] in H.
  destruct Hx as [->|Hx], Hy as [->|Hy].
  - contradiction.
  - apply (NoDup_app_disj _ _ z H Hz1). apply in_flat_map. eauto.
  - apply (NoDup_app_disj _ _ z H Hz2). apply in_flat_map. eauto.
  - exact (IH x y (NoDup_app_r _ _ H) Hx Hy Hne z Hz1 Hz2).
Qed.
