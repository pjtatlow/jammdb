(* The handle-based reference machine (Spec.step_op), driven by path-addressed operations (SpecPath.path_step),
   computes the functional path semantics EngineAbs.sem_tx on every committed map that is a bucket whose entry lists
   are strictly ascending by key, recursively ([wf]): [path_machine], of type SpecPath.path_machine_stmt wf.
   Nothing is assumed about object ids: begin_tx strips them, and the simulation invariant [Inv] is established by
   [pinit] and preserved by [path_step].  The bucket-at-the-root half of wf is necessary
   (Examples.root_must_be_a_bucket).  The sortedness half is what the proof uses (find_oid's left-to-right search
   agrees with alookup on sorted lists; alookup after aremove); whether it is necessary is not known, but every map a
   transaction commits is sorted anyway (wf_sem_tx). *)
From Coq Require Import List NArith Bool Lia ZifyBool ZifyNat ZifyN.
From Coq.Strings Require Import Byte.
From Jamm Require Import Bytes Tree SearchFacts Engine Spec EngineAbs SpecPath EngineFacts.
Import ListNotations.
Local Open Scope list_scope. Local Open Scope N_scope.

(** * Induction on the nested map *)

Fixpoint snode_ind' (P : snode -> Prop)
    (HV : forall v, P (SVal v))
    (HB : forall o x es, Forall (fun kv => P (snd kv)) es -> P (SBucket o x es))
    (n : snode) {struct n} : P n :=
  match n with
  | SVal v => HV v
  | SBucket o x es =>
      HB o x es
        ((fix go (l : list (bytes * snode)) : Forall (fun kv => P (snd kv)) l :=
            match l with
            | [] => Forall_nil _
            | kv :: l' => Forall_cons kv (snode_ind' P HV HB (snd kv)) (go l')
            end) es)
  end.

(** * Association lists *)

Section AssocMore.
  Context {A : Type}.
  Implicit Types (l : list (bytes * A)) (k : bytes) (v : A).

  Lemma In_alookup : forall l k v, sorted_keys (map fst l) = true -> In (k, v) l -> alookup k l = Some v.
  Proof.
    induction l as [|[k0 v0] l IH]; intros k v Hs Hin; [destruct Hin|].
    cbn [map fst] in Hs. destruct (sorted_keys_cons _ _ Hs) as [Hall Hs'].
    cbn [alookup]. destruct Hin as [Heq|Hin].
    - inversion Heq; subst. now rewrite bcmp_refl.
    - assert (Hlt : bcmp k0 k = Lt).
      { rewrite Forall_forall in Hall. apply Hall. change k with (fst (k, v)). now apply in_map. }
      apply bcmp_lt_gt in Hlt. rewrite Hlt. now apply IH.
  Qed.

  Lemma In_ainsert : forall l k v x, In x (ainsert k v l) -> x = (k, v) \/ In x l.
  Proof.
    induction l as [|[k0 v0] l IH]; intros k v x H.
    - cbn in H. destruct H as [H|[]]. now left.
    - cbn [ainsert] in H. destruct (bcmp k k0).
      + destruct H as [H|H]; [now left | right; now right].
      + destruct H as [H|H]; [now left | now right].
      + destruct H as [H|H]; [right; now left|].
        destruct (IH _ _ _ H) as [H'|H']; [now left | right; now right].
  Qed.

  Lemma In_aremove : forall l k x, In x (aremove k l) -> In x l.
  Proof.
    induction l as [|[k0 v0] l IH]; intros k x H; [exact H|].
    cbn [aremove] in H. destruct (bcmp k k0).
    - now right.
    - exact H.
    - destruct H as [H|H]; [now left | right; eapply IH; eauto].
  Qed.
End AssocMore.

Definition sf (kv : bytes * snode) : bytes * snode := (fst kv, strip (snd kv)).

Lemma strip_bucket : forall o x es, strip (SBucket o x es) = SBucket 0 x (map sf es).
Proof. reflexivity. Qed.

Lemma map_sf_keys : forall es, map fst (map sf es) = map fst es.
Proof. intros es. rewrite map_map. reflexivity. Qed.

Lemma alookup_strip : forall es k, alookup k (map sf es) = option_map strip (alookup k es).
Proof.
  induction es as [|[k0 c0] es IH]; intros k; [reflexivity|].
  cbn [map sf fst snd alookup]. destruct (bcmp k k0); [reflexivity | reflexivity | apply IH].
Qed.

Lemma ainsert_strip : forall es k c, map sf (ainsert k c es) = ainsert k (strip c) (map sf es).
Proof.
  induction es as [|[k0 c0] es IH]; intros k c; [reflexivity|].
  cbn [map sf fst snd ainsert]. destruct (bcmp k k0); cbn [map sf fst snd]; [reflexivity | reflexivity | now rewrite IH].
Qed.

Lemma aremove_strip : forall es k, map sf (aremove k es) = aremove k (map sf es).
Proof.
  induction es as [|[k0 c0] es IH]; intros k; [reflexivity|].
  cbn [map sf fst snd aremove]. destruct (bcmp k k0); cbn [map sf fst snd]; [reflexivity | reflexivity | now rewrite IH].
Qed.

Lemma b_ents_strip : forall b, b_ents (strip b) = map sf (b_ents b).
Proof. intros [v|o x es]; reflexivity. Qed.
Lemma b_next_strip : forall b, Spec.b_next (strip b) = Spec.b_next b.
Proof. intros [v|o x es]; reflexivity. Qed.

Definition is_bucket (n : snode) : bool := match n with SBucket _ _ _ => true | SVal _ => false end.

Lemma is_bucket_strip : forall n, is_bucket (strip n) = is_bucket n.
Proof. intros [v|o x es]; reflexivity. Qed.

Lemma strip_idem : forall n, strip (strip n) = strip n.
Proof.
  induction n as [v|o x es IH] using snode_ind'; [reflexivity|].
  rewrite !strip_bucket. f_equal. rewrite map_map.
  apply map_ext_in. intros [k c] Hin. rewrite Forall_forall in IH. specialize (IH _ Hin).
  unfold sf. cbn [fst snd] in *. now rewrite IH.
Qed.

(** * Well-formedness: a bucket whose entry lists are strictly ascending, recursively *)

Fixpoint sorted_rec (n : snode) : bool :=
  match n with
  | SVal _ => true
  | SBucket _ _ es => sorted_keys (map fst es) && forallb (fun kv => sorted_rec (snd kv)) es
  end.

Definition wf (c : snode) : Prop := is_bucket c = true /\ sorted_rec c = true.

Lemma sorted_rec_bucket : forall o x es,
  sorted_rec (SBucket o x es) = true <->
  sorted_keys (map fst es) = true /\ (forall k c, In (k, c) es -> sorted_rec c = true).
Proof.
  intros o x es. cbn [sorted_rec]. rewrite andb_true_iff, forallb_forall. split.
  - intros [Hs Hall]. split; [exact Hs|]. intros k c Hin. exact (Hall _ Hin).
  - intros [Hs Hall]. split; [exact Hs|]. intros [k c] Hin. exact (Hall _ _ Hin).
Qed.

Lemma sorted_rec_strip : forall n, sorted_rec (strip n) = sorted_rec n.
Proof.
  induction n as [v|o x es IH] using snode_ind'; [reflexivity|].
  rewrite strip_bucket. cbn [sorted_rec]. rewrite map_sf_keys. f_equal.
  induction es as [|[k c] es IHes]; [reflexivity|].
  inversion IH as [|? ? Hc Hes]; subst. cbn [map forallb sf fst snd] in *.
  rewrite Hc. f_equal. now apply IHes.
Qed.

Theorem wf_strip : forall c, wf (strip c) <-> wf c.
Proof. intros c. unfold wf. now rewrite is_bucket_strip, sorted_rec_strip. Qed.

Lemma sorted_rec_ainsert : forall o x es k c o' x',
  sorted_rec (SBucket o x es) = true -> sorted_rec c = true ->
  sorted_rec (SBucket o' x' (ainsert k c es)) = true.
Proof.
  intros o x es k c o' x' Hb Hc. apply sorted_rec_bucket in Hb. destruct Hb as [Hs Hall].
  apply sorted_rec_bucket. split; [now apply ainsert_sorted|].
  intros k1 c1 Hin. apply In_ainsert in Hin. destruct Hin as [Heq|Hin].
  - now inversion Heq; subst.
  - eauto.
Qed.

Lemma sorted_rec_aremove : forall o x es k o' x',
  sorted_rec (SBucket o x es) = true -> sorted_rec (SBucket o' x' (aremove k es)) = true.
Proof.
  intros o x es k o' x' Hb. apply sorted_rec_bucket in Hb. destruct Hb as [Hs Hall].
  apply sorted_rec_bucket. split; [now apply aremove_sorted|].
  intros k1 c1 Hin. apply In_aremove in Hin. eauto.
Qed.

Lemma sorted_rec_child : forall o x es k c,
  sorted_rec (SBucket o x es) = true -> alookup k es = Some c -> sorted_rec c = true.
Proof.
  intros o x es k c Hb Hl. apply sorted_rec_bucket in Hb. destruct Hb as [_ Hall].
  eapply Hall. eapply alookup_In; eauto.
Qed.

Lemma set_ents_wf : forall r nx k c, wf r -> sorted_rec c = true ->
  wf (set_ents r nx (ainsert k c (b_ents r))).
Proof.
  intros [v|o x es] nx k c [Hb Hs] Hc; [discriminate|]. split; [reflexivity|].
  unfold set_ents. cbn [b_oid b_ents]. eapply sorted_rec_ainsert; eauto.
Qed.

Lemma op_fun_wf : forall o b, wf b -> wf (op_fun o b).
Proof.
  intros o [v|ob xb esb] Hw; [destruct Hw; discriminate|].
  destruct o as [p k v|p k|p nm|p]; cbn [op_fun]; [| | |exact Hw].
  - unfold sem_put. cbn [b_ents]. destruct (alookup k esb) as [[old|? ? ?]|]; [|exact Hw|];
      (apply set_ents_wf; [exact Hw | reflexivity]).
  - unfold sem_del. cbn [b_ents]. destruct (alookup k esb) as [[old|? ? ?]|]; [|exact Hw|exact Hw].
    split; [reflexivity|]. unfold set_ents. cbn [b_oid]. eapply sorted_rec_aremove. exact (proj2 Hw).
  - unfold sem_delb. cbn [b_ents]. destruct (alookup nm esb) as [[old|? ? ?]|]; [exact Hw| |exact Hw].
    split; [reflexivity|]. unfold set_ents. cbn [b_oid]. eapply sorted_rec_aremove. exact (proj2 Hw).
Qed.

(** * get_at / set_at *)

Lemma get_at_cons_inv : forall k p root b, get_at (k :: p) root = Some b ->
  exists o x es c, root = SBucket o x es /\ alookup k es = Some c /\ get_at p c = Some b.
Proof.
  intros k p root b H. cbn [get_at] in H. destruct root as [v|o x es]; [discriminate|].
  cbn [b_ents] in H. destruct (alookup k es) as [c|] eqn:E; [|discriminate].
  exists o, x, es, c. auto.
Qed.

Lemma get_at_bucket_mid : forall p c b, get_at p c = Some b -> is_bucket b = true -> is_bucket c = true.
Proof.
  intros [|k p] c b H Hb.
  - cbn in H. now inversion H; subst.
  - apply get_at_cons_inv in H. destruct H as (o & x & es & c' & -> & _). reflexivity.
Qed.

Lemma get_at_app : forall p q root b, get_at p root = Some b -> get_at (p ++ q) root = get_at q b.
Proof.
  induction p as [|k p IH]; intros q root b H.
  - cbn in H. now inversion H; subst.
  - apply get_at_cons_inv in H. destruct H as (o & x & es & c & -> & Hl & Hg).
    cbn [app get_at b_ents]. rewrite Hl. now apply IH.
Qed.

Lemma get_at_sorted : forall p root b, sorted_rec root = true -> get_at p root = Some b -> sorted_rec b = true.
Proof.
  induction p as [|k p IH]; intros root b Hs H.
  - cbn in H. now inversion H; subst.
  - apply get_at_cons_inv in H. destruct H as (o & x & es & c & -> & Hl & Hg).
    eapply IH; [|exact Hg]. eapply sorted_rec_child; eauto.
Qed.

Lemma set_at_cons : forall k p nw o x es c, alookup k es = Some c ->
  set_at (k :: p) nw (SBucket o x es) = SBucket o x (ainsert k (set_at p nw c) es).
Proof. intros. cbn [set_at]. now rewrite H. Qed.

Lemma set_at_same : forall p root b, get_at p root = Some b -> set_at p b root = root.
Proof.
  induction p as [|k p IH]; intros root b H.
  - cbn in H. now inversion H; subst.
  - apply get_at_cons_inv in H. destruct H as (o & x & es & c & -> & Hl & Hg).
    rewrite (set_at_cons _ _ _ _ _ _ _ Hl). rewrite (IH _ _ Hg). now rewrite (ainsert_same _ _ _ Hl).
Qed.

Lemma set_at_sorted : forall p root b b', sorted_rec root = true -> get_at p root = Some b ->
  sorted_rec b' = true -> sorted_rec (set_at p b' root) = true.
Proof.
  induction p as [|k p IH]; intros root b b' Hs H Hb'.
  - exact Hb'.
  - apply get_at_cons_inv in H. destruct H as (o & x & es & c & -> & Hl & Hg).
    rewrite (set_at_cons _ _ _ _ _ _ _ Hl). eapply sorted_rec_ainsert; [exact Hs|].
    eapply IH; eauto. eapply sorted_rec_child; eauto.
Qed.

Lemma set_at_is_bucket : forall p root b b', get_at p root = Some b -> is_bucket b' = true ->
  is_bucket (set_at p b' root) = true.
Proof.
  intros [|k p] root b b' H Hb'; [exact Hb'|].
  apply get_at_cons_inv in H. destruct H as (o & x & es & c & -> & Hl & Hg).
  now rewrite (set_at_cons _ _ _ _ _ _ _ Hl).
Qed.

(** * sem_at against get_at / set_at *)

Lemma sem_at_cons_bucket : forall k p f r c, alookup k (b_ents r) = Some c -> is_bucket c = true ->
  sem_at (k :: p) f r =
  match sem_at p f c with
  | Some c' => Some (set_ents r (Spec.b_next r) (ainsert k c' (b_ents r)))
  | None => None end.
Proof. intros k p f r c H Hc. cbn [sem_at]. rewrite H. destruct c; [discriminate | reflexivity]. Qed.

Lemma sem_at_cons_val : forall k p f r v, alookup k (b_ents r) = Some (SVal v) -> sem_at (k :: p) f r = None.
Proof. intros k p f r v H. cbn [sem_at]. now rewrite H. Qed.

Lemma sem_at_cons_none : forall k p f r, alookup k (b_ents r) = None ->
  sem_at (k :: p) f r =
  match sem_at p f (SBucket 0 0 []) with
  | Some c' => Some (set_ents r (Spec.b_next r + 1) (ainsert k c' (b_ents r)))
  | None => None end.
Proof. intros k p f r H. cbn [sem_at]. now rewrite H. Qed.

Lemma alookup_strip_ents : forall root k, alookup k (b_ents (strip root)) = option_map strip (alookup k (b_ents root)).
Proof. intros root k. rewrite b_ents_strip. apply alookup_strip. Qed.

(* an operation below the bucket at p is that operation on the bucket, put back at p *)
Lemma sem_at_app : forall p r b q f, get_at p r = Some b -> is_bucket b = true ->
  sem_at (p ++ q) f r = match sem_at q f b with Some c => Some (set_at p c r) | None => None end.
Proof.
  induction p as [|k p IH]; intros r b q f H Hb.
  - cbn in H. inversion H; subst. cbn [app set_at]. now destruct (sem_at q f b).
  - apply get_at_cons_inv in H. destruct H as (o & x & es & c & -> & Hl & Hg).
    assert (Hc : is_bucket c = true) by (eapply get_at_bucket_mid; eauto).
    cbn [app]. rewrite (sem_at_cons_bucket k (p ++ q) f (SBucket o x es) c Hl Hc), (IH _ _ _ _ Hg Hb).
    destruct (sem_at q f b); [|reflexivity]. now rewrite (set_at_cons _ _ _ _ _ _ _ Hl).
Qed.

Lemma get_at_strip : forall p root, get_at p (strip root) = option_map strip (get_at p root).
Proof.
  induction p as [|k p IH]; intros root; [reflexivity|]. cbn [get_at]. rewrite alookup_strip_ents.
  destruct (alookup k (b_ents root)); [apply IH | reflexivity].
Qed.

Lemma strip_set_at : forall p root b', strip (set_at p b' root) = set_at p (strip b') (strip root).
Proof.
  induction p as [|k p IH]; intros root b'; [reflexivity|].
  destruct root as [v|o x es]; [reflexivity|]. rewrite strip_bucket. cbn [set_at]. rewrite alookup_strip.
  destruct (alookup k es) as [c|]; cbn [option_map]; [|now rewrite strip_bucket].
  now rewrite strip_bucket, ainsert_strip, IH.
Qed.

Lemma sem_at_app_strip : forall p root b q f, get_at p root = Some b -> is_bucket b = true ->
  sem_at (p ++ q) f (strip root) =
  match sem_at q f (strip b) with Some c => Some (set_at p c (strip root)) | None => None end.
Proof.
  intros p root b q f H Hb. apply sem_at_app; [now rewrite get_at_strip, H | now rewrite is_bucket_strip].
Qed.

Lemma strip_set_at_same : forall p root b b', get_at p root = Some b ->
  strip b' = strip b -> strip (set_at p b' root) = strip root.
Proof. intros p root b b' H E. now rewrite strip_set_at, E, <- strip_set_at, (set_at_same _ _ _ H). Qed.

(* a refused prefix refuses every extension *)
Lemma sem_at_none_ext : forall q s f g r, sem_at q f r = None -> sem_at (q ++ s) g r = None.
Proof.
  induction q as [|k q IH]; intros s f g r H; [discriminate|].
  cbn [app sem_at] in *. destruct (alookup k (b_ents r)) as [[v|o x es]|].
  - reflexivity.
  - destruct (sem_at q f (SBucket o x es)) eqn:E; [discriminate|]. now rewrite (IH s f g _ E).
  - destruct (sem_at q f (SBucket 0 0 [])) eqn:E; [discriminate|]. now rewrite (IH s f g _ E).
Qed.

(** * Object ids by path; find_oid *)

Definition oid_at (root : snode) (p : list bytes) : option N :=
  match get_at p root with Some (SBucket o _ _) => Some o | _ => None end.

Lemma oid_at_nil : forall root, oid_at root [] = match root with SBucket o _ _ => Some o | SVal _ => None end.
Proof. reflexivity. Qed.

Lemma oid_at_cons : forall root k p,
  oid_at root (k :: p) = match alookup k (b_ents root) with Some c => oid_at c p | None => None end.
Proof. intros root k p. unfold oid_at. cbn [get_at]. now destruct (alookup k (b_ents root)). Qed.

Lemma oid_at_get : forall root p o, oid_at root p = Some o ->
  exists b, get_at p root = Some b /\ is_bucket b = true /\ b_oid b = o.
Proof.
  intros root p o H. unfold oid_at in H. destruct (get_at p root) as [[v|o' x es]|]; try discriminate.
  inversion H; subst. eexists. repeat split.
Qed.

Lemma get_oid_at : forall root p b, get_at p root = Some b -> is_bucket b = true -> oid_at root p = Some (b_oid b).
Proof. intros root p b H Hb. unfold oid_at. rewrite H. destruct b; [discriminate | reflexivity]. Qed.

Lemma oid_at_app : forall root p b s, get_at p root = Some b -> oid_at root (p ++ s) = oid_at b s.
Proof. intros root p b s H. unfold oid_at. now rewrite (get_at_app _ s _ _ H). Qed.

Lemma oid_at_val : forall v p, oid_at (SVal v) p = None.
Proof. intros v [|k p]; [reflexivity|]. now rewrite oid_at_cons. Qed.

(* q = p ++ s *)
Fixpoint after (p q : list bytes) : option (list bytes) :=
  match p, q with
  | [], _ => Some q
  | x :: p', y :: q' => if beq y x then after p' q' else None
  | _ :: _, [] => None
  end.

Lemma after_spec : forall p q s, after p q = Some s <-> q = p ++ s.
Proof.
  induction p as [|x p IH]; intros q s.
  - cbn. split; [now inversion 1 | now intros ->].
  - destruct q as [|y q]; cbn [after app].
    + split; discriminate.
    + destruct (beq y x) eqn:E.
      * apply beq_true in E. subst y. rewrite IH. split; [now intros -> | now inversion 1].
      * split; [discriminate|]. inversion 1; subst. rewrite (proj2 (beq_true x x) eq_refl) in E. discriminate.
Qed.

Lemma after_app : forall p s, after p (p ++ s) = Some s.
Proof. intros p s. now apply after_spec. Qed.

Lemma oid_at_set_at : forall p root b b' q, get_at p root = Some b ->
  oid_at (set_at p b' root) q = match after p q with Some s => oid_at b' s | None => oid_at root q end.
Proof.
  induction p as [|k p IH]; intros root b b' q H.
  - reflexivity.
  - apply get_at_cons_inv in H. destruct H as (o & x & es & c & -> & Hl & Hg).
    rewrite (set_at_cons _ _ _ _ _ _ _ Hl). destruct q as [|y q]; [reflexivity|].
    cbn [after]. rewrite (oid_at_cons (SBucket o x (ainsert k (set_at p b' c) es))). cbn [b_ents].
    rewrite alookup_ainsert. destruct (beq y k) eqn:E.
    + apply beq_true in E. subst y. rewrite (IH _ _ b' q Hg).
      destruct (after p q); [reflexivity|]. rewrite oid_at_cons. cbn [b_ents]. now rewrite Hl.
    + rewrite oid_at_cons. reflexivity.
Qed.

(* find_oid with its inner loop named *)
Fixpoint find_in (oid : N) (l : list (bytes * snode)) : option (list bytes) :=
  match l with
  | [] => None
  | (k, c) :: l' => match find_oid oid c with Some p => Some (k :: p) | None => find_in oid l' end
  end.

Lemma find_oid_bucket : forall oid o x es,
  find_oid oid (SBucket o x es) = if o =? oid then Some [] else find_in oid es.
Proof.
  intros oid o x es. cbn [find_oid]. destruct (o =? oid); [reflexivity|].
  induction es as [|[k c] es IH]; [reflexivity|].
  cbn [find_in]. destruct (find_oid oid c); [reflexivity | exact IH].
Qed.

Lemma find_in_some : forall oid l p, find_in oid l = Some p ->
  exists k c q, In (k, c) l /\ find_oid oid c = Some q /\ p = k :: q.
Proof.
  induction l as [|[k c] l IH]; intros p H; [discriminate|].
  cbn [find_in] in H. destruct (find_oid oid c) as [q|] eqn:E.
  - inversion H; subst. exists k, c, q. split; [now left | auto].
  - destruct (IH _ H) as (k' & c' & q' & Hin & Hf & ->). exists k', c', q'. split; [now right | auto].
Qed.

Lemma find_in_none : forall oid l, find_in oid l = None -> forall k c, In (k, c) l -> find_oid oid c = None.
Proof.
  induction l as [|[k0 c0] l IH]; intros H k c Hin; [destruct Hin|].
  cbn [find_in] in H. destruct (find_oid oid c0) eqn:E; [discriminate|].
  destruct Hin as [Heq|Hin]; [now inversion Heq; subst | eauto].
Qed.

Lemma find_oid_sound : forall root oid p, sorted_rec root = true -> find_oid oid root = Some p ->
  oid_at root p = Some oid.
Proof.
  induction root as [v|o x es IH] using snode_ind'; intros oid p Hs H; [discriminate|].
  rewrite find_oid_bucket in H. destruct (o =? oid) eqn:E.
  - inversion H; subst. apply N.eqb_eq in E. subst. reflexivity.
  - apply find_in_some in H. destruct H as (k & c & q & Hin & Hf & ->).
    apply sorted_rec_bucket in Hs. destruct Hs as [Hs Hall].
    rewrite oid_at_cons. cbn [b_ents]. rewrite (In_alookup _ _ _ Hs Hin).
    rewrite Forall_forall in IH. apply (IH _ Hin); [|exact Hf]. eapply Hall; eauto.
Qed.

Lemma find_oid_complete : forall p root oid, oid_at root p = Some oid -> find_oid oid root <> None.
Proof.
  induction p as [|k p IH]; intros root oid H.
  - rewrite oid_at_nil in H. destruct root as [v|o x es]; [discriminate|]. inversion H; subst.
    rewrite find_oid_bucket, N.eqb_refl. discriminate.
  - rewrite oid_at_cons in H. destruct root as [v|o x es]; [discriminate|]. cbn [b_ents] in H.
    destruct (alookup k es) as [c|] eqn:E; [|discriminate].
    rewrite find_oid_bucket. destruct (o =? oid); [discriminate|].
    intro Hn. eapply find_in_none in Hn; [|eapply alookup_In; eauto]. eapply IH; eauto.
Qed.

Definition uniq (root : snode) : Prop :=
  forall p q o, oid_at root p = Some o -> oid_at root q = Some o -> o <> 0 -> p = q.

Lemma find_oid_unique : forall root p o, sorted_rec root = true -> uniq root ->
  oid_at root p = Some o -> o <> 0 -> find_oid o root = Some p.
Proof.
  intros root p o Hs Hu H Ho. destruct (find_oid o root) as [p'|] eqn:E.
  - f_equal. eapply Hu; eauto. eapply find_oid_sound; eauto.
  - exfalso. eapply find_oid_complete; eauto.
Qed.

Lemma path_eqb_true : forall a b, path_eqb a b = true <-> a = b.
Proof.
  induction a as [|x a IH]; intros [|y b]; cbn [path_eqb]; try (split; [discriminate | discriminate]).
  - split; reflexivity.
  - rewrite andb_true_iff, beq_true, IH. split; [now intros [-> ->] | now inversion 1].
Qed.

Lemma path_eqb_refl : forall a, path_eqb a a = true.
Proof. intros a. now apply path_eqb_true. Qed.

Lemma path_eqb_false : forall a b, path_eqb a b = false <-> a <> b.
Proof.
  intros a b. split.
  - intros H E. apply path_eqb_true in E. congruence.
  - intros H. destruct (path_eqb a b) eqn:E; [|reflexivity]. apply path_eqb_true in E. contradiction.
Qed.

Lemma is_prefix_spec : forall a b, is_prefix a b = true <-> exists s, b = a ++ s.
Proof.
  induction a as [|x a IH]; intros b.
  - cbn. split; [eauto | reflexivity].
  - destruct b as [|y b]; cbn [is_prefix app].
    + split; [discriminate | now intros [s Hs]].
    + rewrite andb_true_iff, beq_true, IH. split.
      * intros [-> [s ->]]. eauto.
      * intros [s Hs]. inversion Hs; subst. eauto.
Qed.

Lemma is_prefix_after : forall a b, is_prefix a b = match after a b with Some _ => true | None => false end.
Proof.
  intros a b. destruct (after a b) as [s|] eqn:E.
  - apply is_prefix_spec. exists s. now apply after_spec.
  - destruct (is_prefix a b) eqn:F; [|reflexivity]. apply is_prefix_spec in F. destruct F as [s ->].
    rewrite after_app in E. discriminate.
Qed.

(** * The simulation invariant *)

Record Inv (root : snode) (oids : N) (hs : list (N * N)) (del : list N)
           (ph : list (list bytes * N)) (nh : N) : Prop := mkInv {
  i_sorted : sorted_rec root = true;
  i_root : oid_at root [] = Some 1;                                   (* the root is a bucket with object id 1 *)
  i_uniq : uniq root;                                                 (* non-zero object ids name one path *)
  i_bound : forall p o, oid_at root p = Some o -> o < oids;
  i_del : forall p o, oid_at root p = Some o -> o <> 0 -> mem o del = false;
  i_delbound : forall o, mem o del = true -> o < oids;
  i_h0 : hlookup 0 hs = Some 1;
  i_nh : 0 < nh;
  i_hs : forall p h, plookup p ph = Some h ->
         0 < h < nh /\ exists o, hlookup h hs = Some o /\ o <> 0 /\ oid_at root p = Some o
}.
Arguments i_sorted {root oids hs del ph nh}. Arguments i_root {root oids hs del ph nh}.
Arguments i_uniq {root oids hs del ph nh}. Arguments i_bound {root oids hs del ph nh}.
Arguments i_del {root oids hs del ph nh}. Arguments i_h0 {root oids hs del ph nh}.
Arguments i_hs {root oids hs del ph nh}.

Definition InvP (st : pstate) : Prop :=
  t_writable (p_tx st) = true /\
  Inv (t_root (p_tx st)) (t_oids (p_tx st)) (t_handles (p_tx st)) (t_deleted (p_tx st)) (p_handles st) (p_nexth st).

(* h is the handle the glue uses for the bucket at path p *)
Definition hfor (ph : list (list bytes * N)) (p : list bytes) (h : N) : Prop :=
  (p = [] /\ h = 0) \/ plookup p ph = Some h.

Lemma mem_cons : forall x o l, mem x (o :: l) = (x =? o) || mem x l.
Proof. reflexivity. Qed.

Lemma plookup_cons : forall p q h l, plookup p ((q, h) :: l) = if path_eqb q p then Some h else plookup p l.
Proof. reflexivity. Qed.

Lemma plookup_filter : forall (f : list bytes -> bool) ph q,
  plookup q (filter (fun x => f (fst x)) ph) = if f q then plookup q ph else None.
Proof.
  induction ph as [|[q0 h0] ph IH]; intros q.
  - cbn. now destruct (f q).
  - cbn [filter fst]. destruct (f q0) eqn:F0.
    + rewrite !plookup_cons. destruct (path_eqb q0 q) eqn:E.
      * apply path_eqb_true in E. subst q0. now rewrite F0.
      * apply IH.
    + rewrite plookup_cons. destruct (path_eqb q0 q) eqn:E.
      * apply path_eqb_true in E. subst q0. rewrite IH. now rewrite F0.
      * apply IH.
Qed.

Lemma Inv_oids_gt1 : forall root oids hs del ph nh, Inv root oids hs del ph nh -> 1 < oids.
Proof. intros root oids hs del ph nh I. eapply (i_bound I). exact (i_root I). Qed.

Lemma Inv_same : forall root oids hs del ph nh root',
  Inv root oids hs del ph nh -> sorted_rec root' = true ->
  (forall q, oid_at root' q = oid_at root q) ->
  Inv root' oids hs del ph nh.
Proof.
  intros root oids hs del ph nh root' I Hs Hq. destruct I as [I1 I2 I3 I4 I5 I6 I7 I8 I9].
  constructor; auto.
  - now rewrite Hq.
  - intros p q o Hp Hq' Ho. rewrite Hq in Hp, Hq'. eapply I3; eauto.
  - intros p o Hp. rewrite Hq in Hp. eauto.
  - intros p o Hp. rewrite Hq in Hp. eauto.
  - intros p h Hp. destruct (I9 _ _ Hp) as [Hh (o & Ho1 & Ho2 & Ho3)]. split; [exact Hh|].
    exists o. rewrite Hq. auto.
Qed.

Lemma Inv_nexth : forall root oids hs del ph nh,
  Inv root oids hs del ph nh -> Inv root oids hs del ph (nh + 1).
Proof.
  intros root oids hs del ph nh I. destruct I as [I1 I2 I3 I4 I5 I6 I7 I8 I9].
  constructor; auto; [lia|].
  intros p h Hp. destruct (I9 _ _ Hp) as [Hh Ho]. split; [lia | exact Ho].
Qed.

Lemma hlookup_cons : forall h h' o l, hlookup h ((h', o) :: l) = if h' =? h then Some o else hlookup h l.
Proof. reflexivity. Qed.

Lemma Inv_reopen : forall root oids hs del ph nh pn o,
  Inv root oids hs del ph nh -> oid_at root pn = Some o -> o <> 0 ->
  Inv root oids ((nh, o) :: hs) del ((pn, nh) :: ph) (nh + 1).
Proof.
  intros root oids hs del ph nh pn o I Hpn Ho. destruct I as [I1 I2 I3 I4 I5 I6 I7 I8 I9].
  constructor; auto.
  - rewrite hlookup_cons. destruct (nh =? 0) eqn:E; [lia | exact I7].
  - lia.
  - intros p h Hp. rewrite plookup_cons in Hp. destruct (path_eqb pn p) eqn:E.
    + apply path_eqb_true in E. subst p. inversion Hp; subst h. split; [lia|].
      exists o. rewrite hlookup_cons, N.eqb_refl. auto.
    + destruct (I9 _ _ Hp) as [Hh (o' & Ho1 & Ho2 & Ho3)]. split; [lia|].
      exists o'. rewrite hlookup_cons. destruct (nh =? h) eqn:E'; [lia | auto].
Qed.

Lemma Inv_new : forall root oids hs del ph nh root' pn,
  Inv root oids hs del ph nh -> sorted_rec root' = true -> pn <> [] ->
  (forall q, oid_at root' q = if path_eqb q pn then Some oids else oid_at root q) ->
  Inv root' (oids + 1) ((nh, oids) :: hs) del ((pn, nh) :: ph) (nh + 1).
Proof.
  intros root oids hs del ph nh root' pn I Hs Hne Hq.
  pose proof (Inv_oids_gt1 _ _ _ _ _ _ I) as Hgt.
  destruct I as [I1 I2 I3 I4 I5 I6 I7 I8 I9].
  constructor; auto.
  - rewrite Hq. destruct (path_eqb [] pn) eqn:E; [|exact I2]. apply path_eqb_true in E. congruence.
  - intros p q o Hp Hq' Ho. rewrite Hq in Hp, Hq'.
    destruct (path_eqb p pn) eqn:Ep; destruct (path_eqb q pn) eqn:Eq.
    + apply path_eqb_true in Ep, Eq. congruence.
    + inversion Hp; subst o. apply I4 in Hq'. lia.
    + inversion Hq'; subst o. apply I4 in Hp. lia.
    + eapply I3; eauto.
  - intros p o Hp. rewrite Hq in Hp. destruct (path_eqb p pn).
    + inversion Hp; subst. lia.
    + apply I4 in Hp. lia.
  - intros p o Hp Ho. rewrite Hq in Hp. destruct (path_eqb p pn).
    + inversion Hp; subst o. destruct (mem oids del) eqn:M; [|reflexivity]. apply I6 in M. lia.
    + eauto.
  - intros o M. apply I6 in M. lia.
  - rewrite hlookup_cons. destruct (nh =? 0) eqn:E; [lia | exact I7].
  - lia.
  - intros p h Hp. rewrite plookup_cons in Hp. destruct (path_eqb pn p) eqn:E.
    + apply path_eqb_true in E. subst p. inversion Hp; subst h. split; [lia|].
      exists oids. rewrite hlookup_cons, N.eqb_refl, Hq, path_eqb_refl. repeat split; auto. lia.
    + destruct (I9 _ _ Hp) as [Hh (o' & Ho1 & Ho2 & Ho3)]. split; [lia|].
      exists o'. rewrite hlookup_cons. destruct (nh =? h) eqn:E'; [lia|].
      rewrite Hq. destruct (path_eqb p pn) eqn:E2.
      * apply path_eqb_true in E2. subst p. rewrite path_eqb_refl in E. discriminate.
      * auto.
Qed.

Lemma Inv_delb : forall root oids hs del ph nh root' pd o,
  Inv root oids hs del ph nh -> sorted_rec root' = true -> pd <> [] ->
  oid_at root pd = Some o ->
  (forall q, oid_at root' q = if is_prefix pd q then None else oid_at root q) ->
  Inv root' oids hs (if o =? 0 then del else o :: del)
      (filter (fun x => negb (is_prefix pd (fst x))) ph) nh.
Proof.
  intros root oids hs del ph nh root' pd o I Hs Hne Hpd Hq.
  destruct I as [I1 I2 I3 I4 I5 I6 I7 I8 I9].
  assert (Hold : forall q o', oid_at root' q = Some o' -> is_prefix pd q = false /\ oid_at root q = Some o').
  { intros q o' H. rewrite Hq in H. destruct (is_prefix pd q); [discriminate | auto]. }
  constructor; auto.
  - rewrite Hq. destruct pd as [|x pd]; [congruence | exact I2].
  - intros p q o' Hp Hq' Ho. apply Hold in Hp, Hq'. eapply I3; [apply Hp | apply Hq' | exact Ho].
  - intros p o' Hp. apply Hold in Hp. eapply I4. apply Hp.
  - intros p o' Hp Ho. apply Hold in Hp. destruct Hp as [Hpre Hp].
    destruct (o =? 0) eqn:E0; [eauto|].
    rewrite mem_cons. rewrite (I5 _ _ Hp Ho), orb_false_r.
    destruct (o' =? o) eqn:E; [|reflexivity]. apply N.eqb_eq in E. subst o'.
    assert (p = pd) by (eapply I3; eauto). subst p.
    assert (is_prefix pd pd = true) by (apply is_prefix_spec; exists []; now rewrite app_nil_r). congruence.
  - intros o' M. destruct (o =? 0) eqn:E0; [eauto|].
    rewrite mem_cons in M. apply orb_true_iff in M. destruct M as [M|M]; [|eauto].
    apply N.eqb_eq in M. subst o'. eauto.
  - intros p h Hp. rewrite (plookup_filter (fun q => negb (is_prefix pd q))) in Hp.
    destruct (is_prefix pd p) eqn:E; cbn [negb] in Hp; [discriminate|].
    destruct (I9 _ _ Hp) as [Hh (o' & Ho1 & Ho2 & Ho3)]. split; [exact Hh|].
    exists o'. rewrite Hq, E. auto.
Qed.

(** * Object ids after the three kinds of bucket update *)

Lemma beq_sym : forall a b, beq a b = beq b a.
Proof.
  intros a b. destruct (beq a b) eqn:E1; destruct (beq b a) eqn:E2; try reflexivity.
  - apply beq_true in E1. subst. rewrite (proj2 (beq_true b b) eq_refl) in E2. discriminate.
  - apply beq_true in E2. subst. rewrite (proj2 (beq_true a a) eq_refl) in E1. discriminate.
Qed.

Lemma path_eqb_app_same : forall p a b, path_eqb (p ++ a) (p ++ b) = path_eqb a b.
Proof. induction p as [|x p IH]; intros a b; [reflexivity|]. cbn [app path_eqb]. now rewrite beq_refl, IH. Qed.

Lemma is_prefix_app_same : forall p a b, is_prefix (p ++ a) (p ++ b) = is_prefix a b.
Proof. induction p as [|x p IH]; intros a b; [reflexivity|]. cbn [app is_prefix]. now rewrite beq_refl, IH. Qed.

Lemma oid_set_at_same : forall p root b b', get_at p root = Some b ->
  (forall s, oid_at b' s = oid_at b s) -> forall q, oid_at (set_at p b' root) q = oid_at root q.
Proof.
  intros p root b b' H Hyp q. rewrite (oid_at_set_at _ _ _ _ q H).
  destruct (after p q) as [s|] eqn:E; [|reflexivity]. apply after_spec in E. subst q.
  rewrite (oid_at_app _ _ _ s H). apply Hyp.
Qed.

Lemma oid_spec_new : forall p root ob xb esb x' nm o' x'' es'',
  get_at p root = Some (SBucket ob xb esb) ->
  (forall y s, oid_at (SBucket o' x'' es'') (y :: s)
               = match alookup nm esb with Some c => oid_at c (y :: s) | None => None end) ->
  forall q, oid_at (set_at p (SBucket ob x' (ainsert nm (SBucket o' x'' es'') esb)) root) q
            = if path_eqb q (p ++ [nm]) then Some o' else oid_at root q.
Proof.
  intros p root ob xb esb x' nm o' x'' es'' H Hyp q. rewrite (oid_at_set_at _ _ _ _ q H).
  destruct (after p q) as [s|] eqn:E.
  - apply after_spec in E. subst q. rewrite (oid_at_app _ _ _ s H), path_eqb_app_same.
    destruct s as [|y s]; [reflexivity|].
    rewrite (oid_at_cons (SBucket ob x' _)), (oid_at_cons (SBucket ob xb esb)). cbn [b_ents].
    rewrite alookup_ainsert. cbn [path_eqb]. destruct (beq y nm) eqn:E1.
    + apply beq_true in E1. subst y. destruct s as [|z s]; [reflexivity|]. cbn [andb path_eqb]. apply Hyp.
    + reflexivity.
  - destruct (path_eqb q (p ++ [nm])) eqn:E2; [|reflexivity].
    apply path_eqb_true in E2. subst q. rewrite after_app in E. discriminate.
Qed.

Lemma oid_spec_delb : forall p root ob xb esb x' nm,
  get_at p root = Some (SBucket ob xb esb) -> sorted_keys (map fst esb) = true ->
  forall q, oid_at (set_at p (SBucket ob x' (aremove nm esb)) root) q
            = if is_prefix (p ++ [nm]) q then None else oid_at root q.
Proof.
  intros p root ob xb esb x' nm H Hs q. rewrite (oid_at_set_at _ _ _ _ q H).
  destruct (after p q) as [s|] eqn:E.
  - apply after_spec in E. subst q. rewrite (oid_at_app _ _ _ s H), is_prefix_app_same.
    destruct s as [|y s]; [reflexivity|].
    rewrite (oid_at_cons (SBucket ob x' _)), (oid_at_cons (SBucket ob xb esb)). cbn [b_ents].
    rewrite (alookup_aremove _ _ _ Hs). cbn [is_prefix]. rewrite (beq_sym nm y), andb_true_r.
    now destruct (beq y nm).
  - destruct (is_prefix (p ++ [nm]) q) eqn:E2; [|reflexivity].
    apply is_prefix_spec in E2. destruct E2 as [s ->]. rewrite <- app_assoc, after_app in E. discriminate.
Qed.

(** * What a handle resolves to *)

Lemma resolve_hfor : forall root oids hs del w ph nh p h,
  Inv root oids hs del ph nh -> hfor ph p h ->
  exists b, resolve (mkTx root oids hs del w) h = TAt p b /\ get_at p root = Some b /\ wf b.
Proof.
  intros root oids hs del w ph nh p h I Hh.
  assert (Ho : exists o, hlookup h hs = Some o /\ o <> 0 /\ oid_at root p = Some o).
  { destruct Hh as [[-> ->]|Hp].
    - exists 1. split; [exact (i_h0 I)|]. split; [lia | exact (i_root I)].
    - destruct (i_hs I _ _ Hp) as [_ Ho]. exact Ho. }
  destruct Ho as (o & Hl & Ho & Hat).
  destruct (oid_at_get _ _ _ Hat) as (b & Hg & Hb & _).
  exists b. unfold resolve. cbn [t_handles t_deleted t_root]. rewrite Hl, (i_del I _ _ Hat Ho).
  rewrite (find_oid_unique _ _ _ (i_sorted I) (i_uniq I) Hat Ho), Hg.
  repeat split; auto. exact (get_at_sorted _ _ _ (i_sorted I) Hg).
Qed.

(** * One call of the handle machine against the functional semantics *)

Lemma sem_at_exact : forall p root b f b', get_at p root = Some b -> is_bucket b = true ->
  f (strip b) = strip b' -> sem_at p f (strip root) = Some (strip (set_at p b' root)).
Proof.
  intros p root b f b' H Hb E. rewrite <- (app_nil_r p) at 1. rewrite (sem_at_app_strip _ _ _ [] f H Hb).
  cbn [sem_at]. now rewrite E, strip_set_at.
Qed.

Lemma sem_at_touch : forall p root b, get_at p root = Some b -> is_bucket b = true ->
  sem_at p (fun b => b) (strip root) = Some (strip root).
Proof.
  intros p root b H Hb. rewrite (sem_at_exact p root b _ b H Hb eq_refl). now rewrite (set_at_same _ _ _ H).
Qed.

Lemma app_nm_ne : forall (p : list bytes) nm, p ++ [nm] <> [].
Proof. intros [|x p] nm; discriminate. Qed.

(* get_or_create_bucket nm on the handle of [prefix] = Touch (prefix ++ [nm]) *)
Lemma goc_sim : forall root oids hs del ph nh prefix h nm,
  Inv root oids hs del ph nh -> hfor ph prefix h ->
  (exists root' oids' hs',
      step_op (mkTx root oids hs del true) (OGoc h nm nh) = (mkTx root' oids' hs' del true, ROk) /\
      Inv root' oids' hs' del ((prefix ++ [nm], nh) :: ph) (nh + 1) /\
      sem_at (prefix ++ [nm]) (fun b => b) (strip root) = Some (strip root'))
  \/ (step_op (mkTx root oids hs del true) (OGoc h nm nh) = (mkTx root oids hs del true, RErr IncompatibleValue) /\
      sem_at (prefix ++ [nm]) (fun b => b) (strip root) = None).
Proof.
  intros root oids hs del ph nh prefix h nm I Hh.
  destruct (resolve_hfor root oids hs del true ph nh prefix h I Hh) as (b & Hr & Hg & Hb & Hsb).
  unfold step_op. cbn [is_mutator op_handle t_writable negb andb]. rewrite Hr.
  destruct b as [|ob xb esb]; [discriminate|]. cbn [b_ents b_oid Spec.b_next].
  destruct (alookup nm esb) as [[v|oc xc esc]|] eqn:El.
  - right. split; [reflexivity|]. rewrite (sem_at_app_strip _ _ _ [nm] _ Hg Hb).
    rewrite (sem_at_cons_val nm [] _ _ v); [reflexivity|]. rewrite alookup_strip_ents. cbn [b_ents]. now rewrite El.
  - left. assert (Hgc : get_at (prefix ++ [nm]) root = Some (SBucket oc xc esc)).
    { rewrite (get_at_app _ [nm] _ _ Hg). cbn [get_at b_ents]. now rewrite El. }
    unfold open_sub. destruct (oc =? 0) eqn:Eo.
    + exists (set_at prefix (SBucket ob xb (ainsert nm (SBucket oids xc esc) esb)) root), (oids + 1), ((nh, oids) :: hs).
      split; [reflexivity|]. split.
      * apply Inv_new with (root := root); [exact I | | apply app_nm_ne |].
        -- apply (set_at_sorted _ _ _ _ (i_sorted I) Hg). eapply sorted_rec_ainsert; [exact Hsb|].
           exact (sorted_rec_child _ _ _ _ _ Hsb El).
        -- apply (oid_spec_new _ _ _ _ _ _ _ _ _ _ Hg). intros y s. now rewrite El, !oid_at_cons.
      * rewrite (strip_set_at_same prefix root (SBucket ob xb esb)); [|exact Hg|].
        -- eapply sem_at_touch; eauto.
        -- rewrite !strip_bucket, ainsert_strip. f_equal. apply ainsert_same.
           rewrite alookup_strip, El. reflexivity.
    + exists root, oids, ((nh, oc) :: hs). split; [reflexivity|]. split.
      * apply Inv_reopen; [exact I | | ].
        -- now rewrite (get_oid_at _ _ _ Hgc eq_refl).
        -- apply N.eqb_neq in Eo. exact Eo.
      * eapply sem_at_touch; eauto.
  - left. exists (set_at prefix (SBucket ob (xb + 1) (ainsert nm (empty_bucket oids) esb)) root), (oids + 1), ((nh, oids) :: hs).
    split; [reflexivity|]. split.
    + apply Inv_new with (root := root); [exact I | | apply app_nm_ne |].
      * apply (set_at_sorted _ _ _ _ (i_sorted I) Hg). eapply sorted_rec_ainsert; [exact Hsb | reflexivity].
      * apply (oid_spec_new _ _ _ _ _ _ _ _ _ _ Hg). intros y s. now rewrite El, oid_at_cons.
    + rewrite (sem_at_app_strip _ _ _ [nm] _ Hg Hb).
      rewrite sem_at_cons_none; [|rewrite alookup_strip_ents; cbn [b_ents]; now rewrite El].
      cbn [sem_at]. rewrite strip_set_at, !strip_bucket, ainsert_strip. reflexivity.
Qed.

(* the bucket-level functions of the semantics do not look at object ids *)
Lemma op_fun_strip : forall o b, is_bucket b = true -> op_fun o (strip b) = strip (op_fun o b).
Proof.
  intros o [w|ob xb esb] Hb; [discriminate|].
  destruct o as [p k v|p k|p nm|p]; cbn [op_fun]; [| | |reflexivity];
    unfold sem_put, sem_del, sem_delb; rewrite alookup_strip_ents; cbn [b_ents];
    (destruct (alookup _ esb) as [[old|oc xc esc]|]; cbn [option_map strip]; [| |]);
    unfold set_ents; rewrite ?strip_bucket, ?ainsert_strip, ?aremove_strip; reflexivity.
Qed.

(* so an operation on the stripped root is the strip of the same update made in place *)
Lemma sem_op_set_at : forall o root b, get_at (op_path o) root = Some b -> is_bucket b = true ->
  sem_op o (strip root) = strip (set_at (op_path o) (op_fun o b) root).
Proof.
  intros o root b H Hb. unfold sem_op. now rewrite (sem_at_exact _ _ _ _ _ H Hb (op_fun_strip o b Hb)).
Qed.

Lemma oid_at_sem_put : forall k v b s, wf b -> oid_at (sem_put k v b) s = oid_at b s.
Proof.
  intros k v [w|ob xb esb] s [Hb _]; [discriminate|]. unfold sem_put, set_ents. cbn [b_ents b_oid].
  destruct (alookup k esb) as [[old|oc xc esc]|] eqn:El; [|reflexivity|];
    (destruct s as [|y s]; [reflexivity|]; rewrite !oid_at_cons; cbn [b_ents]; rewrite alookup_ainsert;
     destruct (beq y k) eqn:E; [|reflexivity]; apply beq_true in E; subst y; now rewrite El, ?oid_at_val).
Qed.

Lemma oid_at_sem_del : forall k b s, wf b -> oid_at (sem_del k b) s = oid_at b s.
Proof.
  intros k [w|ob xb esb] s [Hb Hs]; [discriminate|]. unfold sem_del, set_ents. cbn [b_ents b_oid].
  destruct (alookup k esb) as [[old|oc xc esc]|] eqn:El; [|reflexivity|reflexivity].
  destruct s as [|y s]; [reflexivity|]. rewrite !oid_at_cons. cbn [b_ents].
  rewrite (alookup_aremove _ _ _ (proj1 (proj1 (sorted_rec_bucket _ _ _) Hs))).
  destruct (beq y k) eqn:E; [|reflexivity]. apply beq_true in E. subst y. now rewrite El, oid_at_val.
Qed.

Lemma same_oids_sim : forall o root oids hs del ph nh b,
  Inv root oids hs del ph nh -> get_at (op_path o) root = Some b -> wf b ->
  (forall s, oid_at (op_fun o b) s = oid_at b s) ->
  Inv (set_at (op_path o) (op_fun o b) root) oids hs del ph nh /\
  strip (set_at (op_path o) (op_fun o b) root) = sem_op o (strip root).
Proof.
  intros o root oids hs del ph nh b I Hg Hb Hoid. split.
  - apply Inv_same with (root := root); [exact I | | exact (oid_set_at_same _ _ _ _ Hg Hoid)].
    apply (set_at_sorted _ _ _ _ (i_sorted I) Hg). exact (proj2 (op_fun_wf o b Hb)).
  - symmetry. apply sem_op_set_at; [exact Hg | exact (proj1 Hb)].
Qed.

Lemma put_sim : forall root oids hs del ph nh p h k v,
  Inv root oids hs del ph nh -> hfor ph p h ->
  exists root', fst (step_op (mkTx root oids hs del true) (OPut h k v)) = mkTx root' oids hs del true /\
    Inv root' oids hs del ph nh /\ strip root' = sem_op (Put p k v) (strip root).
Proof.
  intros root oids hs del ph nh p h k v I Hh.
  destruct (resolve_hfor root oids hs del true ph nh p h I Hh) as (b & Hr & Hg & Hb).
  exists (set_at p (sem_put k v b) root).
  split; [|exact (same_oids_sim (Put p k v) _ _ _ _ _ _ b I Hg Hb (fun s => oid_at_sem_put k v b s Hb))].
  unfold step_op. cbn [is_mutator op_handle t_writable negb andb]. rewrite Hr. unfold sem_put.
  destruct (alookup k (b_ents b)) as [[old|oc xc esc]|]; try reflexivity. cbn [fst]. now rewrite (set_at_same _ _ _ Hg).
Qed.

Lemma del_sim : forall root oids hs del ph nh p h k,
  Inv root oids hs del ph nh -> hfor ph p h ->
  exists root', fst (step_op (mkTx root oids hs del true) (ODel h k)) = mkTx root' oids hs del true /\
    Inv root' oids hs del ph nh /\ strip root' = sem_op (Del p k) (strip root).
Proof.
  intros root oids hs del ph nh p h k I Hh.
  destruct (resolve_hfor root oids hs del true ph nh p h I Hh) as (b & Hr & Hg & Hb).
  exists (set_at p (sem_del k b) root).
  split; [|exact (same_oids_sim (Del p k) _ _ _ _ _ _ b I Hg Hb (fun s => oid_at_sem_del k b s Hb))].
  unfold step_op. cbn [is_mutator op_handle t_writable negb andb]. rewrite Hr. unfold sem_del.
  destruct (alookup k (b_ents b)) as [[old|oc xc esc]|]; try reflexivity; cbn [fst]; now rewrite (set_at_same _ _ _ Hg).
Qed.

Lemma delb_sim : forall root oids hs del ph nh p h nm,
  Inv root oids hs del ph nh -> hfor ph p h ->
  (exists root' del',
      step_op (mkTx root oids hs del true) (ODelB h nm) = (mkTx root' oids hs del' true, ROk) /\
      Inv root' oids hs del' (filter (fun x => negb (is_prefix (p ++ [nm]) (fst x))) ph) nh /\
      strip root' = sem_op (DelB p nm) (strip root))
  \/ (exists e, step_op (mkTx root oids hs del true) (ODelB h nm) = (mkTx root oids hs del true, RErr e) /\
      strip root = sem_op (DelB p nm) (strip root)).
Proof.
  intros root oids hs del ph nh p h nm I Hh.
  destruct (resolve_hfor root oids hs del true ph nh p h I Hh) as (b & Hr & Hg & Hb & Hsb).
  pose proof (sem_op_set_at (DelB p nm) root b Hg Hb) as Hsem. cbn [op_path op_fun] in Hsem. unfold sem_delb in Hsem.
  unfold step_op. cbn [is_mutator op_handle t_writable negb andb]. rewrite Hr.
  destruct b as [|ob xb esb]; [discriminate|]. cbn [b_ents b_oid Spec.b_next] in *.
  revert Hsem. destruct (alookup nm esb) as [[old|oc xc esc]|] eqn:El; intros Hsem.
  - right. exists IncompatibleValue. split; [reflexivity|]. now rewrite Hsem, (set_at_same _ _ _ Hg).
  - left. exists (set_at p (SBucket ob xb (aremove nm esb)) root), (if oc =? 0 then del else oc :: del).
    split; [reflexivity|]. split; [|now rewrite Hsem].
    apply Inv_delb with (root := root); [exact I | | apply app_nm_ne | |].
    + apply (set_at_sorted _ _ _ _ (i_sorted I) Hg). eapply sorted_rec_aremove; exact Hsb.
    + unfold oid_at. rewrite (get_at_app _ [nm] _ _ Hg). cbn [get_at b_ents]. now rewrite El.
    + apply (oid_spec_delb _ _ _ _ _ _ _ Hg). exact (proj1 (proj1 (sorted_rec_bucket _ _ _) Hsb)).
  - right. exists BucketMissing. split; [reflexivity|]. now rewrite Hsem, (set_at_same _ _ _ Hg).
Qed.

(** * Opening the buckets along a path *)

(* the functional counterpart of open_from: Touch every prefix in turn, stop at the first refusal *)
Fixpoint sem_open (prefix rest : list bytes) (r : snode) : snode * bool :=
  match rest with
  | [] => (r, true)
  | nm :: rest' =>
      match sem_at (prefix ++ [nm]) (fun b => b) r with
      | Some r' => sem_open (prefix ++ [nm]) rest' r'
      | None => (r, false)
      end
  end.

Lemma sem_tx_cons : forall o ops r, sem_tx (o :: ops) r = sem_tx ops (sem_op o r).
Proof. reflexivity. Qed.

Lemma sem_tx_app : forall a b r, sem_tx (a ++ b) r = sem_tx b (sem_tx a r).
Proof. intros a b r. unfold sem_tx. apply fold_left_app. Qed.

Lemma prefixes_ext : forall p acc x, In x (prefixes acc p) -> exists s, x = acc ++ s.
Proof.
  induction p as [|nm p IH]; intros acc x H; [destruct H|].
  cbn [prefixes] in H. destruct H as [<-|H]; [eauto|].
  destruct (IH _ _ H) as [s ->]. rewrite <- app_assoc. eauto.
Qed.

Lemma sem_tx_refused : forall ops q r, sem_at q (fun b => b) r = None ->
  (forall o, In o ops -> exists s, op_path o = q ++ s) -> sem_tx ops r = r.
Proof.
  induction ops as [|o ops IH]; intros q r Hq Hall; [reflexivity|].
  rewrite sem_tx_cons. destruct (Hall o (or_introl eq_refl)) as [s Hs].
  assert (E : sem_op o r = r).
  { unfold sem_op. rewrite Hs. now rewrite (sem_at_none_ext q s _ (op_fun o) r Hq). }
  rewrite E. eapply IH; eauto. intros o' Hin. apply Hall. now right.
Qed.

Lemma sem_open_spec : forall rest prefix r ops,
  (forall o, In o ops -> exists s, op_path o = (prefix ++ rest) ++ s) ->
  sem_tx (map Touch (prefixes prefix rest) ++ ops) r =
  (if snd (sem_open prefix rest r) then sem_tx ops (fst (sem_open prefix rest r)) else fst (sem_open prefix rest r)).
Proof.
  induction rest as [|nm rest IH]; intros prefix r ops Hall; [reflexivity|].
  cbn [prefixes map app sem_open]. rewrite sem_tx_cons. unfold sem_op at 1. cbn [op_path op_fun].
  destruct (sem_at (prefix ++ [nm]) (fun b => b) r) as [r'|] eqn:E.
  - apply IH. intros o Hin. destruct (Hall o Hin) as [s Hs]. exists s. rewrite Hs. now rewrite <- (app_assoc prefix [nm] rest).
  - cbn [fst snd]. apply (sem_tx_refused _ (prefix ++ [nm]) r E).
    intros o Hin. apply in_app_or in Hin. destruct Hin as [Hin|Hin].
    + apply in_map_iff in Hin. destruct Hin as (x & <- & Hx). cbn [op_path]. eapply prefixes_ext; eauto.
    + destruct (Hall o Hin) as [s Hs]. exists (rest ++ s). rewrite Hs. now rewrite <- !app_assoc.
Qed.

Lemma open_from_sim : forall rest st h prefix st' oh,
  InvP st -> hfor (p_handles st) prefix h -> open_from st h prefix rest = (st', oh) ->
  InvP st' /\
  strip (t_root (p_tx st')) = fst (sem_open prefix rest (strip (t_root (p_tx st)))) /\
  match oh with
  | Some h' => hfor (p_handles st') (prefix ++ rest) h' /\ snd (sem_open prefix rest (strip (t_root (p_tx st)))) = true
  | None => snd (sem_open prefix rest (strip (t_root (p_tx st)))) = false
  end.
Proof.
  induction rest as [|nm rest IH]; intros st h prefix st' oh HI Hh Ho.
  - cbn in Ho. inversion Ho; subst. cbn [sem_open fst snd]. rewrite app_nil_r. auto.
  - cbn [open_from] in Ho. destruct (plookup (prefix ++ [nm]) (p_handles st)) as [h'|] eqn:Hpl.
    + destruct HI as [Hw I].
      destruct (i_hs I _ _ Hpl) as [_ (o & _ & _ & Hat)].
      destruct (oid_at_get _ _ _ Hat) as (b & Hg & Hb & _).
      cbn [sem_open]. rewrite (sem_at_touch _ _ _ Hg Hb).
      specialize (IH _ _ _ _ _ (conj Hw I) (or_intror Hpl) Ho). rewrite <- app_assoc in IH. exact IH.
    + destruct st as [[root oids hs del w] ph nh log]. destruct HI as [Hw I].
      cbn [p_tx p_handles p_nexth p_log t_root t_oids t_handles t_deleted t_writable] in *. subst w.
      destruct (goc_sim root oids hs del ph nh prefix h nm I Hh)
        as [(root' & oids' & hs' & Hstep & I' & Hsem)|[Hstep Hsem]]; rewrite Hstep in Ho.
      * assert (Hh' : hfor ((prefix ++ [nm], nh) :: ph) (prefix ++ [nm]) nh).
        { right. now rewrite plookup_cons, path_eqb_refl. }
        specialize (IH _ _ _ _ _ (conj eq_refl I' : InvP (mkP (mkTx root' oids' hs' del true) _ (nh + 1) _)) Hh' Ho).
        cbn [p_tx t_root] in IH. cbn [sem_open]. rewrite Hsem. rewrite <- app_assoc in IH. exact IH.
      * inversion Ho; subst. cbn [sem_open]. rewrite Hsem. cbn [fst snd p_tx t_root].
        split; [|auto]. split; [reflexivity|]. cbn [p_tx p_handles p_nexth t_root t_oids t_handles t_deleted].
        now apply Inv_nexth.
Qed.

(** * One path-addressed operation; the theorem *)

Lemma path_step_sim : forall st o, InvP st ->
  InvP (path_step st o) /\
  strip (t_root (p_tx (path_step st o))) = sem_tx (expand o) (strip (t_root (p_tx st))).
Proof.
  intros st o HI. unfold path_step, expand.
  destruct (open_from st 0 [] (op_path o)) as [st1 oh] eqn:Ho.
  destruct (open_from_sim _ _ _ _ _ _ HI (or_introl (conj eq_refl eq_refl)) Ho) as (HI1 & Hr1 & Hoh).
  rewrite (sem_open_spec (op_path o) [] _ [o]).
  2:{ intros o' [<-|[]]. exists []. now rewrite app_nil_r. }
  cbn [app] in Hoh. destruct oh as [h|].
  - destruct Hoh as [Hh Hok]. rewrite Hok, <- Hr1. clear Hok Hr1 Ho HI.
    change (sem_tx [o] (strip (t_root (p_tx st1)))) with (sem_op o (strip (t_root (p_tx st1)))).
    destruct st1 as [[root oids hs del w] ph nh log]. destruct HI1 as [Hw I].
    cbn [p_tx p_handles p_nexth p_log t_root t_oids t_handles t_deleted t_writable] in *. subst w.
    destruct o as [p k v|p k|p nm|p]; cbn [op_path] in Hh.
    + destruct (put_sim root oids hs del ph nh p h k v I Hh) as (root' & Hstep & I' & Hsem).
      unfold call. cbn [p_tx]. destruct (step_op _ (OPut h k v)) as [t' r]. cbn [fst] in *. subst t'.
      split; [split; [reflexivity | exact I'] | exact Hsem].
    + destruct (del_sim root oids hs del ph nh p h k I Hh) as (root' & Hstep & I' & Hsem).
      unfold call. cbn [p_tx]. destruct (step_op _ (ODel h k)) as [t' r]. cbn [fst] in *. subst t'.
      split; [split; [reflexivity | exact I'] | exact Hsem].
    + unfold call. cbn [p_tx p_handles p_nexth p_log].
      destruct (delb_sim root oids hs del ph nh p h nm I Hh)
        as [(root' & del' & Hstep & I' & Hsem)|(e & Hstep & Hsem)]; rewrite Hstep.
      * split; [split; [reflexivity | exact I'] | exact Hsem].
      * split; [split; [reflexivity | exact I] | exact Hsem].
    + split; [split; [reflexivity | exact I]|].
      destruct (resolve_hfor root oids hs del true ph nh p h I Hh) as (b & _ & Hg & Hb & _).
      unfold sem_op. cbn [op_path op_fun]. now rewrite (sem_at_touch _ _ _ Hg Hb).
  - rewrite Hoh. split; [exact HI1 | exact Hr1].
Qed.

Lemma oid_at_stripped : forall n p o, oid_at (strip n) p = Some o -> o = 0.
Proof.
  intros n p. revert n. induction p as [|k p IH]; intros n o H.
  - destruct n; [discriminate|]. now inversion H.
  - rewrite oid_at_cons, alookup_strip_ents in H. destruct (alookup k (b_ents n)) as [c|]; [|discriminate].
    cbn [option_map] in H. eauto.
Qed.

Lemma pinit_inv : forall c, wf c -> InvP (pinit c) /\ strip (t_root (p_tx (pinit c))) = strip c.
Proof.
  intros c [Hb Hs]. unfold pinit, begin_tx. destruct c as [v|o x es]; [discriminate|].
  rewrite strip_bucket. cbn [p_tx t_root]. split.
  - split; [reflexivity|]. cbn [p_tx p_handles p_nexth t_root t_oids t_handles t_deleted].
    assert (Hsub : forall p o', p <> [] -> oid_at (SBucket 1 x (map sf es)) p = Some o' -> o' = 0).
    { intros [|k p] o' Hne H; [congruence|]. rewrite oid_at_cons in H. cbn [b_ents] in H.
      change (map sf es) with (b_ents (strip (SBucket o x es))) in H. rewrite <- oid_at_cons in H.
      eapply oid_at_stripped; eauto. }
    constructor.
    + rewrite <- (sorted_rec_strip (SBucket o x es)) in Hs. exact Hs.
    + reflexivity.
    + intros p q o1 Hp Hq Ho1. destruct p as [|kp p]; destruct q as [|kq q]; [reflexivity| | |].
      * apply Hsub in Hq; [|discriminate]. inversion Hp. lia.
      * apply Hsub in Hp; [|discriminate]. inversion Hq. lia.
      * apply Hsub in Hp; [|discriminate]. contradiction.
    + intros [|k p] o1 H; [inversion H; lia|]. apply Hsub in H; [lia | discriminate].
    + reflexivity.
    + discriminate.
    + reflexivity.
    + lia.
    + discriminate.
  - rewrite !strip_bucket. f_equal. rewrite map_map. apply map_ext. intros [k n]. unfold sf. cbn [fst snd].
    now rewrite strip_idem.
Qed.

Lemma path_steps_sim : forall ops st, InvP st ->
  InvP (fold_left path_step ops st) /\
  strip (t_root (p_tx (fold_left path_step ops st))) = sem_tx (flat_map expand ops) (strip (t_root (p_tx st))).
Proof.
  induction ops as [|o ops IH]; intros st HI; [split; [exact HI | reflexivity]|].
  cbn [fold_left flat_map]. destruct (path_step_sim st o HI) as [HI1 Hr1].
  destruct (IH _ HI1) as [HI2 Hr2]. split; [exact HI2|].
  now rewrite Hr2, Hr1, sem_tx_app.
Qed.

Theorem path_machine : path_machine_stmt wf.
Proof.
  intros c ops Hwf. destruct (pinit_inv c Hwf) as [HI Hr].
  destruct (path_steps_sim ops _ HI) as [_ H]. now rewrite H, Hr.
Qed.

(** * wf is preserved by the functional semantics; chaining transactions *)

Lemma sem_at_wf : forall p f r r', (forall b, wf b -> wf (f b)) ->
  wf r -> sem_at p f r = Some r' -> wf r'.
Proof.
  induction p as [|k p IH]; intros f r r' Hf Hr H.
  - cbn in H. inversion H; subst. now apply Hf.
  - cbn [sem_at] in H. destruct (alookup k (b_ents r)) as [[v|o x es]|] eqn:El; [discriminate| |].
    + destruct (sem_at p f (SBucket o x es)) as [c'|] eqn:E; [|discriminate]. inversion H; subst.
      assert (Hc : wf (SBucket o x es)).
      { split; [reflexivity|]. destruct r as [v|o' x' es']; [discriminate|]. destruct Hr as [_ Hs].
        eapply sorted_rec_child; eauto. }
      apply set_ents_wf; [exact Hr|]. exact (proj2 (IH _ _ _ Hf Hc E)).
    + destruct (sem_at p f (SBucket 0 0 [])) as [c'|] eqn:E; [|discriminate]. inversion H; subst.
      apply set_ents_wf; [exact Hr|]. refine (proj2 (IH _ _ _ Hf _ E)). split; reflexivity.
Qed.

Theorem wf_sem_op : forall o c, wf c -> wf (sem_op o c).
Proof.
  intros o c Hw. unfold sem_op. destruct (sem_at (op_path o) (op_fun o) c) as [r|] eqn:E; [|exact Hw].
  eapply sem_at_wf; [|exact Hw|exact E]. apply op_fun_wf.
Qed.

Theorem wf_sem_tx : forall ops c, wf c -> wf (sem_tx ops c).
Proof.
  induction ops as [|o ops IH]; intros c Hw; [exact Hw|]. rewrite sem_tx_cons. apply IH. now apply wf_sem_op.
Qed.

(* what a committed path-driven transaction leaves (Spec.step CCommit stores strip (t_root x)) *)
Definition commit_path (c : snode) (ops : list Engine.op) : snode :=
  strip (t_root (p_tx (fold_left path_step ops (pinit c)))).

Theorem commit_path_wf : forall c ops, wf c -> wf (commit_path c ops).
Proof.
  intros c ops Hw. unfold commit_path. rewrite (path_machine c ops Hw). apply wf_sem_tx. now apply wf_strip.
Qed.

(* any number of transactions in sequence *)
Theorem path_machine_chain : forall txs c, wf c ->
  wf (fold_left commit_path txs c) /\
  strip (fold_left commit_path txs c) = fold_left (fun r ops => sem_tx (flat_map expand ops) r) txs (strip c).
Proof.
  induction txs as [|ops txs IH]; intros c Hw; [split; [exact Hw | reflexivity]|].
  cbn [fold_left]. destruct (IH _ (commit_path_wf c ops Hw)) as [Hw' E]. split; [exact Hw'|].
  rewrite E. f_equal. unfold commit_path. rewrite strip_idem. now apply path_machine.
Qed.

(** * The Touch prefixes of [expand] are redundant for the functional semantics (no hypothesis on the map) *)

Lemma sem_at_fresh_some : forall p f, sem_at p f (SBucket 0 0 []) <> None.
Proof.
  induction p as [|k p IH]; intros f; [discriminate|].
  cbn [sem_at b_ents alookup]. destruct (sem_at p f (SBucket 0 0 [])) eqn:E; [discriminate|]. now apply IH in E.
Qed.

Lemma sem_at_touch_bucket : forall p c c1, is_bucket c = true -> sem_at p (fun b => b) c = Some c1 -> is_bucket c1 = true.
Proof.
  intros [|k p] c c1 Hc H.
  - cbn in H. now inversion H; subst.
  - cbn [sem_at] in H. destruct (alookup k (b_ents c)) as [[v|o x es]|]; [discriminate| |].
    + destruct (sem_at p _ (SBucket o x es)); inversion H; reflexivity.
    + destruct (sem_at p _ (SBucket 0 0 [])); inversion H; reflexivity.
Qed.

Lemma set_ents_same : forall r k c, alookup k (b_ents r) = Some c -> set_ents r (Spec.b_next r) (ainsert k c (b_ents r)) = r.
Proof.
  intros [v|o x es] k c H; [discriminate|]. unfold set_ents. cbn [b_oid Spec.b_next b_ents] in *.
  now rewrite (ainsert_same _ _ _ H).
Qed.

Lemma sem_at_cons_stored : forall k p f r nx c, is_bucket c = true ->
  sem_at (k :: p) f (set_ents r nx (ainsert k c (b_ents r))) =
  match sem_at p f c with Some c' => Some (set_ents r nx (ainsert k c' (b_ents r))) | None => None end.
Proof.
  intros k p f r nx c Hc. rewrite (sem_at_cons_bucket k p f _ c); [| |exact Hc].
  - destruct (sem_at p f c); [|reflexivity]. unfold set_ents. cbn [b_oid Spec.b_next b_ents]. now rewrite ainsert_ainsert.
  - unfold set_ents. cbn [b_ents]. now rewrite alookup_ainsert, beq_refl.
Qed.

Lemma touch_then : forall p q f r r1, sem_at p (fun b => b) r = Some r1 ->
  sem_at (p ++ q) f r1 = sem_at (p ++ q) f r /\ (sem_at (p ++ q) f r = None -> r1 = r).
Proof.
  induction p as [|k p IH]; intros q f r r1 H.
  - cbn in H. inversion H; subst. auto.
  - cbn [sem_at] in H. cbn [app]. destruct (alookup k (b_ents r)) as [[v|o x es]|] eqn:El; [discriminate| |].
    + destruct (sem_at p (fun b => b) (SBucket o x es)) as [c1|] eqn:E; [|discriminate]. inversion H; subst r1. clear H.
      destruct (IH q f _ _ E) as [IH1 IH2].
      rewrite (sem_at_cons_stored _ _ _ _ _ _ (sem_at_touch_bucket p (SBucket o x es) c1 eq_refl E)), IH1.
      rewrite (sem_at_cons_bucket k (p ++ q) f r (SBucket o x es) El eq_refl).
      split; [reflexivity|]. destruct (sem_at (p ++ q) f (SBucket o x es)); [discriminate|].
      intros _. rewrite (IH2 eq_refl). now apply set_ents_same.
    + destruct (sem_at p (fun b => b) (SBucket 0 0 [])) as [c1|] eqn:E; [|discriminate]. inversion H; subst r1. clear H.
      destruct (IH q f _ _ E) as [IH1 _].
      rewrite (sem_at_cons_stored _ _ _ _ _ _ (sem_at_touch_bucket p (SBucket 0 0 []) c1 eq_refl E)), IH1.
      rewrite (sem_at_cons_none k (p ++ q) f r El).
      split; [reflexivity|]. destruct (sem_at (p ++ q) f (SBucket 0 0 [])) eqn:E2; [discriminate|].
      now apply sem_at_fresh_some in E2.
Qed.

Lemma sem_op_after_touch : forall o p q r, op_path o = p ++ q -> sem_op o (sem_op (Touch p) r) = sem_op o r.
Proof.
  intros o p q r Hp. unfold sem_op at 2. cbn [op_path op_fun].
  destruct (sem_at p (fun b => b) r) as [r1|] eqn:E; [|reflexivity].
  destruct (touch_then p q (op_fun o) r r1 E) as [H1 H2].
  unfold sem_op. rewrite Hp, H1. destruct (sem_at (p ++ q) (op_fun o) r); [reflexivity | now apply H2].
Qed.

Lemma sem_tx_expand_from : forall o rest acc r, op_path o = acc ++ rest ->
  sem_tx (map Touch (prefixes acc rest) ++ [o]) r = sem_op o r.
Proof.
  intros o. induction rest as [|nm rest IH]; intros acc r Hp; [reflexivity|].
  cbn [prefixes map app]. rewrite sem_tx_cons.
  rewrite (IH (acc ++ [nm])); [|now rewrite <- app_assoc].
  apply sem_op_after_touch with (q := rest). now rewrite <- app_assoc.
Qed.

Theorem sem_tx_expand : forall ops r, sem_tx (flat_map expand ops) r = sem_tx ops r.
Proof.
  induction ops as [|o ops IH]; intros r; [reflexivity|].
  cbn [flat_map]. rewrite sem_tx_app, sem_tx_cons, IH. f_equal.
  unfold expand. now apply sem_tx_expand_from.
Qed.

(* the handle machine against the plain functional semantics of the same operations *)
Theorem path_machine_plain : forall c ops, wf c ->
  strip (t_root (p_tx (fold_left path_step ops (pinit c)))) = sem_tx ops (strip c).
Proof. intros c ops Hw. rewrite (path_machine c ops Hw). apply sem_tx_expand. Qed.

(** * Examples, and why wf asks for a bucket at the root *)

Module Examples.
  Definition ka : bytes := [x61]. Definition kb : bytes := [x62]. Definition kc : bytes := [x63].
  Definition kd : bytes := [x64]. Definition ke : bytes := [x65]. Definition kx : bytes := [x78].
  Definition ky : bytes := [x79].
  Definition v1 : bytes := [x01]. Definition v2 : bytes := [x02; x02].

  Definition ops1 : list Engine.op :=
    [ Put [ka; kb; kc] kx v1;            (* three buckets deep, all created on the way *)
      Put [ka] kx v2;                    (* x is a plain value in a ... *)
      Put [kd; kx] ky v1;                (* ... and a bucket in d *)
      Put [ka; kx; ky] kc v1;            (* refused path: a/x is a value *)
      Touch [ka; kx];                    (* refused as well *)
      DelB [ka] kb;                      (* delete a/b (with a/b/c below it; their handles die) *)
      Put [ka; kb] ky v2;                (* a/b created again: a fresh object *)
      Del [ka; kb; kc] kx;               (* a/b/c created again; the key is gone: KeyValueMissing *)
      Del [kd; kx] ky;
      DelB [] ke;                        (* BucketMissing *)
      DelB [ka] kx;                      (* IncompatibleValue *)
      Put [] kd v1;                      (* IncompatibleValue: d is a bucket *)
      Touch [ke; kd; kc; kb];
      DelB [ke; kd] kc;
      Put [ke; kd; kc] ka v1 ].

  Definition c0 : snode := SBucket 0 0 [].
  Definition c1 : snode :=
    SBucket 0 3
      [(ka, SBucket 0 3 [(kb, SBucket 0 2 [(kc, SBucket 0 0 []); (ky, SVal v2)]); (kx, SVal v2)]);
       (kd, SBucket 0 1 [(kx, SBucket 0 1 [])]);
       (ke, SBucket 0 1 [(kd, SBucket 0 2 [(kc, SBucket 0 1 [(ka, SVal v1)])])])].

  Example ex1_machine : commit_path c0 ops1 = c1.
  Proof. vm_compute. reflexivity. Qed.
  Example ex1_sem : sem_tx (flat_map expand ops1) (strip c0) = c1.
  Proof. vm_compute. reflexivity. Qed.
  Example ex1_sem_plain : sem_tx ops1 (strip c0) = c1.
  Proof. vm_compute. reflexivity. Qed.
  Example ex1_wf : wf c0 /\ wf c1.
  Proof. repeat split. Qed.

  (* a second transaction on the committed result of the first; object ids in the input are ignored *)
  Definition ops2 : list Engine.op :=
    [ DelB [ke; kd] kc; Put [ke; kd; kc; kc] kc v2; DelB [] ka; Put [ka] kx v1; Put [ka; kx] kx v1;
      Touch [kd; kx; ky]; DelB [kd] kx; Put [kd] kx v2; Touch [kd; kx; ky]; Del [ka] kx; Touch [ka; kx] ].
  Definition c1' : snode :=      (* c1 with junk object ids *)
    SBucket 7 3
      [(ka, SBucket 7 3 [(kb, SBucket 3 2 [(kc, SBucket 1 0 []); (ky, SVal v2)]); (kx, SVal v2)]);
       (kd, SBucket 0 1 [(kx, SBucket 2 1 [])]);
       (ke, SBucket 1 1 [(kd, SBucket 1 2 [(kc, SBucket 9 1 [(ka, SVal v1)])])])].
  Example ex2 : commit_path c1' ops2 = sem_tx (flat_map expand ops2) (strip c1')
                /\ commit_path c1' ops2 <> c1 /\ commit_path c1' ops2 = commit_path c1 ops2.
  Proof. vm_compute. repeat split. discriminate. Qed.
  Example ex_chain : fold_left commit_path [ops1; ops2; ops1] c0
                     = fold_left (fun r ops => sem_tx ops r) [ops1; ops2; ops1] c0.
  Proof. vm_compute. reflexivity. Qed.

  (* the statement fails when the committed root is not a bucket: the handle machine finds no object 1 (every call
     is an orphan), while sem_at treats the value as an empty bucket. Spec.v never commits such a root (init_sdb is
     a bucket and t_root stays one), so this is a missing side condition of the statement, not a defect. *)
  Example root_must_be_a_bucket : ~ path_machine_stmt (fun _ => True).
  Proof. intros H. specialize (H (SVal v1) [Put [] ka v1] I). vm_compute in H. discriminate. Qed.
End Examples.

Print Assumptions path_machine.
Print Assumptions path_machine_plain.
Print Assumptions path_machine_chain.
Print Assumptions wf_sem_tx.
Print Assumptions wf_strip.
Print Assumptions sem_tx_expand.
Print Assumptions Examples.root_must_be_a_bucket.
