(* One transaction re-establishes the invariant of committed states with its allocation part proved, not assumed:
   [db_okz st] = [db_ok' st] (strict trees, [alloc_ok] for the canonical set [Rof st], no page run shared -- the
   free-list run included --, no pending batch beyond [d_tx st]) and no page 0 on the disk. The file assembles the
   ownership layers: EngineOwnOps (operations), EngineOwnReb (rebalance), EngineOwnLnk and EngineOwnSpill (spill and
   commit); /verif/DESIGN.md Appendix K describes them. The refinement statement of EngineRefines is left with
   [readable] of the new state as its only side condition. *)
From Coq Require Import List NArith Bool Arith Lia ZifyN ZifyNat ZifyBool.
From Coq.Strings Require Import Byte.
From Jamm Require Spec.
From Jamm Require Import Bytes BytesFacts Tree Cursor SearchFacts Engine EngineAbs EngineFacts EngineMergeFacts.
From Jamm Require Import EngineModifyFacts EngineSpillFacts EnginePathFacts EngineBridgeFacts EngineRebalanceFacts.
From Jamm Require FreelistFacts EngineAllocFacts EngineSpillWfFacts.
From Jamm Require Import EngineTxInvFacts EngineSpillBucketFacts EngineRefines.
Import ListNotations.
Import Coq.Strings.String.StringSyntax. Delimit Scope string_scope with string.
Local Open Scope list_scope. Local Open Scope nat_scope.
Set Warnings "-abstract-large-number".

From Jamm Require Import EngineOwnDefs EngineOwnWr EngineOwnOps EngineOwnReb EngineOwnSpill EngineOwnLnk.

Lemma begin_w_txid : forall st, txid (begin_w st) = (d_tx st + 1)%N.
Proof. intros st. unfold begin_w. destruct (release (d_tx st + 1) (d_free st) (d_pending st)). reflexivity. Qed.

(* after the operations every pending page was freed by this transaction *)
Lemma tx_frees_pend_cur : forall s0 s, pend_all (pending s0) = [] -> tx_frees s0 s -> pend_cur s.
Proof.
  intros s0 s H0 (_ & Etx & _ & _ & _ & _ & _ & _ & Hsrc) x Hx.
  unfold pend_all in Hx. apply in_flat_map in Hx. destruct Hx as ([t ps] & Hin & Hxp). cbn [snd] in Hxp.
  destruct (Hsrc t x (ex_intro _ ps (conj Hin Hxp))) as [(ps0 & Hin0 & Hx0) | Et].
  - exfalso. assert (Hc : In x (pend_all (pending s0))) by (unfold pend_all; apply in_flat_map; exists (t, ps0); auto).
    rewrite H0 in Hc. destruct Hc.
  - unfold freed_in_tx. apply existsb_exists. exists (t, ps). split; [exact Hin|]. cbn [fst snd].
    apply andb_true_iff. split; [rewrite Etx; apply N.eqb_eq; exact Et|].
    apply existsb_exists. exists x. split; [exact Hxp | apply N.eqb_refl].
Qed.

(* what the layers say about a completed transaction up to the spill: the overlay root' and the allocator state s'
   after the operations, b1 and s1 after rebalance *)
Record tx_ready (st : db) (ops : list op) (ord : list bytes) (st' : db) (root' : bucket) (s' : txs) (b1 : bucket)
  (s1 : txs) : Prop := {
  rd_fold : tx_fold st ops (root_bucket st, begin_w st) = Ok (root', s');
  rd_reb : rebalance fuel0 (d_disk st) root' s' = Ok (b1, s1);
  rd_commit : commit st root' s' ord = Ok st';
  rd_frees : tx_frees (begin_w st) s';
  rd_fresh : fresh_inv (live_of st (Rof st)) s1;
  rd_wr : wr s1 = [];
  rd_txid : txid s1 = (d_tx st + 1)%N;
  rd_free : free s1 = free (begin_w st);
  rd_np : np s1 = d_np st;
  rd_psz : psz s1 = d_psz st;
  rd_ids : pend_ids_ok s1;
  rd_cur : pend_cur s1;
  rd_p0 : pend_ok0 s1;
  rd_foot : forall x, freed_in_tx s1 x = true -> In x (foot (d_disk st) 16 (d_root st));
  rd_S : SReady (d_disk st) (Rof st) b1;
  rd_O : OvlAbs (d_disk st) b1 (sem_tx ops (abs_db st));
  rd_SX : SReadyX (d_disk st) (Rof st) b1;
  rd_Own : OwnI (d_disk st) 16 s1 b1 (d_root st);
  rd_Lnk : Lnk (d_disk st) 16 b1 (d_root st) }.

Lemma run_tx_ready : forall st ops ord st', db_okz st -> Forall (op_ok (d_disk st)) ops ->
  run_tx st ops ord = Ok st' -> exists root' s' b1 s1, tx_ready st ops ord st' root' s' b1 s1.
Proof.
  intros st ops ord st' [Hok' Hz] Hops Hrun. pose proof Hok' as (Hdb & HA & Hnd & Hpl).
  set (R := Rof st) in *.
  destruct (run_tx_rebalance_ready st ops ord st' Hdb Hops Hrun)
    as (root' & s' & b1 & s1 & fv & v & Hf & _ & Ha & Hfr & [f HSD] & Hrr & _ & _ & _ & Tx & _).
  destruct (rebalanced_ready st R ops root' s' b1 s1 _ Hdb HA Hf Ha Hfr Hrr) as (Hfi & Hwr & HS & HO).
  pose proof HA as (_ & _ & _ & _ & _ & _ & _ & HC & _).
  assert (HSX : SReadyX (d_disk st) R b1).
  { eapply (rebalance_SReadyX (d_disk st) R HC fuel0 f 9); eauto; [unfold fuel0; lia|]. eapply tx_ops_XDF; eauto. }
  destruct (tx_fold_own st ops root' s' Hok' Hf) as (HO1 & HF1 & HI1 & Hb0).
  pose proof (tx_frees_pend_cur _ _ Hb0 Hfr) as HPC1.
  destruct (rebalance_own_missing0 (d_disk st) fuel0 f 16 s' root' (d_root st) b1 s1 Hz HSD HO1 HI1 HPC1 Hrr) as (HO2 & HF2 & HI2 & HPC2).
  assert (HF2' : forall x, freed_in_tx s1 x = true -> In x (foot (d_disk st) 16 (d_root st))).
  { intros x Hx. destruct (HF2 x Hx) as [A|A]; [now apply HF1 | exact A]. }
  destruct Tx as (T1 & T2 & T3 & T4 & _). pose proof Hfr as (F1 & F2 & F3 & F4 & _).
  destruct (begin_w_fields st) as (_ & Enp & Epsz).
  pose proof (run_Lnk st ops root' s' b1 s1 Hok' Hops Hf Hrr) as HL.
  exists root', s', b1, s1. constructor; try assumption; try congruence.
  - rewrite run_tx_fold, Hf in Hrun. exact Hrun.
  - rewrite T2, F2. apply begin_w_txid.
  - intros x Hx. apply (fi_live _ _ Hfi), foot_live, HF2', HPC2, Hx.
Qed.

Theorem run_tx_okz : forall st ops ord st', db_okz st -> Forall (op_ok (d_disk st)) ops ->
  run_tx st ops ord = Ok st' -> readable st' -> db_okz st'.
Proof.
  intros st ops ord st' Hokz Hops Hrun Hrd. pose proof Hokz as [Hok' Hz].
  destruct (run_tx_ready st ops ord st' Hokz Hops Hrun) as (root' & s' & b1 & s1 & RD).
  assert (Hstrict : db_strict st') by (eapply run_tx_strict; eauto; now apply db_ok'_db_ok).
  assert (Hcl : closedR (d_disk st') (Rof st')) by (apply fpg_closed; exact Hstrict).
  destruct RD as [_ Hrr Hc _ Hfi Hwr Etx _ _ _ Hids Hcur _ Hfoot HS HO HSX HOwn HL].
  destruct (commit_alloc_z W1a W1b W1c W1d st root' s' ord st' b1 s1 _ Hok' Hz Hrr Hfi Hwr Etx Hids Hcur Hfoot HS HO HSX HOwn HL
              Hc Hrd Hstrict Hcl) as (A1 & A2 & A3 & A4).
  split; [|exact A4]. split; [exact Hstrict|]. split; [exact A1|]. split; [exact A2 | exact A3].
Qed.

(* the refinement statement with no allocation side condition left: only [readable] of the new state *)
Theorem run_tx_refines' : forall st ops ord st', db_okz st -> Forall (op_ok (d_disk st)) ops ->
  run_tx st ops ord = Ok st' -> readable st' -> db_okz st' /\ abs_db st' = sem_tx ops (abs_db st).
Proof.
  intros st ops ord st' Hok Hops Hrun Hrd. split; [eapply run_tx_okz; eauto|].
  eapply run_tx_meaning; eauto. apply db_ok'_db_ok. exact (proj1 Hok).
Qed.

(* histories: every operation admissible where it is applied, every committed state readable *)
Fixpoint txs_ok' (st : db) (txs : list (list op * list bytes)) : Prop :=
  match txs with
  | [] => True
  | (ops, ord) :: txs' => Forall (op_ok (d_disk st)) ops /\
      forall st1, run_tx st ops ord = Ok st1 -> readable st1 /\ txs_ok' st1 txs'
  end.
(* [txs_ok'] by evaluation *)
Definition txs_okb' : db -> list (list op * list bytes) -> bool :=
  steps_okb (fun st tx => run_tx st (fst tx) (snd tx)) (fun _ tx => forallb op_okb (fst tx)) readableb.
Lemma txs_okb'_ok : forall txs st, txs_okb' st txs = true -> txs_ok' st txs.
Proof.
  apply (steps_okb_ok _ (fun st tx => Forall (op_ok (d_disk st)) (fst tx)) readable txs_ok').
  - intros st tx. apply op_okb_ok.
  - exact readableb_ok.
  - intros st. exact I.
  - intros st [ops ord] txs H. exact H.
Qed.

Corollary run_txs_refines' : forall txs st st', db_okz st -> txs_ok' st txs -> run_txs st txs = Ok st' ->
  db_okz st' /\ abs_db st' = sem_txs txs (abs_db st).
Proof.
  induction txs as [|[ops ord] txs IH]; intros st st' Hok Htx H; cbn [run_txs sem_txs] in *.
  - inversion H; subst. auto.
  - apply bind_ok_inv in H. destruct H as (st1 & H1 & H2). destruct Htx as [Hops Hnext].
    destruct (Hnext st1 H1) as [Hrd Htx1].
    destruct (run_tx_refines' st ops ord st1 Hok Hops H1 Hrd) as [Hok1 E1].
    destruct (IH st1 st' Hok1 Htx1 H2) as [Hok' E']. split; [exact Hok'|]. now rewrite E', E1.
Qed.

(* the target statement of EngineAbs: [db_wf' st] = [db_okz st] and every state reachable from [st] is readable *)
Definition db_wf' (st : db) : Prop := db_okz st /\ forall st2, reach_tx st st2 -> readable st2.

Theorem run_tx_refines_stmt_holds' : run_tx_refines_stmt db_wf' op_ok.
Proof.
  intros st ops ord st' [Hok Hall] Hops Hrun.
  assert (Hrd : readable st') by (apply Hall; eapply reach_step; eauto; apply reach_refl).
  destruct (run_tx_refines' st ops ord st' Hok Hops Hrun Hrd) as [Hok' E]. split; [|exact E].
  split; [exact Hok'|]. intros st2 Hr. apply Hall. eapply reach_step; eauto.
Qed.

Lemma init_db_ok' : forall P, (0 < P)%N -> db_ok' (init_db P).
Proof.
  intros P HP. split; [apply init_db_strict|]. split; [|split].
  - apply alloc_okb_ok. unfold alloc_okb. cbn [d_psz d_np d_free d_pending d_root d_disk init_db].
    rewrite (proj2 (N.ltb_lt 0 P) HP). vm_compute. reflexivity.
  - apply nodupb_ok. vm_compute. reflexivity.
  - constructor.
Qed.

Example init_db_4096_ok' : db_ok' (init_db 4096).
Proof. apply db_ok'b_ok; [apply init_db_strict | vm_compute; reflexivity]. Qed.

Example ex3_db_ok' : db_ok' Ex3.ex3_db.
Proof. apply db_ok'b_ok; [exact Ex3.ex3_strict | vm_compute; reflexivity]. Qed.

Example ex3_st'_ok' : db_ok' Ex3R.ex3_st'.
Proof.
  apply db_ok'b_ok; [|vm_compute; reflexivity].
  apply (run_tx_strict Ex3.ex3_db Ex3.ex3_ops Ex3R.ex3_ord Ex3R.ex3_st' Ex3R.ex3_db_ok Ex3R.ex3_ops_ok Ex3R.ex3_run_ok).
  apply readableb_ok. vm_compute. reflexivity.
Qed.

Example hist_st_ok' : db_ok' ExHistory.hist_st.
Proof. apply db_ok'b_ok; [exact (proj1 (proj1 ExHistory.hist_refines)) | vm_compute; reflexivity]. Qed.

Lemma init_db_okz : forall P, (0 < P)%N -> db_okz (init_db P).
Proof. intros P HP. split; [now apply init_db_ok' | apply init_db_zero]. Qed.

Example init_db_4096_okz : db_okz (init_db 4096).
Proof. split; [exact init_db_4096_ok' | reflexivity]. Qed.
Example ex3_db_okz : db_okz Ex3.ex3_db.
Proof. split; [exact ex3_db_ok' | reflexivity]. Qed.
Example ex3_st'_okz : db_okz Ex3R.ex3_st'.
Proof. split; [exact ex3_st'_ok' | vm_compute; reflexivity]. Qed.
Example hist_st_okz : db_okz ExHistory.hist_st.
Proof. split; [exact hist_st_ok' | vm_compute; reflexivity]. Qed.

(* the allocation invariant of the new state, in the vocabulary of EngineRefines *)
Theorem run_tx_alloc_ok : forall st ops ord st', db_okz st -> Forall (op_ok (d_disk st)) ops ->
  run_tx st ops ord = Ok st' -> readable st' -> db_alloc_ok st'.
Proof.
  intros st ops ord st' Hok Hops Hrun Hrd.
  destruct (run_tx_okz st ops ord st' Hok Hops Hrun Hrd) as [(_ & HA & _) _]. exists (Rof st'). exact HA.
Qed.

(* ... hence the side condition [checked] of EngineRefines.run_tx_refines is [readable] alone *)
Corollary run_tx_checked : forall st ops ord st', db_okz st -> Forall (op_ok (d_disk st)) ops ->
  run_tx st ops ord = Ok st' -> readable st' -> checked st'.
Proof. intros st ops ord st' Hok Hops Hrun Hrd. split; [exact Hrd | eapply run_tx_alloc_ok; eauto]. Qed.

(* histories from the empty database: the only side condition is [readable] of each intermediate state *)
Corollary run_txs_refines_init' : forall P txs st', (0 < P)%N -> txs_ok' (init_db P) txs ->
  run_txs (init_db P) txs = Ok st' -> db_okz st' /\ abs_db st' = sem_txs txs (SBucket 0 0 []).
Proof. intros P txs st' HP Htx H. exact (run_txs_refines' txs _ _ (init_db_okz P HP) Htx H). Qed.

(* the two-transaction history of EngineRefines, with [readable] as the only check *)
Example hist_ok' : txs_ok' (init_db 4096) ExHistory.hist.
Proof. apply txs_okb'_ok. vm_compute. reflexivity. Qed.

Example hist_refines' : db_okz ExHistory.hist_st /\ abs_db ExHistory.hist_st = sem_txs ExHistory.hist (SBucket 0 0 []).
Proof. exact (run_txs_refines_init' 4096 ExHistory.hist ExHistory.hist_st eq_refl hist_ok' ExHistory.hist_run_ok). Qed.

(* the transaction of Ex3 through the theorem *)
Example ex3_st'_okz_thm : db_okz Ex3R.ex3_st' /\ abs_db Ex3R.ex3_st' = sem_tx Ex3.ex3_ops (abs_db Ex3.ex3_db).
Proof.
  apply (run_tx_refines' Ex3.ex3_db Ex3.ex3_ops Ex3R.ex3_ord Ex3R.ex3_st' ex3_db_okz Ex3R.ex3_ops_ok Ex3R.ex3_run_ok).
  apply readableb_ok. vm_compute. reflexivity.
Qed.

Print Assumptions run_tx_okz.
Print Assumptions run_tx_alloc_ok.
Print Assumptions run_tx_refines'.
Print Assumptions run_txs_refines'.
Print Assumptions run_txs_refines_init'.
Print Assumptions run_tx_refines_stmt_holds'.
Print Assumptions init_db_okz.
Print Assumptions hist_refines'.
Print Assumptions ex3_st'_okz_thm.
