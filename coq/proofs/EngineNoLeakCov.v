(* The completeness invariant [Cov] of the transaction overlay (the converse of the ownership invariant [OwnI]):
   every page run of the committed footprint is still referred to by the overlay or was handed back; and the
   auxiliary facts relating the pages named by an overlay node to its materialised nodes / unloaded children. *)
From Coq Require Import List NArith Bool Arith Lia ZifyN ZifyNat ZifyBool.
From Coq.Strings Require Import Byte.
From Jamm Require Spec.
From Jamm Require Import Bytes BytesFacts Tree Cursor SearchFacts Engine EngineAbs EngineFacts EngineMergeFacts.
From Jamm Require Import EngineModifyFacts EngineSpillFacts EnginePathFacts EngineBridgeFacts EngineRebalanceFacts.
From Jamm Require FreelistFacts EngineAllocFacts EngineSpillWfFacts.
From Jamm Require Import EngineTxInvFacts EngineSpillBucketFacts EngineRefines.
From Jamm Require Import EngineOwnDefs EngineOwnWr EngineOwnOps EngineOwnReb EngineOwnSpill.
From Jamm Require Import EngineNoLeakWr EngineNoLeakNode.
Import ListNotations.
Import Coq.Strings.String.StringSyntax. Delimit Scope string_scope with string.
Local Open Scope list_scope. Local Open Scope nat_scope.
Set Warnings "-abstract-large-number".

(* the whole run of head page q was handed back *)
Definition gone (d : disk) (s : txs) (q : N) : Prop := forall x, In x (prun d q) -> freed_in_tx s x = true.

Lemma gone_mono : forall d s s2 q, (forall x, freed_in_tx s x = true -> freed_in_tx s2 x = true) -> gone d s q -> gone d s2 q.
Proof. intros d s s2 q Hm H x Hx. apply Hm, H, Hx. Qed.

(* [Cov d n s b r0]: the overlay bucket [b] stems from the committed bucket rooted at [r0] (0: created by this
   transaction). Every head page of the committed tree of [r0] is still named by [b]'s own tree, or its run was
   handed back; every nested-bucket entry of the committed bucket is still an entry of [b], or its whole
   footprint was handed back; the same for the opened sub-buckets, each relative to the root its entry names *)
Fixpoint Cov (d : disk) (n : nat) (s : txs) (b : bucket) (r0 : N) : Prop :=
  match n with
  | O => True
  | S n' =>
      forall l, bucket_view d b l ->
        (r0 <> 0%N -> forall q, In q (r0 :: ppages fuel0 d r0) -> In q (bheads d b) \/ gone d s q) /\
        (r0 <> 0%N -> forall k r nx, In (LBk k r nx) (page_ents fuel0 d r0) ->
           In (LBk k r nx) l \/ forall x, In x (foot d n' r) -> freed_in_tx s x = true) /\
        (forall k sb r nx, In (k, sb) (b_subs b) -> In (LBk k r nx) l -> Cov d n' s sb r)
  end.

Lemma Cov_S : forall d n' s b r0, Cov d (S n') s b r0 =
  forall l, bucket_view d b l ->
    (r0 <> 0%N -> forall q, In q (r0 :: ppages fuel0 d r0) -> In q (bheads d b) \/ gone d s q) /\
    (r0 <> 0%N -> forall k r nx, In (LBk k r nx) (page_ents fuel0 d r0) ->
       In (LBk k r nx) l \/ forall x, In x (foot d n' r) -> freed_in_tx s x = true) /\
    (forall k sb r nx, In (k, sb) (b_subs b) -> In (LBk k r nx) l -> Cov d n' s sb r).
Proof. reflexivity. Qed.

(* [Cov] only states that pages were handed back: it survives every step that hands back more *)
Lemma Cov_mono : forall d n s s2 b r0, (forall x, freed_in_tx s x = true -> freed_in_tx s2 x = true) ->
  Cov d n s b r0 -> Cov d n s2 b r0.
Proof.
  intros d. induction n as [|n IH]; intros s s2 b r0 Hm H; [exact I|]. rewrite Cov_S in *.
  intros l Hv. destruct (H l Hv) as (A & B & C). split; [|split].
  - intros Hr q Hq. destruct (A Hr q Hq) as [X|X]; [now left | right; exact (gone_mono d s s2 q Hm X)].
  - intros Hr k r nx He. destruct (B Hr k r nx He) as [X|X]; [now left | right; intros x Hx; apply Hm, X, Hx].
  - intros k sb r nx Hk He. eapply IH; [exact Hm | eapply C; eauto].
Qed.

(* only the tree and the opened sub-buckets matter *)
Lemma Cov_tree : forall d n s b b' r0, b_root_page b' = b_root_page b -> b_rootn b' = b_rootn b ->
  b_subs b' = b_subs b -> Cov d n s b r0 -> Cov d n s b' r0.
Proof.
  intros d [|n] s b b' r0 E1 E2 E3 H; [exact I|]. rewrite Cov_S in *. intros l Hv.
  assert (Hv0 : bucket_view d b l) by (eapply (bucket_view_tree d b'); eauto).
  destruct (H l Hv0) as (A & B & C). rewrite (bheads_tree d b b' E1 E2), E3. auto.
Qed.

(* a bucket created by the running transaction *)
Lemma Cov_zero : forall d n s b, (forall k sb, ~ In (k, sb) (b_subs b)) -> Cov d n s b 0%N.
Proof.
  intros d [|n] s b Hs; [exact I|]. rewrite Cov_S. intros l _.
  split; [intros Hc; now contradiction Hc|]. split; [intros Hc; now contradiction Hc|].
  intros k sb r nx Hk. exfalso. eapply Hs; eauto.
Qed.

Lemma mpages_kid : forall n kd x, In kd (n_kids n) -> In x (mpages kd) -> In x (mpages n).
Proof. intros n kd x Hk Hx. rewrite mpages_eq. apply in_or_app. right. apply in_flat_map. eauto. Qed.

(* a page named by the overlay below n is the page of a materialised kid, or lies at or below an unloaded child *)
Lemma npages_split : forall h d n q, In q (npages h d n) ->
  q = 0%N \/ In q (flat_map mpages (n_kids n)) \/ exists u, uhead n u /\ in_subtree d u q.
Proof.
  induction h as [|h IH]; intros d n q H; [destruct H|].
  destruct n as [p np o sq [l|es] ks]; [destruct H|]. rewrite npages_branch_eq in H. cbn [n_kids].
  apply in_app_or in H. destruct H as [H|H].
  - apply in_map_iff in H. destruct H as (e & <- & He). destruct (find_kid (snd e) ks) as [kd|] eqn:Hf.
    + destruct (EngineMergeFacts.find_kid_In _ _ _ Hf) as [Hkd Ep].
      destruct (N.eq_dec (snd e) 0) as [E|E]; [now left|]. right; left. apply in_flat_map. exists kd. split; [exact Hkd|].
      rewrite mpages_eq, Ep. apply in_or_app. left. destruct (N.eqb_spec (snd e) 0); [contradiction | now left].
    + right; right. exists (snd e). split; [now apply uh_here | apply ist_self].
  - apply in_flat_map in H. destruct H as (e & He & H). unfold cpages in H.
    destruct (find_kid (snd e) ks) as [kd|] eqn:Hf.
    + destruct (EngineMergeFacts.find_kid_In _ _ _ Hf) as [Hkd Ep].
      destruct (IH d kd q H) as [A|[A|(u & Hu & Hs)]]; [now left | |].
      * right; left. apply in_flat_map in A. destruct A as (k2 & Hk2 & A). apply in_flat_map. exists kd.
        split; [exact Hkd | eapply mpages_kid; eauto].
      * right; right. exists u. split; [eapply uh_kid; eauto | exact Hs].
    + right; right. exists (snd e). split; [now apply uh_here | eapply ppages_subtree; eauto].
Qed.

(* the run of a materialised page is an old run of the overlay *)
Lemma mpages_oldruns : forall d n, pg_ok d n -> forall q x, In q (mpages n) -> In x (prun d q) -> In x (oldruns n).
Proof.
  intros d n H. induction H as [n Hp _ IH]. intros q x Hq Hx. rewrite mpages_eq in Hq. rewrite oldruns_eq.
  apply in_or_app. apply in_app_or in Hq. destruct Hq as [Hq|Hq].
  - left. destruct (N.eqb_spec (n_page n) 0) as [E|E]; [destruct Hq|]. destruct Hq as [<-|[]].
    destruct (Hp E) as (a & Hg & Enp). unfold prun in Hx. rewrite Hg in Hx. apply In_old_pages. split; [exact E|].
    apply In_nrun in Hx. lia.
  - right. apply in_flat_map in Hq. destruct Hq as (k & Hk & Hq). apply in_flat_map. exists k. split; [exact Hk | eapply IH; eauto].
Qed.

(* the unloaded children are kept pages *)
Lemma uhead_keep : forall fuel d keep h lo hi n, swfh fuel d keep h lo hi n -> forall u, uhead n u -> In u keep.
Proof.
  intros fuel d keep. induction h as [|h IH]; intros lo hi n H u Hu;
    inversion H as [? ? ? ? ? ? ? ? Hk|? ? ? ? ? ? ? ? ? Hk H1 H2 H3 H4 H5]; subst; [inversion Hu|].
  inversion Hu as [? ? ? ? ? ? e He Hf | ? ? ? ? ? ? e kd q He Hf Hq]; subst.
  - destruct (chb_In lo hi es e He) as (l & hh & Hi). destruct (H5 l hh e Hi Hf) as [Hst _].
    destruct fuel as [|fuel]; [destruct Hst | cbn [stable] in Hst; apply Hst].
  - destruct (chb_In lo hi es e He) as (l & hh & Hi). eapply IH; [apply (H4 l hh e kd Hi Hf) | exact Hq].
Qed.

Lemma wsub_subtree : forall w P d p q, wsub w p q -> in_subtree (apply_wr w P d) p q.
Proof.
  intros w P d p q H. induction H as [p | p sz es e q Hg He _ IH]; [apply ist_self|].
  eapply ist_kid; [apply dget_apply_wr_some; exact Hg | reflexivity | exact He | exact IH].
Qed.

Lemma subtree_transfer : forall d D u q, (forall y, in_subtree d u y -> dget D y = dget d y) ->
  in_subtree d u q -> in_subtree D u q.
Proof.
  intros d D u q Hag H. induction H as [u | u a es e x Hg Hb He Hs IH]; [apply ist_self|].
  eapply ist_kid; [rewrite (Hag u (ist_self d u)); exact Hg | exact Hb | exact He|].
  apply IH. intros y Hy. apply Hag. eapply ist_kid; eauto.
Qed.

Lemma subtree_trans : forall d a b c, in_subtree d a b -> in_subtree d b c -> in_subtree d a c.
Proof.
  intros d a b c H. induction H as [u | u a0 es e x Hg Hb He Hs IH]; intros Hc; [exact Hc | eapply ist_kid; eauto].
Qed.

Lemma present_subtree : forall f D p q, pages_present f D p -> in_subtree D p q -> In q (p :: ppages f D p).
Proof.
  induction f as [|f IH]; intros D p q Hp H; [destruct Hp|].
  inversion H as [|? a es e ? Hg Hb He Hs]; subst; [now left|]. right.
  cbn [pages_present] in Hp. rewrite Hg, Hb in Hp. cbn [ppages]. rewrite Hg, Hb.
  destruct (IH D (snd e) q (Hp e He) Hs) as [<-|Hq].
  - apply in_or_app. left. now apply in_map.
  - apply in_or_app. right. apply in_flat_map. eauto.
Qed.

(* the head pages of a strict committed bucket are not page 0 *)
Lemma heads_nz : forall d n r0 q, dget d 0%N = None -> sbk (S n) d r0 -> In q (r0 :: ppages fuel0 d r0) -> q <> 0%N.
Proof.
  intros d n r0 q Hz Hs Hq. destruct (sbk_inv _ _ _ Hs) as (h & Hh & HP & _).
  assert (Hsub : in_subtree d r0 q) by (destruct Hq as [<-|Hq]; [apply ist_self | eapply ppages_subtree; eauto]).
  destruct (PInv_subtree_present _ _ _ _ _ _ HP q Hsub) as [a Ha]. intros ->. congruence.
Qed.

(* what was written stays written through a frame *)
Lemma frame_wr_mono : forall live s s' alloc dead, fresh_inv live s -> frame live s s' alloc dead ->
  (forall q, wr_get (wr s) q <> None -> In q live) ->
  forall q v, wr_get (wr s) q = Some v -> wr_get (wr s') q = Some v.
Proof.
  intros live s s' alloc dead Hfi Hfr Hwl q v Hq. rewrite (fr_wr _ _ _ _ _ Hfr); [exact Hq|].
  intros Hi. apply (frame_new _ _ _ _ _ q Hfi Hfr Hi). apply Hwl. congruence.
Qed.

(* every page of a run written between s and s' was handed back by s4 or satisfies P *)
Definition wr_cov (s s' s4 : txs) (P : N -> N -> Prop) : Prop :=
  forall q v x, wr_get (wr s') q = Some v -> In x (wrun (psz s') q v) ->
    wr_get (wr s) q <> None \/ freed_in_tx s4 x = true \/ P q x.

Lemma wr_cov_refl : forall s s4 P, wr_cov s s s4 P.
Proof. intros s s4 P q v x Hq _. left. congruence. Qed.

Lemma wr_cov_trans : forall s0 s1 s2 s4 (P Q R : N -> N -> Prop), xframe s1 s2 ->
  wr_cov s0 s1 s4 P -> wr_cov s1 s2 s4 Q ->
  (forall q x, P q x -> R q x) -> (forall q x, Q q x -> R q x) -> wr_cov s0 s2 s4 R.
Proof.
  intros s0 s1 s2 s4 P Q R X H01 H12 HP HQ q v x Hq Hx.
  destruct (H12 q v x Hq Hx) as [B|[B|B]]; [|right; now left | right; right; now apply HQ].
  destruct (wr_get (wr s1) q) as [v'|] eqn:Ev; [|congruence].
  assert (v' = v) by (pose proof (xf_wr _ _ X _ _ Ev) as E'; congruence). subst v'.
  rewrite (xf_psz _ _ X) in Hx.
  destruct (H01 q v x Ev Hx) as [C|[C|C]]; [now left | right; now left | right; right; now apply HP].
Qed.

Print Assumptions npages_split.
