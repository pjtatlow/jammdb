(* Facts about the byte-string model (model/Bytes.v): fixed-width integer codecs,
   the lexicographic order, and slice / splice algebra. *)
From Coq Require Import List NArith Bool Lia ZifyN ZifyBool Arith.
From Coq.Strings Require Import Byte.
From Jamm Require Import Bytes.
From Jamm Require Export OrderFacts.
Import ListNotations.
Open Scope N_scope.

Arguments N.add : simpl never.
Arguments N.mul : simpl never.
Arguments N.sub : simpl never.
Arguments N.div : simpl never.
Arguments N.modulo : simpl never.
Arguments N.pow : simpl never.

Lemma to_N_lt b : Byte.to_N b < 256.
Proof. pose proof (Byte.to_N_bounded b). lia. Qed.

Lemma to_N_inj x y : Byte.to_N x = Byte.to_N y -> x = y.
Proof.
  intros H. pose proof (Byte.of_to_N x) as Hx. rewrite H, Byte.of_to_N in Hx. congruence.
Qed.

Lemma to_N_byte_of_N x : Byte.to_N (byte_of_N x) = x mod 256.
Proof.
  unfold byte_of_N. destruct (Byte.of_N (x mod 256)) as [b|] eqn:E.
  - now apply Byte.to_of_N.
  - apply Byte.of_N_None_iff in E. pose proof (N.mod_upper_bound x 256). lia.
Qed.

Lemma byte_of_N_to_N b : byte_of_N (Byte.to_N b) = b.
Proof.
  unfold byte_of_N. rewrite N.mod_small by apply to_N_lt. now rewrite Byte.of_to_N.
Qed.

Lemma byte_of_N_mod x : byte_of_N (x mod 256) = byte_of_N x.
Proof. unfold byte_of_N. rewrite N.mod_mod by lia. reflexivity. Qed.

Lemma pow256_succ n : 256 ^ N.of_nat (S n) = 256 * 256 ^ N.of_nat n.
Proof. rewrite Nat2N.inj_succ, N.pow_succ_r'. reflexivity. Qed.

Lemma pow256_pos n : 0 < 256 ^ N.of_nat n.
Proof. apply N.neq_0_lt_0, N.pow_nonzero. lia. Qed.

Lemma le_enc_length n x : length (le_enc n x) = n.
Proof. revert x. induction n as [|n IH]; intros x; cbn [le_enc length]; [reflexivity|]. now rewrite IH. Qed.

Lemma le_dec_enc n x : le_dec (le_enc n x) = x mod 256 ^ N.of_nat n.
Proof.
  revert x. induction n as [|n IH]; intros x.
  - cbn [le_enc le_dec N.of_nat]. rewrite N.pow_0_r, N.mod_1_r. reflexivity.
  - cbn [le_enc le_dec]. rewrite IH, to_N_byte_of_N, pow256_succ.
    pose proof (pow256_pos n).
    rewrite N.mod_mul_r by lia. reflexivity.
Qed.

Lemma le_dec_enc_small n x : x < 256 ^ N.of_nat n -> le_dec (le_enc n x) = x.
Proof. intros H. rewrite le_dec_enc. now apply N.mod_small. Qed.

Lemma le_enc_dec b : le_enc (length b) (le_dec b) = b.
Proof.
  induction b as [|x b IH]; [reflexivity|].
  cbn [length le_enc le_dec]. f_equal.
  - rewrite <- byte_of_N_mod.
    replace ((Byte.to_N x + 256 * le_dec b) mod 256) with (Byte.to_N x).
    + apply byte_of_N_to_N.
    + pose proof (to_N_lt x). rewrite N.mul_comm, N.mod_add by lia. rewrite N.mod_small; lia.
  - replace ((Byte.to_N x + 256 * le_dec b) / 256) with (le_dec b); [exact IH|].
    pose proof (to_N_lt x). rewrite N.mul_comm, N.div_add by lia. rewrite N.div_small; lia.
Qed.

Lemma le_dec_bound b : le_dec b < 256 ^ N.of_nat (length b).
Proof.
  induction b as [|x b IH].
  - cbn. lia.
  - cbn [length le_dec]. rewrite pow256_succ. pose proof (to_N_lt x). lia.
Qed.

Lemma le_enc_inj n x y :
  x < 256 ^ N.of_nat n -> y < 256 ^ N.of_nat n -> le_enc n x = le_enc n y -> x = y.
Proof.
  intros Hx Hy E. apply (f_equal le_dec) in E. now rewrite !le_dec_enc_small in E.
Qed.

Lemma le_dec_inj a b : length a = length b -> le_dec a = le_dec b -> a = b.
Proof.
  intros HL E. rewrite <- (le_enc_dec a), <- (le_enc_dec b), HL, E. reflexivity.
Qed.

Lemma be_enc_length n x : length (be_enc n x) = n.
Proof. unfold be_enc. now rewrite rev_length, le_enc_length. Qed.

Lemma be_dec_enc n x : be_dec (be_enc n x) = x mod 256 ^ N.of_nat n.
Proof. unfold be_dec, be_enc. now rewrite rev_involutive, le_dec_enc. Qed.

Lemma be_dec_enc_small n x : x < 256 ^ N.of_nat n -> be_dec (be_enc n x) = x.
Proof. intros H. rewrite be_dec_enc. now apply N.mod_small. Qed.

Lemma be_enc_dec b : be_enc (length b) (be_dec b) = b.
Proof.
  unfold be_enc, be_dec. rewrite <- (rev_length b), le_enc_dec. apply rev_involutive.
Qed.

Lemma be_dec_bound b : be_dec b < 256 ^ N.of_nat (length b).
Proof. unfold be_dec. rewrite <- (rev_length b). apply le_dec_bound. Qed.

Lemma be_enc_le_dec l : be_enc (length l) (le_dec l) = rev l.
Proof. unfold be_enc. now rewrite le_enc_dec. Qed.

Lemma bcmp_lt_trans a b c : bcmp a b = Lt -> bcmp b c = Lt -> bcmp a c = Lt.
Proof. exact (OrderFacts.bcmp_lt_trans a b c). Qed.

Lemma bcmp_gt_lt a b : bcmp a b = Gt <-> bcmp b a = Lt.
Proof. rewrite (bcmp_antisym a b). destruct (bcmp b a); cbn; split; congruence. Qed.

Lemma bcmp_total a b : bcmp a b = Lt \/ a = b \/ bcmp b a = Lt.
Proof.
  destruct (bcmp a b) eqn:E; [right; left; now apply bcmp_eq_iff | now left | right; right; now apply bcmp_gt_lt].
Qed.

Lemma bcmp_lt_irrefl a : bcmp a a <> Lt.
Proof. rewrite bcmp_refl. discriminate. Qed.

Lemma beq_true_iff a b : beq a b = true <-> a = b.
Proof. exact (beq_true a b). Qed.

Lemma nth_error_ext' {A} (l l' : list A) :
  (forall i, nth_error l i = nth_error l' i) -> l = l'.
Proof.
  revert l'. induction l as [|x l IH]; intros [|y l'] H.
  - reflexivity.
  - specialize (H O). discriminate.
  - specialize (H O). discriminate.
  - f_equal.
    + specialize (H O). cbn in H. congruence.
    + apply IH. intros i. exact (H (S i)).
Qed.

Lemma nth_error_skipn' {A} (l : list A) n i : nth_error (skipn n l) i = nth_error l (n + i).
Proof.
  revert l. induction n as [|n IH]; intros l; [reflexivity|].
  destruct l as [|x l]; cbn [skipn plus nth_error].
  - now destruct i.
  - apply IH.
Qed.

Lemma nth_error_firstn' {A} (l : list A) n i :
  nth_error (firstn n l) i = if Nat.ltb i n then nth_error l i else None.
Proof.
  revert l i. induction n as [|n IH]; intros l i.
  - cbn [firstn]. now destruct i.
  - destruct l as [|x l]; cbn [firstn].
    + destruct i; cbn [nth_error]; match goal with |- context[if ?c then _ else _] => destruct c end; reflexivity.
    + destruct i as [|i]; [reflexivity|]. cbn [nth_error]. rewrite IH.
      change (Nat.ltb (S i) (S n)) with (Nat.ltb i n). reflexivity.
Qed.

Lemma nth_error_None_ge {A} (l : list A) i : (length l <= i)%nat -> nth_error l i = None.
Proof. apply nth_error_None. Qed.

Lemma nth_error_split_at {A} (l : list A) k x :
  nth_error l k = Some x -> l = firstn k l ++ x :: skipn (S k) l.
Proof.
  revert l. induction k as [|k IH]; intros [|y l] H; try discriminate.
  - injection H as ->. reflexivity.
  - cbn [firstn skipn app]. f_equal. now apply IH.
Qed.

Lemma zeros_length n : length (zeros n) = n.
Proof. apply repeat_length. Qed.

Lemma splice_length z o v :
  (N.to_nat o + length v <= length z)%nat -> length (splice z o v) = length z.
Proof.
  intros H. unfold splice. rewrite !app_length, firstn_length, skipn_length. lia.
Qed.

Lemma nth_error_splice z o v i :
  (N.to_nat o + length v <= length z)%nat ->
  nth_error (splice z o v) i =
    if Nat.ltb i (N.to_nat o) then nth_error z i
    else if Nat.ltb i (N.to_nat o + length v) then nth_error v (i - N.to_nat o)
    else nth_error z i.
Proof.
  intros H. unfold splice.
  destruct (Nat.ltb_spec i (N.to_nat o)) as [L1|L1].
  - rewrite nth_error_app1 by (rewrite firstn_length; lia).
    rewrite nth_error_firstn'. destruct (Nat.ltb_spec i (N.to_nat o)); [reflexivity|lia].
  - rewrite nth_error_app2 by (rewrite firstn_length; lia).
    rewrite firstn_length, Nat.min_l by lia.
    destruct (Nat.ltb_spec i (N.to_nat o + length v)) as [L2|L2].
    + rewrite nth_error_app1 by lia. reflexivity.
    + rewrite nth_error_app2 by lia. rewrite nth_error_skipn'. f_equal. lia.
Qed.

Lemma slice_some b o n :
  (N.to_nat o + N.to_nat n <= length b)%nat ->
  slice b o n = Some (firstn (N.to_nat n) (skipn (N.to_nat o) b)).
Proof.
  intros H. unfold slice. destruct (Nat.leb_spec (N.to_nat o + N.to_nat n) (length b)); [reflexivity|lia].
Qed.

Lemma slice_inv b o n s :
  slice b o n = Some s ->
  (N.to_nat o + N.to_nat n <= length b)%nat /\ s = firstn (N.to_nat n) (skipn (N.to_nat o) b).
Proof.
  unfold slice. destruct (Nat.leb_spec (N.to_nat o + N.to_nat n) (length b)); [|discriminate].
  intros E. injection E as <-. split; [assumption|reflexivity].
Qed.

Lemma slice_length b o n s : slice b o n = Some s -> length s = N.to_nat n.
Proof.
  intros H. apply slice_inv in H as [H ->]. rewrite firstn_length, skipn_length. lia.
Qed.

Lemma nth_error_slice b o n s i :
  slice b o n = Some s -> (i < N.to_nat n)%nat -> nth_error s i = nth_error b (N.to_nat o + i).
Proof.
  intros H Hi. apply slice_inv in H as [H ->].
  rewrite nth_error_firstn', nth_error_skipn'.
  destruct (Nat.ltb_spec i (N.to_nat n)); [reflexivity|lia].
Qed.

Lemma nth_error_in_slice b o n s off :
  slice b o n = Some s -> o <= off -> off < o + n ->
  nth_error b (N.to_nat off) = nth_error s (N.to_nat (off - o)).
Proof.
  intros H H1 H2. rewrite (nth_error_slice b o n s _ H) by lia. f_equal. lia.
Qed.

Lemma slice_ext b b' o n :
  length b = length b' ->
  (forall i, (i < N.to_nat n)%nat -> nth_error b (N.to_nat o + i) = nth_error b' (N.to_nat o + i)) ->
  slice b o n = slice b' o n.
Proof.
  intros HL H. unfold slice. rewrite <- HL.
  destruct (Nat.leb _ _); [|reflexivity]. f_equal.
  apply nth_error_ext'. intros i. rewrite !nth_error_firstn', !nth_error_skipn'.
  destruct (Nat.ltb_spec i (N.to_nat n)); [now apply H|reflexivity].
Qed.

Lemma slice_splice_same z o v :
  (N.to_nat o + length v <= length z)%nat ->
  slice (splice z o v) o (N.of_nat (length v)) = Some v.
Proof.
  intros H. rewrite slice_some by (rewrite splice_length by assumption; lia).
  f_equal. apply nth_error_ext'. intros i.
  rewrite nth_error_firstn', nth_error_skipn', nth_error_splice by assumption.
  rewrite Nat2N.id.
  destruct (Nat.ltb_spec i (length v)) as [L|L].
  - destruct (Nat.ltb_spec (N.to_nat o + i) (N.to_nat o)); [lia|].
    destruct (Nat.ltb_spec (N.to_nat o + i) (N.to_nat o + length v)); [|lia].
    f_equal. lia.
  - symmetry. apply nth_error_None. lia.
Qed.

Lemma slice_splice_other z o v o' n :
  (N.to_nat o + length v <= length z)%nat ->
  o' + n <= o \/ o + N.of_nat (length v) <= o' ->
  slice (splice z o v) o' n = slice z o' n.
Proof.
  intros H D. apply slice_ext; [now apply splice_length|].
  intros i Hi. rewrite nth_error_splice by assumption.
  destruct (Nat.ltb_spec (N.to_nat o' + i) (N.to_nat o)); [reflexivity|].
  destruct (Nat.ltb_spec (N.to_nat o' + i) (N.to_nat o + length v)); [lia|reflexivity].
Qed.

Lemma rd_le_splice_same z o v :
  (N.to_nat o + length v <= length z)%nat ->
  rd_le (splice z o v) o (length v) = Some (le_dec v).
Proof. intros H. unfold rd_le. now rewrite slice_splice_same. Qed.

Lemma rd_le_splice_other z o v o' n :
  (N.to_nat o + length v <= length z)%nat ->
  o' + N.of_nat n <= o \/ o + N.of_nat (length v) <= o' ->
  rd_le (splice z o v) o' n = rd_le z o' n.
Proof. intros H D. unfold rd_le. now rewrite slice_splice_other. Qed.

Lemma slice_splice_inside z o v o' n s :
  (N.to_nat o + length v <= length z)%nat ->
  slice z o' n = Some s ->
  o' <= o -> o + N.of_nat (length v) <= o' + n ->
  slice (splice z o v) o' n = Some (splice s (o - o') v).
Proof.
  intros H Hs H1 H2.
  pose proof (slice_length _ _ _ _ Hs) as Ls.
  pose proof (slice_inv _ _ _ _ Hs) as [Hb _].
  rewrite slice_some by (rewrite splice_length by assumption; lia).
  f_equal. apply nth_error_ext'. intros i.
  rewrite nth_error_firstn', nth_error_skipn', nth_error_splice by assumption.
  rewrite (nth_error_splice s) by lia.
  destruct (Nat.ltb_spec i (N.to_nat n)) as [L|L].
  - rewrite (nth_error_slice _ _ _ _ i Hs L).
    destruct (Nat.ltb_spec (N.to_nat o' + i) (N.to_nat o));
    destruct (Nat.ltb_spec i (N.to_nat (o - o'))); try lia; [reflexivity|].
    destruct (Nat.ltb_spec (N.to_nat o' + i) (N.to_nat o + length v));
    destruct (Nat.ltb_spec i (N.to_nat (o - o') + length v)); try lia; [|reflexivity].
    f_equal. lia.
  - destruct (Nat.ltb_spec i (N.to_nat (o - o'))); [lia|].
    destruct (Nat.ltb_spec i (N.to_nat (o - o') + length v)); [lia|].
    symmetry. apply nth_error_None. lia.
Qed.

Definition put (z : bytes) (ov : N * bytes) : bytes := splice z (fst ov) (snd ov).
Definition puts (l : list (N * bytes)) (z : bytes) : bytes := fold_left put l z.

(* the writes of [l] lie one after the other, in order, between the offsets [a] and [b] *)
Fixpoint laid (a : N) (l : list (N * bytes)) (b : N) : Prop :=
  match l with
  | [] => a <= b
  | ov :: l' => a <= fst ov /\ laid (fst ov + N.of_nat (length (snd ov))) l' b
  end.

(* every write of [l] can be read back from [pg] *)
Fixpoint holds (pg : bytes) (l : list (N * bytes)) : Prop :=
  match l with
  | [] => True
  | ov :: l' => slice pg (fst ov) (N.of_nat (length (snd ov))) = Some (snd ov) /\ holds pg l'
  end.

Lemma laid_le a l b : laid a l b -> a <= b.
Proof.
  revert a. induction l as [|ov l IH]; intros a H; [exact H|].
  destruct H as [H1 H2]. apply IH in H2. lia.
Qed.

Lemma laid_put a ov l z :
  laid a (ov :: l) (N.of_nat (length z)) ->
  (N.to_nat (fst ov) + length (snd ov) <= length z)%nat /\
  laid (fst ov + N.of_nat (length (snd ov))) l (N.of_nat (length (put z ov))).
Proof.
  intros [_ H]. pose proof (laid_le _ _ _ H) as Hle.
  unfold put. rewrite splice_length by lia. split; [lia|exact H].
Qed.

Lemma puts_length a l z : laid a l (N.of_nat (length z)) -> length (puts l z) = length z.
Proof.
  revert a z. induction l as [|ov l IH]; intros a z H; [reflexivity|].
  apply laid_put in H as [Hf H]. cbn [puts fold_left]. fold (puts l (put z ov)).
  rewrite (IH _ _ H). now apply splice_length.
Qed.

Lemma slice_puts_before a l z o n :
  laid a l (N.of_nat (length z)) -> o + n <= a -> slice (puts l z) o n = slice z o n.
Proof.
  revert a z. induction l as [|ov l IH]; intros a z H Ho; [reflexivity|].
  pose proof H as [Ha _]. apply laid_put in H as [Hf H]. cbn [puts fold_left]. fold (puts l (put z ov)).
  rewrite (IH _ _ H) by lia. apply slice_splice_other; [exact Hf|left; lia].
Qed.

Lemma puts_holds a l z : laid a l (N.of_nat (length z)) -> holds (puts l z) l.
Proof.
  revert a z. induction l as [|ov l IH]; intros a z H; [exact I|].
  apply laid_put in H as [Hf H]. cbn [puts fold_left]. fold (puts l (put z ov)). split.
  - rewrite (slice_puts_before _ _ _ _ _ H) by lia. now apply slice_splice_same.
  - exact (IH _ _ H).
Qed.

Lemma splice_one l k b : splice l (N.of_nat k) [b] = firstn k l ++ b :: skipn (S k) l.
Proof. unfold splice. rewrite Nat2N.id. cbn [length app]. now rewrite Nat.add_1_r. Qed.

Print Assumptions le_enc_length.
Print Assumptions le_dec_enc.
Print Assumptions le_enc_dec.
Print Assumptions le_dec_bound.
Print Assumptions be_dec_enc.
Print Assumptions be_enc_length.
Print Assumptions le_enc_inj.
Print Assumptions bcmp_eq_iff.
Print Assumptions bcmp_lt_trans.
Print Assumptions bcmp_antisym.
Print Assumptions slice_splice_inside.
