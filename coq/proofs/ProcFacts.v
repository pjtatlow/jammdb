(* The open protocol of model/Proc.v for any number of processes and any schedule, by invariants of
   [preachable].  Under both protocols the flock word obeys LockFacts.lock_holder, which gives mutual exclusion
   and progress.  Under the repaired protocol (lock first) the further invariant [rinv] gives that nobody fails
   and that whoever is inside sees every commit; the pinned protocol is refuted by two computed schedules. *)
From Coq Require Import List NArith Bool Arith Lia.
From Jamm Require Import Proc LockFacts.
Import ListNotations.
Local Open Scope list_scope.
Local Open Scope nat_scope.

Lemma pset_nth_length {A} (l : list A) i x : length (set_nth l i x) = length l.
Proof. exact (set_nth_length l i x). Qed.

Lemma pnth_set {A} (l : list A) k j x p :
  nth_error l k = Some p ->
  nth_error (set_nth l k x) j = if Nat.eq_dec j k then Some x else nth_error l j.
Proof.
  intros Hk. destruct (Nat.eq_dec j k) as [->|Hne].
  - exact (nth_set_same l k p x Hk).
  - exact (nth_set_neq l k j x Hne).
Qed.

Lemma preachable_prun lf s0 s sched : preachable lf s0 s -> preachable lf s0 (prun lf s sched).
Proof.
  revert s; induction sched as [|i r IH]; intros s H; simpl; auto.
  destruct (pstep lf s i) eqn:E; auto.
  apply IH. eapply preach_step; eauto.
Qed.

Lemma preachable_prun0 lf s0 sched : preachable lf s0 (prun lf s0 sched).
Proof. apply preachable_prun. constructor. Qed.

Lemma preachable_ind_inv (P : pstate -> Prop) lf s0 :
  P s0 -> (forall s i s', P s -> pstep lf s i = Some s' -> P s') ->
  forall s, preachable lf s0 s -> P s.
Proof. intros H0 Hs s H. induction H; eauto. Qed.

(* Break [H : pstep lf s k = Some s'] into one goal per transition; in each goal
   [Hk : nth_error (procs s) k = Some <pc>] and s' is replaced by the explicit successor. *)
Ltac step_cases H Hk :=
  unfold pstep in H;
  match type of H with
  | context [nth_error (procs ?s) ?k] => destruct (nth_error (procs s) k) as [?p|] eqn:Hk; [|discriminate H]
  end;
  match type of Hk with _ = Some ?p => destruct p end;
  repeat (simpl in H;
          match type of H with
          | context [if negb ?b then _ else _] => let E := fresh "E" in destruct b eqn:E
          | context [if ?b && _ then _ else _] => let E := fresh "E" in destruct b eqn:E
          | context [if ?b then _ else _] => let E := fresh "E" in destruct b eqn:E
          | context [match f_lock ?f with _ => _ end] => let E := fresh "E" in destruct (f_lock f) eqn:E
          end);
  simpl in H; try discriminate H;
  injection H as H; subst.

Ltac nth_simpl Hk :=
  unfold setp in *; simpl procs in *; simpl fs in *;
  repeat match goal with
  | H : context [nth_error (set_nth (procs ?s) ?k ?x) ?j] |- _ => rewrite (pnth_set _ k j x _ Hk) in H
  | |- context [nth_error (set_nth (procs ?s) ?k ?x) ?j] => rewrite (pnth_set _ k j x _ Hk)
  end.

Definition lock_inv (s : pstate) : Prop := lock_holder holds_lock (f_lock (fs s)) (procs s).

Definition all_P0_unlocked (s0 : pstate) : Prop :=
  f_lock (fs s0) = None /\ forall i p, nth_error (procs s0) i = Some p -> p = P0.

Lemma pinit_P0 n : all_P0_unlocked (pinit n).
Proof. split; simpl; auto. intros i p H. exact (repeat_spec _ _ _ (nth_error_In _ _ H)). Qed.
Lemma pinit_existing_P0 c n : all_P0_unlocked (pinit_existing c n).
Proof. split; simpl; auto. intros i p H. exact (repeat_spec _ _ _ (nth_error_In _ _ H)). Qed.

Lemma lock_inv_init s0 : all_P0_unlocked s0 -> lock_inv s0.
Proof.
  intros [Hl Hp] i. rewrite Hl. split; [discriminate|].
  intros (p & Hi & Hh). apply Hp in Hi. subst. discriminate.
Qed.

Lemma lock_inv_mutex s : lock_inv s -> one_inside s.
Proof.
  intros L i j pi pj. apply (holder_locks_unique holds_lock (f_lock (fs s))), lock_holder_split, L.
Qed.

(* what a step does to the flock word, in the terms of LockFacts.lock_move *)
Lemma pstep_lock_move lf s k s' :
  pstep lf s k = Some s' ->
  exists p p' f', nth_error (procs s) k = Some p /\ s' = setp s k p' f' /\
                  lock_move holds_lock (f_lock (fs s)) (f_lock f') k p p'.
Proof.
  intros H. step_cases H Hk; do 3 eexists; do 2 (split; [reflexivity|]);
    unfold lock_move; cbn; auto 6.
Qed.

Lemma lock_inv_step lf s k s' : lock_inv s -> pstep lf s k = Some s' -> lock_inv s'.
Proof.
  intros L H. destruct (pstep_lock_move _ _ _ _ H) as (p & p' & f' & Hk & -> & Hm).
  exact (lock_holder_step holds_lock _ _ _ _ _ _ Hk Hm L).
Qed.

Lemma lock_inv_reachable lf s0 s : all_P0_unlocked s0 -> preachable lf s0 s -> lock_inv s.
Proof.
  intros H0. apply preachable_ind_inv.
  - apply lock_inv_init; auto.
  - intros; eapply lock_inv_step; eauto.
Qed.

Definition pinitial (s0 : pstate) : Prop :=
  (exists n, s0 = pinit n) \/ (exists c n, s0 = pinit_existing c n).

Lemma pinitial_P0 s0 : pinitial s0 -> all_P0_unlocked s0.
Proof. intros [(n & ->)|(c & n & ->)]; [apply pinit_P0|apply pinit_existing_P0]. Qed.

Theorem C13_lock_holder lf c n s0 s :
  s0 = pinit n \/ s0 = pinit_existing c n ->
  preachable lf s0 s ->
  forall i, f_lock (fs s) = Some i <-> exists p, nth_error (procs s) i = Some p /\ holds_lock p = true.
Proof.
  intros H0 H. eapply lock_inv_reachable; eauto.
  destruct H0 as [->| ->]; [apply pinit_P0|apply pinit_existing_P0].
Qed.
Print Assumptions C13_lock_holder.

Theorem C13_mutex lf c n s0 s :
  s0 = pinit n \/ s0 = pinit_existing c n ->
  preachable lf s0 s -> one_inside s.
Proof. intros H0 H. apply lock_inv_mutex. exact (C13_lock_holder lf c n s0 s H0 H). Qed.
Print Assumptions C13_mutex.

(* program counters of the repaired protocol *)
Definition rep_pc (p : ppc) : bool :=
  match p with
  | PSawAbsent | PSawPresent | PCreated | PSized | PWritten | PErrExists | PPanic => false
  | _ => true
  end.
(* the process has written the header pages itself, or has read a valid header *)
Definition past_init (p : ppc) : bool :=
  match p with PInit2 | PInit3 | PInside _ | PCommitted _ => true | _ => false end.

Definition good_pcs (s : pstate) : Prop :=
  forall i p, nth_error (procs s) i = Some p -> rep_pc p = true.
(* a sized file without header exists only while somebody (the lock holder) is at PInit1 *)
Definition sized_inv (s : pstate) : Prop :=
  f_sized (fs s) = true -> f_init (fs s) = true \/ exists i, nth_error (procs s) i = Some PInit1.
Definition init_inv (s : pstate) : Prop :=
  forall i p, nth_error (procs s) i = Some p -> past_init p = true -> f_init (fs s) = true.
Definition seen_inv (s : pstate) : Prop :=
  forall i seen, nth_error (procs s) i = Some (PInside seen) -> seen = f_commits (fs s).

Definition rinv (s : pstate) : Prop :=
  lock_inv s /\ good_pcs s /\ sized_inv s /\ init_inv s /\ seen_inv s.

Definition rinit (s0 : pstate) : Prop :=
  all_P0_unlocked s0 /\ (f_sized (fs s0) = true -> f_init (fs s0) = true).

Lemma rinv_init s0 : rinit s0 -> rinv s0.
Proof.
  intros [H0 Hs]. split; [apply lock_inv_init; auto|]. destruct H0 as [_ Hp].
  repeat split.
  - intros i p Hi. apply Hp in Hi; subst; reflexivity.
  - intros Hz; left; auto.
  - intros i p Hi Hq. apply Hp in Hi; subst; discriminate.
  - intros i seen Hi. apply Hp in Hi; discriminate.
Qed.

(* the lock holder at PLocked never finds a sized file without a header *)
Lemma locked_sized_init s k :
  lock_inv s -> sized_inv s -> nth_error (procs s) k = Some PLocked ->
  f_sized (fs s) = true -> f_init (fs s) = true.
Proof.
  intros L Z Hk Hs. destruct (Z Hs) as [|(i & Hi)]; auto.
  assert (i = k) by (eapply (lock_inv_mutex _ L); eauto).
  subst. congruence.
Qed.

Lemma good_pcs_step s k s' : rinv s -> pstep true s k = Some s' -> good_pcs s'.
Proof.
  intros (L & G & Z & I & C) H.
  (* here and in the next three lemmas, [apply G in Hk; discriminate Hk] disposes of the transitions that leave a pc
     of the pinned protocol *)
  step_cases H Hk; try (apply G in Hk; discriminate Hk);
    try (intros j q Hj; nth_simpl Hk; destruct (Nat.eq_dec j k);
         [inversion Hj; subst; reflexivity | eapply G; eauto]).
  (* PLocked -> PPanic is impossible *)
  exfalso. pose proof (locked_sized_init _ _ L Z Hk E). congruence.
Qed.

Lemma sized_inv_step s k s' : rinv s -> pstep true s k = Some s' -> sized_inv s'.
Proof.
  intros (L & G & Z & I & C) H.
  step_cases H Hk; try (apply G in Hk; discriminate Hk);
    intros Hs; nth_simpl Hk; simpl in *;
    first [ left; reflexivity
          | right; exists k; nth_simpl Hk; destruct (Nat.eq_dec k k); [reflexivity|congruence]
          | destruct (Z Hs) as [Hi|(i & Hi)];
            [ left; exact Hi
            | right; exists i; nth_simpl Hk; destruct (Nat.eq_dec i k); [subst; congruence|exact Hi] ] ].
Qed.

Lemma init_inv_step s k s' : rinv s -> pstep true s k = Some s' -> init_inv s'.
Proof.
  intros (L & G & Z & I & C) H.
  step_cases H Hk; try (apply G in Hk; discriminate Hk);
    intros j q Hj Hq; nth_simpl Hk; simpl in *;
    try reflexivity;
    (destruct (Nat.eq_dec j k);
     [ inversion Hj; subst; simpl in Hq; try discriminate Hq; try assumption;
       try (eapply I; [exact Hk|reflexivity])
     | eapply I; eauto ]).
Qed.

Lemma seen_inv_step s k s' : rinv s -> pstep true s k = Some s' -> seen_inv s'.
Proof.
  intros (L & G & Z & I & C) H.
  step_cases H Hk; try (apply G in Hk; discriminate Hk);
    intros j sn Hj; nth_simpl Hk; simpl in *;
    (destruct (Nat.eq_dec j k) as [->|Hne];
     [ inversion Hj; subst; reflexivity
     | try (eapply C; eassumption) ]).
  (* PInside -> PCommitted by k while j <> k is at PInside: excluded by the lock *)
  exfalso. apply Hne. eapply (lock_inv_mutex _ L); eauto.
Qed.

Lemma rinv_step s k s' : rinv s -> pstep true s k = Some s' -> rinv s'.
Proof.
  intros R H. split; [|split; [|split; [|split]]].
  - destruct R as (L & _). eapply lock_inv_step; eauto.
  - eapply good_pcs_step; eauto.
  - eapply sized_inv_step; eauto.
  - eapply init_inv_step; eauto.
  - eapply seen_inv_step; eauto.
Qed.

Lemma rinv_reachable s0 s : rinit s0 -> preachable true s0 s -> rinv s.
Proof.
  intros H0. apply preachable_ind_inv.
  - apply rinv_init; auto.
  - intros; eapply rinv_step; eauto.
Qed.

Lemma rinit_pinit n : rinit (pinit n).
Proof. split; [apply pinit_P0|]. simpl. discriminate. Qed.
Lemma rinit_pinit_existing c n : rinit (pinit_existing c n).
Proof. split; [apply pinit_existing_P0|]. reflexivity. Qed.
Lemma rinit_either c n s0 : s0 = pinit n \/ s0 = pinit_existing c n -> rinit s0.
Proof. intros [->| ->]; [apply rinit_pinit|apply rinit_pinit_existing]. Qed.

Lemma rep_pc_not_failed p : rep_pc p = true -> failed p = false.
Proof. destruct p; simpl; congruence. Qed.

Theorem C13_no_failure c n s0 s :
  s0 = pinit n \/ s0 = pinit_existing c n ->
  preachable true s0 s -> nobody_failed s.
Proof.
  intros H0 H. destruct (rinv_reachable s0 s (rinit_either _ _ _ H0) H) as (_ & G & _).
  intros i p Hi. apply rep_pc_not_failed. eapply G; eauto.
Qed.
Print Assumptions C13_no_failure.

(* stronger: only program counters of the repaired protocol are ever reached *)
Theorem C13_repaired_pcs c n s0 s :
  s0 = pinit n \/ s0 = pinit_existing c n ->
  preachable true s0 s -> forall i p, nth_error (procs s) i = Some p -> rep_pc p = true.
Proof.
  intros H0 H. destruct (rinv_reachable s0 s (rinit_either _ _ _ H0) H) as (_ & G & _). exact G.
Qed.
Print Assumptions C13_repaired_pcs.

Theorem C13_sees_all c n s0 s :
  s0 = pinit n \/ s0 = pinit_existing c n ->
  preachable true s0 s -> sees_all s.
Proof.
  intros H0 H. destruct (rinv_reachable s0 s (rinit_either _ _ _ H0) H) as (_ & _ & _ & I & C).
  intros i seen Hi. split.
  - eapply I; eauto.
  - eapply C; eauto.
Qed.
Print Assumptions C13_sees_all.

Lemma can_step lf s i p :
  nth_error (procs s) i = Some p -> pfinished p = false ->
  (p = POpened -> f_lock (fs s) = None) ->
  exists s', pstep lf s i = Some s'.
Proof.
  intros Hi Hf Ho. unfold pstep. rewrite Hi.
  destruct p; simpl in Hf; try discriminate Hf;
    try (rewrite (Ho eq_refl));
    repeat match goal with
    | |- context [if ?b then _ else _] => destruct b
    end; eauto.
Qed.

Lemma holder_can_step lf s i p :
  nth_error (procs s) i = Some p -> holds_lock p = true -> exists s', pstep lf s i = Some s'.
Proof.
  intros Hi Hh. eapply can_step; eauto.
  - destruct p; simpl in *; congruence.
  - intros ->; discriminate.
Qed.

(* holds for both protocols: the only blocking step is flock while the lock is held,
   and the holder can always move *)
Lemma progress_gen lf s :
  lock_inv s -> p_all_done s = false -> exists i s', pstep lf s i = Some s'.
Proof.
  intros L H. apply forallb_false_nth in H. destruct H as (i & p & Hi & Hf).
  destruct (f_lock (fs s)) as [j|] eqn:El.
  - apply L in El. destruct El as (q & Hj & Hq). exists j. eapply holder_can_step; eauto.
  - exists i. eapply can_step; eauto.
Qed.

(* for either protocol (in the pinned one a process may still FAIL, but nobody waits forever) *)
Theorem C13_progress_any lf c n s0 s :
  s0 = pinit n \/ s0 = pinit_existing c n ->
  preachable lf s0 s -> p_all_done s = false -> exists i s', pstep lf s i = Some s'.
Proof. intros H0 H. apply progress_gen. exact (C13_lock_holder lf c n s0 s H0 H). Qed.
Print Assumptions C13_progress_any.

Theorem C13_progress c n s0 s :
  s0 = pinit n \/ s0 = pinit_existing c n ->
  preachable true s0 s -> p_all_done s = false -> exists i s', pstep true s i = Some s'.
Proof. exact (C13_progress_any true c n s0 s). Qed.
Print Assumptions C13_progress.

(* process 1 arrives between create and initialise, locks and maps a file without header *)
Example pinned_panic :
  nth_error (procs (prun false (pinit 2) [0;0;1;1;1;1])) 1 = Some PPanic.
Proof. vm_compute. reflexivity. Qed.

(* both processes see the file absent; the second create_new fails *)
Example pinned_err_exists :
  nth_error (procs (prun false (pinit 2) [0;1;0;1])) 1 = Some PErrExists.
Proof. vm_compute. reflexivity. Qed.

Theorem C13_pinned_refuted :
  ~ (forall s, preachable false (pinit 2) s -> nobody_failed s).
Proof.
  intros H.
  specialize (H _ (preachable_prun0 false (pinit 2) [0;0;1;1;1;1]) 1 PPanic pinned_panic).
  discriminate H.
Qed.
Print Assumptions C13_pinned_refuted.

(* the same statement, from the other schedule *)
Theorem C13_pinned_refuted_exists :
  ~ (forall s, preachable false (pinit 2) s -> nobody_failed s).
Proof.
  intros H.
  specialize (H _ (preachable_prun0 false (pinit 2) [0;1;0;1]) 1 PErrExists pinned_err_exists).
  discriminate H.
Qed.
Print Assumptions C13_pinned_refuted_exists.

(* the same schedules are harmless under the repaired protocol *)
Example repaired_same_schedules :
  nobody_failedb (prun true (pinit 2) [0;0;1;1;1;1]) = true /\
  nobody_failedb (prun true (pinit 2) [0;1;0;1]) = true.
Proof. vm_compute. auto. Qed.

(* non-vacuity: complete runs of the repaired protocol.
   P0 -> POpened -> PLocked -> PInit1 -> PInit2 -> PInit3 -> PInside -> PCommitted -> PClosed : 8 steps
   for the initialiser, 5 for everybody else *)
Example run2 :
  let s := prun true (pinit 2) [0;1;0;0;0;0;0;0;0;1;1;1;1] in
  procs s = [PClosed; PClosed] /\ f_commits (fs s) = 2 /\ f_init (fs s) = true /\
  f_lock (fs s) = None /\ p_all_done s = true.
Proof. vm_compute. auto. Qed.

Example run3 :
  let s := prun true (pinit 3) [2;0;1; 1;1;1;1;1;1;1; 0;2; 0;0;0; 2;2;2;2] in
  procs s = [PClosed; PClosed; PClosed] /\ f_commits (fs s) = 3 /\ f_init (fs s) = true /\
  f_lock (fs s) = None /\ p_all_done s = true.
Proof. vm_compute. auto. Qed.

Example run_existing :
  let s := prun true (pinit_existing 5 2) [1;0;1;1;0;1;1;0;0;0;0] in
  procs s = [PClosed; PClosed] /\ f_commits (fs s) = 7 /\ f_lock (fs s) = None /\
  p_all_done s = true.
Proof. vm_compute. auto. Qed.

(* intermediate state of run3: process 1 is inside and sees nothing yet; 0 and 2 wait *)
Example run3_mid :
  procs (prun true (pinit 3) [2;0;1; 1;1;1;1;1; 0;2]) = [POpened; PInside 0; POpened].
Proof. vm_compute. reflexivity. Qed.

(* second entrant sees the first commit *)
Example run2_sees :
  procs (prun true (pinit 2) [0;1;0;0;0;0;0;0;0;1;1]) = [PClosed; PInside 1].
Proof. vm_compute. reflexivity. Qed.
