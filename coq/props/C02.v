(* C02 -- a crash at any instant leaves the previous or the new commit, never a mix.
   Model: model/Crash.v (page-granular disk, two header slots, the commit's I/O sequence built from the
   order of write_data's steps as the translator reads it from the CURRENT source: Consts.commit_order).
   Premises visible in the statements: the commit setting (select = cur, copy-on-write: no written page is
   live in cur, the new snapshot = written pages + kept pages) -- copy-on-write is proved of the
   page-lifecycle machine (PLFacts.commit_cow) and validated per real commit; a torn header is not a valid
   header (NoTornCollision, evaluated on every torn image by the crash check). *)
From Coq Require Import List NArith String.
From Jamm Require Import Bytes Consts PL Crash CrashFacts CrashCurrent PLFacts.
Import ListNotations.

(* process kill: any prefix of the I/O sequence *)
Theorem C02_kill : forall d cur newh t written, commit_setting d cur newh t written ->
  forall n, pre_or_post d cur newh t written
    (run_prefix t newh (negb (current_slot d)) d (commit_io written) n).
Proof. exact C02_kill_current. Qed.
Print Assumptions C02_kill.

(* power loss: calls before the last completed sync applied; every later issued write independently applied,
   lost or torn (a torn data page is garbage, a torn header is invalid) *)
Theorem C02_power : forall d cur newh t written, commit_setting d cur newh t written ->
  forall n fates, pre_or_post d cur newh t written
    (power_image t newh (negb (current_slot d)) d (commit_io written) n fates).
Proof. exact power_current. Qed.
Print Assumptions C02_power.

(* once commit has returned (whole sequence issued, final sync completed) its effects survive *)
Theorem C02_durable : forall d cur newh t written, commit_setting d cur newh t written ->
  let ios := commit_io written in forall fates,
  let img := power_image t newh (negb (current_slot d)) d ios (List.length ios) fates in
  select img = Some newh /\ intact (orig_new d t written) img newh.
Proof. exact durable_current. Qed.
Print Assumptions C02_durable.

(* the pinned order (no sync between data and header) violates the property: witness by computation *)
Theorem C02_power_pinned_refuted : exists d cur newh t written n fates, commit_setting d cur newh t written /\
  let img := power_image t newh (negb (current_slot d)) d (commit_io_of pinned_order written) n fates in
  select img = Some newh /\ ~ intact (orig_new d t written) img newh /\ ~ pre_or_post d cur newh t written img.
Proof. exact C02_power_refuted. Qed.

(* the copy-on-write premise, from the page-lifecycle machine *)
Theorem C02_cow_premise : forall s w nf npd l' np' tx' s', PLInv s ->
  accept s (ECommit w nf npd l' np' tx') = Some s' ->
  (forall x, In x w -> ~ In x (live s)) /\
  (forall x, In x (live s) -> In x (live s') \/ In x (pend_all (pend s'))).
Proof. exact commit_cow. Qed.
Print Assumptions C02_cow_premise.

(* the premises are satisfiable *)
Example C02_setting_inhabited : commit_setting ex_d ex_cur ex_newh 2 [4%N; 5%N].
Proof. exact ex_setting. Qed.

(* the premise `commit_setting` is not only satisfiable: it HOLDS for every commit of the engine model (coq/model/Engine.v, the
   library's write path, tied to the library page for page) -- the pages a transaction writes, overflow pages and the new free-list
   run included, come from the free list or from beyond the high-water mark and are disjoint from everything the previous header
   reaches. So the three crash theorems above apply to every transaction of the engine: any kill point, any power-loss image, any
   single failing call leaves the previous or the new commit, and a completed commit is durable. *)
From Jamm Require Engine EnginePathFacts EngineRefines EngineOwnDefs EngineOwnSpill EngineCow.
Theorem C02_engine_commits_are_crash_safe : forall (st : Engine.db) (ops : list Engine.op) (ord : list Bytes.bytes) (st' : Engine.db),
  EngineOwnSpill.db_okz st -> Forall (EnginePathFacts.op_ok (Engine.d_disk st)) ops ->
  Engine.run_tx st ops ord = Engine.Ok st' -> EngineRefines.readable st' ->
  exists w : list (N * (N * Engine.ndata)),
    EngineCow.tx_cow st st' w /\
    (forall cd : Crash.disk, Crash.select cd = Some (EngineCow.eng_header st) ->
     let cur := EngineCow.eng_header st in let newh := EngineCow.eng_header st' in
     let t := Engine.d_tx st' in let wrt := EngineCow.tx_written st st' w in
     let tgt := negb (Crash.current_slot cd) in let ios := Crash.commit_io wrt in
     (forall (n : nat) (fates : nat -> Crash.fate),
        CrashFacts.pre_or_post cd cur newh t wrt (Crash.power_image t newh tgt cd ios n fates)) /\
     (forall fates : nat -> Crash.fate,
        let img := Crash.power_image t newh tgt cd ios (List.length ios) fates in
        Crash.select img = Some newh /\ Crash.intact (CrashFacts.orig_new cd t wrt) img newh) /\
     (forall (k : nat) (f : Crash.fate),
        CrashFacts.pre_or_post cd cur newh t wrt (Crash.fault_image t newh tgt cd ios k f))).
Proof. exact EngineCow.engine_commit_crash_safe. Qed.
Print Assumptions C02_engine_commits_are_crash_safe.

Theorem C02_engine_writes_only_free_pages : forall (st : Engine.db) (ops : list Engine.op) (ord : list Bytes.bytes) (st' : Engine.db),
  EngineOwnSpill.db_okz st -> Forall (EnginePathFacts.op_ok (Engine.d_disk st)) ops ->
  Engine.run_tx st ops ord = Engine.Ok st' ->
  exists w : list (N * (N * Engine.ndata)),
    Engine.d_disk st' = EngineSpillFacts.apply_wr w (Engine.d_psz st) (Engine.d_disk st) /\
    (forall x : N, EngineCow.written st st' w x ->
       ((Engine.d_np st <= x)%N \/ In x (Engine.free (Engine.begin_w st))) /\
       ~ In x (EngineRefines.live_of st (EngineOwnDefs.Rof st)) /\ (2 <= x)%N /\ (x < Engine.d_np st')%N).
Proof. exact EngineCow.run_tx_writes_from_free. Qed.
Print Assumptions C02_engine_writes_only_free_pages.

(* histories: ANY NUMBER of commit attempts in a row, each cut by a power loss (any point, any fate of every un-synced
   write, torn header included), each starting from what the previous crash left. The invariant -- a header is selected and
   every page it needs holds what its own or an earlier transaction wrote -- survives every attempt; what is selected is
   the initial header or the header of one of the attempts; the target slot, evaluated on the disk as the crash left it,
   is never the slot of the only valid header (the rule is read from write_data by the translator:
   Consts.header_target_other_than_current). *)
From Jamm Require CrashHistories.
Theorem C02_any_number_of_crashes : forall l d, CrashHistories.hist_inv d -> CrashHistories.attempts_ok d l ->
  CrashHistories.hist_inv (CrashHistories.run_attempts d l).
Proof. exact CrashHistories.crash_history_inv. Qed.
Print Assumptions C02_any_number_of_crashes.

Theorem C02_history_selects_a_committed_header : forall l d cur0, select d = Some cur0 -> CrashHistories.hist_inv d ->
  CrashHistories.attempts_ok d l ->
  exists h, select (CrashHistories.run_attempts d l) = Some h /\ (h = cur0 \/ In h (map CrashHistories.a_newh l)).
Proof. exact CrashHistories.crash_history_selects. Qed.
Print Assumptions C02_history_selects_a_committed_header.

Theorem C02_target_slot_rule_from_source : header_target_other_than_current = true.
Proof. exact CrashHistories.header_target_pinned. Qed.

(* writing the slot with the lower RAW tx id instead (validity ignored) loses every header in two crashes: computed *)
Theorem C02_other_target_rule_refuted :
  select CrashHistories.ex_two = Some (mkHeader 5 [4%N]) /\
  select (write_slot CrashHistories.ex_two false SInvalid) = None /\
  select (write_slot CrashHistories.ex_two (negb (current_slot CrashHistories.ex_two)) SInvalid) = Some (mkHeader 5 [4%N]).
Proof. exact CrashHistories.two_crashes_other_rule_loses_all. Qed.
Print Assumptions C02_other_target_rule_refuted.

(* histories at the ENGINE level, with contents: a transaction runs, the power fails at any point of its commit (any
   fate of every un-synced write), the machine restarts and reopens the file on whatever header the crashed disk selects,
   the next transaction runs from there -- any number of times. `crash_run` follows the branch the image dictates (the
   attempt is lost: the previous state reopened; or durable: the new state). Whatever the cuts: the final disk selects the
   final engine state's header with every page it needs settled, the complete engine invariant holds, and the database
   reads as the reference after EXACTLY the transactions whose commit survived, in order -- never a mix. A run exists for
   every attempt list whose transactions the model accepts (totality), and an attempt that issued its whole I/O sequence
   survives. *)
From Jamm Require EngineAbs EngineReopen EngineCrashHistories.
Theorem C02_engine_crash_histories : forall st0 cd0 l surv stf cdf,
  EngineCrashHistories.crash_run st0 cd0 l surv stf cdf -> EngineCrashHistories.Sim st0 cd0 -> EngineReopen.db_inv st0 ->
  EngineCrashHistories.Sim stf cdf /\ EngineReopen.db_inv stf /\
  EngineAbs.abs_db stf = EngineCrashHistories.sem_survivors surv (EngineAbs.abs_db st0).
Proof. exact EngineCrashHistories.engine_crash_history. Qed.
Print Assumptions C02_engine_crash_histories.

Theorem C02_engine_crash_histories_exist : forall l st cd, EngineCrashHistories.Sim st cd -> EngineReopen.db_inv st ->
  EngineCrashHistories.attempts_okE st l -> exists surv stf cdf, EngineCrashHistories.crash_run st cd l surv stf cdf.
Proof. exact EngineCrashHistories.crash_run_total. Qed.
Print Assumptions C02_engine_crash_histories_exist.

Check EngineCrashHistories.engine_attempt_complete. Check EngineCrashHistories.crash_run_survivors.
Check EngineCrashHistories.ExCrash.two_crashes. Check EngineCrashHistories.ExCuts.lost_cut. Check EngineCrashHistories.ExCuts.durable_cut.

(* the whole alphabet in one history (EngineMixedHistories): completed commits, commits that report an I/O error (the
   process goes on), power losses during a commit followed by a reopen, clean reopens, and write transactions that are
   dropped without commit, in ANY order and number: the disk selects the final state's header with settled pages, the
   complete engine invariant holds, and the database reads as the reference after exactly the commits that survived, in
   order (an in-order sub-list of the commit-like events: `mixed_run_survivors`); a run exists whenever the model accepts
   the transactions on every continuation (`mixed_run_total`). *)
From Jamm Require EngineAbs EngineReopen EngineCrashHistories EngineMixedHistories.
Theorem C02_engine_mixed_histories : forall st0 cd0 l surv stf cdf,
  EngineMixedHistories.mixed_run st0 cd0 l surv stf cdf -> EngineCrashHistories.Sim st0 cd0 -> EngineReopen.db_inv st0 ->
  EngineCrashHistories.Sim stf cdf /\ EngineReopen.db_inv stf /\
  EngineAbs.abs_db stf = EngineCrashHistories.sem_survivors surv (EngineAbs.abs_db st0).
Proof. exact EngineMixedHistories.engine_mixed_history. Qed.
Print Assumptions C02_engine_mixed_histories.
Check EngineMixedHistories.mixed_run_survivors. Check EngineMixedHistories.mixed_run_total. Check EngineMixedHistories.ExMixed.every_kind.
