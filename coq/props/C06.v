(* C06 -- uncommitted and failed work leaves no trace. *)
From Coq Require Import List NArith Bool.
From Jamm Require Import Bytes Spec PL PLFacts PLProps SpecFacts.
Import ListNotations.

(* beginning a writer and abandoning it is the identity on the shared state (page ownership, free list,
   pending lists, high-water mark, transaction counter, registered readers) *)
Theorem C06_begin_rollback : forall s f p s', accept_all s [EBeginW f p; ERollback] = Some s' -> s' = s.
Proof. exact begin_rollback_same. Qed.
Print Assumptions C06_begin_rollback.

(* any history without a commit or a reopen leaves live/free/pending/np/tx unchanged *)
Theorem C06_no_commit_no_change : forall es s s',
  Forall no_commit es -> accept_all s es = Some s' -> same_db s s'.
Proof. exact no_commit_same_db. Qed.
Print Assumptions C06_no_commit_no_change.

(* reference semantics: every mutating call on a read-only transaction is refused with ReadOnlyTx and changes
   nothing; (the library must return what the reference returns: checked on every run) *)
Theorem C06_read_only_refused : forall t o, t_writable t = false -> is_mutator o = true -> o <> ODump ->
  step_op t o = (t, RErr ReadOnlyTx).
Proof. exact read_only_refused. Qed.
Print Assumptions C06_read_only_refused.

(* a call that returns an error leaves the transaction's view unchanged *)
Theorem C06_error_no_change : forall t o t' e, step_op t o = (t', RErr e) -> t' = t.
Proof. exact error_no_change. Qed.
Print Assumptions C06_error_no_change.

(* committing a read-only transaction is refused; the committed state is unchanged *)
Theorem C06_ro_commit_refused : forall d t x, tlookup t (d_txs d) = Some x -> t_writable x = false ->
  step d (CCommit t) = (mkDb (d_committed d) (tremove t (d_txs d)), RErr ReadOnlyTx).
Proof. exact ro_commit_refused. Qed.
(* dropping a transaction, and every call inside one, leaves the committed state unchanged *)
Theorem C06_drop_no_change : forall d t, d_committed (fst (step d (CDrop t))) = d_committed d.
Proof. exact drop_no_change. Qed.
Theorem C06_op_no_commit_change : forall d t o, d_committed (fst (step d (COp t o))) = d_committed d.
Proof. exact op_no_commit_change. Qed.
Print Assumptions C06_op_no_commit_change.

(* engine model: closing and reopening changes neither the stored data nor its meaning, and without open readers it is
   invisible to the next writer *)
From Jamm Require Bytes Engine EngineAbs FreelistFacts EngineOwnDefs EngineNoLeak EngineReopen.
Theorem C06_engine_reopen_is_invisible : forall (st : Engine.db) (ops : list Engine.op) (ord : list Bytes.bytes),
  FreelistFacts.asc (Engine.d_free st) -> EngineOwnDefs.pend_le st -> EngineNoLeak.flids_ok st ->
  Engine.run_tx (Engine.reopen_db st) ops ord = Engine.run_tx st ops ord.
Proof. exact EngineReopen.run_tx_reopen. Qed.
Print Assumptions C06_engine_reopen_is_invisible.

Theorem C06_engine_reopen_keeps_meaning : forall st : Engine.db, EngineAbs.abs_db (Engine.reopen_db st) = EngineAbs.abs_db st.
Proof. exact EngineReopen.reopen_abs. Qed.

(* uncommitted and failed work leaves no trace, inside histories (EngineMixedHistories): a write transaction dropped without
   commit (ERollback), a commit that failed before its header became visible, and a commit cut by a power loss before its header
   became durable contribute NOTHING to what the database reads as afterwards -- the survivors are exactly the commits that became
   visible, whatever else happened in between *)
From Jamm Require EngineCrashHistories EngineMixedHistories.
Theorem C06_engine_histories_leave_no_trace : forall st0 cd0 l surv stf cdf,
  EngineMixedHistories.mixed_run st0 cd0 l surv stf cdf -> EngineCrashHistories.Sim st0 cd0 -> EngineReopen.db_inv st0 ->
  EngineCrashHistories.Sim stf cdf /\ EngineReopen.db_inv stf /\
  EngineAbs.abs_db stf = EngineCrashHistories.sem_survivors surv (EngineAbs.abs_db st0).
Proof. exact EngineMixedHistories.engine_mixed_history. Qed.
Print Assumptions C06_engine_histories_leave_no_trace.
Check EngineMixedHistories.mixed_run_survivors.
