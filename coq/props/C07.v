(* C07 -- a write transaction reads its own uncommitted changes.
   Proved: the cursor machine over ANY view without empty branches -- in particular views that contain
   leaves emptied by deletes of the same transaction -- yields every entry exactly once in view order, and
   the pinned (pre-repair) machine did not (it stopped at an emptied leaf).
   Proved for POINT LOOKUPS through the overlay (engine model, coq/model/Engine.v, compared page for page with the
   library): after a put / delete on a well-formed bucket, the same transaction's lookups answer what the
   reference map answers after that operation -- for every key, every tree shape, every mix of materialised
   nodes and mapped pages (C07_read_own_put / C07_read_own_delete).
   and, through nested buckets and after ANY prefix of the transaction's operations (C07_tx_reads, engine model):
   a lookup anywhere in the bucket tree sees exactly the effect of the operations done so far -- own puts, own deletes,
   buckets created or deleted in this transaction at any depth -- on top of the committed state, with the library's error
   for a path that is not a bucket.
   The same for CURSORS over the overlay (scans / seeks / ranges inside a write transaction): C07_tx_scan and
   C07_tx_reads_cursor below; every such read of the library is also compared with the model on every run. *)
From Coq Require Import List NArith.
From Jamm Require Import Bytes Codec Tree Spec Cursor CursorFacts.
Import ListNotations.

Theorem C07_scan_with_empty_leaves : forall t, no_empty_branch t = true ->
  scan t = CVal (map Cursor.to_item (flatten t)).
Proof. exact cursor_all. Qed.
Print Assumptions C07_scan_with_empty_leaves.

(* the defect this property was written for, as a theorem about the pinned machine *)
Theorem C07_legacy_refuted :
  no_empty_branch skip_tree = true /\ flatten skip_tree = [EKv [Byte.x02] [Byte.x2a]] /\
  iterate_legacy false (S (nodes skip_tree)) (S (nodes skip_tree)) (new_cursor skip_tree) = CVal [] /\
  scan skip_tree = CVal [IKv [Byte.x02] [Byte.x2a]].
Proof. exact next_legacy_skips_refuted. Qed.
Print Assumptions C07_legacy_refuted.

(* the overlay: transaction-local nodes shadowing mapped pages *)
From Jamm Require Engine EngineFacts EngineModifyFacts EngineTop.
Theorem C07_read_own_put : forall d b l k v s b' s',
  EngineModifyFacts.bucket_wf d b -> EngineModifyFacts.bucket_view d b l ->
  Engine.b_put d b k v s = Engine.Ok (b', s') ->
  forall k', Engine.b_lookup d b' k' =
             Engine.Ok (if beq k' k then Some (Engine.LKv k v) else Spec.alookup k' (EngineFacts.assoc l)).
Proof. exact EngineTop.read_own_put. Qed.
Print Assumptions C07_read_own_put.

Theorem C07_read_own_delete : forall d b l k s b' s',
  EngineModifyFacts.bucket_wf d b -> EngineModifyFacts.bucket_view d b l ->
  Engine.b_delete d b k s = Engine.Ok (b', s') ->
  forall k', Engine.b_lookup d b' k' = Engine.Ok (if beq k' k then None else Spec.alookup k' (EngineFacts.assoc l)).
Proof. exact EngineTop.read_own_delete. Qed.
Print Assumptions C07_read_own_delete.

(* before any mutation the overlay answers what the committed pages answer *)
Theorem C07_lookup_is_reference : forall d b l k,
  EngineModifyFacts.bucket_wf d b -> EngineModifyFacts.bucket_view d b l ->
  Engine.b_lookup d b k = Engine.Ok (Spec.alookup k (EngineFacts.assoc l)).
Proof. exact EngineModifyFacts.b_lookup_refines. Qed.
Print Assumptions C07_lookup_is_reference.

(* point reads at any time inside a write transaction, anywhere in the nested bucket tree *)
From Jamm Require EngineAbs EnginePathFacts EngineTxReads.
Theorem C07_tx_reads : forall st ops root' s', EnginePathFacts.db_pages_wf st ->
  Forall (EnginePathFacts.op_ok (Engine.d_disk st)) ops ->
  EnginePathFacts.tx_fold st ops (Engine.root_bucket st, Engine.begin_w st) = Engine.Ok (root', s') ->
  forall path k, EngineTxReads.rd_matches k (EngineTxReads.ref_lookup path (EngineAbs.sem_tx ops (EngineAbs.abs_db st)) k)
                                           (EngineTxReads.ovl_lookup (Engine.d_disk st) root' path k).
Proof. exact EngineTxReads.tx_reads. Qed.
Print Assumptions C07_tx_reads.

(* cursors inside a write transaction: the overlay as the tree the cursor walks (model/EngineScan.v).
   After ANY list of operations of a write transaction on any state with well-formed pages, at ANY nested bucket path:
   a full cursor scan through the overlay returns exactly the reference's entries (pairs and nested-bucket markers) in
   key order; a path that is not a bucket answers the library's error. No fuel hypothesis beyond op_ok. *)
From Jamm Require EngineScan EngineTxScan EngineTxScanEx EngineReadBridge.
Import Coq.Strings.String.StringSyntax. Delimit Scope string_scope with string.
Theorem C07_tx_scan : forall st ops path, EnginePathFacts.db_pages_wf st ->
  Forall (EnginePathFacts.op_ok (Engine.d_disk st)) ops ->
  match Spec.get_at path (EngineAbs.sem_tx ops (EngineAbs.abs_db st)) with
  | Some (Spec.SBucket o x es) => EngineScan.tx_scan st ops path = Engine.Ok (CVal (Spec.items_of (Spec.SBucket o x es)))
  | Some (Spec.SVal _) => EngineScan.tx_scan st ops path = Engine.Err "IncompatibleValue"%string
  | None => EngineScan.tx_scan st ops path = Engine.Err "BucketMissing"%string \/
            EngineScan.tx_scan st ops path = Engine.Err "IncompatibleValue"%string
  end.
Proof. exact EngineTxScan.tx_scan_spec. Qed.
Print Assumptions C07_tx_scan.

(* get / scan / every range / seek through the cursor machine on the overlay = the reference's answers; the overlay may
   hold leaves the transaction has emptied (they stay in place until commit) *)
Theorem C07_tx_reads_cursor : forall st ops path o x es, EnginePathFacts.db_pages_wf st ->
  Forall (EnginePathFacts.op_ok (Engine.d_disk st)) ops ->
  Spec.get_at path (EngineAbs.sem_tx ops (EngineAbs.abs_db st)) = Some (Spec.SBucket o x es) ->
  let b := Spec.SBucket o x es in
  (forall k, EngineScan.tx_cget st ops path k = Engine.Ok (EngineReadBridge.ref_get b k)) /\
  EngineScan.tx_scan st ops path = Engine.Ok (CVal (Spec.items_of b)) /\
  (forall lo hi, EngineScan.tx_range st ops path lo hi =
     Engine.Ok (CVal (filter (fun i => Spec.in_bounds lo hi (Spec.item_key i)) (Spec.items_of b)))) /\
  (forall k, exists l, EngineScan.tx_seek st ops path k = Engine.Ok (EngineReadBridge.ref_found b k, CVal l) /\
     if EngineReadBridge.ref_found b k then l = Spec.from_succ k (Spec.items_of b)
     else l = Spec.from_pred k (Spec.items_of b) \/ l = Spec.from_succ k (Spec.items_of b)).
Proof. exact EngineTxScan.tx_reads_cursor. Qed.
Print Assumptions C07_tx_reads_cursor.

(* the engine's own search through the overlay (what put / delete consult) agrees too *)
Theorem C07_tx_get : forall st ops path k, EnginePathFacts.db_pages_wf st ->
  Forall (EnginePathFacts.op_ok (Engine.d_disk st)) ops ->
  exists r, EngineScan.tx_get st ops path k = r /\
    EngineTxReads.rd_matches k (EngineTxReads.ref_lookup path (EngineAbs.sem_tx ops (EngineAbs.abs_db st)) k) r.
Proof. exact EngineTxScan.tx_get_reads. Qed.
Print Assumptions C07_tx_get.

(* non-vacuity: a reachable state, a transaction that empties a whole leaf, nested buckets, a refused put *)
Check EngineTxScanEx.exS_pages_wf. Check EngineTxScanEx.exS_empty_leaf. Check EngineTxScanEx.exS_computed.
Check EngineTxScanEx.exS_by_theorem.
Print Assumptions EngineTxScanEx.exS_by_theorem.
