(* C03 -- a read-only transaction sees one frozen snapshot for its whole life.
   Stated on the page-lifecycle machine (model/PL.v), whose accepted runs include every real run
   (checked on every execution by the extracted acceptor over the library's hook events). *)
From Coq Require Import List NArith.
From Jamm Require Import PL PLFacts PLProps.
Import ListNotations.

(* over ANY accepted history during which the reader stays registered: no commit writes a page of its
   snapshot, it is still registered at the end, and the invariant (its pages are neither free nor in a
   pending list that a writer may release) still holds *)
Theorem C03_reader_frozen : forall es s s' r L,
  PLInv s -> In (r, L) (readers s) -> accept_all s es = Some s' -> keeps_reader r es ->
  (forall x, In x (writes_of es) -> ~ In x L) /\ In (r, L) (readers s') /\ PLInv s'.
Proof. exact reader_frozen. Qed.
Print Assumptions C03_reader_frozen.

(* the same from the initial state: a reader that begins after any history es1 and stays open during es2 *)
Theorem C03_from_init : forall es1 es2 s1 s',
  accept_all init_pl es1 = Some s1 -> accept_all init_pl (es1 ++ EBeginR :: es2) = Some s' ->
  keeps_reader (tx s1) es2 ->
  (forall x, In x (writes_of es2) -> ~ In x (live s1)) /\ In (tx s1, live s1) (readers s') /\ PLInv s'.
Proof. exact reader_frozen_from_init. Qed.
Print Assumptions C03_from_init.

(* one step, with what the next writer may take: the snapshot's pages are not in the shared free set, not in
   any pending list the oldest-reader bound lets a writer release, not in the next writer's free list *)
Theorem C03_retained : forall s w nf npd l' np' tx' s' r L,
  PLInv s -> accept s (ECommit w nf npd l' np' tx') = Some s' -> In (r, L) (readers s) ->
  In (r, L) (readers s') /\
  (forall x, In x L -> ~ In x (free s')) /\
  (forall u ps, In (u, ps) (pend s') -> (u <= r)%N -> forall x, In x L -> ~ In x ps) /\
  (forall t f1 p1, writer_view s' = (t, f1, p1) -> forall x, In x L -> ~ In x f1).
Proof. exact snapshot_retained_after_commit. Qed.
Print Assumptions C03_retained.

(* non-vacuity: a concrete accepted run during which readers are registered (PLFacts.run1) *)
Example C03_run_accepted : accept_all init_pl run1 <> None.
Proof. rewrite run1_accepted. discriminate. Qed.

(* the engine model: a transaction leaves every page of the PREVIOUS committed state untouched, so a reader of the previous
   header reads, on the disk after the commit, exactly what it read before (the latest snapshot; snapshots pinned across several
   commits are the page-lifecycle theorems above: the engine model has no reader registry) *)
From Jamm Require Bytes Engine EngineAbs EnginePathFacts EngineRefines EngineOwnDefs EngineOwnSpill EngineCow.
Theorem C03_engine_previous_snapshot_intact : forall (st : Engine.db) (ops : list Engine.op) (ord : list Bytes.bytes) (st' : Engine.db),
  EngineOwnSpill.db_okz st -> Forall (EnginePathFacts.op_ok (Engine.d_disk st)) ops ->
  Engine.run_tx st ops ord = Engine.Ok st' ->
  (forall p : N, In p (EngineRefines.live_of st (EngineOwnDefs.Rof st)) ->
     Engine.dget (Engine.d_disk st') p = Engine.dget (Engine.d_disk st) p) /\
  (forall p : N, In p (EngineOwnDefs.Rof st) -> Engine.dget (Engine.d_disk st') p = Engine.dget (Engine.d_disk st) p) /\
  EngineOwnDefs.fpg 16 (Engine.d_disk st') (Engine.d_root st) = EngineOwnDefs.Rof st /\
  EngineOwnDefs.runs (Engine.d_disk st') (EngineOwnDefs.fpg 16 (Engine.d_disk st') (Engine.d_root st)) =
    EngineOwnDefs.runs (Engine.d_disk st) (EngineOwnDefs.Rof st) /\
  (forall n : nat, EngineAbs.abs_bucket n (Engine.d_disk st') (Engine.d_root st) (Engine.d_next st) =
                   EngineAbs.abs_bucket n (Engine.d_disk st) (Engine.d_root st) (Engine.d_next st)) /\
  EngineAbs.abs_bucket 16 (Engine.d_disk st') (Engine.d_root st) (Engine.d_next st) = EngineAbs.abs_db st.
Proof. exact EngineCow.old_snapshot_intact. Qed.
Print Assumptions C03_engine_previous_snapshot_intact.

(* the engine model WITH read transactions (coq/model/EngineR.v: a writer releases only the pending batches older than the
   oldest open reader, as the library does: k = 0; k = 1 is the tightest safe choice, k = 2 is refuted): in every history of
   transactions, reader begins and reader ends from the empty database, EVERY OPEN READER still finds every page of its snapshot
   (tree runs with overflow pages, free-list run) byte-identical on the current disk, and its root still means the contents it
   began on -- however many transactions committed meanwhile; and the current state is the reference's. *)
From Jamm Require Spec EngineR EngineReadersInv EngineReaders EngineReadersEx.
Theorem C03_engine_snapshot_isolation : forall (k P : N) (es : list EngineR.hstep) (h' : EngineR.hstate),
  (k <= 1)%N -> (0 < P)%N ->
  EngineReaders.hist_ok k (Engine.init_db P, nil) es ->
  EngineR.run_hist_k k (Engine.init_db P, nil) es = Engine.Ok h' ->
  (forall r : EngineR.reader, In r (snd h') ->
     (forall p : N, In p (EngineReaders.snap r) ->
        Engine.dget (Engine.d_disk (fst h')) p = Engine.dget (Engine.d_disk r) p) /\
     EngineAbs.abs_bucket 16 (Engine.d_disk (fst h')) (Engine.d_root r) (Engine.d_next r) = EngineAbs.abs_db r) /\
  EngineReadersInv.db_okr (fst h') /\
  EngineAbs.abs_db (fst h') = EngineReaders.sem_hist es (Spec.SBucket 0 0 nil).
Proof. exact EngineReaders.snapshot_isolation_init. Qed.
Print Assumptions C03_engine_snapshot_isolation.

(* releasing one batch more (bound = oldest reader + 2) breaks a reader: computed history, negation of the statement *)
Theorem C03_engine_release_bound_is_tight :
  ~ (forall (es : list EngineR.hstep) (h h' : EngineR.hstate),
       EngineReaders.HInv h -> EngineReaders.hist_ok 2 h es -> EngineR.run_hist_k 2 h es = Engine.Ok h' ->
       forall r : EngineR.reader, In r (snd h') ->
       EngineAbs.abs_bucket 16 (Engine.d_disk (fst h')) (Engine.d_root r) (Engine.d_next r) = EngineAbs.abs_db r).
Proof. exact EngineReadersEx.ExReaders.snapshot_isolation_false_k2. Qed.
Print Assumptions C03_engine_release_bound_is_tight.
