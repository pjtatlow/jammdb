(* C08 -- cursors, seeks and ranges return the right entries in order.
   Property theorems only; proofs live in proofs/CursorFacts.v, SearchFacts.v, SeekFacts.v, EngineReadBridge.v
   and EngineTxScan.v. *)
From Coq Require Import List NArith.
From Jamm Require Import Bytes Codec Tree Spec Cursor CursorFacts.
Import ListNotations.

(* a cursor yields every entry of its bucket exactly once, in tree order (= ascending key order on a
   well-formed tree); empty leaves left by deletes inside a transaction are skipped *)
Theorem C08_cursor_all : forall t, no_empty_branch t = true ->
  scan t = CVal (map Cursor.to_item (flatten t)).
Proof. exact cursor_all. Qed.
Print Assumptions C08_cursor_all.

(* calling next() again after the end is harmless: None forever, never a panic (both build profiles:
   the repaired machine has no usize subtraction) *)
Theorem C08_cursor_end : forall t, no_empty_branch t = true -> forall m, exists c_end,
  run (length (flatten t) + m) (S (nodes t)) (new_cursor t)
  = CVal (c_end, map (fun e => Some (Cursor.to_item e)) (flatten t) ++ repeat None m).
Proof. exact cursor_end. Qed.
Print Assumptions C08_cursor_end.

Theorem C08_never_panics : forall t, no_empty_branch t = true -> forall c,
  reachable (S (nodes t)) t c -> next (S (nodes t)) c <> CPanic.
Proof. exact cursor_never_panics. Qed.
Print Assumptions C08_never_panics.

(* cursor.rs of the pinned release ([next_legacy], debug build) violates the property: on an empty bucket the
   second call panics *)
Theorem C08_legacy_debug_refuted : forall F, exists c1,
  next_legacy true (S F) (new_cursor (TL 3%N 0%N [])) = CVal (c1, None) /\
  next_legacy true (S F) c1 = CPanic.
Proof. exact next_legacy_debug_refuted. Qed.
Print Assumptions C08_legacy_debug_refuted.

From Jamm Require Import SearchFacts SeekFacts.

(* seek reports whether the key exists and positions iteration at that key or, if it is absent, at an
   immediate neighbour (its predecessor or its successor) so that every later entry follows in order *)
Theorem C08_seek_spec : forall t k, wf_tree t = true ->
  let items := map Cursor.to_item (flatten t) in
  exists ex l, seek_scan t k = (ex, CVal l) /\
    (ex = true <-> In k (map lent_key (flatten t))) /\
    (ex = true -> l = from_succ k items) /\
    (ex = false -> l = from_pred k items \/ l = from_succ k items).
Proof. exact seek_spec. Qed.
Print Assumptions C08_seek_spec.

(* a range scan yields exactly the entries within its bounds, for all nine combinations of bound kinds
   (reversed bounds give the empty list because the filter is empty) *)
Theorem C08_range_spec : forall t lo hi, wf_tree t = true ->
  range_scan t lo hi = CVal (filter (fun i => in_bounds lo hi (item_key i)) (map Cursor.to_item (flatten t))).
Proof. exact range_spec. Qed.
Print Assumptions C08_range_spec.

(* the bucket-only and pair-only iterators filter the cursor's output without skipping or duplicating *)
Theorem C08_buckets_spec : forall t, wf_tree t = true ->
  cur_map (filter is_bucket_item) (scan t) = CVal (filter is_bucket_item (map Cursor.to_item (flatten t))).
Proof. exact buckets_spec. Qed.
Theorem C08_pairs_spec : forall t, wf_tree t = true ->
  cur_map (filter is_pair_item) (scan t) = CVal (filter is_pair_item (map Cursor.to_item (flatten t))).
Proof. exact pairs_spec. Qed.
Print Assumptions C08_pairs_spec.

(* point lookups are association in the flattened (sorted) entry list *)
Theorem C08_get_spec : forall t k, wf_tree t = true ->
  Cursor.get t k = option_map Cursor.to_item (find (fun e => beq (lent_key e) k) (flatten t)).
Proof. exact get_spec. Qed.
Print Assumptions C08_get_spec.

(* On every tree the engine model commits (any history, any bucket), not only on trees assumed well-formed: the cursor
   machine's get / scan / every range / seek agree with the reference (EngineReadBridge.history_read, quoted in full in
   props/C01.v as C01_committed_data_reads_back_as_reference). The read-path specifications hold without the equal-height
   conjunct of wf_tree (NH.*_nh), which is what the engine's invariant provides. *)
From Jamm Require EngineReadBridge.
Theorem C08_read_specs_without_height : forall t k, EngineReadBridge.NH.wf_tree_nh t = true ->
  Cursor.get t k = option_map Cursor.to_item (find (fun e => beq (lent_key e) k) (flatten t)).
Proof. exact EngineReadBridge.NH.get_spec_nh. Qed.
Print Assumptions C08_read_specs_without_height.

(* Inside a write transaction (model/EngineScan.v: the overlay of materialised nodes over mapped pages as the tree
   the cursor walks, leaves emptied by the transaction included): after any operations, at any nested bucket path, the
   cursor machine's get / scan / every range / seek = the reference's answers *)
From Jamm Require Engine EngineAbs EnginePathFacts EngineScan EngineTxScan.
Theorem C08_inside_write_tx : forall st ops path o x es, EnginePathFacts.db_pages_wf st ->
  Forall (EnginePathFacts.op_ok (Engine.d_disk st)) ops ->
  Spec.get_at path (EngineAbs.sem_tx ops (EngineAbs.abs_db st)) = Some (Spec.SBucket o x es) ->
  let b := Spec.SBucket o x es in
  (forall k, EngineScan.tx_cget st ops path k = Engine.Ok (EngineReadBridge.ref_get b k)) /\
  EngineScan.tx_scan st ops path = Engine.Ok (CVal (Spec.items_of b)) /\
  (forall lo hi, EngineScan.tx_range st ops path lo hi =
     Engine.Ok (CVal (filter (fun i => Spec.in_bounds lo hi (Spec.item_key i)) (Spec.items_of b)))) /\
  (forall k, exists l, EngineScan.tx_seek st ops path k = Engine.Ok (EngineReadBridge.ref_found b k, CVal l) /\
     if EngineReadBridge.ref_found b k then l = Spec.from_succ k (Spec.items_of b)
     else l = Spec.from_pred k (Spec.items_of b) \/ l = Spec.from_succ k (Spec.items_of b)).
Proof. exact EngineTxScan.tx_reads_cursor. Qed.
Print Assumptions C08_inside_write_tx.
