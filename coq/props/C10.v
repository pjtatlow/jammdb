(* C10 -- freed space is reused: file growth is bounded by live data.
   The allocator (model/Freelist.v = freelist.rs transliterated, replayed against the library's alloc / free /
   publish events on every run) finds a run whenever one exists: the file grows ONLY when no run fits.
   Pages become reusable exactly when no registered reader can still need them, also across reopen.
   Plateau: with no reader open, the high-water mark is bounded by two generations of live data. *)
From Coq Require Import List NArith.
From Jamm Require Import Bytes PL Freelist PLFacts PLProps FreelistFacts.
Import ListNotations.
Local Open Scope N_scope.

(* allocation is sound (the run is free, consecutive, the FIRST such run, and exactly it is removed) ... *)
Theorem C10_alloc_sound : forall fr n p fr', asc fr -> ge2 fr -> 0 < n -> fl_allocate fr n = Some (p, fr') ->
  (forall i, i < n -> In (p + i) fr) /\
  (forall x, In x fr' <-> In x fr /\ ~ (p <= x < p + n)) /\ asc fr' /\
  (forall q, (forall i, i < n -> In (q + i) fr) -> p <= q).
Proof. exact alloc_sound. Qed.
Print Assumptions C10_alloc_sound.

(* ... and complete: the file is extended only when the free set holds no run of the requested length *)
Theorem C10_alloc_complete : forall fr n, asc fr -> ge2 fr -> 0 < n -> fl_allocate fr n = None ->
  ~ exists q, forall i, i < n -> In (q + i) fr.
Proof. exact alloc_complete. Qed.
Print Assumptions C10_alloc_complete.

(* a beginning writer releases pending[u] iff u is older than every registered reader (and than itself) *)
Theorem C10_release_exact : forall s t f1 p1, writer_view s = (t, f1, p1) ->
  forall u ps, In (u, ps) (pend s) ->
    (u < min_reader s t -> incl ps f1) /\ (min_reader s t <= u -> In (u, ps) p1).
Proof. exact release_exact. Qed.
Print Assumptions C10_release_exact.

(* with no reader open, everything freed by earlier commits is reusable by the next writer *)
Theorem C10_release_all_without_readers : forall s t f1 p1, PLInv s -> readers s = [] -> writer_view s = (t, f1, p1) ->
  p1 = [] /\ (forall x, In x f1 <-> In x (free s) \/ In x (pend_all (pend s))).
Proof. exact release_all_no_readers. Qed.

(* while a reader pins a snapshot its pages are retained ... *)
Theorem C10_pinned_retained : forall s r L t f1 p1, PLInv s -> In (r, L) (readers s) -> writer_view s = (t, f1, p1) ->
  forall x, In x L -> ~ In x f1.
Proof. exact pinned_retained. Qed.

(* ... and close + reopen keeps every free and pending page reusable *)
Theorem C10_reopen_keeps : forall s f s', accept s (EReopen f) = Some s' ->
  forall x, In x (free s') <-> In x (free s) \/ In x (pend_all (pend s)).
Proof. exact reopen_keeps. Qed.
Print Assumptions C10_reopen_keeps.

(* plateau: no reader, commits grow the file only when the writer's free list is exhausted (what C10_alloc_complete
   gives for single-page allocations), live data <= M pages, <= K pages allocated-and-freed inside one transaction:
   the high-water mark never exceeds max(initial, 2 + 2M + K), whatever the number of transactions *)
Theorem C10_plateau : forall M K es s s', PLInv s -> readers s = [] -> accept_all s es = Some s' ->
  run_ok (plateau_hyp M K) s es -> np s' <= N.max (np s) (2 + 2 * M + K).
Proof. exact plateau. Qed.
Print Assumptions C10_plateau.

(* the engine model: nothing freed is ever lost. In every state a history reaches, the ids recorded on the free-list page are
   EXACTLY the pages below the high-water mark that no reachable node and not the free-list run itself occupies -- so every page a
   transaction frees is available to a later transaction's allocator (which takes the first fitting run: C10_alloc_sound /
   _complete above), and the file can only grow when no recorded run fits. *)
From Jamm Require Engine EngineRefines EngineOwnDefs EngineAllocInv EngineNoLeakDefs EngineNoLeak.
Theorem C10_engine_no_page_is_lost : forall st : Engine.db, EngineNoLeak.db_exact_rec st ->
  forall x : N, In x (Engine.d_flids st) <->
    ((2 <= x)%N /\ (x < Engine.d_np st)%N) /\ ~ In x (EngineRefines.live_of st (EngineOwnDefs.Rof st)).
Proof. exact EngineNoLeak.flids_exact. Qed.
Print Assumptions C10_engine_no_page_is_lost.

(* with read transactions (EngineR.v): pages freed while a reader is open stay pending, never lost; as soon as no reader is
   open the next writer releases EVERY pending batch into its free list; and along every history with readers the free-list
   record stays exactly the set of unused pages *)
From Jamm Require PL EngineR EngineReadersInv EngineReaders EngineReadersExact.
Theorem C10_engine_reuse_when_no_reader : forall (k : N) (cur : Engine.db) (ops : list Engine.op) (ord : list Bytes.bytes),
  EngineReadersInv.db_okr cur ->
  EngineR.bound_k k (cur, nil) = (Engine.d_tx cur + 1)%N /\
  EngineR.step_k k (cur, nil) (EngineR.Tx ops ord) =
    Engine.bind (Engine.run_tx cur ops ord) (fun st' : Engine.db => Engine.Ok (st', nil)) /\
  EngineR.begin_w_r cur (EngineR.bound_k k (cur, nil)) = Engine.begin_w cur /\
  Engine.pending (Engine.begin_w cur) = nil /\
  (forall x : N, In x (Engine.d_free cur) \/ In x (PL.pend_all (Engine.d_pending cur)) ->
     In x (Engine.free (Engine.begin_w cur))).
Proof. exact EngineReaders.reuse_when_no_reader. Qed.
Print Assumptions C10_engine_reuse_when_no_reader.

Theorem C10_engine_no_page_is_lost_with_readers : forall (k P : N) (es : list EngineR.hstep) (h' : EngineR.hstate),
  (k <= 1)%N -> (0 < P)%N -> EngineReaders.hist_ok k (Engine.init_db P, nil) es ->
  EngineR.run_hist_k k (Engine.init_db P, nil) es = Engine.Ok h' ->
  EngineNoLeak.db_exact_rec (fst h') /\
  (forall x : N, In x (Engine.d_flids (fst h')) <->
     ((2 <= x)%N /\ (x < Engine.d_np (fst h'))%N) /\ ~ In x (EngineRefines.live_of (fst h') (EngineOwnDefs.Rof (fst h')))).
Proof. exact EngineReadersExact.hist_exact_init. Qed.
Print Assumptions C10_engine_no_page_is_lost_with_readers.

(* close + reopen in the engine model: the free list rebuilt from the free-list page holds every id that was free or
   pending (nothing freed before the close is lost), and histories of transactions and reopens keep the exact partition *)
From Jamm Require Spec EngineAbs EngineSpillDepth EngineReopen.
Theorem C10_engine_reopen_keeps_every_reusable_page : forall st : Engine.db, EngineNoLeak.flids_ok st ->
  forall x : N, In x (Engine.d_free (Engine.reopen_db st)) <->
                In x (Engine.d_free st) \/ In x (PL.pend_all (Engine.d_pending st)).
Proof. exact EngineReopen.reopen_free_all. Qed.
Print Assumptions C10_engine_reopen_keeps_every_reusable_page.

Theorem C10_engine_histories_with_reopen : forall (P : N) (hs : list EngineReopen.hop) (st' : Engine.db),
  (0 < P)%N -> EngineReopen.hops_ok (Engine.init_db P) hs ->
  EngineReopen.run_hops (Engine.init_db P) hs = Engine.Ok st' ->
  EngineNoLeak.db_exact_rec st' /\ EngineSpillDepth.db_okd st' /\ EngineReadersInv.db_okr st' /\
  EngineAbs.abs_db st' = EngineReopen.sem_hops hs (Spec.SBucket 0 0 nil) /\
  (forall x : N, In x (Engine.d_flids st') <->
     ((2 <= x)%N /\ (x < Engine.d_np st')%N) /\ ~ In x (EngineRefines.live_of st' (EngineOwnDefs.Rof st'))).
Proof. exact EngineReopen.run_hops_exact_init. Qed.
Print Assumptions C10_engine_histories_with_reopen.
