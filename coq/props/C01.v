(* C01 -- committed data reads back exactly as a reference ordered map would.
   PROVED (for all trees / pages / keys / operation lists / spill orders, no bound):
     read half  -- on every well-formed tree, point lookups, full scans, seeks and range scans return what the sorted association
                   list of its entries (= the reference map's view) returns; the page decoder inverts the page encoder;
     write half -- for the ENGINE MODEL (coq/model/Engine.v, the write path of the library transliterated: overlay nodes, put / delete /
                   nested buckets, rebalance, spill, free list, commit): C01_engine_history_refines_reference and
                   C01_engine_transaction_refines_and_keeps_invariant at the end of this file -- every history of transactions from the
                   empty database commits the reference's contents and re-establishes the complete invariant. Side conditions: the
                   model's fuels only (paths shorter than 8 buckets, trees of height <= 64, nesting <= 16, deleted trees < 100000 pages).
                   The theorems named C01_partial_* are the layers the proof is assembled from (each a statement of its own).
   NOT PROVED, CHECKED ON EVERY RUN: that Engine.v is what the Rust code does. That tie is the correspondence: the extracted engine
     must reproduce every file the library commits page for page (10 k commits per quick run), its thresholds and sizes are pinned to
     the constants the translator reads from the source (C01_engine_constants_from_source), every library call is compared with the
     extracted reference machine (= sem_tx, C01_reference_machine_is_sem_tx), and every committed file is decoded by the Gallina
     decoder (inv_check + contents = reference). *)
From Coq Require Import List NArith.
From Coq Require Import Permutation.
From Jamm Require Import Bytes Codec Tree Spec Cursor SearchFacts CursorFacts SeekFacts CodecFacts.
From Jamm Require Engine EngineAbs SpecPath EngineFacts EngineMergeFacts EngineModifyFacts EnginePathFacts EngineSpillFacts SpecPathFacts EngineRebalanceFacts EngineBridgeFacts EnginePins EngineTxInvFacts EngineSpillBucketFacts EngineRefines EngineOwnDefs EngineOwnSpill EngineAllocInv EngineDepth EngineNoPanic EngineSpillDepth EngineReadBridge EngineReadFull.
From Jamm Require Consts CLayout.
From Coq Require String.
Import Coq.Strings.String.StringSyntax. Delimit Scope string_scope with string.
Import ListNotations.

Theorem C01_partial_get : forall t k, wf_tree t = true ->
  Cursor.get t k = option_map Cursor.to_item (find (fun e => beq (lent_key e) k) (flatten t)).
Proof. exact get_spec. Qed.
Print Assumptions C01_partial_get.

Theorem C01_partial_scan : forall t, wf_tree t = true -> scan t = CVal (map Cursor.to_item (flatten t)).
Proof. exact scan_spec. Qed.
Print Assumptions C01_partial_scan.

Theorem C01_partial_codec : forall pad P pid over b rd,
  (0 < P)%N -> (pid < 2^64)%N -> (over < 2^64)%N -> body_ok b -> (body_size b < 2^64)%N ->
  (body_size b <= (over + 1) * P)%N ->
  reads_buffer rd (pid * P) (encode_page pad pid over b) ->
  decode_page rd P pid = Ok (mkPhdr pid (body_type b) (body_count b) over, b).
Proof. exact codec_page. Qed.
Print Assumptions C01_partial_codec.

(* write half, node level: the engine model's leaf operations, merge and Engine.split are the reference map's steps on
   the node's sorted entry list. The theorems named C01_partial_* are the layers from which the whole-transaction
   theorems at the end of this file (C01_engine_transaction_refines_and_keeps_invariant,
   C01_engine_history_refines_reference) are assembled. *)
Theorem C01_partial_engine_search_is_cursor_search : forall keys t,
  Engine.bsearch keys t = (let '(b, i) := Cursor.bsearch keys t in (b, N.of_nat i)).
Proof. exact EngineFacts.bsearch_agree. Qed.
Print Assumptions C01_partial_engine_search_is_cursor_search.

Theorem C01_partial_leaf_insert_refines : forall l e, sorted_keys (map Engine.lkey l) = true ->
  EngineFacts.assoc (Engine.leaf_insert l e) = Spec.ainsert (Engine.lkey e) e (EngineFacts.assoc l) /\ sorted_keys (map Engine.lkey (Engine.leaf_insert l e)) = true.
Proof. exact (fun l e H => conj (EngineFacts.leaf_insert_assoc l e H) (EngineFacts.leaf_insert_sorted l e H)). Qed.
Print Assumptions C01_partial_leaf_insert_refines.

Theorem C01_partial_leaf_delete_refines : forall l k, sorted_keys (map Engine.lkey l) = true ->
  EngineFacts.assoc (Engine.leaf_delete l k) = Spec.aremove k (EngineFacts.assoc l) /\ sorted_keys (map Engine.lkey (Engine.leaf_delete l k)) = true.
Proof. exact (fun l k H => conj (EngineFacts.leaf_delete_assoc l k H) (EngineFacts.leaf_delete_sorted l k H)). Qed.
Print Assumptions C01_partial_leaf_delete_refines.

Theorem C01_partial_merge_keeps_entries : forall l1 l2,
  sorted_keys (map Engine.lkey l1) = true -> sorted_keys (map Engine.lkey l2) = true ->
  EngineFacts.lkeys_below l2 l1 \/ EngineFacts.lkeys_below l1 l2 ->
  exists m, Engine.merge_data (Engine.Leaves l1) (Engine.Leaves l2) = Engine.Ok (Engine.Leaves m) /\
            sorted_keys (map Engine.lkey m) = true /\ Permutation m (l1 ++ l2) /\
            (EngineFacts.lkeys_below l2 l1 -> m = l2 ++ l1) /\ (EngineFacts.lkeys_below l1 l2 -> m = l1 ++ l2).
Proof. exact EngineFacts.merge_data_leaves. Qed.
Print Assumptions C01_partial_merge_keeps_entries.

Theorem C01_partial_split_keeps_entries : forall s d d0 rest, Engine.split s d = (d0, rest) ->
  concat (map EngineFacts.ents_of (d0 :: rest)) = EngineFacts.ents_of d /\ Forall (fun p => Engine.is_leaf p = Engine.is_leaf d) (d0 :: rest).
Proof. exact EngineFacts.split_concat. Qed.
Print Assumptions C01_partial_split_keeps_entries.

(* rebalance, one step: a child that does not need merging is only re-attached (nothing freed, nothing allocated) ... *)
Theorem C01_partial_merge_step_noop : forall d par k s,
  Engine.needs_merging s k = false ->
  Engine.try_merge d par k s = Engine.Ok (Engine.set_kids par (Engine.replace_kid (Engine.n_kids par) k), s).
Proof. exact EngineMergeFacts.try_merge_noop. Qed.
Print Assumptions C01_partial_merge_step_noop.

(* ... and merging a child into its materialised left sibling removes exactly its branch entry, frees exactly its
   page, and leaves the entries the transaction sees below the parent a permutation of what they were (with
   C01_partial_merge_keeps_entries: the same list, since both sides are sorted) *)
Theorem C01_partial_merge_step_left : forall fuel d par k s es ok idx kq q sb md ko par' s',
  Engine.needs_merging s k = true -> Engine.n_data par = Engine.Branches es -> (0 < Engine.dlen (Engine.n_data k))%N ->
  Engine.n_orig k = Some ok -> Engine.bsearch (map fst es) ok = (true, idx) -> (0 < idx)%N ->
  Engine.nthN es (idx - 1) = Some (kq, q) -> Engine.find_kid q (Engine.n_kids par) = Some sb ->
  Engine.merge_data (Engine.n_data sb) (Engine.n_data k) = Engine.Ok md ->
  Engine.nthN es idx = Some (ko, Engine.n_page k) ->
  Engine.find_kid (Engine.n_page k) (Engine.n_kids par) = Some k ->
  NoDup (map snd es) -> NoDup (map Engine.n_seq (Engine.n_kids par)) ->
  (forall x, In x (Engine.n_kids k) -> ~ In (Engine.n_page x) (EngineMergeFacts.dpages (Engine.n_data sb))) ->
  (forall x, In x (Engine.n_kids sb) -> ~ In (Engine.n_page x) (EngineMergeFacts.dpages (Engine.n_data k))) ->
  Engine.try_merge d par k s = Engine.Ok (par', s') ->
  Permutation (EngineMergeFacts.view_leaves fuel d par') (EngineMergeFacts.view_leaves fuel d par).
Proof. exact EngineMergeFacts.try_merge_left_view. Qed.
Print Assumptions C01_partial_merge_step_left.

(* write half, tree level: put / delete on a whole (overlay) tree are the reference's insert / remove on its
   sorted entry list, keep it well-formed, and touch nothing of the transaction state but a counter *)
Theorem C01_partial_put_refines : forall d b l k v s b' s',
  EngineModifyFacts.bucket_wf d b -> EngineModifyFacts.bucket_view d b l ->
  Engine.b_put d b k v s = Engine.Ok (b', s') ->
  exists l', EngineModifyFacts.bucket_wf d b' /\ EngineModifyFacts.bucket_view d b' l' /\
    EngineFacts.assoc l' = Spec.ainsert k (Engine.LKv k v) (EngineFacts.assoc l) /\
    Engine.b_next b' = (match Spec.alookup k (EngineFacts.assoc l) with None => Engine.b_next b + 1 | Some _ => Engine.b_next b end)%N /\
    EngineModifyFacts.same_but_seqc s s'.
Proof. exact EngineModifyFacts.b_put_refines. Qed.
Print Assumptions C01_partial_put_refines.

Theorem C01_partial_delete_refines : forall d b l k s b' s',
  EngineModifyFacts.bucket_wf d b -> EngineModifyFacts.bucket_view d b l ->
  Engine.b_delete d b k s = Engine.Ok (b', s') ->
  exists l', EngineModifyFacts.bucket_wf d b' /\ EngineModifyFacts.bucket_view d b' l' /\
    EngineFacts.assoc l' = Spec.aremove k (EngineFacts.assoc l) /\ Engine.b_next b' = Engine.b_next b /\
    EngineModifyFacts.same_but_seqc s s'.
Proof. exact EngineModifyFacts.b_delete_refines. Qed.
Print Assumptions C01_partial_delete_refines.

(* write half, transaction level (before commit): the whole sequence of path-addressed operations of a write
   transaction -- nested buckets opened, created and deleted on the way -- leaves an overlay whose meaning is the
   functional semantics sem_tx of those operations applied to the committed meaning abs_db; run_tx is then exactly
   `commit` of that overlay. Side condition op_ok: paths shorter than 8, deleted trees below 100000 pages (the model's
   fuels; without it the statement is false: C01_unrestricted_statement_refuted). *)
Theorem C01_partial_ops_refine : forall (st : Engine.db) (ops : list Engine.op) (ord : list Bytes.bytes),
  EnginePathFacts.db_pages_wf st -> Forall (EnginePathFacts.op_ok (Engine.d_disk st)) ops ->
  exists (root' : Engine.bucket) (s' : Engine.txs),
    Engine.run_tx st ops ord = Engine.commit st root' s' ord /\
    EnginePathFacts.ovl_wf (Engine.d_disk st) root' /\
    EnginePathFacts.OvlAbs (Engine.d_disk st) root' (EngineAbs.sem_tx ops (EngineAbs.abs_db st)) /\
    EnginePathFacts.tx_frees (Engine.begin_w st) s'.
Proof. exact EnginePathFacts.run_tx_ops. Qed.
Print Assumptions C01_partial_ops_refine.

Theorem C01_unrestricted_statement_refuted : forall db_wf : Engine.db -> Prop,
  db_wf (Engine.init_db 4096) -> ~ EngineAbs.run_tx_refines_unrestricted_stmt db_wf.
Proof. exact EnginePathFacts.run_tx_refines_stmt_false. Qed.
Print Assumptions C01_unrestricted_statement_refuted.

(* the functional semantics IS the handle-based reference machine the library is compared with, call by call *)
Theorem C01_reference_machine_is_sem_tx : forall (c : Spec.snode) (ops : list Engine.op), SpecPathFacts.wf c ->
  Spec.strip (Spec.t_root (SpecPath.p_tx (fold_left SpecPath.path_step ops (SpecPath.pinit c)))) =
  EngineAbs.sem_tx ops (Spec.strip c).
Proof. exact SpecPathFacts.path_machine_plain. Qed.
Print Assumptions C01_reference_machine_is_sem_tx.

(* spill: writing a well-formed overlay tree out (split, fresh pages, new root levels) stores exactly the entries
   the transaction saw, on pages that were free, without touching any page it keeps; stated against ANY later write
   set w' of the same transaction that agrees on the pages written here *)
Theorem C01_partial_spill_root : forall (fuel : nat) (d : Engine.disk) (keep live : list N) (f : nat)
    (n : Engine.node) (s : Engine.txs) (p : N) (s' : Engine.txs),
  EngineSpillFacts.fresh_inv live s ->
  Engine.n_data n = Engine.Leaves nil \/ EngineSpillFacts.swf fuel d keep None None n ->
  Engine.spill_root f n s = Engine.Ok (p, s') ->
  exists (alloc dead good : list N) (lv : nat),
    EngineSpillFacts.frame live s s' alloc dead /\
    (forall q : N, In q good -> In q alloc) /\ In p good /\ (lv <= f)%nat /\
    (forall x : N, EngineSpillFacts.old_run n x -> In x dead) /\
    (forall L : list N, (forall x : N, In x L -> In x live) -> EngineSpillFacts.old_in L n ->
       forall x : N, In x dead -> (In x L \/ In x alloc) /\ ~ In x good) /\
    (forall (w' : list (N * (N * Engine.ndata))) (P : N),
       EngineSpillFacts.wr_agree good (Engine.wr s') w' ->
       (forall x : N, In x keep -> EngineSpillFacts.wr_get w' x = None) ->
       forall F : nat, (lv + EngineSpillFacts.ndepth n + fuel <= F)%nat ->
       EngineAbs.page_ents F (EngineSpillFacts.apply_wr w' P d) p = EngineMergeFacts.view_leaves fuel d n).
Proof. exact EngineSpillFacts.spill_root_spec. Qed.
Print Assumptions C01_partial_spill_root.

(* rebalance: on an overlay satisfying the strict invariant (every opened bucket: EngineRebalanceFacts.Deep), the
   whole rebalance pass (merges, removals of emptied nodes, root collapse, in every opened bucket) leaves each bucket's
   view list exactly as it was, keeps it well-formed, and touches nothing of the transaction state that decides
   allocation (free list, high-water mark, written pages) *)
Theorem C01_partial_rebalance_keeps_view : forall (f fv : nat) (d : Engine.disk) (s : Engine.txs) (b : Engine.bucket)
    (l : list Engine.leafent) (vs : list (Bytes.bytes * EngineRebalanceFacts.bview)) (b' : Engine.bucket) (s' : Engine.txs),
  EngineRebalanceFacts.Deep fv d s b (EngineRebalanceFacts.BV l vs) ->
  Engine.rebalance f d b s = Engine.Ok (b', s') ->
  EngineModifyFacts.bucket_view d b' l /\ EngineModifyFacts.bucket_wf d b' /\
  Engine.b_next b' = Engine.b_next b /\ map fst (Engine.b_subs b') = map fst vs /\
  Engine.free s' = Engine.free s /\ Engine.np s' = Engine.np s /\ Engine.wr s' = Engine.wr s /\ Engine.txid s' = Engine.txid s.
Proof. exact EngineRebalanceFacts.rebalance_bucket_view. Qed.
Print Assumptions C01_partial_rebalance_keeps_view.

(* spill of one bucket's tree, in the vocabulary of the overlay views: the page returned as the new root holds,
   on the final disk of the transaction, exactly the view list *)
Theorem C01_partial_spill_bucket_root : forall (d : Engine.disk) (keep live : list N) (h : nat) (b : Engine.bucket)
    (n : Engine.node) (l : list Engine.leafent) (f : nat) (s : Engine.txs) (p : N) (s' s'' : Engine.txs) (a2 d2 : list N),
  Engine.b_rootn b = Some n -> EngineModifyFacts.bucket_wf d b -> EngineModifyFacts.BucketView d h b l ->
  EngineBridgeFacts.root_ready d keep n -> EngineSpillFacts.fresh_inv live s ->
  (forall x : N, In x keep -> In x live) ->
  (forall x : N, In x keep -> EngineSpillFacts.wr_get (Engine.wr s) x = None) ->
  Engine.spill_root f n s = Engine.Ok (p, s') ->
  exists (alloc dead : list N) (lv : nat),
    EngineSpillFacts.frame live s s' alloc dead /\ In p alloc /\ ~ In p live /\ (lv <= f)%nat /\
    (EngineSpillFacts.frame (alloc ++ live) s' s'' a2 d2 ->
     forall (P : N) (F : nat), (lv + EngineSpillFacts.ndepth n + h <= F)%nat ->
     EngineAbs.page_ents F (EngineSpillFacts.apply_wr (Engine.wr s'') P d) p = l).
Proof. exact EngineBridgeFacts.spill_bucket_root_view. Qed.
Print Assumptions C01_partial_spill_bucket_root.

(* the tie of the engine model's thresholds and sizes to the source: the literals of model/Engine.v equal the
   constants the translator reads from /repo on this run *)
Theorem C01_engine_constants_from_source :
  (Consts.min_keys = 2 /\ Consts.merge_div = 4 /\ Consts.fill_num = 1 /\ Consts.fill_den = 2 /\ Consts.split_min_mult = 2 /\
   CLayout.sizeof "Page"%string = 40 /\ CLayout.sizeof "LeafElement"%string = 32 /\ CLayout.sizeof "BranchElement"%string = 24 /\
   CLayout.sizeof "BucketMeta"%string = 16)%N.
Proof. exact EnginePins.engine_constants_pinned. Qed.
Print Assumptions C01_engine_constants_from_source.

(* a whole transaction up to the start of spill: from a strict committed state, the operations leave an overlay
   meaning sem_tx ops (abs_db st) that satisfies the strict invariant in every opened bucket; rebalance then succeeds,
   keeps every view, and leaves the overlay ready to be spilled *)
Theorem C01_partial_tx_until_spill : forall (st : Engine.db) (ops : list Engine.op) (ord : list Bytes.bytes) (st' : Engine.db),
  EngineTxInvFacts.db_strict st -> Forall (EnginePathFacts.op_ok (Engine.d_disk st)) ops ->
  Engine.run_tx st ops ord = Engine.Ok st' ->
  exists (root' : Engine.bucket) (s' : Engine.txs) (b1 : Engine.bucket) (s1 : Engine.txs) (fv : nat) (v : EngineRebalanceFacts.bview),
    EnginePathFacts.tx_fold st ops (Engine.root_bucket st, Engine.begin_w st) = Engine.Ok (root', s') /\
    EnginePathFacts.ovl_wf (Engine.d_disk st) root' /\
    EnginePathFacts.OvlAbs (Engine.d_disk st) root' (EngineAbs.sem_tx ops (EngineAbs.abs_db st)) /\
    EnginePathFacts.tx_frees (Engine.begin_w st) s' /\
    EngineTxInvFacts.SDeep (Engine.d_disk st) s' root' /\
    Engine.rebalance Engine.fuel0 (Engine.d_disk st) root' s' = Engine.Ok (b1, s1) /\
    EngineRebalanceFacts.Deep fv (Engine.d_disk st) s' root' v /\
    EngineRebalanceFacts.Deep fv (Engine.d_disk st) s1 b1 v /\
    EngineTxInvFacts.RDeep fv (Engine.d_disk st) s1 b1 v /\
    EngineRebalanceFacts.tx_frame s' s1 /\ Engine.b_next b1 = Engine.b_next root'.
Proof. exact EngineTxInvFacts.run_tx_rebalance_ready. Qed.
Print Assumptions C01_partial_tx_until_spill.

(* commit: spilling a ready overlay (nested buckets, any spill order) and writing the free list yields a state
   whose committed meaning is the overlay's meaning; the new free-list run overlaps neither the new tree nor a live page *)
Theorem C01_partial_commit_meaning : forall (st : Engine.db) (b : Engine.bucket) (s : Engine.txs) (ord : list Bytes.bytes)
    (st' : Engine.db) (b1 : Engine.bucket) (s1 : Engine.txs) (keep live : list N) (m : Spec.snode),
  Engine.rebalance Engine.fuel0 (Engine.d_disk st) b s = Engine.Ok (b1, s1) ->
  EngineSpillFacts.fresh_inv live s1 ->
  (forall x : N, In x keep -> In x live) ->
  (forall x : N, In x keep -> EngineSpillFacts.wr_get (Engine.wr s1) x = None) ->
  EngineSpillBucketFacts.SReady (Engine.d_disk st) keep b1 ->
  EnginePathFacts.OvlAbs (Engine.d_disk st) b1 m ->
  Engine.commit st b s ord = Engine.Ok st' ->
  exists (r nx : N) (s2 : Engine.txs) (ord' : list Bytes.bytes) (alloc dead : list N),
    Engine.spill_bucket Engine.fuel0 (Engine.d_disk st) b1 s1 ord = Engine.Ok (r, nx, s2, ord') /\
    EngineSpillFacts.frame live s1 s2 alloc dead /\
    Engine.d_root st' = r /\ Engine.d_next st' = nx /\ nx = Spec.b_next m /\
    (In r alloc \/ r = Engine.b_root_page b1) /\
    (forall x : N, (Engine.d_fl st' <= x /\ x < Engine.d_fl st' + Engine.d_fln st')%N -> ~ In x (alloc ++ live)) /\
    EngineSpillBucketFacts.Mean (Engine.d_disk st') (Engine.d_root st') (Engine.d_next st') m /\
    (EngineSpillBucketFacts.cpres 16 (Engine.d_disk st') (Engine.d_root st') -> EngineAbs.abs_db st' = m).
Proof. exact EngineSpillBucketFacts.commit_meaning. Qed.
Print Assumptions C01_partial_commit_meaning.

(* THE TIER-B THEOREM (engine model, one transaction): from a committed state satisfying the strict tree invariant and the
   allocation invariant (db_ok), a transaction that the engine completes yields a state whose meaning is the functional
   semantics of its operations -- for every operation list within the model's fuels (op_ok), every spill order, every tree
   shape -- provided the NEW state's trees fit the reading fuel (readable: height <= 64, nesting <= 16; decidable, and
   evaluated on every state the model-side search visits). The functional semantics is the handle-based reference machine
   (C01_reference_machine_is_sem_tx). What ties the engine MODEL to the library is the page-for-page correspondence. *)
Theorem C01_engine_transaction_refines_reference : forall (st : Engine.db) (ops : list Engine.op) (ord : list Bytes.bytes) (st' : Engine.db),
  EngineRefines.db_ok st -> Forall (EnginePathFacts.op_ok (Engine.d_disk st)) ops ->
  Engine.run_tx st ops ord = Engine.Ok st' -> EngineRefines.readable st' ->
  EngineAbs.abs_db st' = EngineAbs.sem_tx ops (EngineAbs.abs_db st).
Proof. exact EngineRefines.run_tx_meaning. Qed.
Print Assumptions C01_engine_transaction_refines_reference.

(* the strict tree invariant is re-established by every transaction ... *)
Theorem C01_engine_strict_invariant_kept : forall (st : Engine.db) (ops : list Engine.op) (ord : list Bytes.bytes) (st' : Engine.db),
  EngineRefines.db_ok st -> Forall (EnginePathFacts.op_ok (Engine.d_disk st)) ops ->
  Engine.run_tx st ops ord = Engine.Ok st' -> EngineRefines.readable st' -> EngineTxInvFacts.db_strict st'.
Proof. exact EngineRefines.run_tx_strict. Qed.
Print Assumptions C01_engine_strict_invariant_kept.

(* ... and so is the allocation invariant (EngineAllocInv, on top of an ownership invariant carried through the operations,
   rebalance and nested spill): the complete invariant db_okz = strict trees + free / pending ids disjoint from every reachable
   page run (overflow pages included) and from the free-list run + no page run shared + page 0 unused. One transaction: *)
Theorem C01_engine_transaction_refines_and_keeps_invariant : forall (st : Engine.db) (ops : list Engine.op) (ord : list Bytes.bytes) (st' : Engine.db),
  EngineOwnSpill.db_okz st -> Forall (EnginePathFacts.op_ok (Engine.d_disk st)) ops ->
  Engine.run_tx st ops ord = Engine.Ok st' -> EngineRefines.readable st' ->
  EngineOwnSpill.db_okz st' /\ EngineAbs.abs_db st' = EngineAbs.sem_tx ops (EngineAbs.abs_db st).
Proof. exact EngineAllocInv.run_tx_refines'. Qed.
Print Assumptions C01_engine_transaction_refines_and_keeps_invariant.

(* every history of transactions from the empty database, at every page size: the committed meaning is the reference's.
   The only side conditions (txs_ok') are the model's fuels: op_ok of each operation and `readable` of each state. *)
Theorem C01_engine_history_refines_reference : forall (P : N) (txs : list (list Engine.op * list Bytes.bytes)) (st' : Engine.db),
  (0 < P)%N -> EngineAllocInv.txs_ok' (Engine.init_db P) txs ->
  EngineRefines.run_txs (Engine.init_db P) txs = Engine.Ok st' ->
  EngineOwnSpill.db_okz st' /\ EngineAbs.abs_db st' = EngineRefines.sem_txs txs (Spec.SBucket 0 0 nil).
Proof. exact EngineAllocInv.run_txs_refines_init'. Qed.
Print Assumptions C01_engine_history_refines_reference.

Theorem C01_target_statement_holds : EngineAbs.run_tx_refines_stmt EngineAllocInv.db_wf' EnginePathFacts.op_ok.
Proof. exact EngineAllocInv.run_tx_refines_stmt_holds'. Qed.
Print Assumptions C01_target_statement_holds.

(* no panic: on a state satisfying the complete invariant AND uniform leaf depth (re-established by every transaction, holds
   initially), a transaction ends in Ok or in one of three Err values that are artefacts of the model (fuel; a spill-order oracle
   that is not a permutation of the opened dirty buckets) -- never in one of the library's panic / assert / unwrap sites.
   Without uniform depth it is false (EngineSpillDepth.CexDepth: a strict search tree with a leaf beside a branch makes rebalance
   merge a leaf into a branch: "incompatible data types"); that state is proved unreachable. *)
Theorem C01_engine_transaction_never_panics : forall (st : Engine.db) (ops : list Engine.op) (ord : list Bytes.bytes),
  EngineOwnSpill.db_okz st -> EngineDepth.db_depth st -> Forall (EnginePathFacts.op_ok (Engine.d_disk st)) ops ->
  (exists st' : Engine.db, Engine.run_tx st ops ord = Engine.Ok st') \/
  Engine.run_tx st ops ord = Engine.Err EngineNoPanic.fuel_err \/
  Engine.run_tx st ops ord = Engine.Err EngineNoPanic.ord_err1 \/
  Engine.run_tx st ops ord = Engine.Err EngineNoPanic.ord_err2.
Proof. exact EngineNoPanic.run_tx_result. Qed.
Print Assumptions C01_engine_transaction_never_panics.

Theorem C01_engine_history_never_panics : forall (P : N) (txs : list (list Engine.op * list Bytes.bytes)) (msg : String.string),
  (0 < P)%N -> EngineAllocInv.txs_ok' (Engine.init_db P) txs ->
  EngineRefines.run_txs (Engine.init_db P) txs <> Engine.Panic msg.
Proof. exact EngineSpillDepth.run_txs_no_panic_init. Qed.
Print Assumptions C01_engine_history_never_panics.

Theorem C01_engine_invariant_with_depth_kept : forall (st : Engine.db) (ops : list Engine.op) (ord : list Bytes.bytes) (st' : Engine.db),
  EngineSpillDepth.db_okd st -> Forall (EnginePathFacts.op_ok (Engine.d_disk st)) ops ->
  Engine.run_tx st ops ord = Engine.Ok st' -> EngineRefines.readable st' -> EngineSpillDepth.db_okd st'.
Proof. exact EngineSpillDepth.run_tx_okd. Qed.
Print Assumptions C01_engine_invariant_with_depth_kept.

(* END TO END (engine model + read path): after ANY history of transactions from the empty database, at any page size, for
   ANY bucket reached by a path of names, the cursor machine of the read path (point lookup, full scan, every range, seek), run on
   the tree decoded from the engine's committed pages, answers exactly what the reference map answers after the same history;
   and a path that is not a bucket in the reference is not one in the file. (cursor_agrees bundles get / scan / range / seek.) *)
Theorem C01_committed_data_reads_back_as_reference : forall (P : N) (txs : list (list Engine.op * list Bytes.bytes)) (st' : Engine.db),
  (0 < P)%N -> EngineAllocInv.txs_ok' (Engine.init_db P) txs ->
  EngineRefines.run_txs (Engine.init_db P) txs = Engine.Ok st' ->
  forall path : list Bytes.bytes,
  match Spec.get_at path (EngineRefines.sem_txs txs (Spec.SBucket 0 0 nil)) with
  | Some (Spec.SBucket o x es) =>
      exists (r : N) (t : Tree.tree),
        EngineReadBridge.root_at (Engine.d_disk st') (Engine.d_root st') path = Some r /\
        EngineReadBridge.bucket_tree (Engine.d_disk st') r = Some t /\
        EngineReadBridge.NH.wf_tree_nh t = true /\ EngineReadBridge.cursor_agrees t (Spec.SBucket o x es)
  | _ => EngineReadBridge.root_at (Engine.d_disk st') (Engine.d_root st') path = None
  end.
Proof. exact EngineReadBridge.history_read. Qed.
Print Assumptions C01_committed_data_reads_back_as_reference.

(* the same on BYTES: the file image made of the encoded pages (any padding bytes), decoded by the Gallina page decoder;
   `page_fits` (each node fits its page run; fields below 2^64) is decidable and is what inv_check's element bounds check per file *)
Theorem C01_committed_bytes_read_back_as_reference : forall (P0 : N) (txs : list (list Engine.op * list Bytes.bytes)) (st' : Engine.db)
    (pad : N -> Byte.byte) (P : N),
  (0 < P0)%N -> EngineAllocInv.txs_ok' (Engine.init_db P0) txs ->
  EngineRefines.run_txs (Engine.init_db P0) txs = Engine.Ok st' -> (0 < P)%N ->
  (forall (p : N) (a : Engine.apage), In p (EngineOwnDefs.Rof st') ->
     Engine.dget (Engine.d_disk st') p = Some a -> EngineReadBridge.BytesLevel.page_fits P p a) ->
  let rd := Codec.reader_of (EngineReadBridge.BytesLevel.image pad P (Engine.d_disk st') (EngineOwnDefs.Rof st')
                               (Bytes.zeros (N.to_nat (Engine.d_np st' * P)))) in
  forall path : list Bytes.bytes,
  match Spec.get_at path (EngineRefines.sem_txs txs (Spec.SBucket 0 0 nil)) with
  | Some (Spec.SBucket o x es) =>
      exists (r : N) (t : Tree.tree),
        EngineReadBridge.BytesLevel.root_at_b rd P (Engine.d_root st') path = Some r /\
        Tree.build_tree Engine.fuel0 rd P r = Codec.Ok t /\
        EngineReadBridge.NH.wf_tree_nh t = true /\ EngineReadBridge.cursor_agrees t (Spec.SBucket o x es)
  | _ => EngineReadBridge.BytesLevel.root_at_b rd P (Engine.d_root st') path = None
  end.
Proof. exact EngineReadBridge.BytesLevel.history_image_read. Qed.
Print Assumptions C01_committed_bytes_read_back_as_reference.

Theorem C01_put_then_get : forall (P : N) (txs : list (list Engine.op * list Bytes.bytes)) (ops : list Engine.op)
    (ord path : list Bytes.bytes) (k v : Bytes.bytes) (st' : Engine.db) (m' : Spec.snode),
  let hist := (txs ++ (ops ++ Engine.Put path k v :: nil, ord) :: nil)%list in
  (0 < P)%N -> EngineAllocInv.txs_ok' (Engine.init_db P) hist ->
  EngineRefines.run_txs (Engine.init_db P) hist = Engine.Ok st' ->
  EngineAbs.sem_at path (EngineAbs.sem_put k v) (EngineAbs.sem_tx ops (EngineRefines.sem_txs txs (Spec.SBucket 0 0 nil))) = Some m' ->
  (forall b : Spec.snode, Spec.get_at path m' = Some b -> EngineReadBridge.ref_get b k <> Some (Spec.IBk k)) ->
  exists (r : N) (t : Tree.tree),
    EngineReadBridge.root_at (Engine.d_disk st') (Engine.d_root st') path = Some r /\
    EngineReadBridge.bucket_tree (Engine.d_disk st') r = Some t /\ Cursor.get t k = Some (Spec.IKv k v).
Proof. exact EngineReadBridge.put_then_get_kv. Qed.
Print Assumptions C01_put_then_get.

(* the same with the FULL read-path invariant Tree.wf_tree (equal leaf depth included: uniform depth is an engine invariant) *)
Theorem C01_committed_trees_fully_well_formed_and_read_back : forall (P : N) (txs : list (list Engine.op * list Bytes.bytes)) (st' : Engine.db),
  (0 < P)%N -> EngineAllocInv.txs_ok' (Engine.init_db P) txs ->
  EngineRefines.run_txs (Engine.init_db P) txs = Engine.Ok st' ->
  forall path : list Bytes.bytes,
  match Spec.get_at path (EngineRefines.sem_txs txs (Spec.SBucket 0 0 nil)) with
  | Some (Spec.SBucket o x es) =>
      exists (r : N) (t : Tree.tree),
        EngineReadBridge.root_at (Engine.d_disk st') (Engine.d_root st') path = Some r /\
        EngineReadBridge.bucket_tree (Engine.d_disk st') r = Some t /\
        Tree.wf_tree t = true /\ EngineReadBridge.cursor_agrees t (Spec.SBucket o x es)
  | _ => EngineReadBridge.root_at (Engine.d_disk st') (Engine.d_root st') path = None
  end.
Proof. exact EngineReadFull.history_read_full. Qed.
Print Assumptions C01_committed_trees_fully_well_formed_and_read_back.
