(* C09 -- writers are serialized, no update is lost, and nobody deadlocks.
   Model: model/Conc.v (any number of threads, any schedule). Liveness is stated as deadlock freedom:
   whenever some thread is unfinished, some thread can take a step (no fairness assumption needed for that;
   "every thread eventually finishes" then follows under any fair scheduler because every blocking condition
   is discharged by threads that are not waiting on the blocked one -- not formalised as a temporal property). *)
From Coq Require Import List.
From Jamm Require Import Conc ConcFacts.
Import ListNotations.

Theorem C09_writers_serialized : forall ab c0 ts s, initial_threads ts -> reachable ab (init c0 ts) s -> mutex_ok s.
Proof. exact C09_mutex. Qed.
Print Assumptions C09_writers_serialized.

(* a writer's view of the header stays current from the moment it reads it until it writes its own: no lost update *)
Theorem C09_no_lost_update : forall ab c0 ts s i t, initial_threads ts -> reachable ab (init c0 ts) s ->
  nth_error (threads s) i = Some t ->
  In (t_pc t) [WHdr; WReg; CGrow1; CGrow2; CGrow3; CData; CHeaderNext] -> t_hdr t = cur s.
Proof. exact C09_fresh_writer. Qed.
Print Assumptions C09_no_lost_update.

Theorem C09_commits_increment : forall ab c0 ts s i s', initial_threads ts -> reachable ab (init c0 ts) s ->
  step ab s i = Some s' -> cur s' = cur s \/ cur s' = S (cur s).
Proof. exact C09_commit_increments. Qed.

(* deadlock freedom; in particular a reader is never blocked by an open, uncommitted writer (only by a remap in progress) *)
Theorem C09_deadlock_free : forall ab c0 ts s, initial_threads ts -> reachable ab (init c0 ts) s ->
  all_done s = false -> some_enabled ab s.
Proof. exact C09_progress. Qed.
Print Assumptions C09_deadlock_free.

(* with contents: along every execution of the protocol (any threads, any schedule), projected onto the storage engine, the
   current state is the reference after ALL committed transactions in commit order -- each commit built on its predecessor, none
   lost -- and the header's transaction id counts them *)
From Coq Require Import NArith.
From Jamm Require Bytes Engine EngineAbs EngineR EngineReadersInv ConcEngine ConcEngineTop.
Theorem C09_no_commit_is_lost : forall (ops_of : nat -> list Engine.op * list Bytes.bytes) (c0 : nat)
    (ts : list Conc.thread) (st0 : Engine.db) (sched : list nat) (h' : EngineR.hstate),
  Conc.initial_threads ts -> EngineReadersInv.db_okr st0 -> Engine.d_tx st0 = N.of_nat c0 ->
  let s0 := Conc.init c0 ts in
  let es := ConcEngine.project ops_of s0 ConcEngine.ghost0 sched in
  let s := Conc.run true s0 sched in
  ConcEngine.g_ok (st0, nil) es -> ConcEngine.run_g (st0, nil) es = Engine.Ok h' ->
  EngineReadersInv.db_okr (fst h') /\ Engine.d_tx (fst h') = N.of_nat (Conc.cur s) /\
  Conc.cur s = c0 + length (ConcEngine.txs_of es) /\
  EngineAbs.abs_db (fst h') = ConcEngine.sem_commits (ConcEngine.txs_of es) (EngineAbs.abs_db st0).
Proof. exact ConcEngineTop.conc_engine_no_lost_update. Qed.
Print Assumptions C09_no_commit_is_lost.
