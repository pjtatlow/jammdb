(* C05 -- every committed file is well-formed and accounts for each page exactly once.
   Page accounting is an invariant of the page-lifecycle machine over every accepted history; the byte-level
   decoder used by the file checker inv_check is the inverse of the encoder (codec); inv_check itself
   (model/Tree.v) is executable and is run on every committed file. *)
From Coq Require Import List NArith.
From Jamm Require Import Bytes Codec PL PLFacts PLProps CodecFacts.
Import ListNotations.

Theorem C05_invariant_reachable : forall es s, accept_all init_pl es = Some s -> PLInv s.
Proof. exact reachable_inv. Qed.
Print Assumptions C05_invariant_reachable.

(* each page in [2, np) is exactly one of: live (reachable or free-list run), free, pending *)
Theorem C05_partition : forall s, PLInv s -> forall x, (2 <= x < np s)%N ->
  (In x (live s) /\ ~ In x (free s) /\ ~ In x (pend_all (pend s))) \/
  (~ In x (live s) /\ In x (free s) /\ ~ In x (pend_all (pend s))) \/
  (~ In x (live s) /\ ~ In x (free s) /\ In x (pend_all (pend s))).
Proof. exact partition. Qed.
Print Assumptions C05_partition.

Theorem C05_no_duplicates : forall s, PLInv s ->
  NoDup (live s) /\ NoDup (free s) /\ NoDup (pend_all (pend s)).
Proof. exact partition_NoDup. Qed.

(* numeric form: the high-water mark is exactly 2 + #live + #free + #pending *)
Theorem C05_page_count : forall s, PLInv s ->
  np s = (2 + card (live s) + card (free s) + card (pend_all (pend s)))%N.
Proof. exact page_count. Qed.
Print Assumptions C05_page_count.

(* the decoder inverts the encoder for every page body and every content of the uninitialised bytes, and
   (decode_page returns Bad otherwise) every element lies inside its page run *)
Theorem C05_codec : forall pad P pid over b rd,
  (0 < P)%N -> (pid < 2^64)%N -> (over < 2^64)%N -> body_ok b -> (body_size b < 2^64)%N ->
  (body_size b <= (over + 1) * P)%N ->
  reads_buffer rd (pid * P) (encode_page pad pid over b) ->
  decode_page rd P pid = Ok (mkPhdr pid (body_type b) (body_count b) over, b).
Proof. exact codec_page. Qed.
Print Assumptions C05_codec.

(* what "inv_check = Ok" (the executable file checker run on every committed file) MEANS, for every file:
   the pages reachable from the root, the free-list page run and the recorded free ids are pairwise disjoint and
   together are exactly pages 2 .. num_pages-1 -- so the per-file verdict the checks print is this statement. *)
From Coq Require Import Permutation.
From Jamm Require Import Meta Tree CheckM CheckFacts.
Theorem C05_inv_check_means_partition : forall rd P, inv_check rd P = Ok tt ->
  exists o reach, open_db rd P = Ok o /\ (4 <= m_np (o_meta o))%N /\
    bucket_pages (N.to_nat (m_np (o_meta o))) rd P (m_np (o_meta o)) (m_root (o_meta o)) = Ok reach /\
    covers rd P [m_root (o_meta o)] reach /\
    Permutation (reach ++ o_flrun o ++ o_free o) (seqN 2 (N.to_nat (m_np (o_meta o) - 2))) /\
    NoDup (reach ++ o_flrun o ++ o_free o).
Proof. exact inv_check_partition. Qed.
Print Assumptions C05_inv_check_means_partition.

(* the engine model: every state a history of transactions reaches from the empty database satisfies the strict tree
   invariant (sorted keys inside their separators' intervals, separator = first key of its page, no page named twice in a
   bucket), the allocation invariant (free and pending ids inside [2, num_pages), disjoint from every reachable page run --
   overflow pages included -- and from the free-list run), and no two reachable nodes or the free-list run share a page.
   `txs_ok'` carries only the model's fuels. This is C05's "each page exactly one of reachable / free list / free" for the
   model, minus completeness (no leak), which is checked per file by inv_check. *)
From Jamm Require Bytes Spec Engine EngineAbs EnginePathFacts EngineTxInvFacts EngineRefines EngineOwnDefs EngineAllocInv EngineCorollaries.
Theorem C05_engine_states_well_formed : forall P txs st', (0 < P)%N -> EngineAllocInv.txs_ok' (Engine.init_db P) txs ->
  EngineRefines.run_txs (Engine.init_db P) txs = Engine.Ok st' ->
  EngineTxInvFacts.db_strict st' /\ EngineRefines.alloc_ok st' (EngineOwnDefs.Rof st') /\
  NoDup (EngineRefines.live_of st' (EngineOwnDefs.Rof st')) /\ EngineOwnDefs.pend_le st'.
Proof. exact EngineCorollaries.reachable_states_ok. Qed.
Print Assumptions C05_engine_states_well_formed.

(* C05 for the engine model, in full: every state a history of transactions reaches from the empty database accounts for each
   page of [2, num_pages) EXACTLY once -- it is in the run of a reachable node or in the free-list run (pairwise disjoint, no page
   shared: C05_engine_states_well_formed), or it is a free id, or a pending id; nothing is leaked; and the ids recorded on the
   free-list page are exactly the pages that are not live. *)
From Jamm Require EngineNoLeakDefs EngineNoLeak.
Theorem C05_engine_exact_partition : forall (P : N) (txs : list (list Engine.op * list Bytes.bytes)) (st' : Engine.db),
  (0 < P)%N -> EngineAllocInv.txs_ok' (Engine.init_db P) txs ->
  EngineRefines.run_txs (Engine.init_db P) txs = Engine.Ok st' ->
  EngineNoLeakDefs.db_exact st' /\ EngineAbs.abs_db st' = EngineRefines.sem_txs txs (Spec.SBucket 0 0 nil).
Proof. exact EngineNoLeak.run_txs_exact_init. Qed.
Print Assumptions C05_engine_exact_partition.

Theorem C05_engine_exact_partition_step : forall (st : Engine.db) (ops : list Engine.op) (ord : list Bytes.bytes) (st' : Engine.db),
  EngineNoLeakDefs.db_exact st -> Forall (EnginePathFacts.op_ok (Engine.d_disk st)) ops ->
  Engine.run_tx st ops ord = Engine.Ok st' -> EngineRefines.readable st' -> EngineNoLeak.db_exact_rec st'.
Proof. exact EngineNoLeak.run_tx_exact_rec. Qed.
Print Assumptions C05_engine_exact_partition_step.

Theorem C05_engine_free_list_records_exactly_the_unused_pages : forall st : Engine.db, EngineNoLeak.db_exact_rec st ->
  forall x : N, In x (Engine.d_flids st) <->
    ((2 <= x)%N /\ (x < Engine.d_np st)%N) /\ ~ In x (EngineRefines.live_of st (EngineOwnDefs.Rof st)).
Proof. exact EngineNoLeak.flids_exact. Qed.
Print Assumptions C05_engine_free_list_records_exactly_the_unused_pages.

(* the per-file checker's tree verdict accepts every file image the engine model produces: Tree.bucket_wf (the tree half of
   inv_check: shape, separators, key order, equal depth, element bounds), run with exactly the fuels inv_check passes, on the
   encoded bytes of any reachable state *)
From Jamm Require Codec Tree EngineSpillDepth EngineReadBridge EngineReadFull.
Theorem C05_file_checker_accepts_engine_files : forall st pad rd P, EngineSpillDepth.db_okd st -> (0 < P)%N ->
  EngineReadBridge.BytesLevel.file_encodes pad rd P (Engine.d_disk st) (EngineOwnDefs.Rof st) ->
  Tree.bucket_wf (N.to_nat (Engine.d_np st)) rd P (Engine.d_np st) (Engine.d_root st) = Codec.Ok true.
Proof. exact EngineReadFull.FileChecker.state_bucket_wf. Qed.
Print Assumptions C05_file_checker_accepts_engine_files.

(* the loop closed: the COMPLETE file image of any state a history reaches (header page with checksum, free-list page run
   holding the recorded ids, every tree page encoded, any padding bytes, an older or invalid header in the other slot) passes the
   executable file checker inv_check -- the very function the checks run on every file the real library commits -- and the model
   of the library's own DB::check. Hypotheses besides the history's side conditions: `tree_fits` / `phys_ok` (each node fits its
   page run, the free-list page run is large enough for its ids, 64-bit field bounds: decidable, and what inv_check's element
   bounds verify per file) and `other_ok` on the other header slot. *)
From Jamm Require CheckM EngineFileImage.
Theorem C05_file_checker_accepts_every_engine_file : forall (P0 : N) (txs : list (list Engine.op * list Bytes.bytes)) (st' : Engine.db)
    (pad : N -> Byte.byte) (P : N) (other : Bytes.bytes),
  (0 < P0)%N -> EngineAllocInv.txs_ok' (Engine.init_db P0) txs ->
  EngineRefines.run_txs (Engine.init_db P0) txs = Engine.Ok st' ->
  EngineFileImage.tree_fits P st' -> EngineFileImage.phys_ok P st' -> EngineFileImage.other_ok P st' other ->
  Tree.inv_check (Codec.reader_of (EngineFileImage.file_image pad P st' other)) P = Codec.Ok tt /\
  CheckM.check_m (Codec.reader_of (EngineFileImage.file_image pad P st' other)) P = Codec.Ok tt.
Proof. exact EngineFileImage.history_inv_check. Qed.
Print Assumptions C05_file_checker_accepts_every_engine_file.

(* the same for the file UPDATED IN PLACE by a commit (the previous file with the written runs, the new free-list run and the new
   header spliced in -- what the library actually does), step by step: the updated file holds the new state and passes both
   checkers, and the conclusion re-establishes the premises for the next commit *)
From Jamm Require EngineCow EngineReopen EngineFallback EngineCarried.
Theorem C05_file_updated_in_place_stays_checked : forall (st : Engine.db) (ops : list Engine.op) (ord : list Bytes.bytes)
    (st' : Engine.db) (pad : N -> Byte.byte) (P : N) (F : list Byte.byte),
  EngineReopen.db_inv st -> Forall (EnginePathFacts.op_ok (Engine.d_disk st)) ops ->
  Engine.run_tx st ops ord = Engine.Ok st' -> EngineRefines.readable st' ->
  EngineFileImage.phys_ok P st -> EngineFileImage.phys_ok P st' -> EngineFileImage.tree_fits P st' ->
  List.length F = N.to_nat (Engine.d_np st * P) -> EngineFallback.holds pad P F st ->
  exists w : list (N * (N * Engine.ndata)),
    EngineCow.tx_cow st st' w /\ EngineFallback.carried st st' w /\ EngineReopen.db_inv st' /\
    (EngineFallback.writes_fit P st w ->
     let C := EngineFallback.commit_image pad P F st st' w in
     EngineFallback.holds pad P C st' /\ List.length C = N.to_nat (Engine.d_np st' * P) /\
     Tree.inv_check (Codec.reader_of C) P = Codec.Ok tt /\ CheckM.check_m (Codec.reader_of C) P = Codec.Ok tt).
Proof. exact EngineCarried.run_tx_commit_checked. Qed.
Print Assumptions C05_file_updated_in_place_stays_checked.
