(* C15 -- files written by earlier versions stay readable.
   The on-disk layout is pinned by theorems over the GENERATED struct field lists: page codec round trip for every
   page body and every content of the uninitialised bytes; header codec round trip; a recorded page size different
   from the one given to open is refused. The golden files (written once by the pinned release, plus their legacy-
   header variants) are decoded by the same Gallina functions on every run, and the legacy checksum is computed by
   the Gallina SHA3-256 (model/Keccak.v, validated on 16 digest test vectors by vm_compute). *)
From Coq Require Import List NArith String.
From Jamm Require Import Bytes Consts CLayout Meta Keccak OldMeta Codec MetaFacts CodecFacts CfgFacts OldMetaFacts.
Import ListNotations.
Local Open Scope N_scope.

Theorem C15_page_codec : forall pad P pid over b rd,
  0 < P -> pid < 2^64 -> over < 2^64 -> body_ok b -> body_size b < 2^64 ->
  body_size b <= (over + 1) * P ->
  reads_buffer rd (pid * P) (encode_page pad pid over b) ->
  decode_page rd P pid = Ok (mkPhdr pid (body_type b) (body_count b) over, b).
Proof. exact codec_page. Qed.
Print Assumptions C15_page_codec.

Theorem C15_header_codec : forall P m, meta_wf m -> meta_end <= P -> decode_meta (encode_meta_page P m) = Some m.
Proof. exact decode_encode_meta. Qed.
Print Assumptions C15_header_codec.

Theorem C15_header_valid : forall ct P m, meta_wf m -> meta_end <= P ->
  read_slot ct (encode_meta_page P (with_hash m)) = SlotValid (with_hash m).
Proof. exact read_slot_encode. Qed.

(* the layout itself: sizes and offsets computed from the generated field lists (a moved / added / dropped field
   changes these numbers and breaks the lemma) *)
Theorem C15_layout_pinned :
  sizeof "Page" = 40 /\ field_off "Page" "ptr" = 32 /\ sizeof "Meta" = 72 /\ sizeof "OldMeta" = 96 /\
  sizeof "LeafElement" = 32 /\ sizeof "BranchElement" = 24 /\ sizeof "BucketMeta" = 16 /\
  magic = 11259375 /\ version = 1 /\
  (type_branch, type_leaf, type_meta, type_freelist, type_data, type_bucket) = (1, 2, 3, 4, 0, 1).
Proof. vm_compute. repeat split; reflexivity. Qed.

Theorem C15_wrong_pagesize_refused : forall P' m s2, m_psz m <> P' ->
  exists why, select_slots P' (SlotValid m) s2 = SelPanic why.
Proof. exact wrong_pagesize_refused. Qed.
Print Assumptions C15_wrong_pagesize_refused.

(* the legacy (SHA3-256 checksummed) header, for every header and every page size *)
Theorem C15_legacy_header_codec : forall P m, meta_wf m -> old_meta_end <= P ->
  decode_old_meta (encode_old_meta_page P m) =
    Some (mkMeta (m_page m) (m_magic m) (m_version m) (m_psz m) (m_root m) (m_next m) (m_np m) (m_fl m) (m_tx m) 0, old_hash m).
Proof. exact decode_encode_old_meta. Qed.
Print Assumptions C15_legacy_header_codec.

Theorem C15_legacy_header_valid : forall ct P m, meta_wf m -> old_meta_end <= P ->
  read_slot_old ct (encode_old_meta_page P m) = SlotValid (with_hash m).
Proof. exact read_slot_old_encode. Qed.
Print Assumptions C15_legacy_header_valid.

(* a file both of whose headers are in the legacy format opens on the newer of the two, exactly as a current file
   with the same two headers would (premise: neither legacy page happens to carry a valid current-format checksum;
   legacy_page_invalid_iff says this is "first 8 digest bytes <> FNV checksum") *)
Theorem C15_legacy_file_opens : forall ct P m0 m1, meta_wf m0 -> meta_wf m1 -> old_meta_end <= P ->
  m_psz m0 = P -> m_psz m1 = P ->
  read_slot ct (encode_old_meta_page P m0) = SlotInvalid -> read_slot ct (encode_old_meta_page P m1) = SlotInvalid ->
  select_any ct P (encode_old_meta_page P m0) (encode_old_meta_page P m1) =
    SelMeta (with_hash (if m_tx m1 <? m_tx m0 then m0 else m1)).
Proof. exact legacy_file_opens_newest. Qed.
Print Assumptions C15_legacy_file_opens.

(* after the first commit by the current version one header is current, the other still legacy: opens on the current *)
Theorem C15_mixed_file_opens : forall ct P m0 m1, meta_wf m0 -> meta_end <= P -> m_psz m0 = P ->
  read_slot ct (encode_old_meta_page P m1) = SlotInvalid ->
  select_any ct P (encode_meta_page P (with_hash m0)) (encode_old_meta_page P m1) = SelMeta (with_hash m0) /\
  select_any ct P (encode_old_meta_page P m1) (encode_meta_page P (with_hash m0)) = SelMeta (with_hash m0).
Proof. exact mixed_file_current_wins. Qed.
Print Assumptions C15_mixed_file_opens.

Theorem C15_digest_length : forall msg, List.length (sha3_256 msg) = 32%nat.
Proof. exact sha3_256_length. Qed.
