(* C16 -- open options change performance, not behaviour.
   The reference (spec/Spec.v) has no configuration parameter at all: "the same history gives the same results
   under every configuration" is, on the model side, the statement that the library equals the reference under
   every configuration. For the engine MODEL this is proved (C16_page_size_irrelevant, C16_reads_page_size_irrelevant
   below: corollaries of the refinement theorem); that the library behaves as the model under every configuration
   is validated by replaying histories under the configuration grid (translation validation).
   Proved here: which configurations the builder accepts (from the GENERATED guards) and that exactly those keep
   every in-place page structure aligned; the pinned builder (no alignment guard) is refuted. *)
From Coq Require Import NArith Bool.
From Jamm Require Import Bytes Consts Meta CfgFacts.
Local Open Scope N_scope.

Theorem C16_builder_accepts : forall P n, builder_accepts P n = true <-> valid_cfg P n.
Proof. exact builder_accepts_iff. Qed.
Print Assumptions C16_builder_accepts.

Theorem C16_source_guards : min_pagesize = 1024 /\ pagesize_align = 8 /\ min_num_pages = 4.
Proof. exact source_guards. Qed.

Theorem C16_aligned : forall P n pid, valid_cfg P n ->
  (pid * P + off_pg_id) mod 8 = 0 /\ (pid * P + off_pg_count) mod 8 = 0 /\
  (pid * P + off_pg_overflow) mod 8 = 0 /\ (pid * P + payload_off) mod 8 = 0.
Proof. exact header_fields_aligned. Qed.
Print Assumptions C16_aligned.

Theorem C16_unaligned_refuted : exists P pid, 1024 <= P /\ P mod 8 <> 0 /\ (pid * P) mod 8 <> 0.
Proof. exact unaligned_pagesize_refuted. Qed.
Print Assumptions C16_unaligned_refuted.

(* strict mode: the library's own consistency check (DB::check, modelled by CheckM.check_m and compared with
   the library's verdict on every snapshot) accepts every file the model's file checker accepts -- so switching
   strict mode on can never turn a valid commit into an error. *)
From Jamm Require Import Codec Tree CheckM CheckFacts.
Theorem C16_strict_never_rejects_valid : forall rd P, inv_check rd P = Ok tt -> check_m rd P = Ok tt.
Proof. exact inv_check_implies_check_m. Qed.
Print Assumptions C16_strict_never_rejects_valid.

(* the page size, at the level of the engine model: two engines configured with different page sizes and fed the same
   transactions commit the same contents (both equal the reference's, by the refinement theorem of C01). `txs_ok'` carries
   only the side conditions that reflect the model's fuels (paths < 8, trees of height <= 64). *)
From Jamm Require Engine EngineAbs EngineRefines EngineAllocInv EngineCorollaries.
Theorem C16_page_size_irrelevant : forall P1 P2 txs st1 st2, 0 < P1 -> 0 < P2 ->
  EngineAllocInv.txs_ok' (Engine.init_db P1) txs -> EngineAllocInv.txs_ok' (Engine.init_db P2) txs ->
  EngineRefines.run_txs (Engine.init_db P1) txs = Engine.Ok st1 ->
  EngineRefines.run_txs (Engine.init_db P2) txs = Engine.Ok st2 ->
  EngineAbs.abs_db st1 = EngineAbs.abs_db st2.
Proof. exact EngineCorollaries.page_size_irrelevant. Qed.
Print Assumptions C16_page_size_irrelevant.

(* strict mode on the engine's files: the model of DB::check accepts the complete image of every state a history reaches
   (quoted in full as C05_file_checker_accepts_every_engine_file); here the freshly initialised file, at every page size *)
From Jamm Require Bytes Codec Tree Meta CheckM Engine EngineFileImage.
Theorem C16_strict_accepts_fresh_file : forall (pad : N -> Byte.byte) (P : N), Meta.meta_end <= P -> 4 * P < 2 ^ 64 ->
  let F := EngineFileImage.file_image pad P (Engine.init_db P) (Meta.encode_meta_page P (Meta.init_meta P 1)) in
  Tree.inv_check (Codec.reader_of F) P = Codec.Ok tt /\ CheckM.check_m (Codec.reader_of F) P = Codec.Ok tt.
Proof. exact EngineFileImage.init_file_checked. Qed.
Print Assumptions C16_strict_accepts_fresh_file.

(* what a write transaction READS does not depend on the page size either: after the same committed transactions,
   after any operations so far, at any bucket path, get / full scan / every range / seek of a present key answer the same
   under two page sizes (for an absent key the property lets seek land on either neighbour: that does depend on where the
   leaves are cut, and is compared against both alternatives) *)
From Coq Require Import List.
From Jamm Require Spec EnginePathFacts EngineReadBridge EngineScan EngineCfgReads.
Theorem C16_reads_page_size_irrelevant : forall P1 P2 txs st1 st2 ops path o x es, 0 < P1 -> 0 < P2 ->
  EngineAllocInv.txs_ok' (Engine.init_db P1) txs -> EngineAllocInv.txs_ok' (Engine.init_db P2) txs ->
  EngineRefines.run_txs (Engine.init_db P1) txs = Engine.Ok st1 ->
  EngineRefines.run_txs (Engine.init_db P2) txs = Engine.Ok st2 ->
  Forall (EnginePathFacts.op_ok (Engine.d_disk st1)) ops -> Forall (EnginePathFacts.op_ok (Engine.d_disk st2)) ops ->
  Spec.get_at path (EngineAbs.sem_tx ops (EngineAbs.abs_db st1)) = Some (Spec.SBucket o x es) ->
  EngineScan.tx_scan st1 ops path = EngineScan.tx_scan st2 ops path /\
  (forall k, EngineScan.tx_cget st1 ops path k = EngineScan.tx_cget st2 ops path k) /\
  (forall lo hi, EngineScan.tx_range st1 ops path lo hi = EngineScan.tx_range st2 ops path lo hi) /\
  (forall k, EngineReadBridge.ref_found (Spec.SBucket o x es) k = true ->
             EngineScan.tx_seek st1 ops path k = EngineScan.tx_seek st2 ops path k).
Proof. exact EngineCfgReads.reads_page_size_irrelevant. Qed.
Print Assumptions C16_reads_page_size_irrelevant.
