(* C12 -- damage to one header page falls back to the other. *)
From Coq Require Import List NArith String.
From Coq.Strings Require Import Byte.
From Jamm Require Import Bytes Fnv Consts CLayout Meta FnvFacts MetaFacts.
Import ListNotations.
Local Open Scope N_scope.

(* the checksum covers every stored field: stated over the GENERATED hash_fields / struct layout, so
   dropping a field from hash_self (or adding an unhashed field to Meta) breaks these two lemmas *)
Theorem C12_hash_covers_all_fields :
  forallb field_hashed ["meta_page";"magic";"version";"pagesize";"root.root_page";"root.next_int";"num_pages";"freelist_page";"tx_id"]%string = true.
Proof. exact hash_covers_all_fields. Qed.
Theorem C12_stored_fields :
  CLayout.field_names "Meta" = ["meta_page";"magic";"version";"pagesize";"root.root_page";"root.next_int";"num_pages";"freelist_page";"tx_id";"hash"]%string.
Proof. exact stored_fields_pinned. Qed.

(* FNV-1a: one changed byte anywhere in the input always changes the 64-bit checksum *)
Theorem C12_fnv_one_byte : forall (pre suf : bytes) (b1 b2 : byte), b1 <> b2 ->
  fnv (pre ++ b1 :: suf) <> fnv (pre ++ b2 :: suf).
Proof. exact fnv_one_byte. Qed.
Print Assumptions C12_fnv_one_byte.

(* every single-byte change at every offset of a header page: the slot becomes invalid exactly when the
   byte is significant (a hashed field, the checksum, the page-type byte), is unchanged otherwise; never a
   panic when open() checks the page type (ct = true: the repaired code; the GENERATED flag
   Consts.meta_checks_page_type says which one the source is) *)
Theorem C12_damage_one_byte : forall ct P m off b,
  meta_wf m -> meta_end <= P -> off < P ->
  let pg := encode_meta_page P (with_hash m) in
  nth_error pg (N.to_nat off) <> Some b ->
  read_slot ct (damage pg off b) =
    if significant ct off then SlotInvalid
    else if (off =? off_pg_type) then SlotPanic
    else SlotValid (with_hash m).
Proof. exact damage_one_byte. Qed.
Print Assumptions C12_damage_one_byte.

(* opening after the damage: the other header's state if the byte was significant, no change otherwise *)
Theorem C12_open_after_damage : forall P m0 m1 (slot : bool) off b,
  meta_wf m0 -> meta_wf m1 -> meta_end <= P -> off < P -> m_psz m0 = P -> m_psz m1 = P ->
  let pg0 := encode_meta_page P (with_hash m0) in let pg1 := encode_meta_page P (with_hash m1) in
  let d := fun pg => damage pg off b in
  nth_error (if slot then pg1 else pg0) (N.to_nat off) <> Some b ->
  select_slots P (read_slot true (if slot then pg0 else d pg0)) (read_slot true (if slot then d pg1 else pg1)) =
    if significant true off then SelMeta (with_hash (if slot then m0 else m1))
    else select_slots P (SlotValid (with_hash m0)) (SlotValid (with_hash m1)).
Proof. exact open_after_damage. Qed.
Print Assumptions C12_open_after_damage.

(* the source the constants were generated from checks the page type *)
Theorem C12_source_checks_page_type : meta_checks_page_type = true.
Proof. reflexivity. Qed.

(* End to end with copy-on-write (engine model + byte level): take the file of a reachable state, commit one more transaction
   (the file is UPDATED in place: written page runs, new free-list run, new header in the other slot), then destroy the new header
   (any content that does not validate; C12_* above: any single significant byte). Opening the result returns the PREVIOUS
   header with its free ids and free-list run; the executable file checker and the model of the library's own check accept the
   file; and every bucket of the previous commit reads back the reference contents -- nothing the lost transaction wrote
   touched a page the previous commit uses. (`writes_fit` / `phys_ok` / `tree_fits`: decidable physical limits.) *)
From Jamm Require Bytes Spec Codec Tree CheckM Engine EngineAbs EnginePathFacts EngineRefines EngineCow EngineReadBridge EngineFileImage EngineReopen EngineFallback.
Theorem C12_engine_fallback_reads_previous_commit : forall (st : Engine.db) (ops : list Engine.op) (ord : list Bytes.bytes)
    (st' : Engine.db) (pad : N -> Byte.byte) (P : N) (other : list Byte.byte),
  EngineReopen.db_inv st -> Forall (EnginePathFacts.op_ok (Engine.d_disk st)) ops ->
  Engine.run_tx st ops ord = Engine.Ok st' -> EngineRefines.readable st' ->
  EngineFileImage.tree_fits P st -> EngineFileImage.phys_ok P st -> EngineFileImage.phys_ok P st' ->
  List.length other = N.to_nat P ->
  exists w : list (N * (N * Engine.ndata)),
    EngineCow.tx_cow st st' w /\
    (EngineFallback.writes_fit P st w ->
     forall pg' : list Byte.byte, List.length pg' = N.to_nat P -> Meta.read_slot true pg' = Meta.SlotInvalid ->
     let rd := Codec.reader_of (EngineFallback.damaged_image pad P (EngineFileImage.file_image pad P st other) st st' w pg') in
     Tree.open_db rd P = Codec.Ok (EngineFallback.opened_of P st) /\
     Tree.inv_check rd P = Codec.Ok tt /\ CheckM.check_m rd P = Codec.Ok tt /\
     (forall path : list Bytes.bytes,
      match Spec.get_at path (EngineAbs.abs_db st) with
      | Some (Spec.SBucket o x es) =>
          exists (r : N) (t : Tree.tree),
            EngineReadBridge.BytesLevel.root_at_b rd P (Engine.d_root st) path = Some r /\
            Tree.build_tree Engine.fuel0 rd P r = Codec.Ok t /\
            EngineReadBridge.NH.wf_tree_nh t = true /\ EngineReadBridge.cursor_agrees t (Spec.SBucket o x es)
      | _ => EngineReadBridge.BytesLevel.root_at_b rd P (Engine.d_root st) path = None
      end)).
Proof. exact EngineFallback.run_tx_fallback. Qed.
Print Assumptions C12_engine_fallback_reads_previous_commit.
